(** C34 — Distributed locks are mutually exclusive and notice loss.

    Model: Model/Lock.v — one lock name, its 2m-1 keys on one server clock, any number of lock attempts, at
    round-trip granularity (a script round trip together with the caller's handling of the reply is one
    atomic step; so are the return of [try], the validity timer, cancel, Locker.Close, a clock advance with
    expiry, a deletion by somebody else).  The theorems quantify over all schedules ([list label]), all
    numbers of attempts and every majority m >= 1.  Not modelled: goroutine scheduling inside a step, real
    time (timers are steps that may fire at any moment), several lock names, several attempts of one locker
    sharing the gate channels (the gate model has one waiter).  Owner values ([random()]) are assumed distinct.

    The theorems are about the repaired order of [monitoring] ([c_early = true], fix "rueidislock cancels the lock
    context before releasing the key that costs the majority"); suspicion S5 of DESIGN.md is confirmed on the
    original order by [C34_done_before_release_unfixed_refuted] (and by the replay corpus/C34/S5-*.json on the
    real code). *)
From Coq Require Import List Arith NArith ZArith Bool Lia.
Require Import RV.Model.Base RV.Proofs.ListUpdProofs RV.Model.Lock RV.Proofs.LockProofs.
Import ListNotations.
Open Scope nat_scope.

(** Mutual exclusion.  In every schedule in which nobody forces, nobody else deletes keys, the locker is not
    closed, every extension of a running monitor reaches the server and is answered with a deadline in the
    future, and the server clock never passes the expiry of a key whose monitor still runs ("holders keep
    extending in time") — predicate [run_good] —, no two attempts hold a live lock context at the same time. *)
Theorem C34_mutex :
  forall (c : cfg) (now : Z) (ls : list label) (s : state),
    1 <= c_m c -> run c (init c now) ls = Some s -> run_good c (init c now) ls ->
    forall a b, a <> b -> live s a = true -> live s b = true -> False.
Proof. exact mutex. Qed.
Print Assumptions C34_mutex.

(** … because a live holder owns a majority of the name's keys (and two majorities of 2m-1 keys intersect). *)
Theorem C34_live_owns_majority :
  forall (c : cfg) (now : Z) (ls : list label) (s : state) (a : nat),
    run c (init c now) ls = Some s -> run_good c (init c now) ls -> live s a = true -> c_m c <= owns s a.
Proof.
  intros c now ls s a HR HG. apply live_owns_majority. exact (reach_inv c now ls s HR HG).
Qed.
Print Assumptions C34_live_owns_majority.

(** Done before release.
    Full statement (not provable, see the witness below): "in every reachable state of every schedule, a delete
    script of attempt a that takes a below its majority runs only when a's context is done".
    Proved, for EVERY schedule (failing round trips, forced takeovers, deletions, expiry, Close included): when a
    delete script of attempt a runs while a's context is not done, fewer than m of a's monitors have left their
    loops, the context stays live — and if all 2m-1 keys of a have been attempted, at least m monitors still run
    afterwards.  What is missing is exactly the window characterised by [a_next t < nkeys c]: [try] has returned
    with m keys and its background goroutine has not yet attempted the remaining ones
    ([C34_release_during_acquisition_witness]). *)
Theorem C34_done_before_release_partial :
  forall (c : cfg) (now : Z) (ls : list label) (s s' : state) (a i : nat) (executed : bool) (t t' : attempt),
    c_early c = true -> 1 <= c_m c ->
    run c (init c now) ls = Some s ->
    lstep c s (LDelkey a i executed) = Some s' ->
    nth_error (s_att s) a = Some t -> nth_error (s_att s') a = Some t' ->
    a_cancelled t = false ->
    a_exiting t' < c_m c /\ a_cancelled t' = false /\
    (a_next t = nkeys c -> c_m c <= count_mon MRun (a_mon t')).
Proof.
  intros c now ls s s' a i executed t t' He Hm HR HS Ha Ha' Hc.
  pose proof (reach_acc c now ls s Hm HR) as [_ HA].
  destruct (lstep_delkey_att c s a i executed s' t HS Ha) as (x & Hx & Hd & Ha2).
  rewrite Ha' in Ha2. injection Ha2 as ->. destruct Hd as [->|[_ Hd]]; [|congruence].
  apply att_acc_release; eauto.
Qed.
Print Assumptions C34_done_before_release_partial.

(** In the runs of the mutual-exclusion theorem the same fact in terms of keys: a release by a live holder
    leaves it live and owning a majority — a holder that releases below its majority was cancelled before. *)
Theorem C34_release_keeps_majority :
  forall (c : cfg) (now : Z) (ls : list label) (s s' : state) (a i : nat) (executed : bool),
    c_early c = true -> 1 <= c_m c ->
    run c (init c now) ls = Some s -> run_good c (init c now) ls ->
    lstep c s (LDelkey a i executed) = Some s' ->
    live s a = true -> live s' a = true /\ c_m c <= owns s' a.
Proof.
  intros c now ls s s' a i executed He Hm HR HG HS Hl.
  pose proof (live_after_release c s a i executed s' (reach_acc c now ls s Hm HR) He HS Hl) as Hl'.
  split; [exact Hl'|]. apply live_owns_majority; [|exact Hl'].
  exact (proj2 (step_invariants c s _ s' HS) I (reach_inv c now ls s HR HG)).
Qed.
Print Assumptions C34_release_keeps_majority.

(** S5, the original order (cancel only after the delete script): a holder of all three keys whose extensions
    of keys 0 and 1 fail releases key 1 while its context is live and is left with one key of three. *)
Definition s5_schedule : list label :=
  [LStart false; LAcquire 0 100%Z true true; LAcquire 0 100%Z true true; LReturn 0; LAcquire 0 100%Z true true;
   LExtend 0 0 200%Z false true; LExtend 0 1 200%Z false true; LDelkey 0 0 true].

Theorem C34_done_before_release_unfixed_refuted :
  let c := {| c_m := 2; c_early := false |} in
  exists s s', run c (init c 0%Z) s5_schedule = Some s /\ lstep c s (LDelkey 0 1 true) = Some s' /\
               live s 0 = true /\ owns s' 0 = 1 /\ live s' 0 = false.
Proof. cbv zeta. eexists; eexists. vm_compute. repeat split; reflexivity. Qed.
Print Assumptions C34_done_before_release_unfixed_refuted.

(** the same schedule on the repaired order: the context is done before that release *)
Example C34_s5_repaired :
  let c := {| c_m := 2; c_early := true |} in
  exists s, run c (init c 0%Z) s5_schedule = Some s /\ live s 0 = false /\ owns s 0 = 2.
Proof. cbv zeta. eexists. vm_compute. repeat split; reflexivity. Qed.

(** both kinds of exit count ([a_exiting] covers monitors that left with ErrNotLocked as well as those that go on to
    their delete script): key 0 is deleted by somebody else and its monitor learns it (extension answered 0), then
    the extension of key 1 fails — the context is done before the delete script of key 1 *)
Example C34_two_step_cancel_first :
  let c := {| c_m := 2; c_early := true |} in
  exists s s', run c (init c 0%Z)
                 [LStart false; LAcquire 0 100%Z true true; LAcquire 0 100%Z true true; LReturn 0; LAcquire 0 100%Z true true;
                  LEnvDel 0; LExtend 0 0 200%Z true true] = Some s /\ live s 0 = true /\
               lstep c s (LExtend 0 1 200%Z false true) = Some s' /\ live s' 0 = false /\ owns s' 0 = 2.
Proof. cbv zeta. eexists; eexists. vm_compute. repeat split; reflexivity. Qed.

(** the window that remains in the repaired order: [try] returned with keys 0 and 1, key 2 not yet attempted,
    the extension of key 0 fails and its monitor releases it: live with one key of three *)
Theorem C34_release_during_acquisition_witness :
  let c := {| c_m := 2; c_early := true |} in
  exists s s', run c (init c 0%Z)
                 [LStart false; LAcquire 0 100%Z true true; LAcquire 0 100%Z true true; LReturn 0;
                  LExtend 0 0 200%Z false true] = Some s /\
               lstep c s (LDelkey 0 0 true) = Some s' /\ live s' 0 = true /\ owns s' 0 = 1.
Proof. cbv zeta. eexists; eexists. vm_compute. repeat split; reflexivity. Qed.
Print Assumptions C34_release_during_acquisition_witness.

(** Loss => cancel (partial: timers are steps that may fire, their fairness is not modelled).
    In every reachable state of every schedule, for a holder whose keys have all been attempted and whose
    context is not done: (1) if it owns fewer than m keys, one of its monitors still runs on a key it has
    lost; (2) the next extension of such a monitor — its ExtendInterval timer or the invalidation of the key —
    makes it leave, whatever the outcome of the round trip; (3) when m monitors have left, the context is done.
    So at most m extension steps of the holder's own monitors separate a loss of the majority from the cancel. *)
Theorem C34_loss_cancels_lost_monitor_partial :
  forall (c : cfg) (now : Z) (ls : list label) (s : state) (a : nat) (t : attempt),
    c_early c = true -> 1 <= c_m c -> run c (init c now) ls = Some s ->
    nth_error (s_att s) a = Some t -> a_cancelled t = false -> a_next t = nkeys c -> owns s a < c_m c ->
    exists i k, nth_error (a_mon t) i = Some MRun /\ nth_error (s_keys s) i = Some k /\ is_owner a k = false.
Proof.
  intros c now ls s a t He Hm HR. apply lost_monitor_exists; [|exact He].
  exact (reach_acc c now ls s Hm HR).
Qed.
Print Assumptions C34_loss_cancels_lost_monitor_partial.

Theorem C34_loss_cancels_monitor_leaves_partial :
  forall (c : cfg) (s : state) (a : nat) (t : attempt) (i : nat) (k : option (nat * Z)) (exp : Z) (executed replied : bool),
    nth_error (s_att s) a = Some t -> nth_error (a_mon t) i = Some MRun ->
    nth_error (s_keys s) i = Some k -> is_owner a k = false ->
    exists s' t', lstep c s (LExtend a i exp executed replied) = Some s' /\
                  nth_error (s_att s') a = Some t' /\ a_exiting t' = S (a_exiting t) /\
                  (a_cancelled t = true -> a_cancelled t' = true) /\ a_next t' = a_next t.
Proof.
  intros c s a t i k exp executed replied Ha Hm Hk Ho.
  destruct (lstep_extend_lost c s a t i k exp executed replied Ha Hm Hk Ho) as (y & Hy & ->).
  eexists; eexists; split; [reflexivity|]. cbn [with_key_att s_att].
  rewrite nth_error_upd_same by (eapply nth_error_lt; eauto).
  split; [reflexivity|]. cbn [move a_exiting a_next]. rewrite Hy.
  split; [reflexivity|split; [apply move_cancelled|reflexivity]].
Qed.
Print Assumptions C34_loss_cancels_monitor_leaves_partial.

Theorem C34_loss_cancels_majority_left_partial :
  forall (c : cfg) (now : Z) (ls : list label) (s : state) (a : nat) (t : attempt),
    c_early c = true -> 1 <= c_m c -> run c (init c now) ls = Some s ->
    nth_error (s_att s) a = Some t -> c_m c <= a_exiting t -> a_cancelled t = true.
Proof.
  intros c now ls s a t He Hm HR Ha Hx. pose proof (reach_acc c now ls s Hm HR) as [_ HA].
  exact (proj1 (ac_cancel _ _ (HA a t Ha)) He Hx).
Qed.
Print Assumptions C34_loss_cancels_majority_left_partial.

(** Waiter wake-up (partial: one WithContext waiter per locker; several waiters share the gate channel and hand
    the token on at release, which is observed by the tie only).  In every reachable state of the gate: if the
    waiter is blocked after failing on key i and key i has been written since, then once the invalidations on
    their way are delivered the gate holds a token and the waiter's wake-up is enabled: no wake-up is lost. *)
Theorem C34_waiter_wakeup_partial :
  forall (n : nat) (ls : list glabel) (g : gate) (i : nat),
    grun (ginit n) ls = Some g -> g_wait g = WBlocked i -> nth_error (g_tracked g) i = Some false ->
    exists g', grun g (delivers (length (g_inflight g))) = Some g' /\ g_wait g' = WBlocked i /\ g_token g' = true /\
               exists g'', gstep g' GWake = Some g'' /\ g_wait g'' = WTrying.
Proof.
  intros n ls g i HR. apply gate_inv_wakeup. exact (gate_inv_run ls _ _ (gate_inv_init n) HR).
Qed.
Print Assumptions C34_waiter_wakeup_partial.

(** a run that satisfies [run_good]: attempt 0 takes the lock (majority 2 of 3), extends, the clock advances
    within the deadlines, attempt 1 fails on key 0, attempt 0 unlocks and releases, attempt 2 gets the lock *)
Definition good_schedule : list label :=
  [LStart false; LAcquire 0 100%Z true true; LAcquire 0 100%Z true true; LReturn 0; LAcquire 0 100%Z true true;
   LTick 40%Z; LExtend 0 0 140%Z true true; LExtend 0 1 140%Z true true; LExtend 0 2 140%Z true true;
   LStart false; LAcquire 1 150%Z true true; LReturn 1; LReturn 1;
   LCancel 0; LDelkey 0 0 true; LDelkey 0 1 true; LDelkey 0 2 true;
   LStart false; LAcquire 2 160%Z true true; LAcquire 2 160%Z true true; LReturn 2].

Example C34_nonvacuous_run :
  let c := {| c_m := 2; c_early := true |} in
  exists s, run c (init c 0%Z) good_schedule = Some s /\
            live s 0 = false /\ live s 1 = false /\ live s 2 = true /\ owns s 2 = 2.
Proof. cbv zeta. eexists. vm_compute. repeat split; reflexivity. Qed.

Example C34_nonvacuous_good : run_good {| c_m := 2; c_early := true |} (init {| c_m := 2; c_early := true |} 0%Z) good_schedule.
Proof.
  unfold good_schedule.
  repeat (eapply run_good_step;
          [vm_compute; reflexivity
          |cbn [good]; first [exact I | reflexivity | (repeat split; reflexivity) | idtac]
          |]); try exact I.
  (* the tick: the three keys of attempt 0 expire at 100, the clock goes from 0 to 40 *)
  intros i a e t Hk Ha Hm. destruct i as [|[|[|i]]]; cbn in Hk; try (destruct i; discriminate); injection Hk as <- <-; reflexivity.
Qed.

(** a gate run: the waiter fails on key 0, blocks, the holder releases key 0, the invalidation is delivered,
    the waiter wakes *)
Example C34_nonvacuous_gate :
  exists g, grun (ginit 3) [GFail 0; GBlock; GWrite 0] = Some g /\ g_wait g = WBlocked 0 /\
            nth_error (g_tracked g) 0 = Some false /\ g_inflight g = [0] /\ g_token g = false.
Proof. eexists. vm_compute. repeat split; reflexivity. Qed.
