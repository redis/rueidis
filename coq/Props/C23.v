(** C23 — Sentinel clients follow the current master.

    Object: Model/Sentinel.v (sentinel.go _refresh, listWatch, pickReplica, _switchTarget, event
    handler).  A history is any list of refreshes and pub/sub events, each under its own world (what
    every sentinel and every data node would answer at that moment); [ss_m] / [ss_r] are the addresses
    user traffic goes to (mConn / rConn, chosen by the routing functions of C21); the ghost fields
    record what ROLE said and who announced an address when it was adopted. *)
From Coq Require Import List Arith NArith ZArith Bool Lia.
Require Import RV.Model.Base RV.Model.ClusterTopo RV.Model.Sentinel RV.Proofs.BytesProofs RV.Proofs.ClusterTopoProofs RV.Proofs.SentinelProofs.
Import ListNotations.
Open Scope Z_scope.

(** over all histories: the address primary traffic goes to answered ROLE with "master" when it was
    adopted and was announced by a sentinel answer or an event; the replica address answered "slave" *)
Theorem C23_adopted_role : forall n fuel c sentinels ops st,
  srun n fuel c (sinit sentinels) ops = Ok st ->
  (ss_m st = None \/ (ss_m_role st = s_master_b /\ ss_m_src st <> SrcNone)) /\
  (ss_r st = None \/ (ss_r_role st = s_slave_b /\ ss_r_src st <> SrcNone)).
Proof. intros n fuel c sentinels ops st H. exact (srun_inv n fuel c ops _ _ (inv_init sentinels) H). Qed.
Print Assumptions C23_adopted_role.

(** the ghost fields mean what they say: a switch succeeds only on a reachable node whose ROLE reply
    starts with the required role, and changes nothing else *)
Theorem C23_switch_evidence : forall w st a is_master src st',
  switch_target w st a is_master src = Ok st' ->
  w_nup w a = true /\
  exists rest, w_role w a = RoleArr ((if is_master then s_master_b else s_slave_b) :: rest) /\
  (if is_master
   then ss_m st' = Some a /\ ss_m_role st' = s_master_b /\ ss_m_src st' = src /\
        ss_r st' = ss_r st /\ ss_r_role st' = ss_r_role st /\ ss_r_src st' = ss_r_src st
   else ss_r st' = Some a /\ ss_r_role st' = s_slave_b /\ ss_r_src st' = src /\
        ss_m st' = ss_m st /\ ss_m_role st' = ss_m_role st /\ ss_m_src st' = ss_m_src st) /\
  ss_list st' = ss_list st /\ ss_saddr st' = ss_saddr st.
Proof. exact switch_target_ok. Qed.
Print Assumptions C23_switch_evidence.

(** a node that answers with the wrong role is never routed to *)
Theorem C23_wrong_role_rejected : forall w st a src first rest,
  w_role w a = RoleArr (first :: rest) -> first <> s_master_b ->
  forall st', switch_target w st a true src <> Ok st'.
Proof.
  intros w st a src first rest Hr Hn st'. rewrite (switch_target_wrong_role w st a src first rest Hr Hn).
  destruct (w_nup w a); discriminate.
Qed.
Print Assumptions C23_wrong_role_rejected.

(** Reused vs fresh targets ([target_of]).
    A switch to the address already in use probes the INSTALLED connection.  When that probe fails (ROLE
    error, wrong role) the installed connection is closed: it stays in mConn / rConn, but no user command
    reaches the node through it ([live_m] / [live_r] = None) until a later switch succeeds.  On the fresh path
    a failed switch changes nothing. *)
Theorem C23_wrong_role_rejected_reuse : forall w st a src first rest,
  ss_m st = Some a -> ss_m_open st = true -> w_nup w a = true ->
  w_role w a = RoleArr (first :: rest) -> first <> s_master_b ->
  target_of w st a true = TReused /\
  switch_target w st a true src = Err 3 /\
  live_m (switch_fail w st a true) = None /\
  live_r (switch_fail w st a true) = live_r st /\ ss_m (switch_fail w st a true) = ss_m st.
Proof.
  intros w st a src first rest Hm Ho Hu Hr Hn.
  pose proof (target_of_current w st a true Hm Ho Hu) as T.
  destruct (switch_fail_reused w st a true T) as [X [Y [Z _]]].
  split; [exact T|]. split; [|exact (conj X (conj Y Z))].
  now rewrite (switch_target_wrong_role w st a src first rest Hr Hn), Hu.
Qed.
Print Assumptions C23_wrong_role_rejected_reuse.

(** every failure of a switch to the address in use (ROLE error included), master and replica side *)
Theorem C23_failed_reuse_closes : forall w st a (is_master : bool) src e,
  (if is_master return Prop then ss_m st = Some a else ss_r st = Some a) -> w_nup w a = true ->
  switch_target w st a is_master src = Err e ->
  (if is_master return Prop then live_m (switch_fail w st a true) = None else live_r (switch_fail w st a false) = None).
Proof.
  intros w st a is_master src e H Hu _. destruct is_master; [exact (switch_fail_current w st a true H Hu)|exact (switch_fail_current w st a false H Hu)].
Qed.
Print Assumptions C23_failed_reuse_closes.

Theorem C23_failed_fresh_changes_nothing : forall w st a is_master,
  target_of w st a is_master = TFresh -> switch_fail w st a is_master = st.
Proof. exact switch_fail_fresh. Qed.
Print Assumptions C23_failed_fresh_changes_nothing.

(** +switch-master and +reboot master naming the address master traffic currently uses, whose node now answers
    ROLE with another role (demoted in place while the sentinel still reports it), followed by any number of
    refresh retries under that world: master traffic reaches that node no more, and wherever it can arrive is
    reachable and answered "master" *)
Theorem C23_same_address_demoted : forall n fuel c w st old_h old_p h p tail first rest st',
  ss_m st = Some (h, p) -> w_nup w (h, p) = true -> w_role w (h, p) = RoleArr (first :: rest) -> first <> s_master_b ->
  (handle_event n fuel c w st (EvSwitchMaster (sc_set c :: old_h :: old_p :: h :: p :: tail)) = Ok st' \/
   handle_event n fuel c w st (EvReboot (s_master_b :: sc_set c :: h :: p :: tail)) = Ok st') ->
  live_m st' <> Some (h, p) /\
  (live_m st' = None \/ exists a r, live_m st' = Some a /\ w_nup w a = true /\ w_role w a = RoleArr (s_master_b :: r)).
Proof.
  intros n fuel c w st old_h old_p h p tail first rest st' Hm Hu Hr Hn H.
  assert (E : bytes_eqb (sc_set c) (sc_set c) = true) by now apply bytes_eqb_eq.
  assert (E0 : bytes_eqb s_master_b s_master_b = true) by reflexivity.
  destruct H as [H|H]; cbn [handle_event part idx nth_error bind] in H; rewrite ?E0, E in H;
    exact (demoted_in_place n fuel c w st (h, p) first rest st' Hm Hu Hr Hn H).
Qed.
Print Assumptions C23_same_address_demoted.

(** the refresh after a dropped subscription: the switch to the address the sentinel names fails and that address
    is the one in use — the rotation goes on with the installed connection closed *)
Theorem C23_refresh_failed_reuse_closes : forall c w st s a r e,
  sc_replica_only c = false -> (sc_has_str c = true -> r <> None) -> ss_m st = Some a -> w_nup w a = true ->
  switch_target w st a true (SrcSentinel s) = Err e ->
  live_m (switch_all_partial c w st s (Some a) r) = None.
Proof.
  intros c w st s a r e Hr Hs Hm Hu S. unfold switch_all_partial. rewrite Hr.
  assert (X : live_m (switch_or_fail w st a true (SrcSentinel s)) = None)
    by (unfold switch_or_fail; rewrite S; exact (switch_fail_current w st a true Hm Hu)).
  destruct (sc_has_str c); [|exact X]. destruct r as [ra|]; [|now destruct Hs].
  exact (eq_trans (switch_or_fail_other_side w _ ra false _) X).
Qed.
Print Assumptions C23_refresh_failed_reuse_closes.

(** "user traffic only reaches nodes whose latest probe answered the right role", as an invariant of every
    refresh and every event under one world *)
Theorem C23_live_probed : forall n fuel c w st,
  (forall st' o, refresh fuel c w st = Ok (st', o) ->
     (live_m_ok w st -> live_m_ok w st') /\ (live_r_ok w st -> live_r_ok w st')) /\
  (forall ev st', handle_event n fuel c w st ev = Ok st' ->
     (live_m_ok w st -> live_m_ok w st') /\ (live_r_ok w st -> live_r_ok w st')).
Proof.
  intros n fuel c w st. split.
  - intros st' o H. split; intro I; [exact (refresh_live true w fuel c st st' o I H)|exact (refresh_live false w fuel c st st' o I H)].
  - intros ev st' H. split; intro I;
      [exact (handle_event_live true w n fuel c st ev st' I H)|exact (handle_event_live false w n fuel c st ev st' I H)].
Qed.
Print Assumptions C23_live_probed.

(** after a successful refresh the master is the address the answering sentinel reported, and that
    node answered "master" *)
Theorem C23_refresh_master : forall fuel c w st st',
  sc_replica_only c = false -> refresh fuel c w st = Ok (st', ROk) ->
  exists s h p rest1 rest2, w_sup w s = true /\ w_master w s = MList (h :: p :: rest1) /\ ss_m st' = Some (h, p) /\
    w_nup w (h, p) = true /\ w_role w (h, p) = RoleArr (s_master_b :: rest2) /\ ss_m_src st' = SrcSentinel s.
Proof.
  intros fuel c w st st' Hr H. unfold refresh in H. destruct (ss_list st) as [|hd l]; [discriminate|].
  eapply refresh_loop_master; eauto.
Qed.
Print Assumptions C23_refresh_master.

(** +switch-master for the client's master set whose target is up and answers "master": primary
    traffic goes to the target from then on *)
Theorem C23_switch : forall n fuel c w st set old_h old_p h p tail rest,
  set = sc_set c -> w_nup w (h, p) = true -> w_role w (h, p) = RoleArr (s_master_b :: rest) ->
  exists st', handle_event n fuel c w st (EvSwitchMaster (set :: old_h :: old_p :: h :: p :: tail)) = Ok st' /\
              ss_m st' = Some (h, p) /\ ss_m_src st' = SrcEvent /\ ss_r st' = ss_r st /\ ss_list st' = ss_list st.
Proof.
  intros n fuel c w st set old_h old_p h p tail rest -> Hu Hr. cbn [handle_event part idx nth_error bind].
  assert (bytes_eqb (sc_set c) (sc_set c) = true) as -> by (now apply bytes_eqb_eq).
  unfold switch_target. rewrite Hu, Hr. cbn [negb].
  assert (bytes_eqb s_master_b s_master_b = true) as -> by reflexivity.
  eexists. split; [reflexivity|]. cbn. auto.
Qed.
Print Assumptions C23_switch.

Theorem C23_other_set_ignored : forall n fuel c w st parts m0,
  nth_error parts 0 = Some m0 -> m0 <> sc_set c -> handle_event n fuel c w st (EvSwitchMaster parts) = Ok st.
Proof.
  intros n fuel c w st parts m0 H N. destruct parts as [|x r]; [discriminate|]. cbn in H. inversion H; subst x.
  unfold handle_event, part, idx. cbn [nth_error bind].
  destruct (bytes_eqb m0 (sc_set c)) eqn:E; [apply bytes_eqb_eq in E; contradiction|reflexivity].
Qed.
Print Assumptions C23_other_set_ignored.

(** S2 — the unguarded indexing, exactly: an empty ROLE array, a master address with fewer than two
    strings, a +switch-master message for our set with fewer than five fields *)
Theorem C23_panic_sites :
  (forall w st a is_master src, switch_target w st a is_master src = Panic <-> w_nup w a = true /\ w_role w a = RoleArr []) /\
  (forall c w s others items, sc_replica_only c = false -> sc_has_str c = false -> w_sentinels w s = SnList others ->
      w_master w s = MList items -> (length items < 2)%nat -> list_watch c w s = Panic) /\
  (forall n fuel c w st parts, nth_error parts 0 = Some (sc_set c) -> (length parts < 5)%nat ->
      handle_event n fuel c w st (EvSwitchMaster parts) = Panic).
Proof.
  split; [|split].
  - intros w st a is_master src. unfold switch_target. destruct (w_nup w a); cbn [negb].
    + destruct (w_role w a) as [|[|first rest]].
      * split; [discriminate|intros [_ H]; discriminate].
      * split; auto.
      * split; [destruct is_master; [destruct (bytes_eqb first s_master_b)|destruct (bytes_eqb first s_slave_b)]; discriminate|intros [_ H]; discriminate].
    + split; [discriminate|intros [H _]; discriminate].
  - intros c w s others items H1 H2 H3 H4 H5. unfold list_watch. rewrite H3, H1, H2, H4.
    destruct items as [|h [|p r]]; cbn in H5; try reflexivity; lia.
  - intros n fuel c w st parts H L. destruct parts as [|x r]; [discriminate|]. cbn in H. inversion H; subst x.
    unfold handle_event, part, idx. cbn [nth_error bind].
    assert (bytes_eqb (sc_set c) (sc_set c) = true) as -> by (now apply bytes_eqb_eq).
    destruct r as [|a [|b [|d [|e r']]]]; cbn [nth_error bind]; try reflexivity. cbn in L. lia.
Qed.
Print Assumptions C23_panic_sites.

(** non-vacuity: a stale sentinel first, then one that knows the new master *)
Definition ex_s (n : N) : saddr := ([115%N], [n]).
Definition ex_n (n : N) : saddr := ([110%N], [n]).
Definition ex_world : world :=
  mkWorld (fun _ => true) (fun _ => SnList [])
          (fun s => if saddr_eqb s (ex_s 1) then MList [[110%N]; [1%N]] else MList [[110%N]; [2%N]])
          (fun _ => RpErr) (fun _ => true)
          (fun a => if saddr_eqb a (ex_n 2) then RoleArr [s_master_b] else RoleArr [s_slave_b]) 0.

(** the reuse path is reachable: the demoted master is named again by its own address *)
Example C23_reuse_nonvacuous :
  match refresh 8 (mkScfg false false [109%N]) ex_world (sinit [ex_s 2]) with
  | Ok (st, ROk) =>
    let w' := mkWorld (fun _ => true) (fun _ => SnList []) (fun _ => MList [[110%N]; [2%N]]) (fun _ => RpErr) (fun _ => true)
                      (fun _ => RoleArr [s_slave_b]) 0 in
    live_m st = Some (ex_n 2) /\ target_of w' st (ex_n 2) true = TReused /\
    match handle_event 2 8 (mkScfg false false [109%N]) w' st (EvSwitchMaster [[109%N]; [110%N]; [2%N]; [110%N]; [2%N]]) with
    | Ok st' => live_m st' = None /\ ss_m st' = Some (ex_n 2)
    | _ => False
    end
  | _ => False
  end.
Proof. vm_compute. repeat split; reflexivity. Qed.

Example C23_nonvacuous :
  match refresh 8 (mkScfg false false [109%N]) ex_world (sinit [ex_s 1; ex_s 2]) with
  | Ok (st, ROk) => ss_m st = Some (ex_n 2) /\ ss_list st = [ex_s 2; ex_s 1] /\ ss_m_src st = SrcSentinel (ex_s 2)
  | _ => False
  end.
Proof. vm_compute. repeat split; reflexivity. Qed.
