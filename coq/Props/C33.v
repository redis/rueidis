(** C33 — Built commands carry exactly the caller's arguments.

    "The argv of every built command is its command tokens followed by the caller's arguments in call
    order, with integers in base 10, floats in shortest round-trip form and durations or times in the
    unit the option names.  The client never modifies or recycles a command before it has been
    completely written to the server, even when the caller abandons the call."

    [builders] is the graph of every builder type / method of internal/cmds/gen_*.go (+ iter.go),
    regenerated on every run (Gen/Builders.v); the finite obligations [gen_graph_wf], [gen_graph_fmt_ok]
    are re-proved on it by the kernel.  Paths, argument values and their number are unbounded.
    Go's shortest-round-trip float printer is not modelled: [fe] (strconv.FormatFloat(x,'f',-1,64) as a
    function from bit patterns to text) is universally quantified; the observer checks on real output
    that the text parses back to the argument.

    The ownership half is in the second part of the file (model Model/CmdOwnership.v). *)
From Coq Require Import List Arith NArith ZArith Bool.
Require Import RV.Model.Base RV.Model.Slot RV.Model.Format RV.Model.BuilderGraph RV.Model.BuilderSem RV.Model.BuilderChecks.
Require Import RV.Gen.Crc16Tab RV.Gen.Builders.
Require Import RV.Proofs.FormatProofs RV.Proofs.BuilderProofs RV.Proofs.BuilderGenProofs.
Require Import RV.Model.BuilderGen. (* not used below: required so that building this file also rebuilds the observer's checker *)
Require Import RV.Model.CmdOwnership RV.Proofs.CmdOwnershipProofs.
Import ListNotations.
Open Scope N_scope.

(** For every root constructor, every sequence of builder calls with any argument values, and either
    terminal: the built argv is the command tokens followed by what each call appends, in call order;
    its argument-derived elements are exactly the caller's arguments call by call and parameter by
    parameter, each rendered once; all its other elements are the literal tokens of the command and of
    the chosen options (independent of the argument values). *)
Theorem C33_argv : forall fe init rn r ss t c,
  find_root rn roots = Some r ->
  build_path builders crc16tab fe init rn ss t = Ok c ->
  exists st tr,
    run_path builders crc16tab fe init rn ss = Ok st /\
    resolve builders (r_node r) ss = Some tr /\
    c_argv c = map snd (b_cs st) /\
    c_argv c = map unpack (r_toks r) ++ flat_map (fun call => map snd (call_out fe call)) tr /\
    args_of (b_cs st) = flat_map (fun call => opt_list (call_args_text fe (fst call) (snd call))) tr /\
    toks_of (b_cs st) = map unpack (r_toks r ++ flat_map (fun call => tok_items (e_items (fst call))) tr) /\
    (length (args_of (b_cs st)) + length (toks_of (b_cs st)) = length (c_argv c))%nat.
Proof.
  intros fe init rn r ss t c Hr Hb. unfold build_path in Hb.
  destruct (run_path builders crc16tab fe init rn ss) as [st| |] eqn:Erun; try discriminate.
  unfold finish in Hb. destruct (get_node builders (b_node st)) as [nd|]; [|discriminate].
  destruct (offers nd t); [|discriminate]. inversion Hb; subst c. cbn [c_argv].
  destruct (argv_structure builders crc16tab fe init rn ss st r gen_graph_wf Hr Erun) as (tr & A & B & C & D).
  exists st, tr. repeat split; try assumption.
  rewrite map_length. apply argv_split_length.
Qed.
Print Assumptions C33_argv.

(** every argument item of every method of the generated builders uses the canonical format of its
    parameter type: string as is, FormatInt/FormatUint base 10, FormatFloat 'f' -1 64, a time.Duration
    right after the token EX (resp. PX) divided by time.Second (resp. time.Millisecond), a time.Time right
    after EXAT (resp. PXAT) as Unix() (resp. UnixMilli()), base 10 *)
Theorem C33_formats : forall nd e,
  In nd (g_nodes builders) -> In e (n_edges nd) -> items_fmt_ok (e_params e) None (e_items e) = true.
Proof.
  intros nd e Hn He. exact (graph_fmt_ok_edge builders e gen_graph_fmt_ok (ex_intro _ nd (conj Hn He))).
Qed.
Print Assumptions C33_formats.

(** what the check means, type by type ([prev] is the item appended just before) *)
Theorem C33_format_int : forall prev f, fmt_ok prev PInt f = true -> f = FI 10.
Proof.
  intros prev f H. destruct f as [|b| | | | | |]; try discriminate.
  apply base10_inv in H. now destruct H as [-> _].
Qed.
Print Assumptions C33_format_int.

Theorem C33_format_duration : forall prev f, fmt_ok prev PDur f = true ->
  (prev = Some (IT EX) /\ f = FD 10 1000000000) \/ (prev = Some (IT PX) /\ f = FD 10 1000000).
Proof.
  intros prev f H. destruct f as [| | | | |b u| |]; try discriminate.
  apply base10_inv in H. destruct H as [-> H]. destruct prev as [[t| | |]|]; try discriminate.
  apply orb_prop in H. destruct H as [H|H]; apply andb_prop in H; destruct H as [Ht Hu];
    apply N.eqb_eq in Ht; apply N.eqb_eq in Hu; subst; [left|right]; split; reflexivity.
Qed.
Print Assumptions C33_format_duration.

Theorem C33_format_time : forall prev f, fmt_ok prev PTime f = true ->
  (prev = Some (IT EXAT) /\ f = FTs 10) \/ (prev = Some (IT PXAT) /\ f = FTms 10).
Proof.
  intros prev f H. destruct f as [| | | | | |b|b]; try discriminate;
    apply base10_inv in H; destruct H as [-> H]; (destruct prev as [[t| | |]|]; try discriminate);
    apply N.eqb_eq in H; subst; [left|right]; split; reflexivity.
Qed.
Print Assumptions C33_format_time.

(** base 10: the text of an integer argument is the canonical decimal numeral that denotes it *)
Theorem C33_int_base10 : forall fe z, fmt_sval fe (FI 10) (VI z) = Some (fmt_int z) /\ int_value (fmt_int z) = Some z.
Proof. intros fe z. split; [reflexivity|apply fmt_int_value]. Qed.
Print Assumptions C33_int_base10.

Theorem C33_uint_base10 : forall fe n,
  fmt_sval fe (FU 10) (VU n) = Some (fmt_uint n) /\ dec_value (fmt_uint n) = Some n /\ dec_canonical (fmt_uint n) = true.
Proof. intros fe n. split; [reflexivity|apply fmt_uint_value]. Qed.
Print Assumptions C33_uint_base10.

(** units: EX d appends whole seconds, PX d whole milliseconds (truncated toward zero, as Go's integer division);
    EXAT t appends Unix seconds, PXAT t Unix milliseconds *)
Theorem C33_units : forall fe ns sec nsec,
  fmt_sval fe (FD 10 1000000000) (VD ns) = Some (fmt_int (Z.quot ns 1000000000)) /\
  fmt_sval fe (FD 10 1000000) (VD ns) = Some (fmt_int (Z.quot ns 1000000)) /\
  fmt_sval fe (FTs 10) (VT sec nsec) = Some (fmt_int sec) /\
  fmt_sval fe (FTms 10) (VT sec nsec) = Some (fmt_int (sec * 1000 + Z.of_N (nsec / 1000000))).
Proof. intros. repeat split. Qed.
Print Assumptions C33_units.

(** Arbitrary: tokens, then the caller's keys and arguments in call order *)
Theorem C33_arbitrary_argv : forall tg init toks ss t c,
  arb_path tg crc16tab init toks ss t = Ok c ->
  c_argv c = toks ++ flat_map (fun s => match s with AKeys l | AArgs l => l end) ss.
Proof.
  intros tg init toks ss t c H. unfold arb_path in H.
  destruct (arb_steps crc16tab (toks, init) ss) as [[cs ks]| |] eqn:E; try discriminate.
  apply arb_steps_argv in E. cbn [fst] in E. subst cs.
  destruct t; cbn [arb_finish] in H; try (now apply arb_build_argv in H).
  destruct (toks ++ _) as [|[|x c0] r] eqn:Ec; try discriminate.
  destruct (_ || _); [|discriminate]. now apply arb_build_argv in H.
Qed.
Print Assumptions C33_arbitrary_argv.

(** non-vacuity: SET k v EX 1.5s through the generated graph; ZADD with an iterator; GETEX PXAT *)
Example C33_nonvacuous :
  let fe := FEnv (fun _ => None) (fun _ => None) in
  option_map c_argv (match build_path builders crc16tab fe 32768 0x01536574
      [Call 0x014b6579 [AS [107]]; Call 0x0156616c7565 [AS [118]]; Call 0x014578 [AD 1500000000%Z]] TBuild
      with Ok c => Some c | _ => None end)
  = Some [[83; 69; 84]; [107]; [118]; [69; 88]; [49]].
Proof. vm_compute. reflexivity. Qed.

(** Ownership / recycling (model: Model/CmdOwnership.v — the life of one command inside Do / DoMulti /
    DoCache of the single, cluster and sentinel clients, with the PutCompleted decision transcribed). *)

(** PARTIAL with respect to the property text ("never modifies or recycles a command before it has been
    completely written to the server"): the theorems below are complete for the model, i.e. for the clients'
    retry / redirect loops and their PutCompleted decision, over all attempt sequences and cancellation points.
    What the model takes from the pipeline (not proved here; it belongs to the pipe/ring family and is tied there
    by wire observation): (a) a reply for a command implies the command was written completely; (b) a transport
    error is handed to a caller only after that pipe's writer goroutine has stopped; (c) the pipe itself never
    modifies a queued command.  obs_recycle checks the decision and, on the wire, that an abandoned command still
    reaches the server intact. *)

(** A command's slice is returned to the pool only after the attempt that used it has ended with a
    reply and no transport error (so the writer is done with it), or when it was never queued;
    a pinned command is never recycled.  For every client kind, every sequence of attempts
    (retries, redirects) and every point of cancellation. *)
Theorem C33_no_early_recycle : forall k pinned evs tr,
  run_life k pinned evs = Some tr -> no_early_recycle tr = true.
Proof.
  intros k pinned evs tr H. destruct (life_shape _ _ _ _ H) as (os & Hf & ->). unfold no_early_recycle.
  cbv zeta. rewrite no_early_attempts, Hf.
  destruct (recycles k _) eqn:E; [|reflexivity]. destruct pinned; [reflexivity|].
  cbn [negb andb orb no_early_recycle_aux]. now destruct (recycles_not_in_flight _ _ E) as [-> ->].
Qed.
Print Assumptions C33_no_early_recycle.

Theorem C33_pinned_never_recycled : forall k evs tr,
  run_life k true evs = Some tr -> recycled tr = false.
Proof. intros k evs tr H. rewrite (recycled_iff k true evs tr H). apply andb_false_r. Qed.
Print Assumptions C33_pinned_never_recycled.

Theorem C33_recycled_at_most_once : forall k pinned evs tr,
  run_life k pinned evs = Some tr -> (count_recycles tr <= 1)%nat.
Proof.
  intros k pinned evs tr H. destruct (life_shape _ _ _ _ H) as (os & _ & ->). rewrite count_recycles_attempts.
  cbv zeta. destruct (_ && _); cbn; repeat constructor.
Qed.
Print Assumptions C33_recycled_at_most_once.

(** the commands a pipe builds itself on the cached MGET / JSON.MGET path (one PTTL per missing key, the rewritten
    MGET) are commands too: they are recycled only after EXEC delivered its array, never on an error return *)
Theorem C33_pipe_internal_only_after_exec : forall pinned evs tr,
  run_life KPipeInternal pinned evs = Some tr -> recycled tr = true ->
  exists e, evs = [e] /\ outcome_of e = OutReply /\ pinned = false.
Proof.
  intros pinned evs tr H Hr. unfold run_life in H. destruct evs as [|e r]; cbn [run_life_aux] in H; [discriminate|].
  cbn [goes_again] in H. destruct r; [|discriminate].
  exists e. split; [reflexivity|].
  destruct (outcome_of e) eqn:Eo; cbn [recycles andb] in H; inversion H; subst; try discriminate.
  destruct pinned; cbn in H; inversion H; subst; [discriminate|]. split; reflexivity.
Qed.
Print Assumptions C33_pipe_internal_only_after_exec.

(** the pooled batch buffer of clusterClient.DoMulti / DoMultiCache (its array is what the pipe's ring slot points at):
    it goes back to the pool only when every member of the batch got a reply, in particular never while a member
    was abandoned in the queue *)
Theorem C33_cluster_batch_buffer : forall members,
  batch_no_early_recycle (run_batch members) = true /\
  (recycled (run_batch members) = true <-> forall o, In o members -> member_replied o = true).
Proof.
  intros members. split; [apply batch_no_early|].
  rewrite batch_recycled_iff. unfold batch_clean. apply forallb_forall.
Qed.
Print Assumptions C33_cluster_batch_buffer.

Example C33_nonvacuous_life :
  exists tr, run_life KSingle false [EvAttempt OutReply] = Some tr /\ recycled tr = true
  /\ exists tr2, run_life KSingle false [EvAttemptAgain OutTransportError; EvAttempt OutAbandoned] = Some tr2 /\ recycled tr2 = false.
Proof. eexists. split; [vm_compute; reflexivity|]. split; [vm_compute; reflexivity|]. eexists. split; vm_compute; reflexivity. Qed.
