(** C12 — RESP decoding reproduces every well-formed reply.

    [decode B] runs the model of readNextMessage (Model/Resp.v: every reader of resp.go transcribed over
    the bufio operations of Model/RespIO.v) on a byte stream, through a bufio.Reader of size B.
    [rv] / [enc] / [abs] / [wf] (Model/RespSpec.v) are the specification: value trees of every RESP2 / RESP3
    type that record the encoding choice of every node (length-prefixed or streamed strings with any
    chunk split, counted or streamed aggregates, RESP3 null or any RESP2 null, attribute frames, pushes),
    the encoder, the expected message, and the side conditions of the wire format (no LF inside simple
    strings, int64 integers, payloads up to Go's 2^48-byte allocation limit).  Trees are unbounded in
    size, depth and payload; payload bytes are arbitrary.  B >= 32 is what rueidis enforces
    (ReadBufferEachConn). *)
From Coq Require Import List Arith NArith ZArith Bool.
From Coq Require Import String.
Require Import RV.Model.Base RV.Model.RespWrite RV.Model.Resp.
Require Import RV.Model.RespStream.
Require Import RV.Proofs.RespIOProofs RV.Proofs.RespRoundtrip RV.Proofs.RespStreamC29.
Import ListNotations.
Open Scope N_scope.

(** decoding yields exactly the encoded value and leaves the following bytes untouched,
    for every value tree and every encoding choice *)
Theorem C12_roundtrip : forall (B : nat) (v : rv) (rest : bytes),
  (32 <= B)%nat -> wf v = true ->
  fst (decode B (enc v ++ rest)) = (Ok (abs v), rest).
Proof. intros B v rest HB Hwf. now apply decode_roundtrip. Qed.
Print Assumptions C12_roundtrip.

(** the same, inside the attribute loop and for any amount of fuel that is enough
    (this is the statement the induction proves; attributes seen before the value are attached to it) *)
Theorem C12_roundtrip_general : forall (B : nat) (v : rv) (fuel : nat) (attrs : option msg) (rest : bytes) (al : N),
  (32 <= B)%nat -> wf v = true -> (cost v <= fuel)%nat ->
  exists al', run B (read_next fuel attrs) (enc v ++ rest) al = (Ok (abs_with v attrs), rest, al').
Proof. intros B v fuel attrs rest al HB Hwf Hf. now apply read_next_roundtrip. Qed.
Print Assumptions C12_roundtrip_general.

(** independent of how the bytes are split across reads: for EVERY byte stream (well-formed or not) and
    every way the connection delivers it in chunks (including one byte at a time and empty reads),
    the decoder returns the same result, leaves the same unread bytes and requests the same allocations *)
Theorem C12_split_independent : forall (B : nat) (chunks : list bytes),
  decode B (List.concat chunks) =
  (fst (fst (decode_chunked B chunks)), flat (snd (fst (decode_chunked B chunks))), snd (decode_chunked B chunks)).
Proof.
  intros B chunks. unfold decode, decode_chunked.
  now rewrite <- (run_chunked_flat B (read_next (fuel_for (List.length (List.concat chunks))) None) ([], chunks) 0).
Qed.
Print Assumptions C12_split_independent.

(** … for every program over the reader operations, hence for streamTo as well *)
Theorem C12_split_independent_any_program : forall (A : Type) (B : nat) (p : prog A) (st : cstate) (al : N),
  run B p (flat st) al =
  (fst (fst (run_chunked B p st al)), flat (snd (fst (run_chunked B p st al))), snd (run_chunked B p st al)).
Proof. intros. apply run_chunked_flat. Qed.
Print Assumptions C12_split_independent_any_program.

(** streaming reads write exactly the payload bytes that a normal read of a string, integer or float
    reply returns: [payload v] is what streamTo hands to the writer (C29_bytes_payload), and it is the
    string / the numeral of the integer of the message [abs v] that readNextMessage decodes (C12_roundtrip) *)
Theorem C12_stream_payload : forall (B : nat) (v : rv) (p rest : bytes),
  (32 <= B)%nat -> wf v = true -> payload v = Some p ->
  stream B None (enc v ++ rest) = ((zlen p, SNone, true), rest, p) /\
  fst (decode B (enc v ++ rest)) = (Ok (abs v), rest) /\
  (p = m_str (abs v) \/ p = decZ (m_ival (abs v))).
Proof.
  intros B v p rest HB Hwf Hp. split; [now apply stream_payload_top|]. split; [now apply decode_roundtrip|].
  destruct (payload_is_read v p Hp) as [(_ & _ & H)|(_ & H)]; auto.
Qed.
Print Assumptions C12_stream_payload.

(** C14, last clause: the client's own reader decodes a written command to the array of its arguments *)
Theorem C14_own_reader : forall (B : nat) (argv : list bytes) (rest : bytes),
  (32 <= B)%nat -> Forall (fun a => blob_ok a = true) argv -> agg_ok argv = true ->
  fst (decode B (write_cmd argv ++ rest)) =
  (Ok (Msg tArray [] (zlen argv) (map (fun a => Msg tBlobString a (zlen a) [] None) argv) None), rest).
Proof. intros. now apply decode_write_cmd. Qed.
Print Assumptions C14_own_reader.

(** non-vacuity: a push carrying an attribute-decorated map with a streamed string, a RESP2 null, a
    streamed set and binary payloads containing CR LF; decoded through the smallest buffer, whole and
    one byte at a time *)
Example C12_nonvacuous :
  let v := VAgg tPush false
             [VLine tSimpleString (h "4f4b");
              VAttr [VLine tSimpleString (h "74746c"); VInt 3600] false
                (VAgg tMap false [VBlob tBlobString (h "6b0d0a00ff"); VBlobStream tBlobString [h "48656c"; h "6c6f"];
                                   VNull tBlobString; VAgg tSet true [VInt (-9223372036854775808); VBool true; VLine tFloat (h "2d696e66")]])] in
  wf v = true /\
  fst (decode 32 (enc v ++ [1; 2; 3])) = (Ok (abs v), [1; 2; 3]) /\
  fst (fst (decode_chunked 32 (map (fun b => [b]) (enc v)))) = Ok (abs v).
Proof. vm_compute. repeat split. Qed.
