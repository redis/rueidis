(** C19 — Cluster commands reach the node that owns their slot.

    Objects: [parse_slots] / [parse_shards] / [rebuild] / [pick_slot] (Model/ClusterTopo.v, cluster.go
    parseSlots, parseShards, parseEndpoint, _refresh, _pick) and [do_loop] (Model/ClusterDo.v,
    clusterClient.do with redirectOrNew / shouldRefreshRetry).  Go map iteration order is universally
    quantified ([Permutation]); a concurrent topology refresh is an input of every attempt. *)
From Coq Require Import List Arith NArith ZArith Bool Lia Permutation.
Require Import RV.Model.Base RV.Model.ClusterTopo RV.Model.ClusterSpec RV.Model.ClusterShardSpec RV.Model.Retry RV.Model.ClusterDo.
Require Import RV.Proofs.ClusterTopoProofs RV.Proofs.ClusterSpecProofs RV.Proofs.ClusterDoProofs.
Import ListNotations.
Open Scope Z_scope.

(** Topology parsing never crashes, whatever the reply tree, and what it returns can be turned
    into a slot table in every iteration order of the group map without crashing. *)
Theorem C19_parse_total : forall (dh : bytes) (tls : bool) (m : msg) (c : tcfg),
  parse_slots dh m <> Panic /\ parse_shards dh tls m <> Panic /\
  (forall gs l, (parse_slots dh m = Ok gs \/ parse_shards dh tls m = Ok gs) ->
                Permutation (map snd gs) l -> rebuild c l <> Panic).
Proof.
  intros dh tls m c.
  destruct (parse_slots_wf dh m) as [g1 [E1 [F1 _]]]. destruct (parse_shards_wf dh tls m) as [g2 [E2 [F2 _]]].
  rewrite E1, E2. split; [discriminate|]. split; [discriminate|].
  intros gs l [H|H] P; injection H as <-; unfold rebuild;
    [rewrite (headed_groups_ok g1 F1 l P)|rewrite (headed_groups_ok g2 F2 l P)]; discriminate.
Qed.
Print Assumptions C19_parse_total.

(** Every group starts with its primary, group keys are distinct (both reply formats). *)
Theorem C19_parse_primary_first : forall dh tls m gs,
  parse_slots dh m = Ok gs \/ parse_shards dh tls m = Ok gs ->
  NoDup (map fst gs) /\ forall k g, In (k, g) gs -> hd_error (g_nodes g) = Some k.
Proof.
  intros dh tls m gs H. assert (X : wf gs).
  { destruct H as [H|H]; [destruct (parse_slots_wf dh m) as [g [E W]]|destruct (parse_shards_wf dh tls m) as [g [E W]]];
      rewrite E in H; injection H as <-; exact W. }
  destruct X as [F ND]. split; [exact ND|]. intros k g Hin. rewrite Forall_forall in F. exact (F _ Hin).
Qed.
Print Assumptions C19_parse_primary_first.

(** CLUSTER SLOTS: a reply that encodes the abstract answer [es] is parsed into groups that carry
    exactly the listed ranges under their primaries, and only nodes with a known endpoint. *)
Theorem C19_parse_slots_spec : forall dh es,
  exists gs, parse_slots dh (enc_slots es) = Ok gs /\
    (forall e m, In e es -> entry_master dh e = Some m ->
        exists g, assoc_get m gs = Some g /\ In (entry_range e) (g_slots g) /\ hd_error (g_nodes g) = Some m) /\
    (forall k g r, In (k, g) gs -> In r (g_slots g) ->
        exists e, In e es /\ entry_master dh e = Some k /\ r = entry_range e) /\
    (forall k g a, In (k, g) gs -> In a (g_nodes g) ->
        exists e n, In e es /\ In n (se_nodes e) /\ node_addr dh n = Some a).
Proof.
  intros dh es. destruct (parse_slots_spec dh es) as [gs [E [[HD ND] [HAS ONLY NODES]]]].
  exists gs. split; [exact E|]. split; [|split; [exact ONLY|exact NODES]].
  intros e m Hin EM. destruct (HAS e m Hin EM) as [g [G Hr]]. exists g. split; [exact G|]. split; [exact Hr|].
  rewrite Forall_forall in HD. exact (HD _ (assoc_get_In _ _ _ G)).
Qed.
Print Assumptions C19_parse_slots_spec.

(** CLUSTER SHARDS: a node is kept only if its health is "online" and its endpoint is known. *)
Theorem C19_parse_shards_nodes : forall dh tls ns nodes m',
  shard_nodes dh tls ns [] None = (nodes, m') ->
  forall a, In a nodes -> exists n, In n ns /\ shard_node_online n = true /\ shard_node_addr dh tls n = Some a.
Proof.
  intros dh tls ns nodes m' H a Ha. destruct (shard_nodes_kept dh tls ns [] None nodes m' H a Ha) as [[]|X]; exact X.
Qed.
Print Assumptions C19_parse_shards_nodes.

(** The slot table: every slot of a listed range (clipped to [0,16384), ranges starting below 0 are
    ignored by the loop) goes to the primary of the listing group, provided every element listing
    the slot names the same primary; in every iteration order of the group map. *)
Theorem C19_table : forall dh es c e m s,
  t_kind c <> CfgReplicaOnly ->
  In e es -> entry_master dh e = Some m -> covers (entry_range e) s = true ->
  (forall e' m', In e' es -> covers (entry_range e') s = true -> entry_master dh e' = Some m' -> m' = m) ->
  exists gs, parse_slots dh (enc_slots es) = Ok gs /\
             forall l t, Permutation (map snd gs) l -> rebuild c l = Ok t -> tb_w t s = Some m.
Proof.
  intros dh es c e m s Hk Hin EM Hc Hu.
  destruct (slots_table dh es c e m s Hk Hin EM Hc Hu) as [gs [E W]]. exists gs. split; [exact E|].
  intros l t P R. rewrite (rebuild_ok _ _ _ R). now apply W.
Qed.
Print Assumptions C19_table.

Theorem C19_table_unlisted : forall dh es c s,
  (forall e, In e es -> covers (entry_range e) s = false) ->
  exists gs, parse_slots dh (enc_slots es) = Ok gs /\
             forall l t, Permutation (map snd gs) l -> rebuild c l = Ok t -> tb_w t s = None.
Proof.
  intros dh es c s Hn. destruct (slots_table_unlisted dh es c s Hn) as [gs [E W]]. exists gs. split; [exact E|].
  intros l t P R. rewrite (rebuild_ok _ _ _ R). now apply W.
Qed.
Print Assumptions C19_table_unlisted.

(** CLUSTER SHARDS: a reply that encodes the abstract answer [l] is parsed into one group per shard
    primary (the last online master entry with an endpoint); the group carries the shard's ranges,
    starts with the primary, and contains only nodes that are online and have an endpoint. *)
Theorem C19_parse_shards_spec : forall dh tls l,
  exists gs, parse_shards dh tls (enc_shards l) = Ok gs /\
    NoDup (map fst gs) /\
    (forall k g, In (k, g) gs ->
        hd_error (g_nodes g) = Some k /\
        exists s, In s l /\ shard_primary dh tls s = Some k /\ g_slots g = sd_ranges s /\
                  forall a, In a (g_nodes g) -> exists n, In n (sd_nodes s) /\ hn_online n = true /\ hnode_addr dh tls n = Some a) /\
    (forall s p, In s l -> shard_primary dh tls s = Some p -> assoc_get p gs <> None).
Proof.
  intros dh tls l. destruct (parse_shards_spec dh tls l) as [gs [E [[HD ND] [FROM HAS]]]].
  exists gs. split; [exact E|]. split; [exact ND|]. split; [|exact HAS].
  intros k g Hin. split; [rewrite Forall_forall in HD; exact (HD _ Hin)|].
  destruct (FROM k g Hin) as [s [I [P [S K]]]]. exists s. split; [exact I|]. split; [exact P|]. split; [exact S|].
  intros a Ha. exact (kept_of_sound dh tls s a (K a Ha)).
Qed.
Print Assumptions C19_parse_shards_spec.

(** … and the table built from it sends every slot of a listed range to the shard's primary, in
    every iteration order, when shards have distinct primaries and all listers of the slot agree *)
Theorem C19_table_shards : forall dh tls l c sh m r s,
  t_kind c <> CfgReplicaOnly ->
  In sh l -> shard_primary dh tls sh = Some m -> In r (sd_ranges sh) -> covers r s = true ->
  (forall sh' m', In sh' l -> shard_primary dh tls sh' = Some m' ->
      (m' = m -> sh' = sh) /\ ((exists r', In r' (sd_ranges sh') /\ covers r' s = true) -> m' = m)) ->
  exists gs, parse_shards dh tls (enc_shards l) = Ok gs /\
             forall o t, Permutation (map snd gs) o -> rebuild c o = Ok t -> tb_w t s = Some m.
Proof.
  intros dh tls l c sh m r s Hk Hin Pm Hr Hc Hu.
  destruct (shards_table dh tls l c sh m r s Hk Hin Pm Hr Hc Hu) as [gs [E W]]. exists gs. split; [exact E|].
  intros o t P R. rewrite (rebuild_ok _ _ _ R). now apply W.
Qed.
Print Assumptions C19_table_shards.

(** For arbitrary groups (either reply format, any order): the table entry is the primary of the
    last group in iteration order that lists the slot; with a single lister, of that group. *)
Theorem C19_table_groups : forall c l t s g p,
  rebuild c l = Ok t -> t_kind c <> CfgReplicaOnly ->
  In g l -> lists g s = true -> (forall g', In g' l -> lists g' s = true -> g' = g) ->
  primary g = Some p -> tb_w t s = Some p.
Proof.
  intros c l t s g p R Hk Hin Hl Hu Hp. rewrite (rebuild_ok _ _ _ R). eapply wslot_default_unique; eauto.
Qed.
Print Assumptions C19_table_groups.

(** A keyed command's send at label [retry:] — the first send and every send after a retry — goes
    to the connection the table (as refreshed so far) holds for its slot. *)
Theorem C19_route : forall fuel c slot retryable st w attempts redirects ct env tr out st',
  do_loop (S fuel) c slot retryable false st PhRetry w attempts redirects (ct :: env) = (tr, out, st') ->
  k_ctx_call (ct_tick ct) = false ->
  forall d, tb_w (cs_table (install st ct)) slot = Some d ->
  exists s rest, tr = s :: rest /\ s_to s = d /\ s_kind s = SPlain /\ s_why s = w.
Proof.
  intros fuel c slot retryable st w attempts redirects ct env tr out st' H CC d Hd.
  destruct (runs_first c slot retryable false (do_loop_runs _ _ _ _ _ _ _ _ _ _ _ _ _ _ H) CC d Hd) as [rest ->].
  eexists _, rest. repeat split.
Qed.
Print Assumptions C19_route.

(** Redirects: in the trace of one call every send is justified by the reply before it — after
    MOVED a the next send is the plain command to a, after ASK a it is [ASKING; command] to a, a
    retry follows only a retry-class reply of a retryable command under the policy (see C28), an expired connection is followed by a transparent
    re-send, and nothing follows any other reply.  The reply handed to the caller is the last reply
    on the wire (or the context error when the last attempt was not written).  With
    MaxMovedRedirections = max > 0 at most max redirects are followed.  Enough fuel = one step per
    environment item. *)
Theorem C19_moved_ask : forall c slot retryable to_replica st env tr out st',
  cluster_do c slot retryable to_replica st env = (tr, out, st') ->
  chain_ok c retryable tr /\
  out <> COutOfFuel /\
  (forall r, out = CDone r -> r = RCtx \/ exists s, tr <> [] /\ sreply (last tr s) = r) /\
  (0 < cc_max c -> Z.of_nat (credirects tr) <= cc_max c).
Proof.
  intros c slot retryable to_replica st env tr out st' H. apply do_loop_runs in H.
  split; [exact (runs_chain _ _ _ _ H)|]. split; [exact (runs_fuel _ _ _ _ H (Nat.lt_succ_diag_r _))|].
  split; [exact (runs_final _ _ _ _ H)|].
  intro Hm. pose proof (runs_redirect_bound _ _ _ _ Hm H (Z.lt_le_incl _ _ Hm)). lia.
Qed.
Print Assumptions C19_moved_ask.

Definition ex_h (n : N) : bytes := [49; 48; 46; 48; 46; 48; 46; n]%N.   (* "10.0.0.x" *)
Definition ex_es : list sentry :=
  [ mkSentry 0 8191 [mkSnode (ex_h 49) 7000; mkSnode (ex_h 50) 7001];
    mkSentry 8192 16383 [mkSnode (ex_h 51) 7002; mkSnode [63%N] 7003];
    mkSentry 20000 20010 [mkSnode (ex_h 52) 7004] ].

Example C19_nonvacuous_table :
  match parse_slots [] (enc_slots ex_es) with
  | Ok gs => match rebuild (mkTcfg CfgDefault (fun _ _ => 0) (fun _ => O)) (map snd gs) with
             | Ok t => tb_w t 100 = Some (ex_h 49, 7000) /\ tb_w t 8192 = Some (ex_h 51, 7002) /\
                       length gs = 3%nat /\
                       option_map g_nodes (assoc_get (ex_h 51, 7002) gs) = Some [(ex_h 51, 7002)]
             | _ => False
             end
  | _ => False
  end.
Proof. vm_compute. repeat split; reflexivity. Qed.

Example C19_nonvacuous_shards :
  let l := [ mkShard [(0, 8191)] [mkHnode (ex_h 49) 7000 0 false true; mkHnode (ex_h 50) 7001 0 true true; mkHnode (ex_h 51) 7002 0 false false];
             mkShard [(8192, 16383)] [mkHnode (ex_h 52) 7003 7103 true true] ] in
  match parse_shards [] true (enc_shards l) with
  | Ok gs => match rebuild (mkTcfg CfgDefault (fun _ _ => 0) (fun _ => O)) (map snd gs) with
             | Ok t => tb_w t 5 = Some (ex_h 50, 7001) /\ tb_w t 9000 = Some (ex_h 52, 7103) /\
                       option_map g_nodes (assoc_get (ex_h 50, 7001) gs) = Some [(ex_h 50, 7001); (ex_h 49, 7000)]
             | _ => False
             end
  | _ => False
  end.
Proof. vm_compute. repeat split; reflexivity. Qed.

Definition ex_a (n : Z) : addr := (ex_h 49, n).
Definition ex_tick (r : reply) : ctick := mkCtick (mkTick r false false false false None) None 0.

(** MOVED to 7001, ASK to 7002, value: three sends, the third with ASKING *)
Example C19_nonvacuous_chain :
  let c := mkCcfg (mkPolicy true (fun _ _ => 0) false) 0 in
  let st := mkCstate (mkTable (fun _ => Some (ex_a 7000)) (fun _ => []) false false) [ex_a 7000; ex_a 7001] in
  let '(tr, out, _) := cluster_do c 42 false false st [ex_tick (RMoved (ex_a 7001)); ex_tick (RAsk (ex_a 7002)); ex_tick (RVal 1)] in
  map (fun s => (snd (s_to s), s_kind s)) tr = [(7000, SPlain); (7001, SPlain); (7002, SAsking)] /\ out = CDone (RVal 1).
Proof. vm_compute. split; reflexivity. Qed.
