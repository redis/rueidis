(** C24 - Blocking pool bounds, isolates and releases connections.

    Model: [RV.Model.Pool], a labelled transition system transcribed from pool.go; a schedule is a
    [list label], [run] executes it.  Every theorem quantifies over ALL schedules, any number of
    callers and any capacity >= 1 ([reachable cfg s] = some schedule leads from [init] to [s]).
    [repaired cfg] selects the code after the fix: commits (Store keeps the slot count for the dead
    pipe of a done context; the cancellation goroutine broadcasts under the mutex); the original
    code is [orig_cfg] and is refuted below with witness schedules (defects D6 and D8).

    Proved: safety (bound, exclusivity, after-Close), lost-wake-up freedom and absence of stuck
    states.  NOT claimed: fair termination under the real Go scheduler (a waiter can be overtaken
    for ever), real-time bounds. *)
From Coq Require Import List NArith ZArith Bool Arith.
Require Import RV.Model.Base RV.Model.Pool RV.Model.PoolCallers.
Require Import RV.Proofs.PoolProofs RV.Proofs.PoolProofs2 RV.Proofs.PoolProofs4 RV.Proofs.PoolTheorems.
Import ListNotations.
Open Scope Z_scope.

(** size = |holders of counted wires| + |idle| + makes in flight (minus the ghost count of stores of
    the shared dead wire after Close, which is 0 while the pool is open), and never above cap. *)
Theorem C24_bound : forall cfg s, repaired cfg -> reachable cfg s ->
  size s = Z.of_nat (live s) - Z.of_nat (dstores s) /\ Z.of_nat (live s) <= cap cfg /\
  (down s = false -> dstores s = 0%nat /\ size s = Z.of_nat (live s) /\ 0 <= size s <= cap cfg).
Proof. intros cfg s Hrep Hr. apply inv1_bound, (inv_reachable _ _ Hrep Hr). Qed.
Print Assumptions C24_bound.

(** a connection is in at most one of: the idle list (once), one holder *)
Theorem C24_exclusive : forall cfg s, reachable cfg s -> NoDup (idle s ++ real_ids (held s)).
Proof. intros cfg s Hr. apply inv2_nodup, (inv2_reachable _ _ Hr). Qed.
Print Assumptions C24_exclusive.

(** pool side of "every handed-out wire is returned": Store is never refused once the mutex is free,
    the mutex is always released by its holder's next step, and Store removes exactly that wire *)
Theorem C24_returned_pool : forall cfg s w, In w (held s) ->
  (forall u, mutex s = Some u -> enabled cfg s (AcqPark u)) /\
  (mutex s = None -> exists s', lstep cfg s (Store w) = Some s' /\ held s' = wremove1 w (held s) /\ sigs s' = S (sigs s)).
Proof.
  intros cfg s w Hin. split.
  - intros u Hu. apply pool_mutex_released. exact Hu.
  - intro Hm. apply pool_store_accepts; assumption.
Qed.
Print Assumptions C24_returned_pool.

(** caller side: on every path of mux.blocking / blockingMulti / DoStream / DoMultiStream / dedicated
    release the acquired wire is stored exactly once and not used afterwards (repaired code) *)
Theorem C24_returned_callers : callers_ok true = true.
Proof. vm_compute. reflexivity. Qed.
Print Assumptions C24_returned_callers.

(** D7 on the code as found: DoStream / DoMultiStream have a path that never stores the wire *)
Theorem C24_returned_callers_refuted :
  exists c p, In p (paths false c) /\ count_ev EStore p = 0%nat /\ callers_ok false = false.
Proof. exists DoStream. exists [EAcquire; EReturn]. split; [left; reflexivity|]. split; reflexivity. Qed.
Print Assumptions C24_returned_callers_refuted.

(** after Close every evaluation of Acquire hands out a dead wire, nothing becomes idle again, and the
    idle wires are closed *)
Theorem C24_after_close : forall cfg s, reachable cfg s -> down s = true ->
  (forall l s', acquire_label l = true -> lstep cfg s l = Some s' ->
      exists w, held s' = w :: held s /\ (w = CtxDead \/ w = DeadDown) /\ idle s' = idle s /\ down s' = true) /\
  (forall id, In id (idle s) -> In id (broken s)) /\
  (forall w s', lstep cfg s (Store w) = Some s' -> idle s' = idle s /\ forall id, w = Real id -> In id (broken s')).
Proof.
  intros cfg s Hr Hd. split; [|split].
  - intros l s' Hl Hs. eapply pool_after_close; eassumption.
  - apply (invC_reachable _ _ Hr Hd).
  - intros w s' Hs. eapply pool_store_after_close; eassumption.
Qed.
Print Assumptions C24_after_close.

(** a parked waiter whose context is done always has its cancellation broadcast pending, and three
    steps (mutex release, that broadcast, its own re-lock) make it leave Acquire with the context error *)
Theorem C24_ctx_waiter_wakes : forall cfg s t, repaired cfg -> reachable cfg s ->
  In t (parked s) -> In t (ctxdone s) ->
  In t (bpend s) /\
  exists sch s', (length sch <= 3)%nat /\ forallb (wake_label t) sch = true /\ run cfg sch s = Some s' /\
                 In t (exiting s') /\ hd_error (held s') = Some CtxDead.
Proof.
  intros cfg s t Hrep Hr. apply pool_ctx_waiter_wakes; [exact (inv_t _ _ (inv_reachable _ _ Hrep Hr))|apply Hrep].
Qed.
Print Assumptions C24_ctx_waiter_wakes.

(** no lost wake-up: somebody parked while capacity is free => a waker step is enabled *)
Theorem C24_no_lost_wakeup : forall cfg s, repaired cfg -> reachable cfg s ->
  down s = false -> parked s <> [] -> 0 < free cfg s ->
  exists l, waker_label l = true /\ enabled cfg s l.
Proof. intros cfg s Hrep Hr. apply pool_no_lost_wakeup, (inv_reachable _ _ Hrep Hr). Qed.
Print Assumptions C24_no_lost_wakeup.

(** no stuck state: whenever somebody is parked, a step of a thread that is already inside the
    pool (or holds one of its wires) is enabled.  Fair termination is not claimed. *)
Theorem C24_not_stuck : forall cfg s, repaired cfg -> reachable cfg s -> parked s <> [] ->
  exists l, internal_label l = true /\ enabled cfg s l.
Proof. intros cfg s Hrep Hr. apply pool_not_stuck; [apply (inv_reachable _ _ Hrep Hr)|apply Hrep]. Qed.
Print Assumptions C24_not_stuck.

(** D6 on the code as found: size accounting breaks and the capacity is exceeded *)
Theorem C24_bound_refuted_orig :
  exists sch s, run (orig_cfg 1 0 false) sch init = Some s /\ cap (orig_cfg 1 0 false) < Z.of_nat (live s) /\
                size s <> Z.of_nat (live s) - Z.of_nat (dstores s).
Proof. exists d6_schedule. eexists. split; [vm_compute; reflexivity|]. split; vm_compute; congruence. Qed.
Print Assumptions C24_bound_refuted_orig.

(** D8 on the code as found: the cancelled waiter is parked and nothing pending can wake it *)
Theorem C24_ctx_waiter_refuted_orig :
  exists sch s, run (orig_cfg 1 0 false) sch init = Some s /\
    In 2%nat (parked s) /\ In 2%nat (ctxdone s) /\ ~ In 2%nat (bpend s) /\
    (forall l, wake_label 2 l = true -> lstep (orig_cfg 1 0 false) s l = None) /\
    (forall o, lstep (orig_cfg 1 0 false) s (Signal o) = None) /\ lstep (orig_cfg 1 0 false) s CloseBcast = None.
Proof. exact d8_waiter_never_woken. Qed.
Print Assumptions C24_ctx_waiter_refuted_orig.

(** non-vacuity: a reachable state of the repaired model with capacity 2 in which one caller is parked
    with a cancelled context, one wire is idle-able and the hypotheses of the theorems above hold *)
Definition nv_schedule : list label :=
  [AcqEnter 1 false; MakeOk 1 (Some 1%nat) false; AcqReturn 1;
   AcqEnter 2 false; MakeOk 2 (Some 2%nat) false; AcqReturn 2;
   AcqEnter 3 true; AcqPark 3; AcqEnter 4 false; AcqPark 4; CtxCancel 3; Store (Real 1)].

Example C24_nonvacuous :
  repaired (fixed_cfg 2 0 false) /\
  exists s, run (fixed_cfg 2 0 false) nv_schedule init = Some s /\
            parked s = [3%nat; 4%nat] /\ ctxdone s = [3%nat] /\ bpend s = [3%nat] /\ down s = false /\
            free (fixed_cfg 2 0 false) s = 1 /\ size s = 2 /\ live s = 2%nat /\ sigs s = 1%nat.
Proof.
  split; [repeat split; vm_compute; congruence|].
  eexists. split; [vm_compute; reflexivity|]. repeat split.
Qed.
