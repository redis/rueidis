(** C11 - Batched cache reads return results positionally.

    DoMultiCache, MGetCache, JsonMGetCache and DoCache on MGET / JSON.MGET return, at position i or
    under key i, the reply for the i-th command or key, whatever mix of hits, in-flight waits, misses,
    duplicates, multiplexed connections or cluster nodes served the batch.

    Model: RV.Model.CacheBatch (pipe.go DoMultiCache / doCacheMGet, lru.go Flights, the reader-side
    commits of pipe.go _backgroundRead, mux.go DoMultiCache, cluster.go _pickMultiCache / doretrycache /
    resultcachefn / DoMultiCache, helper.go doMultiCache).  The cache store ([lookup]), the server
    ([srv], [qerr]) and - for mux / cluster - the per-connection stores and servers are universally
    quantified; so are the Go map iteration orders ([order], [orders]).

    Standing assumptions, all explicit hypotheses below:
    * replies produced by the RESP decoder carry a type byte (typ <> 0) and a woken waiter has a value
      or an error - this is what lets the code recognise unfilled slots;
    * equal cache keys within one batch mean equal commands ([ck_inj], the C08 identity; it holds
      outright for two-word commands such as GET k, see [C11_ck_inj_two_words]);
    * cacheable commands are not MULTI / EXEC themselves ([not_tx]).
    [view] identifies a Redis error reply handed over as a value with the same error handed over as an
    error (the only difference between the issuing caller and callers that waited on its flight). *)
From Coq Require Import String Ascii.
From Coq Require Import List Arith NArith ZArith Bool Lia.
Require Import RV.Model.Base RV.Model.CacheBatch.
Require Import RV.Proofs.CacheBatchBase RV.Proofs.CacheBatchMulti RV.Proofs.CacheBatchMGet
               RV.Proofs.CacheBatchRoute RV.Proofs.CacheBatchHelper RV.Proofs.CacheBatchTop.
Import ListNotations.
Open Scope nat_scope.

(** ** pipe.DoMultiCache: result i is what command i alone would be answered *)
Theorem C11_positional :
  forall (lookup : key -> bytes -> lk) (srv : argv -> msg) (qerr : argv -> option msg) (optin use_lru : bool)
         (batch : list item),
    batch <> [] ->
    existsb it_mget batch = false ->
    Forall (fun it => not_tx (it_argv it)) batch ->
    ck_inj (map it_argv batch) ->
    (forall k c v, lookup k c = LHit v -> m_typ v <> 0%N) ->
    (forall k c r, lookup k c = LWait r -> filled r) ->
    (forall a, m_typ (srv a) <> 0%N) ->
    (forall a e, qerr a = Some e -> m_typ e <> 0%N) ->
    exists rs, do_multi_cache lookup srv qerr optin use_lru batch = Ok rs /\
      Forall2 (fun r it => exists r',
                 expected lookup srv qerr optin (forallb it_static batch) it = Ok r' /\ view r = view r') rs batch.
Proof. exact do_multi_cache_positional. Qed.
Print Assumptions C11_positional.

(** [expected] unfolded for the plain case: a miss that the server accepts is answered with the server's reply
    to exactly that command - so [C11_positional] reads "result i = reply_of (cmd i)" *)
Theorem C11_expected_miss :
  forall lookup srv qerr optin skip it,
    not_tx (it_argv it) ->
    lookup (fst (cache_key (it_argv it))) (snd (cache_key (it_argv it))) = LMiss ->
    qerr (it_argv it) = None -> qerr (pttl_cmd (it_argv it)) = None ->
    expected lookup srv qerr optin skip it = Ok (new_result (srv (it_argv it))).
Proof.
  intros lookup srv qerr optin skip it Htx Hl Hq Hp. unfold expected.
  destruct (cache_key (it_argv it)) as [k c]. cbn [fst snd] in Hl. rewrite Hl, single_miss_spec by assumption.
  destruct skip; [unfold dec2, q_or; now rewrite Hq|unfold dec5, aborted, rejected; now rewrite Hp, Hq].
Qed.
Print Assumptions C11_expected_miss.

(** the same by index *)
Theorem C11_positional_nth :
  forall lookup srv qerr optin use_lru batch,
    batch <> [] -> existsb it_mget batch = false ->
    Forall (fun it => not_tx (it_argv it)) batch -> ck_inj (map it_argv batch) ->
    (forall k c v, lookup k c = LHit v -> m_typ v <> 0%N) ->
    (forall k c r, lookup k c = LWait r -> filled r) ->
    (forall a, m_typ (srv a) <> 0%N) ->
    (forall a e, qerr a = Some e -> m_typ e <> 0%N) ->
    exists rs, do_multi_cache lookup srv qerr optin use_lru batch = Ok rs /\ length rs = length batch /\
      forall i, i < length batch -> exists r',
        expected lookup srv qerr optin (forallb it_static batch) (nth i batch no_item) = Ok r' /\
        view (nth i rs zero_res) = view r'.
Proof.
  intros lookup srv qerr optin use_lru batch H1 H2 H3 H4 H5 H6 H7 H8.
  destruct (C11_positional lookup srv qerr optin use_lru batch H1 H2 H3 H4 H5 H6 H7 H8) as (rs & Hr & Hf).
  exists rs. split; [assumption|]. split; [exact (Forall2_len _ _ _ Hf)|]. apply (Forall2_nth _ _ _ _ _ Hf).
Qed.
Print Assumptions C11_positional_nth.

(** without static-TTL commands the slots are literally those values (duplicates included) *)
Theorem C11_positional_exact :
  forall lookup srv qerr optin use_lru batch,
    batch <> [] -> existsb it_mget batch = false ->
    Forall (fun it => not_tx (it_argv it)) batch -> ck_inj (map it_argv batch) ->
    (forall k c v, lookup k c = LHit v -> m_typ v <> 0%N) ->
    (forall k c r, lookup k c = LWait r -> filled r) ->
    (forall a, m_typ (srv a) <> 0%N) ->
    (forall a e, qerr a = Some e -> m_typ e <> 0%N) ->
    forallb it_static batch = false ->
    exists rs, do_multi_cache lookup srv qerr optin use_lru batch = Ok rs /\
      Forall2 (fun r it => expected lookup srv qerr optin false it = Ok r) rs batch.
Proof. exact do_multi_cache_positional_exact. Qed.
Print Assumptions C11_positional_exact.

(** lru.Flights (two passes under different locks) classifies a batch exactly as one Flight per command *)
Theorem C11_flights_agree : forall lookup batch, flights_lru lookup batch = flights_seq lookup batch.
Proof.
  intros. now rewrite flights_lru_spec, flights_seq_spec.
Qed.
Print Assumptions C11_flights_agree.

(** two-word commands (GET k, the only shape MGetCache sends) have injective cache keys *)
Theorem C11_ck_inj_two_words : forall l : list argv, Forall (fun a => length a = 2) l -> ck_inj l.
Proof. exact ck_inj_two_words. Qed.
Print Assumptions C11_ck_inj_two_words.

(** ** DoCache on MGET / JSON.MGET: element i is the reply for key i *)
Theorem C11_mget_positional :
  forall (lookup : key -> bytes -> lk) (srv : argv -> msg) (qerr : argv -> option msg) (optin : bool)
         (cmd0 : bytes) (ks : list key) (pathopt : list bytes) (elem : key -> msg),
    let commands := cmd0 :: ks ++ pathopt in
    let cc := mget_cc commands in
    (is_json commands = true /\ (exists p, pathopt = [p])) \/ (is_json commands = false /\ pathopt = []) ->
    bytes_eqb cmd0 (bs "MULTI") = false /\ bytes_eqb cmd0 (bs "EXEC") = false ->
    (* the server answers the multi-key command with one element per key, in order *)
    (forall ms, srv (cmd0 :: ms ++ pathopt) = arr (map elem ms)) ->
    (forall k, m_typ (elem k) <> 0%N) ->
    (forall k v, lookup k cc = LHit v -> m_typ v <> 0%N) ->
    (forall k r, lookup k cc = LWait r -> r_err r = None /\ m_typ (r_val r) <> 0%N) ->
    (forall a, qerr a = None) ->
    do_cache_mget lookup srv qerr optin commands
    = Ok (new_result (arr (map (fun k => match lookup k cc with
                                         | LHit v => v
                                         | LWait r => r_val r
                                         | LMiss => elem k
                                         end) ks))).
Proof. intros. apply do_cache_mget_positional; assumption. Qed.
Print Assumptions C11_mget_positional.

(** ** regrouping: gather by a key, run each group, scatter through the recorded indices *)

(** the identity behind mux / cluster batching, for any grouping function, any number of groups and any
    processing order that covers them: if every group is answered elementwise by [f], so is the batch *)
Theorem C11_scatter_gather :
  forall (group_of : item -> N) (f : item -> rres) (batch : list item) (order : list N),
    (forall g, In g (distinct_groups (map group_of batch) []) -> In g order) ->
    match fill_buckets group_of batch with
    | Ok bks => run_buckets (fun _ cmds => Ok (map f cmds)) order bks (repeat_n zero_res (length batch))
    | _ => Panic
    end = Ok (map f batch).
Proof.
  intros group_of f batch order Hcover. rewrite fill_buckets_spec.
  destruct (run_buckets_positional (fun _ cmds => Ok (map f cmds)) group_of batch (fun _ r it => r = f it)) with (order := order)
    as (rs & Hr & Hf); [|assumption|].
  - intros g cmds _ _. eexists. split; [reflexivity|]. induction cmds; constructor; auto.
  - rewrite Hr. f_equal. clear -Hf. induction Hf as [|r it rs l -> _ IH]; cbn; congruence.
Qed.
Print Assumptions C11_scatter_gather.

(** one cache store and one server per wire / connection; [conn_do w] is pipe.DoMultiCache on connection [w];
    [answers w r it]: [r] is what connection [w] alone answers to [it] (in one of the two wire shapes) *)

(** mux.DoMultiCache (PipelineMultiplex): any number of wires, any slot assignment, any order in which
    the per-wire batches complete *)
Theorem C11_mux_positional :
  forall (lookup_of : N -> key -> bytes -> lk) (srv_of : N -> argv -> msg) (qerr_of : N -> argv -> option msg)
         (optin use_lru : bool) (batch : list item),
    batch <> [] ->
    existsb it_mget batch = false ->
    Forall (fun it => not_tx (it_argv it)) batch ->
    ck_inj (map it_argv batch) ->
    (forall w k c v, lookup_of w k c = LHit v -> m_typ v <> 0%N) ->
    (forall w k c r, lookup_of w k c = LWait r -> filled r) ->
    (forall w a, m_typ (srv_of w a) <> 0%N) ->
    (forall w a e, qerr_of w a = Some e -> m_typ e <> 0%N) ->
    forall (nwires : N) (slot_of : item -> N) (order : list N),
      let g := fun it => N.land (slot_of it) (nwires - 1) in
      (forall w, In w (distinct_groups (map g batch) []) -> In w order) ->
      exists rs, mux_do_multi_cache (conn_do lookup_of srv_of qerr_of optin use_lru) nwires slot_of order batch = Ok rs /\
        Forall2 (fun r it => answers lookup_of srv_of qerr_of optin (g it) r it) rs batch.
Proof. exact mux_positional. Qed.
Print Assumptions C11_mux_positional.

(** cluster.DoMultiCache: any slot -> connection map, any MOVED / ASK redirections, any map iteration
    orders: a call that returns has at every position an answer to that position's command, given by some
    connection directly (through its cache) or on the ASK path ([asking_do] = askingMultiCache). *)
Theorem C11_cluster_positional :
  forall (lookup_of : N -> key -> bytes -> lk) (srv_of : N -> argv -> msg) (qerr_of : N -> argv -> option msg)
         (optin use_lru : bool) (batch : list item),
    existsb it_mget batch = false ->
    Forall (fun it => not_tx (it_argv it)) batch ->
    ck_inj (map it_argv batch) ->
    (forall w k c v, lookup_of w k c = LHit v -> m_typ v <> 0%N) ->
    (forall w k c r, lookup_of w k c = LWait r -> filled r) ->
    (forall w a, m_typ (srv_of w a) <> 0%N) ->
    (forall w a e, qerr_of w a = Some e -> m_typ e <> 0%N) ->
    forall (conn_of : item -> option N) (redirect_of : rres -> redirect) (fuel : nat) (orders : list (list N))
           (maxredir : nat) (rs : list rres),
      (forall g, In g (distinct_groups (map (cl_group conn_of) batch) []) ->
                 In g (match orders with o :: _ => o | [] => distinct_groups (map (cl_group conn_of) batch) [] end)) ->
      cluster_do_multi_cache conn_of (conn_do lookup_of srv_of qerr_of optin use_lru) (asking_do srv_of qerr_of optin)
                             redirect_of fuel orders maxredir batch = Ok (inl rs) ->
      Forall2 (fun r it => exists c, answers_or_asked lookup_of srv_of qerr_of optin c r it) rs batch.
Proof. exact cluster_positional. Qed.
Print Assumptions C11_cluster_positional.

(** ** helper.go doMultiCache (MGetCache / JsonMGetCache): under key k, the reply for k *)
Theorem C11_helper_keys :
  forall (f : key -> msg) (keys : list key) (resps : list rres),
    Forall2 (fun k r => r_err r = None /\ r_val r = f k) keys resps ->
    exists m, helper_do_multi_cache keys resps [] = Ok (inl m) /\
      (forall k, In k keys -> kv_get k m = Some (f k)) /\
      (forall k, ~ In k keys -> kv_get k m = None).
Proof.
  intros f keys resps H. exact (helper_do_multi_cache_spec f keys resps [] H).
Qed.
Print Assumptions C11_helper_keys.

(** MGetCache end to end: DoMultiCache over [GET k] commands, then the key map; every key is bound to the
    value of what [GET k] alone would be answered (hit / other caller's flight / server reply) *)
Theorem C11_mget_cache :
  forall lookup srv qerr optin use_lru (keys : list key),
    keys <> [] ->
    (forall k c v, lookup k c = LHit v -> m_typ v <> 0%N) ->
    (forall k c r, lookup k c = LWait r -> filled r) ->
    (forall a, m_typ (srv a) <> 0%N) ->
    (forall a e, qerr a = Some e -> m_typ e <> 0%N) ->
    (forall k, In k keys -> exists r, expected lookup srv qerr optin false (get_item k) = Ok r /\ r_err r = None) ->
    exists rs m,
      do_multi_cache lookup srv qerr optin use_lru (map get_item keys) = Ok rs /\
      helper_do_multi_cache keys rs [] = Ok (inl m) /\
      (forall k, In k keys -> exists r, expected lookup srv qerr optin false (get_item k) = Ok r /\ kv_get k m = Some (r_val r)) /\
      (forall k, ~ In k keys -> kv_get k m = None).
Proof. exact mget_cache_end_to_end. Qed.
Print Assumptions C11_mget_cache.

(** ** non-vacuity: a batch with a hit, a foreign wait, misses and duplicates of each *)
Definition nv_val (s : string) : msg := Msg tStr (bs s) 0%Z [].
Definition nv_get (k : string) : item := mkItem [bs "GET"; bs k] false false.
Definition nv_srv (a : argv) : msg := Msg tStr (List.concat a) 0%Z [].
Definition nv_lookup (k c : bytes) : lk :=
  if bytes_eqb k (bs "h") then LHit (nv_val "hit") else
  if bytes_eqb k (bs "w") then LWait (new_result (nv_val "waited")) else LMiss.
Definition nv_batch : list item := [nv_get "a"; nv_get "h"; nv_get "a"; nv_get "w"; nv_get "b"; nv_get "w"; nv_get "b"; nv_get "h"].

Example C11_nonvacuous_hyps :
  nv_batch <> [] /\ existsb it_mget nv_batch = false /\
  Forall (fun it => not_tx (it_argv it)) nv_batch /\ ck_inj (map it_argv nv_batch) /\
  (forall k c v, nv_lookup k c = LHit v -> m_typ v <> 0%N) /\
  (forall k c r, nv_lookup k c = LWait r -> filled r) /\
  (forall a, m_typ (nv_srv a) <> 0%N) /\
  (forall a e, (fun _ : argv => @None msg) a = Some e -> m_typ e <> 0%N).
Proof.
  split; [discriminate|]. split; [reflexivity|].
  split; [repeat constructor|].
  split; [apply ck_inj_two_words; repeat constructor|].
  split; [intros k c v; unfold nv_lookup; destruct (bytes_eqb k (bs "h")); [intro H; inversion H; discriminate|];
          destruct (bytes_eqb k (bs "w")); discriminate|].
  split; [intros k c r; unfold nv_lookup; destruct (bytes_eqb k (bs "h")); [discriminate|];
          destruct (bytes_eqb k (bs "w")); [intro H; inversion H; reflexivity|discriminate]|].
  split; [intros a; discriminate|intros a e; discriminate].
Qed.

Example C11_nonvacuous :
  do_multi_cache nv_lookup nv_srv (fun _ => None) true true nv_batch
  = Ok (map new_result [nv_val "GETa"; nv_val "hit"; nv_val "GETa"; nv_val "waited"; nv_val "GETb"; nv_val "waited";
                        nv_val "GETb"; nv_val "hit"]).
Proof. vm_compute. reflexivity. Qed.

Example C11_nonvacuous_mget :
  do_cache_mget nv_lookup (fun a => match a with c :: ks => arr (map (fun k => Msg tStr (c ++ k) 0%Z []) ks) | [] => zero_msg end)
                (fun _ => None) true [bs "MGET"; bs "a"; bs "h"; bs "a"; bs "w"; bs "b"]
  = Ok (new_result (arr [nv_val "MGETa"; nv_val "hit"; nv_val "MGETa"; nv_val "waited"; nv_val "MGETb"])).
Proof. vm_compute. reflexivity. Qed.

(** askingMultiCache answers its commands in order (what one command alone is answered after ASKING):
    [asking_multi_cache_spec] in Proofs/CacheBatchAsk.v; [C11_cluster_positional] uses it for the ASK path *)

(** four wires, slots taken from the key's first byte: every reply sits at its command's position *)
Example C11_nonvacuous_mux :
  mux_do_multi_cache (fun _ items => do_multi_cache nv_lookup nv_srv (fun _ => None) true true items) 4
                     (fun it => match nth 1 (it_argv it) [] with c :: _ => c | [] => 0%N end)
                     [0; 1; 2; 3]%N nv_batch
  = Ok (map new_result [nv_val "GETa"; nv_val "hit"; nv_val "GETa"; nv_val "waited"; nv_val "GETb"; nv_val "waited";
                        nv_val "GETb"; nv_val "hit"]).
Proof. vm_compute. reflexivity. Qed.

(** two connections; connection 0 rejects key "b" with -MOVED (inside MULTI: EXECABORT), the second round asks
    connection 1; key "c" is in migration: -ASK, answered by connection 1 after ASKING *)
Definition nv_conn_of (it : item) : option N := Some 0%N.
Definition nv_qerr (c : N) (a : argv) : option msg :=
  if N.eqb c 0 then
    if bytes_eqb (nth 1 a []) (bs "b") then Some (errmsg "MOVED 1 n1")
    else if bytes_eqb (nth 1 a []) (bs "c") then Some (errmsg "ASK 2 n1") else None
  else None.
Definition nv_redirect (r : rres) : redirect :=
  match res_error r with
  | Some (ERedis t) => if bytes_eqb t (bs "MOVED 1 n1") then RMoved 1 else if bytes_eqb t (bs "ASK 2 n1") then RAsk 1 else RNone
  | _ => RNone
  end.

Example C11_nonvacuous_cluster :
  cluster_do_multi_cache nv_conn_of
    (fun c items => do_multi_cache nv_lookup nv_srv (nv_qerr c) true true items)
    (fun c items => asking_multi_cache nv_srv (nv_qerr c) true items)
    nv_redirect 8 [] 0 [nv_get "a"; nv_get "b"; nv_get "c"; nv_get "h"; nv_get "b"]
  = Ok (inl (map new_result [nv_val "GETa"; nv_val "GETb"; nv_val "GETc"; nv_val "hit"; nv_val "GETb"])).
Proof. vm_compute. reflexivity. Qed.
