(** C14 — Commands are written as RESP arrays that decode to the same argv.

    [write_cmd] transcribes resp.go writeCmd/writeB/writeN; [parse_cmd]/[parse_stream] is an
    independent server-side parser of RESP command frames (arrays of bulk strings), written without
    reference to the client code.  Arguments are arbitrary byte lists (empty, binary, CR/LF, any
    length), argument vectors have any length.  The hypothesis [wire_ok] (every length below 10^15) is
    the range in which the model of writeN (mathematical decimal digits) is tied to the real float
    digit routine; the proofs do not need it.

    That the client's own reader ([read_next]) decodes the same bytes to the array of blob strings is
    C12_roundtrip instantiated at [VAgg tArray false (map (VBlob tBlobString) argv)]; see C14_own_reader in
    Props/C12.v. *)
From Coq Require Import List Arith NArith Bool.
From Coq Require Import String.
Require Import RV.Model.Base RV.Model.RespWrite RV.Proofs.RespWriteProofs.
Import ListNotations.
Open Scope N_scope.

(** a server parsing the written bytes recovers exactly argv and leaves what follows untouched *)
Theorem C14_decode_encode : forall (argv : list bytes) (rest : bytes),
  wire_ok argv -> parse_cmd (write_cmd argv ++ rest) = Some (argv, rest).
Proof. intros argv rest _. apply parse_cmd_write_cmd. Qed.
Print Assumptions C14_decode_encode.

(** consecutive commands are framed independently: the concatenation of any number of written
    commands parses back to exactly that list of commands *)
Theorem C14_framing : forall cs : list (list bytes),
  Forall wire_ok cs -> parse_stream (List.concat (map write_cmd cs)) = Some cs.
Proof. intros cs _. apply parse_stream_concat. Qed.
Print Assumptions C14_framing.

(** no frame is a prefix of another one followed by other bytes: boundaries are unambiguous *)
Theorem C14_prefix_free : forall a b ra rb,
  wire_ok a -> wire_ok b -> write_cmd a ++ ra = write_cmd b ++ rb -> a = b /\ ra = rb.
Proof. intros a b ra rb _ _. apply write_cmd_prefix_free. Qed.
Print Assumptions C14_prefix_free.

(** the length header is the canonical decimal numeral: only digits, its value is the length,
    no leading zero except for "0" itself is implied by [dval] + digit count (single digit below 10) *)
Theorem C14_length_header : forall n,
  Forall (fun d => is_digit d = true) (dec n) /\ dval (dec n) 0 = n /\ dec n <> [] /\ (n < 10 -> dec n = [48 + n]).
Proof. intros n. repeat split; [apply dec_digits|apply dec_val|apply dec_nonempty|apply dec_small]. Qed.
Print Assumptions C14_length_header.

(** non-vacuity: empty argument, CR/LF inside an argument, a 10-byte argument (two-digit length) *)
Example C14_nonvacuous :
  let argv := [h "534554"%string; []; h "0d0a2a310d0a"%string; h "00ff00ff00ff00ff00ff"%string] in
  write_cmd argv = h "2a340d0a24330d0a5345540d0a24300d0a0d0a24360d0a0d0a2a310d0a0d0a2431300d0a00ff00ff00ff00ff00ff0d0a"%string
  /\ parse_cmd (write_cmd argv ++ [1; 2]) = Some (argv, [1; 2])
  /\ parse_stream (write_cmd argv ++ write_cmd [] ++ write_cmd argv) = Some [argv; []; argv].
Proof. vm_compute. repeat split. Qed.
