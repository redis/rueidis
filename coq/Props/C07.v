(** C07 — Cached replies expire at the earlier of client and server TTL.

    Store level (lru.go, NewSimpleCacheAdapter) and reader glue (pipe.go _backgroundRead as
    Model/CacheWire.v).  Instants are in nanoseconds; [unix_milli] is Time.UnixMilli; the expiry field
    of a message keeps 56 bits ([trunc56]); [min_xat cx sx] is the rule of Update ("server side ttl
    should only shorten client side ttl"): cx when sx = 0 or cx < sx, else sx. *)
From Coq Require Import List NArith ZArith Bool.
Require Import RV.Model.Base RV.Model.Lru RV.Model.Adapter RV.Model.CacheKey RV.Model.CacheWire.
Require Import RV.Proofs.LruBase RV.Proofs.LruSteps RV.Proofs.LruAnswers RV.Proofs.LruHist
               RV.Proofs.AdapterProofs RV.Proofs.CacheKeyProofs.
Import ListNotations.
Open Scope Z_scope.

(** Every completed entry of every reachable store carries the expiry
      min_xat (UnixMilli(flight_now + ttl) mod 2^56) (server expiry of the committed reply)
    where (ttl, flight_now) are those of a lookup of that command in the history (the one that started
    the flight) and the reply is one handed to Update for that command. *)
Theorem C07_expiry : forall g ops e,
  Forall wf_op ops -> In e (order (run g ops init)) -> pending e = false ->
  exists ttl now v,
    (exists o, In o ops /\ requests o (ekey e) (ecmd e) ttl now) /\
    In (Update (ekey e) (ecmd e) v) ops /\
    m_xat (eval e) = min_xat (trunc56 (unix_milli (now + ttl))) (m_xat v).
Proof.
  intros g ops e Hw He Hp. destruct (origin_run g ops Hw e He) as [ttl [now [Hr Hrest]]]. rewrite Hp in Hrest.
  destruct Hrest as [u [v [Hu [Hv _]]]]. exists ttl, now, v. split; [exact Hr|]. split.
  - eapply nth_error_In. exact Hu.
  - rewrite Hv. apply m_xat_set.
Qed.
Print Assumptions C07_expiry.

(** the rule is "the earlier of the two, the client's when the server reports none" *)
Theorem C07_min_rule : forall cx sx, 0 <= sx -> min_xat cx sx = if sx =? 0 then cx else Z.min cx sx.
Proof. exact min_xat_spec. Qed.
Print Assumptions C07_min_rule.

(** the server expiry the reader attaches: arrival instant + PTTL when PTTL >= 0, none for -1 / -2
    (and none in the static-TTL form, where the reply is committed as read from the wire) *)
Theorem C07_wire_expiry : forall cx v p now,
  0 <= m_xat v ->
  let sv := with_pttl (set_mark v true) (m_intlen p) now in
  min_xat cx (m_xat sv) =
  if 0 <=? m_intlen p
  then (let sx := trunc56 (unix_milli (now + m_intlen p * 1000000)) in if sx =? 0 then cx else Z.min cx sx)
  else if m_xat v =? 0 then cx else Z.min cx (m_xat v).
Proof.
  intros cx v p now Hv sv. unfold sv. rewrite with_pttl_xat, m_xat_set_mark. destruct (0 <=? m_intlen p).
  - apply min_xat_spec. apply trunc56_range.
  - apply min_xat_spec. exact Hv.
Qed.
Print Assumptions C07_wire_expiry.

Theorem C07_wire_standard : forall c0 c1 c2 cmd c4 pre p v now k c,
  w_optin c0 = true -> w_static c4 = false -> w_mget cmd = false ->
  cache_key (w_scr cmd) (w_tokens cmd) = Ok (k, c) ->
  cache_wire [c0; c1; c2; cmd; c4] 4 (Msg 42 0 [] (pre ++ [p; v]) 0 false) now =
  Ok [SUpdate k c (with_pttl (set_mark v true) (m_intlen p) now)].
Proof. exact wire_standard. Qed.
Print Assumptions C07_wire_standard.

Theorem C07_wire_static : forall c0 cmd m now k c,
  w_static cmd = true -> cache_key (w_scr cmd) (w_tokens cmd) = Ok (k, c) ->
  cache_wire [c0; cmd] 1 m now = if is_redis_err m then Ok [SCancel k c m] else Ok [SUpdate k c (set_mark m true)].
Proof. intros c0 cmd m now k c Hs Hk. unfold cache_wire. cbn [nth_error]. rewrite Hs, Hk. reflexivity. Qed.
Print Assumptions C07_wire_static.

(** MGET / JSON.MGET form: member j of the reply is committed under key j of the command with the PTTL
    reply at the same position j (each key gets its own server expiry) *)
Theorem C07_wire_mget : forall s cc replies now msgs i,
  (forall j, (j < length msgs)%nat -> exists k p, nth_error s (S (i + j)) = Some k /\ nth_error replies (i + j) = Some p) ->
  exists l, mget_calls s cc replies msgs i now = Ok l /\ length l = length msgs /\
    forall j cp, nth_error msgs j = Some cp ->
      exists k p, nth_error s (S (i + j)) = Some k /\ nth_error replies (i + j) = Some p /\
                  nth_error l j = Some (SUpdate k cc (with_pttl (set_mark cp true) (m_intlen p) now)).
Proof. intros. apply mget_calls_spec. assumption. Qed.
Print Assumptions C07_wire_mget.

(** A completed entry is returned by Flight iff the instant is strictly before its expiry; at or after
    it the call is a miss (and starts a new flight). *)
Theorem C07_hit_iff : forall g ops k c ttl now e,
  Forall wf_op ops ->
  let s := run g ops init in
  In e (order s) -> kc e = (k, c) -> pending e = false ->
  (unix_milli now < m_xat (eval e) -> snd (step g s (Flight k c ttl now)) = OFlight (eval e) (Some (eid e))) /\
  (m_xat (eval e) <= unix_milli now -> snd (step g s (Flight k c ttl now)) = OFlight (pending_msg ttl now) None).
Proof.
  intros g ops k c ttl now e Hw s He Hk Hp. apply hit_iff; try assumption. apply inv_run; [exact Hw|apply inv_init].
Qed.
Print Assumptions C07_hit_iff.

(** No hit at or after the expiry, whichever operation (Flight, Flights, their critical sections)
    answers, in any history. *)
Theorem C07_no_hit_after_expiry : forall g ops o k c v,
  Forall wf_op ops -> In (AHit v) (answers k c o (snd (step g (run g ops init) o))) ->
  unix_milli (now_of o) < m_xat v.
Proof.
  intros g ops o k c v Hw H. destruct (step_hit g _ o k c v (inv_run g ops init Hw inv_init) H) as [e [_ [_ [_ [_ Hlt]]]]]. exact Hlt.
Qed.
Print Assumptions C07_no_hit_after_expiry.

(** Update reports the expiry it stored (pipe.go copies it into the reply handed to the caller), and
    CachePXAT / CachePTTL / CacheTTL report that same expiry. *)
Theorem C07_update_reports : forall g s k c v e,
  lookup k c (order s) = Some e -> pending e = true ->
  snd (step g s (Update k c v)) =
  OUpdate (min_xat (m_xat (eval e)) (m_xat v)) (Some (Rel (eid e) (set_xat v (min_xat (m_xat (eval e)) (m_xat v))))).
Proof. intros. apply update_reports; assumption. Qed.
Print Assumptions C07_update_reports.

Theorem C07_reports : forall m now,
  m_xat m <> 0 ->
  cache_pxat m = m_xat m /\
  cache_pttl m now = Z.max 0 (m_xat m - unix_milli now) /\
  cache_ttl m now = (if 0 <? cache_pttl m now then (cache_pttl m now + 999) / 1000 else cache_pttl m now).
Proof. intros m now H. split; [apply cache_pxat_spec; exact H|]. split; [apply cache_pttl_spec; exact H|apply cache_ttl_spec]. Qed.
Print Assumptions C07_reports.

(** the 56-bit expiry field holds every expiry in [0, 2^56) exactly *)
Theorem C07_expiry_encoding : forall x, (0 <= x < two56 -> trunc56 x = x) /\ 0 <= trunc56 x < two56.
Proof. intro x. split; [apply trunc56_id|apply trunc56_range]. Qed.
Print Assumptions C07_expiry_encoding.

(** NewSimpleCacheAdapter: same rule at Update (the flight's xat is UnixMilli(flight_now + ttl)), and a
    stored reply is served iff it is completed and the instant is before its expiry. *)
Theorem C07_adapter_expiry : forall s fl k c v ae,
  aflights s = Some fl -> flookup k c fl = Some (Some ae) ->
  let px := min_xat (axat ae) (m_xat v) in
  let v' := if (axat ae <? m_xat v) || (m_xat v =? 0) then set_xat v (trunc56 (axat ae)) else v in
  snd (aupdate s k c v) = AOUpdate px (Some (Rel (aid ae) v')) /\
  sget (k ++ c) (astore (fst (aupdate s k c v))) = v' /\
  (0 <= axat ae < two56 -> m_xat v' = px).
Proof.
  intros s fl k c v ae Hf Hl px v'. unfold aupdate. rewrite Hf, Hl. cbn [fst snd astore]. rewrite sget_sset.
  unfold px, v', min_xat. split; [reflexivity|]. split; [reflexivity|].
  intro Hr. destruct ((axat ae <? m_xat v) || (m_xat v =? 0)); [|reflexivity]. rewrite m_xat_set. apply trunc56_id. exact Hr.
Qed.
Print Assumptions C07_adapter_expiry.

Theorem C07_adapter_flight_xat : forall s fl k c ttl now,
  aflights s = Some fl -> a_live (sget (k ++ c) (astore s)) now = false ->
  (flookup k c fl = None \/ flookup k c fl = Some None) ->
  aslow s k c ttl now =
  (mkA (Some (fset k c (Some (mkAE (anext s) (unix_milli (now + ttl)))) fl)) (astore s) (N.succ (anext s)), AOFlight empty_msg None).
Proof. intros s fl k c ttl now Hf Hl Hm. unfold aslow. rewrite Hl, Hf. destruct Hm as [-> | ->]; reflexivity. Qed.
Print Assumptions C07_adapter_flight_xat.

Theorem C07_adapter_hit_iff : forall ops k c ttl now v,
  let s := arun ops ainit in
  In (SR (k ++ c) v) (astore s) -> is_pending_msg v = false ->
  (unix_milli now < m_xat v -> snd (astep s (AFlight k c ttl now)) = AOFlight v None) /\
  (m_xat v <= unix_milli now -> forall w ce, snd (astep s (AFlight k c ttl now)) = AOFlight w ce -> is_pending_msg w = true).
Proof. intros ops k c ttl now v s. apply a_hit_iff. apply ainv_run. Qed.
Print Assumptions C07_adapter_hit_iff.

(** non-vacuity: client TTL 100 ms from t = 5 ms, reply arrives at t = 20 ms with PTTL 30 ms: expiry 50 ms;
    hit at 49.9 ms, miss at 50 ms; with PTTL -1 the expiry is the client's 105 ms *)
Definition ex_g := mkCfg 100000 336 40.
Definition exk : bytes := [107%N]. Definition exc : bytes := [71%N].
Definition ex_reply (pttl : Z) := with_pttl (set_mark (Msg 36 0 [1%N] [] 0 false) true) pttl 20000000.
Definition ex_ops (pttl : Z) : list op := [Flight exk exc 100000000 5000000; Update exk exc (ex_reply pttl)].

Example C07_nonvacuous :
  map (fun e => m_xat (eval e)) (order (run ex_g (ex_ops 30) init)) = [50] /\
  map (fun e => m_xat (eval e)) (order (run ex_g (ex_ops (-1)) init)) = [105] /\
  answers exk exc (Flight exk exc 1 49999999) (snd (step ex_g (run ex_g (ex_ops 30) init) (Flight exk exc 1 49999999)))
    = [AHit (set_xat (ex_reply 30) 50)] /\
  answers exk exc (Flight exk exc 1 50000000) (snd (step ex_g (run ex_g (ex_ops 30) init) (Flight exk exc 1 50000000)))
    = [AMiss] /\
  cache_ttl (set_xat (ex_reply 30) 50) 48999999 = 1 /\ cache_pttl (set_xat (ex_reply 30) 50) 48999999 = 2.
Proof. repeat split; vm_compute; reflexivity. Qed.
