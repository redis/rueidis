(** C30 — Lua scripts run at most once per Exec.

    The model (Model/LuaExec.v) is Lua.Exec / Lua.ExecMulti against one node whose script cache can be
    flushed before any command and whose commands can fail before or after execution, with a script
    body that may reply anything (value or error).  [consistent o known] says that the Lua value is one
    the constructors can build (NoSha constructors take no options; a value without SHA-1 is NoSha or
    LoadSHA1).  All theorems hold for every environment ([envq]: an arbitrary list of per-command
    events, quiet when exhausted), every cache state and every earlier history ([x] is arbitrary).

    FULL STATEMENT of the first claim (not provable, the faithful model refutes it):
      forall o x tag, exists l, runs after (exec o x tag) = runs x ++ l /\ (l = [] \/ l = [tag]).
    It fails exactly through scripts whose OWN reply is an ERROR starting with "NOSCRIPT" (after an
    optional "ERR "): the client classifies error replies by that prefix (RedisError.IsNoScript), so an
    EVALSHA that ran such a body is followed by EVAL, which runs the body again.  The kind of a reply is
    explicit in the model: a NON-error reply (status, bulk, integer, array) whose text starts with
    NOSCRIPT never triggers the fallback ([C30_non_error_reply_never_falls_back]); the hypothesis of
    [C30_at_most_once_partial] excludes error bodies only, so such scripts run at most once.  Proved instead: [C30_at_most_once_refuted] (witness),
    [C30_at_most_once_characterised] (never more than twice; twice only if an un-faulted command's body
    replied NOSCRIPT) and [C30_at_most_once_partial] (at most once when no body replies NOSCRIPT — every
    script that does not fabricate that error, whatever the cache/fault behaviour). *)
From Coq Require Import List NArith Bool.
Require Import RV.Model.Base RV.Model.LuaExec RV.Proofs.LuaExecProofs.
Import ListNotations.
Open Scope N_scope.

Theorem C30_at_most_once_partial : forall (o : opts) (x : xstate) (tag : N),
  (forall e, In e (envq x) -> body e <> BErr ENoScript) ->
  exists l, runs (server (fst (exec o x tag))) = runs (server x) ++ l /\ (l = [] \/ l = [tag]).
Proof.
  intros o x tag Hno. destruct (exec_spec o x tag) as (_ & l & _ & _ & Hl & Hc). exists l. split; [exact Hl|].
  destruct Hc as [H|[H|(_ & e & Hin & Hb & _)]]; auto. exfalso. exact (Hno e Hin Hb).
Qed.
Print Assumptions C30_at_most_once_partial.

Theorem C30_at_most_once_refuted : exists (o : opts) (x : xstate) (tag : N),
  runs (server (fst (exec o x tag))) = runs (server x) ++ [tag; tag].
Proof.
  exists {| readonly := false; nosha := false; loadsha := false |},
         (init {| readonly := false; nosha := false; loadsha := false |} true
               [{| flush_before := false; flt := FNone; body := BErr ENoScript |}]), 7.
  vm_compute. reflexivity.
Qed.
Print Assumptions C30_at_most_once_refuted.

(** never more than twice, and twice ONLY via an un-faulted body whose reply is an ERROR with the NOSCRIPT prefix *)
Theorem C30_at_most_once_characterised : forall (o : opts) (x : xstate) (tag : N),
  exists l, runs (server (fst (exec o x tag))) = runs (server x) ++ l /\
    (l = [] \/ l = [tag] \/ l = [tag; tag]) /\
    (l = [tag; tag] -> exists e, In e (envq x) /\ body e = BErr ENoScript /\ flt e = FNone).
Proof.
  intros o x tag. destruct (exec_spec o x tag) as (_ & l & _ & _ & Hl & Hc). exists l. split; [exact Hl|]. split.
  - destruct Hc as [H|[H|[H _]]]; auto.
  - intros ->. destruct Hc as [H|[H|[_ H]]]; [discriminate H..|exact H].
Qed.
Print Assumptions C30_at_most_once_characterised.

(** the fallback test is "an ERROR reply with the NOSCRIPT prefix", nothing else *)
Theorem C30_noscript_is_an_error_reply : forall r, is_noscript r = true -> r = RErr ENoScript.
Proof. intros [v k|[]]; cbn; intros H; try discriminate; reflexivity. Qed.
Print Assumptions C30_noscript_is_an_error_reply.

(** a non-error reply to EVALSHA / EVALSHA_RO — whatever its text, "NOSCRIPT …" included — ends the call: no EVAL
    is sent, so the body does not run again *)
Theorem C30_non_error_reply_never_falls_back : forall (o : opts) (x : xstate) (tag : N), consistent o (known x) = true ->
  exists added, trace (fst (exec o x tag)) = trace x ++ added /\
    (forall p, In p added -> is_sha (fst (fst p)) = true -> is_ok (snd p) = true ->
       forall q, In q added -> fst (fst q) <> eval_cmd o).
Proof.
  intros o x tag Hc. destruct (exec_spec o x tag) as (added & _ & Ht & Hl & _). exists added. split; [exact Ht|].
  intros p Hp Hs Hok q Hq Heq.
  assert (H1 : existsb (fun p => is_sha (ckind p) && is_ok (crep p)) added = true).
  { apply existsb_exists. exists p. split; [exact Hp|]. unfold ckind, crep. rewrite Hs, Hok. reflexivity. }
  assert (H2 : existsb (fun p => cmdk_eqb (ckind p) (eval_cmd o)) added = true).
  { apply existsb_exists. exists q. split; [exact Hq|]. unfold ckind. rewrite Heq. destruct (eval_cmd o); reflexivity. }
  rewrite (ladder_no_fallback _ _ _ _ _ _ Hl H1) in H2. discriminate H2.
Qed.
Print Assumptions C30_non_error_reply_never_falls_back.

(** the decision tree: the commands one Exec sends form  [SCRIPT LOAD]? (EVAL | EVALSHA | EVALSHA EVAL),
    EVAL follows EVALSHA only after a NOSCRIPT reply, SCRIPT LOAD is sent iff LoadSHA1 is on and the SHA-1 is
    still unknown, a failed load ends the call with that error; all commands carry this call's keys/args *)
Theorem C30_decision_tree : forall (o : opts) (x : xstate) (tag : N), consistent o (known x) = true ->
  exists added, trace (fst (exec o x tag)) = trace x ++ added /\
    shape_b o (known x) tag added (snd (exec o x tag)) (known (fst (exec o x tag))) = true.
Proof.
  intros o x tag Hc. destruct (exec_spec o x tag) as (added & _ & Ht & Hl & _). exists added. split; [exact Ht|].
  exact (ladder_shape _ _ _ _ _ _ Hc Hl).
Qed.
Print Assumptions C30_decision_tree.

Theorem C30_nosha : forall (o : opts) (x : xstate) (tag : N), consistent o (known x) = true -> nosha o = true ->
  exists added, trace (fst (exec o x tag)) = trace x ++ added /\
    Forall (fun p => fst (fst p) = eval_cmd o) added.
Proof.
  intros o x tag Hc Hn. destruct (exec_spec o x tag) as (added & _ & Ht & Hl & _). exists added. split; [exact Ht|].
  assert (El0 : loadsha o && negb (known x) = false) by (unfold consistent in Hc; rewrite Hn in Hc; destruct (loadsha o); [discriminate Hc|reflexivity]).
  destruct Hl as [added r _ Ha|r El _|r0 added r El _ _]; [|congruence..].
  destruct Ha as [r _|r Hn' _ _|r Hn' _|Hn' _]; [repeat constructor|congruence..].
Qed.
Print Assumptions C30_nosha.

Theorem C30_ro_only : forall (o : opts) (x : xstate) (tag : N), consistent o (known x) = true ->
  exists added, trace (fst (exec o x tag)) = trace x ++ added /\
    Forall (fun p => is_load (fst (fst p)) = false -> is_ro (fst (fst p)) = readonly o) added.
Proof.
  intros o x tag Hc. destruct (exec_spec o x tag) as (added & _ & Ht & Hl & _). exists added. split; [exact Ht|].
  assert (He : is_ro (eval_cmd o) = readonly o) by (unfold eval_cmd; destruct (readonly o); reflexivity).
  assert (Hs : is_ro (sha_cmd o) = readonly o) by (unfold sha_cmd; destruct (readonly o); reflexivity).
  destruct Hl as [added r _ Ha|r _ _|r0 added r _ _ Ha]; try destruct Ha; repeat constructor; cbn [fst];
  intros Hld; first [discriminate Hld|assumption].
Qed.
Print Assumptions C30_ro_only.

(** retry class: every command one Exec issues carries the retryable tag [issue_flag] assigns to its kind — a function
    of the script's constructor and the command kind only.  In particular the EVAL / EVAL_RO sent after a NOSCRIPT
    reply has exactly the class of the EVALSHA / EVALSHA_RO before it (the script's class, no class of its own), and
    for a script that is neither retryable nor read-only no EVAL-family command may be re-sent by the client's retry
    loop — so a lost reply of the fallback EVAL cannot make the body run again. *)
Theorem C30_fallback_keeps_retry_class : forall (o : opts) (rt : bool),
  issue_flag rt (eval_cmd o) = issue_flag rt (sha_cmd o)
  /\ (rt = false -> readonly o = false ->
      resend_allowed rt (eval_cmd o) = false /\ resend_allowed rt (sha_cmd o) = false)
  /\ forall (x : xstate) (tag : N), consistent o (known x) = true ->
      exists added, trace (fst (exec o x tag)) = trace x ++ added /\
        Forall (fun p => is_load (fst (fst p)) = false ->
                  issue_flag rt (fst (fst p)) = (rt || readonly o)) added.
Proof.
  intros o rt. split; [destruct o as [[] ns ls]; reflexivity|]. split.
  - intros -> Hro. destruct o as [ro ns ls]. cbn in Hro. subst ro. split; reflexivity.
  - intros x tag Hc. destruct (C30_ro_only o x tag Hc) as [added [Ht Hall]]. exists added. split; [exact Ht|].
    apply Forall_forall. intros p Hp Hl. rewrite Forall_forall in Hall. specialize (Hall p Hp Hl).
    destruct (fst (fst p)), (readonly o), rt; cbn in *; try discriminate; reflexivity.
Qed.
Print Assumptions C30_fallback_keeps_retry_class.


(** WithLoadSHA1: over any history of Exec/ExecMulti from a fresh Lua value, the SHA-1 is known exactly
    when some SCRIPT LOAD has succeeded, it stays known, and an Exec sends SCRIPT LOAD iff it is unknown —
    so Exec asks for the SHA-1 only until the first success *)
Theorem C30_load_until_success : forall (o : opts) (cached0 : bool) (env : list env_step) (ps : list lop),
  loadsha o = true -> nosha o = false ->
  let x := fst (lrun o (init o cached0 env) ps) in
  known x = existsb load_ok (trace x)
  /\ (forall ps', known x = true -> known (fst (lrun o x ps')) = true)
  /\ (forall tag, exists added, trace (fst (exec o x tag)) = trace x ++ added /\
        (existsb (fun p => is_load (fst (fst p))) added = negb (known x))).
Proof.
  intros o cached0 env ps Hls Hn x.
  assert (Hc0 : consistent o (known (init o cached0 env)) = true).
  { unfold consistent, init, sha_initially. cbn [known]. rewrite Hls, Hn. reflexivity. }
  assert (Hi0 : known (init o cached0 env) = existsb load_ok (trace (init o cached0 env))).
  { unfold init, sha_initially. cbn [known trace existsb]. rewrite Hls, Hn. reflexivity. }
  pose proof (lrun_known o ps (init o cached0 env) Hc0 Hi0) as [Hc [Hk _]]. fold x in Hc, Hk.
  split; [exact Hk|]. split.
  - intros ps' Hx. exact (proj2 (proj2 (lrun_known o ps' x Hc Hk)) Hx).
  - intros tag. destruct (exec_spec o x tag) as (added & _ & Ht & Hl & _). exists added. split; [exact Ht|].
    destruct (ladder_loads _ _ _ _ _ _ Hl) as [H _]. rewrite Hls in H. exact H.
Qed.
Print Assumptions C30_load_until_success.

(** ExecMulti: one result per LuaExec, in order (the i-th result is the reply to the command that carries the
    i-th LuaExec's keys and args); every body runs at most once and in order; a failed SCRIPT LOAD gives
    every LuaExec that error and runs nothing; NoSha scripts use EVAL only, the others EVALSHA after SCRIPT LOAD *)
Theorem C30_multi_positional : forall (o : opts) (x : xstate) (tags : list N), consistent o (known x) = true ->
  let x' := fst (exec_multi o x tags) in
  let rs := snd (exec_multi o x tags) in
  length rs = length tags /\
  ((exists r, nosha o = false /\ is_ok r = false /\ trace x' = trace x ++ [(CScriptLoad, 0, r)] /\
              rs = map (fun _ => r) tags /\ runs (server x') = runs (server x) /\ known x' = known x)
   \/
   (exists pre c,
      ((nosha o = true /\ pre = [] /\ c = eval_cmd o /\ known x' = known x) \/
       (nosha o = false /\ c = sha_cmd o /\ known x' = true /\ exists r, is_ok r = true /\ pre = [(CScriptLoad, 0, r)])) /\
      trace x' = trace x ++ pre ++ map (fun p => (c, fst p, snd p)) (combine tags rs) /\
      exists l, runs (server x') = runs (server x) ++ l /\ subseq l tags)).
Proof.
  intros o x tags Hc. rewrite (exec_multi_eq o x tags Hc). destruct (nosha o) eqn:Hn.
  - destruct (send_all_spec tags x (eval_cmd o)) as (Hl & Hk & Ht & Hr).
    split; [exact Hl|]. right. exists [], (eval_cmd o). split; [left; auto|]. split; [exact Ht|exact Hr].
  - destruct (send x CScriptLoad 0) as [x1 r] eqn:E. destruct (send_load _ _ _ E) as (Hk & _ & Ht & Hrun).
    destruct (is_ok r) eqn:Hok.
    + destruct (send_all_spec tags (learn x1) (sha_cmd o)) as (Hl & Hk2 & Ht2 & l & Hr2 & Hs).
      cbn [learn known trace server] in Hk2, Ht2, Hr2. rewrite Ht, <- app_assoc in Ht2. rewrite Hrun in Hr2.
      split; [exact Hl|]. right. exists [(CScriptLoad, 0, r)], (sha_cmd o).
      split; [right; eauto 8|]. split; [exact Ht2|]. exists l. auto.
    + cbn [fst snd]. split; [apply map_length|]. left. exists r. auto 8.
Qed.
Print Assumptions C30_multi_positional.

(** non-vacuity of the reply-kind distinction: a cached script whose SUCCESSFUL reply is the text "NOSCRIPT …" runs once,
    one EVALSHA is sent, and the caller gets that text *)
Example C30_nonvacuous_text :
  let o := {| readonly := false; nosha := false; loadsha := false |} in
  let x := init o true [{| flush_before := false; flt := FNone; body := BRet KNoScriptText |}] in
  map fst (trace (fst (exec o x 5))) = [(CEvalsha, 5)] /\ runs (server (fst (exec o x 5))) = [5]
  /\ snd (exec o x 5) = ROk 5 KNoScriptText.
Proof. vm_compute. repeat split; reflexivity. Qed.

(** non-vacuity: NOSCRIPT fallback after a flush, a LoadSHA1 history with a failing first load, ExecMulti *)
Example C30_nonvacuous :
  let o := {| readonly := false; nosha := false; loadsha := false |} in
  let x := init o true [{| flush_before := true; flt := FNone; body := BRet KPlain |}] in
  map fst (trace (fst (exec o x 5))) = [(CEvalsha, 5); (CEval, 5)] /\ runs (server (fst (exec o x 5))) = [5]
  /\
  (let o2 := {| readonly := true; nosha := false; loadsha := true |} in
   let env := [{| flush_before := false; flt := FReject ERedis; body := BRet KPlain |}] in
   let '(x2, vs) := lrun o2 (init o2 false env) [LExec 1; LExec 2; LMulti [3; 4]; LExec 5] in
   map fst (trace x2) = [(CScriptLoad, 0); (CScriptLoad, 0); (CEvalshaRo, 2); (CScriptLoad, 0); (CEvalshaRo, 3); (CEvalshaRo, 4); (CEvalshaRo, 5)]
   /\ vs = [OOne (RErr ERedis); OOne (ROk 2 KPlain); OMany [ROk 3 KPlain; ROk 4 KPlain]; OOne (ROk 5 KPlain)] /\ runs (server x2) = [2; 3; 4; 5]).
Proof. vm_compute. repeat split; reflexivity. Qed.
