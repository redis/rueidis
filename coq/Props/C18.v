(** C18 — Key slots follow the Redis Cluster hash-slot specification.

    "The slot of every built command equals CRC16-XMODEM of its key's hash tag (the text between the
    first '{' and the next '}', when non-empty, otherwise the whole key) modulo 16384.  Commands whose
    keys fall in different slots are rejected when built by a cluster client and accepted by
    non-cluster builders."

    [crc16tab] is regenerated from internal/cmds/slot.go on every run (Gen/Crc16Tab.v) and
    [C18_table] is re-proved on it by the kernel; everything else is proved once, for all byte strings
    and all sequences of key-carrying builder calls.  Bytes are [N] below 256. *)
From Coq Require Import String.
From Coq Require Import List Arith NArith Bool.
Require Import RV.Model.Base RV.Model.Slot RV.Gen.Crc16Tab RV.Model.SlotGen. (* SlotGen: as BuilderGen below *)
Require Import RV.Proofs.SlotProofs.
Require Import RV.Model.BuilderGraph RV.Model.BuilderSem RV.Model.BuilderChecks RV.Gen.Builders.
Require Import RV.Proofs.BuilderProofs RV.Proofs.BuilderGenProofs.
Require Import RV.Model.BuilderGen. (* not used below: required so that building this file also rebuilds the observer's checker *)
Import ListNotations.
Open Scope N_scope.

Definition is_bytes (k : bytes) : Prop := Forall (fun b => b < 256) k.

(** every entry of the table in slot.go is the bit-by-bit CRC16-XMODEM of its index *)
Theorem C18_table : length crc16tab = 256%nat /\
  forall i, i < 256 -> nth (N.to_nat i) crc16tab 0 = crc16_bitwise [i].
Proof.
  split; [reflexivity|].
  intros i Hi. rewrite crc16_bitwise_single. apply gen_table_ok, Hi.
Qed.
Print Assumptions C18_table.

(** the table-driven loop of crc16() computes CRC16-XMODEM of any byte string *)
Theorem C18_crc : forall bs, is_bytes bs -> crc16_tab crc16tab bs = crc16_bitwise bs.
Proof. exact (crc16_tab_bitwise crc16tab gen_table_ok). Qed.
Print Assumptions C18_crc.

(** hash tag law, for the loops of slot(): first '{', next '}', non-empty ... *)
Theorem C18_hashtag_tagged : forall pre tag post,
  ~ In 123 pre -> ~ In 125 tag -> tag <> [] ->
  hashtag (pre ++ 123 :: tag ++ 125 :: post) = tag.
Proof. intros. rewrite hashtag_eq_spec. now apply hashtag_spec_tagged. Qed.
Print Assumptions C18_hashtag_tagged.

(** ... otherwise the whole key (no '{', or no '}' after the first '{', or nothing between them) *)
Theorem C18_hashtag_whole : forall k,
  (forall pre tag post, k = pre ++ 123 :: tag ++ 125 :: post -> ~ In 123 pre -> ~ In 125 tag -> tag = []) ->
  hashtag k = k.
Proof. intros. rewrite hashtag_eq_spec. now apply hashtag_spec_whole. Qed.
Print Assumptions C18_hashtag_whole.

(** cmds.Slot(k) = CRC16-XMODEM(hash tag of k) mod 16384, for every byte string *)
Theorem C18_slot : forall k, is_bytes k ->
  slot crc16tab k = crc16_bitwise (hashtag_spec k) mod 16384.
Proof. exact (slot_eq_spec crc16tab gen_table_ok). Qed.
Print Assumptions C18_slot.

(** Cluster builders (NewBuilder(InitSlot)): for every sequence of key-carrying builder calls
    (single-key parameters and variadic key parameters in any mix), building panics exactly when two
    keys are in different slots ... *)
Theorem C18_cross_slot_rejected : forall es,
  ks_run crc16tab InitSlot es = Panic <-> ~ same_slot crc16tab (all_keys es).
Proof.
  intros es. destruct (cluster_build crc16tab es) as [A B]. split; [|exact B].
  intros HP S. rewrite (A S) in HP. discriminate.
Qed.
Print Assumptions C18_cross_slot_rejected.

(** ... and otherwise succeeds with Slot() = the CRC16-XMODEM slot of every one of its keys. *)
Theorem C18_cross_slot_accepted : forall es,
  same_slot crc16tab (all_keys es) ->
  exists s, ks_run crc16tab InitSlot es = Ok s /\
            (all_keys es = [] -> s = InitSlot) /\
            (forall k, In k (all_keys es) -> is_bytes k -> s = slot_spec k).
Proof.
  intros es S. destruct (cluster_build crc16tab es) as [A _]. specialize (A S).
  exists (match all_keys es with [] => InitSlot | k :: _ => slot crc16tab k end).
  split; [exact A|]. split.
  - intros E. now rewrite E.
  - intros k Hk Hb. rewrite <- (slot_eq_spec crc16tab gen_table_ok k Hb).
    unfold same_slot in S.
    destruct (all_keys es) as [|k0 l]; [destruct Hk|].
    apply S; [now left|exact Hk].
Qed.
Print Assumptions C18_cross_slot_accepted.

(** Non-cluster builders (NewBuilder(NoSlot)) accept every key combination; Slot() carries the NoSlot
    mark and the slot of the first key of the last key-carrying call. *)
Theorem C18_noslot_builder_accepts : forall es,
  ks_run crc16tab NoSlot es =
  Ok (match deciding_key es None with None => NoSlot | Some k => N.lor NoSlot (slot crc16tab k) end).
Proof. exact (noslot_build crc16tab). Qed.
Print Assumptions C18_noslot_builder_accepts.

Theorem C18_noslot_slot_value : forall es k, deciding_key es None = Some k -> is_bytes k ->
  ks_run crc16tab NoSlot es = Ok (N.lor NoSlot (slot_spec k)).
Proof.
  intros es k Hd Hb. rewrite C18_noslot_builder_accepts, Hd.
  now rewrite (slot_eq_spec crc16tab gen_table_ok k Hb).
Qed.
Print Assumptions C18_noslot_slot_value.

(** Via the builder graph regenerated from internal/cmds/gen_*.go: every parameter of every builder method that
    the Redis command tables (hack/cmds/*.json) type as a key has a key-slot statement in that method. *)
Theorem C18_key_methods : forall nd e i,
  In nd (g_nodes builders) -> In e (n_edges nd) -> In i (e_keydecl e) ->
  exists o, In o (e_ks e) /\ ks_param o = i.
Proof.
  intros nd e i Hn He Hi.
  pose proof (graph_keys_ok_edge builders e gen_graph_keys_ok (ex_intro _ nd (conj Hn He))) as H.
  unfold edge_keys_ok in H. rewrite forallb_forall in H. specialize (H i Hi).
  apply existsb_exists in H. destruct H as (o & Ho & Heq). apply N.eqb_eq in Heq. eauto.
Qed.
Print Assumptions C18_key_methods.

(** ... and the slot of a command built along any path of that graph is [ks_run] over the key events of its
    calls, so the three theorems above apply to every generated builder: a cluster-built path panics exactly
    on a cross-slot key and otherwise carries the slot of every key. *)
Theorem C18_built_slot : forall fe init rn r ss st,
  find_root rn roots = Some r ->
  run_path builders crc16tab fe init rn ss = Ok st ->
  exists tr, resolve builders (r_node r) ss = Some tr /\ ks_run crc16tab init (path_events tr) = Ok (b_ks st).
Proof. intros fe init rn r ss st Hr Hrun. exact (path_slot builders crc16tab fe init rn ss st r Hr Hrun). Qed.
Print Assumptions C18_built_slot.

Theorem C18_built_cluster_slot : forall fe rn r ss st,
  find_root rn roots = Some r ->
  run_path builders crc16tab fe InitSlot rn ss = Ok st ->
  exists tr, resolve builders (r_node r) ss = Some tr /\
    same_slot crc16tab (all_keys (path_events tr)) /\
    forall k, In k (all_keys (path_events tr)) -> is_bytes k -> b_ks st = slot_spec k.
Proof.
  intros fe rn r ss st Hr Hrun.
  destruct (path_slot builders crc16tab fe InitSlot rn ss st r Hr Hrun) as (tr & Hres & Hks).
  exists tr. split; [exact Hres|].
  destruct (same_slot_dec crc16tab (all_keys (path_events tr))) as [S|S].
  - split; [exact S|]. destruct (C18_cross_slot_accepted _ S) as (s & Hs & _ & Hall).
    rewrite Hks in Hs. inversion Hs; subst s. exact Hall.
  - apply C18_cross_slot_rejected in S. rewrite Hks in S. discriminate.
Qed.
Print Assumptions C18_built_cluster_slot.

Theorem C18_built_panic_is_cross_slot : forall fe rn r ss,
  find_root rn roots = Some r ->
  run_path builders crc16tab fe InitSlot rn ss = Panic ->
  exists k tr, resolve builders (r_node r) (firstn k ss) = Some tr /\ ~ same_slot crc16tab (all_keys (path_events tr)).
Proof.
  intros fe rn r ss Hr Hrun.
  destruct (path_panic builders crc16tab fe InitSlot rn ss r Hr Hrun) as (k & tr & Hres & Hp).
  exists k, tr. split; [exact Hres|]. now apply C18_cross_slot_rejected.
Qed.
Print Assumptions C18_built_panic_is_cross_slot.

(** non-vacuity: the standard check value; tagged keys share a slot and build; untagged ones are
    rejected by the cluster builder and accepted by the plain one *)
Example C18_nonvacuous_crc : crc16_bitwise (h "313233343536373839"%string) = 0x31C3
  /\ slot crc16tab (h "7b757365727d3a31"%string) = slot crc16tab (h "757365727b757365727d"%string)
  /\ slot crc16tab (h "666f6f"%string) = 12182.
Proof. vm_compute. repeat split. Qed.

Example C18_nonvacuous_cross :
  ks_run crc16tab InitSlot [KOne (h "7b617d31"%string); KMany [h "7b617d32"%string; h "787b617d"%string]] = Ok 15495
  /\ ks_run crc16tab InitSlot [KOne (h "61"%string); KMany [h "61"%string; h "62"%string]] = Panic
  /\ ks_run crc16tab NoSlot [KOne (h "61"%string); KMany [h "61"%string; h "62"%string]] = Ok (32768 + 15495).
Proof. vm_compute. repeat split. Qed.
