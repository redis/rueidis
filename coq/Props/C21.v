(** C21 — Commands reach replicas only when the caller opts in.

    Objects: [standalone_route] / [standalone_route_multi] / [standalone_pick] and [sentinel_pick] /
    [sentinel_pick_multi] (Model/Replica.v: standalone.go, sentinel.go), [rebuild] / [pick_slot]
    (Model/ClusterTopo.v: cluster.go _refresh, _pick), over all predicates (their answers are inputs),
    selector results, random draws and topologies. *)
From Coq Require Import List Arith NArith ZArith Bool Lia.
Require Import RV.Model.Base RV.Model.ClusterTopo RV.Model.Replica.
Require Import RV.Proofs.ClusterTopoProofs.
Import ListNotations.
Open Scope Z_scope.

(** the same for every entry point of the Client interface: Do, DoStream, Receive ask for the command;
    DoMulti, DoMultiStream for every command of the batch; standalone DoCache / DoMultiCache /
    Dedicated and sentinel Dedicated (unless ReplicaOnly) never leave the primary *)
Theorem C21_entry_points :
  (forall e has_str optins has_sel sel nnodes nrep rnd i,
      standalone_entry e has_str optins has_sel sel nnodes nrep rnd = Ok (DReplica i) ->
      has_str = true /\
      match e with
      | EDo | EDoStream | EReceive => hd false optins = true
      | EDoMulti | EDoMultiStream => forall b, In b optins -> b = true
      | _ => False
      end) /\
  (forall e replica_only has_str optins,
      sentinel_entry e replica_only has_str optins = SReplica ->
      replica_only = true \/
      (has_str = true /\
       match e with
       | EDo | EDoCache | EDoStream | EReceive => hd false optins = true
       | EDoMulti | EDoMultiCache | EDoMultiStream => forall b, In b optins -> b = true
       | EDedicated => False
       end)).
Proof.
  split.
  - intros e has_str optins has_sel sel nnodes nrep rnd i H.
    (* every standalone entry point is [if guard then standalone_pick … else Ok DPrimary], or the primary outright *)
    assert (G : forall (g : bool) x, (if g then x else Ok DPrimary) = Ok (DReplica i) -> g = true)
      by (intros [] x; [reflexivity|discriminate]).
    destruct e; cbn [standalone_entry] in H; try discriminate; unfold standalone_route, standalone_route_multi in H;
      apply G in H; rewrite !andb_true_iff in H; try exact H;
      destruct H as [[H1 H2] _]; (split; [exact H1|]); intros b Hb; rewrite forallb_forall in H2; now apply H2.
  - intros e replica_only has_str optins H. destruct replica_only; [now left|right].
    destruct e; cbn [sentinel_entry sentinel_pick sentinel_pick_multi] in H; destruct has_str; try discriminate;
      (split; [reflexivity|]); try (destruct (hd false optins); [reflexivity|discriminate]);
      destruct (forallb (fun b => b) optins) eqn:E; try discriminate; intros b Hb; rewrite forallb_forall in E; now apply E.
Qed.
Print Assumptions C21_entry_points.

(** in particular a replica destination implies the opt-in: SendToReplicas configured and true for the command —
    for non-cluster batches for every command of the batch — or a ReplicaOnly client *)
Theorem C21_replica_implies_optin :
  (forall has_str optin has_sel sel nnodes nrep rnd i,
      standalone_route has_str optin has_sel sel nnodes nrep rnd = Ok (DReplica i) -> has_str = true /\ optin = true) /\
  (forall has_str optins has_sel sel nnodes nrep rnd i,
      standalone_route_multi has_str optins has_sel sel nnodes nrep rnd = Ok (DReplica i) ->
      has_str = true /\ forall b, In b optins -> b = true) /\
  (forall replica_only has_str optin,
      sentinel_pick replica_only has_str optin = SReplica -> replica_only = true \/ (has_str = true /\ optin = true)) /\
  (forall replica_only has_str optins,
      sentinel_pick_multi replica_only has_str optins = SReplica ->
      replica_only = true \/ (has_str = true /\ forall b, In b optins -> b = true)).
Proof.
  destruct C21_entry_points as [S T]. split; [|split; [|split]].
  - intros has_str optin has_sel sel nnodes nrep rnd i. exact (S EDo has_str [optin] has_sel sel nnodes nrep rnd i).
  - intros has_str optins has_sel sel nnodes nrep rnd i. exact (S EDoMulti has_str optins has_sel sel nnodes nrep rnd i).
  - intros replica_only has_str optin. exact (T EDo replica_only has_str [optin]).
  - intros replica_only has_str optins. exact (T EDoMulti replica_only has_str optins).
Qed.
Print Assumptions C21_replica_implies_optin.

(** cluster DoMultiStream streams one batch to one node: a single command of the batch for which
    SendToReplicas is false — keyed or without key slot, first, in the middle or last — keeps the
    batch on the write table (the primary of the slot's shard by C21_cluster_primary_without_optin) *)
Theorem C21_cluster_multistream : forall t has_str cs nsel d,
  (has_str = false \/ exists c, In c cs /\ b_replica c = false) ->
  cluster_multistream t has_str cs nsel = Ok d ->
  exists slot, d = cluster_pick t slot false nsel /\
               match slot with Some s => d = CNode (tb_w t s) | None => d = CAny end.
Proof.
  intros t has_str cs nsel d Hn. unfold cluster_multistream. destruct cs as [|c0 r]; [discriminate|].
  assert (E : has_str && forallb b_replica (c0 :: r) = false).
  { destruct Hn as [->|[c [Hin Hc]]]; [reflexivity|]. apply andb_false_iff. right.
    destruct (forallb b_replica (c0 :: r)) eqn:F; [|reflexivity]. rewrite forallb_forall in F. rewrite (F c Hin) in Hc. discriminate. }
  rewrite E.
  destruct (stream_slot r (b_slot c0)) as [slot| |]; try discriminate. intro H; injection H as <-.
  exists slot. split; [reflexivity|]. destruct slot; reflexivity.
Qed.
Print Assumptions C21_cluster_multistream.

(** cluster Do / DoCache / DoStream / Receive / Dedicated: without opt-in (Dedicated: always) a keyed
    command goes to the write table.  A command without key slot goes to an arbitrary connection of
    the client ([CAny]) — see the known finding cluster.go:_pick / keyless-command-any-node *)
Theorem C21_cluster_entry_single : forall e t has_str c nsel,
  (e = EDedicated \/ has_str = false \/ b_replica c = false) ->
  cluster_entry_single e t has_str c nsel = match b_slot c with Some s => CNode (tb_w t s) | None => CAny end.
Proof.
  intros e t has_str c nsel H. unfold cluster_entry_single, cluster_pick.
  assert (E : (match e with EDedicated => false | _ => has_str && b_replica c end) = false).
  { destruct H as [->|[->|Hc]]; [reflexivity|destruct e; reflexivity|rewrite Hc, andb_false_r; destruct e; reflexivity]. }
  destruct (b_slot c) as [s|]; [|destruct e; reflexivity].
  destruct e; cbn in E |- *; try rewrite E; reflexivity.
Qed.
Print Assumptions C21_cluster_entry_single.

(** cluster: a command that did not opt in, on a client that is not ReplicaOnly, goes to the primary
    of the shard that lists its slot — for every topology, in every iteration order of the groups *)
Theorem C21_cluster_primary_without_optin : forall c gs t s nsel,
  rebuild c gs = Ok t -> t_kind c <> CfgReplicaOnly ->
  pick_slot t s false nsel = match last_owner gs s with Some g => primary g | None => None end.
Proof. intros c gs t s nsel R Hk. rewrite (rebuild_ok _ _ _ R). exact (wslot_default c gs s Hk). Qed.
Print Assumptions C21_cluster_primary_without_optin.

(** cluster: with opt-in (or ReplicaOnly) the destination is a node of the shard that lists the slot;
    ReplicaOnly picks a replica whenever the shard has one *)
Theorem C21_cluster_optin_in_shard : forall c gs t s nsel a g,
  rebuild c gs = Ok t -> last_owner gs s = Some g -> pick_slot t s true nsel = Some a -> In a (g_nodes g).
Proof. intros c gs t s nsel a g. exact (pick_slot_in_shard c gs t s true nsel a g). Qed.
Print Assumptions C21_cluster_optin_in_shard.

Theorem C21_cluster_replicaonly : forall c gs t s nsel to_replica a g,
  rebuild c gs = Ok t -> t_kind c = CfgReplicaOnly -> last_owner gs s = Some g ->
  pick_slot t s to_replica nsel = Some a ->
  match g_nodes g with
  | _ :: ((_ :: _) as reps) => In a reps
  | [p] => a = p
  | [] => False
  end.
Proof.
  intros c gs t s nsel to_replica a g R Hk Ho. rewrite (rebuild_ok _ _ _ R). unfold pick_slot. cbn [tb_rinit].
  unfold rslots_init. rewrite Hk. rewrite andb_false_r. cbn [tb_w]. unfold wslot. rewrite Ho, Hk.
  destruct (g_nodes g) as [|p [|x reps]]; [discriminate|intro H; now inversion H|].
  intro H. eapply nth_error_In; eauto.
Qed.
Print Assumptions C21_cluster_replicaonly.

(** a node-selector result outside the candidate list falls back to the primary *)
Theorem C21_selector_out_of_range_falls_back :
  (forall sel nnodes nrep rnd,
      sel < 0 \/ Z.of_nat nnodes <= sel -> standalone_pick true sel nnodes nrep rnd = Ok DPrimary) /\
  (forall c gs s g p reps,
      t_kind c = CfgReplicaSelector -> last_owner gs s = Some g -> g_nodes g = p :: reps ->
      (t_rsel c s reps < 0 \/ Z.of_nat (length reps) <= t_rsel c s reps) -> rslot c gs s = [p]) /\
  (forall c gs t s nsel g p reps,
      rebuild c gs = Ok t -> t_kind c = CfgReadNodeSelector -> last_owner gs s = Some g -> g_nodes g = p :: reps ->
      (nsel < 0 \/ Z.of_nat (length (p :: reps)) <= nsel) -> pick_slot t s true nsel = Some p).
Proof.
  split; [|split].
  - intros sel nnodes nrep rnd.
    intro H. unfold standalone_pick.
    assert ((sel <? 0) || (Z.of_nat nnodes <=? sel) = true) as ->.
    { apply orb_true_iff. destruct H; [left; now apply Z.ltb_lt|right; now apply Z.leb_le]. }
    reflexivity.
  - intros c gs s g p reps.
    intros Hk Ho Hn Hr. unfold rslot. rewrite Hk, Ho, Hn. destruct reps as [|x r]; [reflexivity|].
    assert ((0 <=? t_rsel c s (x :: r)) && (t_rsel c s (x :: r) <? Z.of_nat (length (x :: r))) = false) as ->; [|reflexivity].
    apply andb_false_iff. destruct Hr; [left; now apply Z.leb_gt|right; now apply Z.ltb_ge].
  - intros c gs t s nsel g p reps.
    intros R Hk Ho Hn Hr. rewrite (rebuild_ok _ _ _ R). unfold pick_slot.
    cbn [tb_rinit tb_r tb_readsel]. unfold rslots_init, rslot. rewrite Hk, Ho, Hn.
    assert (gs <> []) by (intro E; subst; discriminate). destruct gs; [congruence|]. cbn [negb andb].
    assert ((nsel <? 0) || (Z.of_nat (length (p :: reps)) <=? nsel) = true) as ->.
    { apply orb_true_iff. destruct Hr; [left; now apply Z.ltb_lt|right; now apply Z.leb_le]. }
    reflexivity.
Qed.
Print Assumptions C21_selector_out_of_range_falls_back.

(** … and one inside it is honoured *)
Theorem C21_selector_in_range :
  (forall sel nnodes nrep rnd, 0 < sel < Z.of_nat nnodes -> nnodes = S nrep ->
      standalone_pick true sel nnodes nrep rnd = Ok (DReplica (Z.to_nat sel - 1))) /\
  (forall c gs s g p reps a,
      t_kind c = CfgReplicaSelector -> last_owner gs s = Some g -> g_nodes g = p :: reps -> reps <> [] ->
      0 <= t_rsel c s reps < Z.of_nat (length reps) -> nth_error reps (Z.to_nat (t_rsel c s reps)) = Some a ->
      rslot c gs s = [a]).
Proof.
  split.
  - intros sel nnodes nrep rnd.
    intros H Hn. unfold standalone_pick.
    destruct (Z.ltb_spec sel 0); [lia|]. destruct (Z.leb_spec (Z.of_nat nnodes) sel); [lia|]. cbn [orb].
    destruct (Z.eqb_spec sel 0); [lia|]. destruct (Nat.ltb_spec (Z.to_nat sel - 1) nrep); [reflexivity|lia].
  - intros c gs s g p reps a.
    intros Hk Ho Hn Hne Hr Ha. unfold rslot. rewrite Hk, Ho, Hn. destruct reps as [|x r]; [congruence|].
    destruct (Z.leb_spec 0 (t_rsel c s (x :: r))); [|lia]. destruct (Z.ltb_spec (t_rsel c s (x :: r)) (Z.of_nat (length (x :: r)))); [|lia].
    cbn [andb]. now rewrite Ha.
Qed.
Print Assumptions C21_selector_in_range.

(** the configuration corner the model exposes: SendToReplicas without any replica (possible with
    EnableRedirect, which excludes ReplicaAddress) makes standalone.pick call rand.IntN(0) *)
Theorem C21_standalone_no_replica_panics : forall sel nnodes rnd,
  standalone_route true true false sel nnodes 0 rnd = Panic.
Proof. reflexivity. Qed.
Print Assumptions C21_standalone_no_replica_panics.

Example C21_nonvacuous :
  let a n : addr := ([49%N], n) in
  let gs := [mkGroup [a 1; a 2; a 3] [(0, 100)]] in
  match rebuild (mkTcfg CfgReplicaSelector (fun _ _ => 1) (fun _ => O)) gs with
  | Ok t => pick_slot t 5 true 0 = Some (a 3) /\ pick_slot t 5 false 0 = Some (a 1)
  | _ => False
  end /\
  standalone_route true true true 2 3 2 0 = Ok (DReplica 1) /\ sentinel_pick false true false = SMaster.
Proof. vm_compute. repeat split; reflexivity. Qed.
