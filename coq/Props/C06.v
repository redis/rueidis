(** C06 — Cached replies are never served after their invalidation (store level).

    A history is the list of operations applied to the connection's store in the order they take
    effect: the reader's commits (Update), invalidations ([Delete (Some keys)]), flushes ([Delete None])
    and disconnects ([Close]) in wire order, interleaved with the callers' lookups (Flight, Flights and
    their individual critical sections).  Which frames produce which Update is Model/CacheWire.v (C07);
    tracking mode (opt-in / opt-out / broadcast) only changes which invalidations the server sends.
    [answers k c o x] = what operation [o] (output [x]) told the lookups of command (k, c);
    [invalidates k o] = o is an invalidation of key k, a flush or a disconnect.
    The identity of a command is the pair (key, cmd) of cmds.CacheKey (built-in store) resp. the string
    key ++ cmd (NewSimpleCacheAdapter): "the reply the server sent for exactly that command" holds up to
    that identity (C08). *)
From Coq Require Import List NArith ZArith Bool Lia.
Require Import RV.Model.Base RV.Model.Lru RV.Model.Adapter.
Require Import RV.Proofs.LruBase RV.Proofs.LruSteps RV.Proofs.LruAnswers RV.Proofs.LruHist
               RV.Proofs.AdapterProofs RV.Proofs.AdapterC06.
Import ListNotations.
Open Scope Z_scope.

(** Built-in store.  A hit for (k, c) at the end of history [ops] returns the reply of an Update of
    exactly (k, c) at some position u (with the expiry the store assigned), no invalidation of k, flush or
    disconnect occurs after u, and the instant of the lookup is before the expiry.  No assumption on clocks. *)
Theorem C06_no_stale_hit : forall g ops o k c v,
  Forall wf_op ops ->
  In (AHit v) (answers k c o (snd (step g (run g ops init) o))) ->
  exists u v0 x,
    nth_error ops u = Some (Update k c v0) /\ v = set_xat v0 x /\
    (forall j o', (u < j)%nat -> nth_error ops j = Some o' -> ~ invalidates k o') /\
    unix_milli (now_of o) < x.
Proof.
  intros g ops o k c v Hw H. pose proof (inv_run g ops init Hw inv_init) as Hi.
  destruct (step_hit g _ o k c v Hi H) as [e [He [Hk [Hv [Hp Hlt]]]]].
  destruct (origin_run g ops Hw e He) as [ttl [now [_ Hrest]]]. rewrite Hp in Hrest.
  destruct Hrest as [u [v0 [Hu [Hv0 Hinv]]]]. unfold kc in Hk. injection Hk as <- <-.
  exists u, v0, (min_xat (trunc56 (unix_milli (now + ttl))) (m_xat v0)).
  split; [exact Hu|]. split; [congruence|]. split; [exact Hinv|].
  rewrite <- Hv, Hv0, m_xat_set in Hlt. exact Hlt.
Qed.
Print Assumptions C06_no_stale_hit.

(** An in-flight entry survives invalidations of its key and flushes, and is completed by its Update
    afterwards (sound because Redis registers tracking when the read executes: a later write's
    invalidation follows the read's reply on the wire — the stated assumption on the server). *)
Theorem C06_pending_survives_invalidation : forall g ops keys e,
  Forall wf_op ops -> In e (order (run g ops init)) -> pending e = true ->
  In e (order (fst (step g (run g ops init) (Delete keys)))).
Proof.
  intros g ops keys e Hw He Hp. apply pending_survives; try assumption.
  - apply inv_run; [exact Hw|apply inv_init].
  - intros [].
Qed.
Print Assumptions C06_pending_survives_invalidation.

(** After a disconnect the store stays empty and closed: every later lookup is a miss. *)
Theorem C06_nothing_after_disconnect : forall g ops err ops2,
  Forall wf_op (ops ++ Close err :: ops2) ->
  let s := run g (ops ++ Close err :: ops2) init in closed s = true /\ order s = [].
Proof.
  intros g ops err ops2 _ s. unfold s. rewrite run_app, run_cons. apply closed_run; [apply inv_close|reflexivity].
Qed.
Print Assumptions C06_nothing_after_disconnect.

(** NewSimpleCacheAdapter (as repaired: Flight looks the SimpleCache up again under the write lock; the
    unrepaired code served a stale reply after an invalidation when two callers missed concurrently —
    known_findings.d/lru.json).  The SimpleCache may also forget entries at any time ([AStoreDrop]).
    A hit for (k1, c1) returns the reply of an Update of a command (k, c) with the same store identity
    k ++ c = k1 ++ c1, unexpired at the lookup's instant.  The adapter does not remove an expired value
    when it re-fetches it, and an in-flight command is skipped by invalidations; so if k was
    invalidated after that Update, then some lookup that preceded the invalidation had read a later
    clock than this hit's caller: the caller read its clock before that lookup, hence before the
    invalidation was processed — it is not a call "started afterwards". *)
Theorem C06_adapter_no_stale_hit : forall ops o k1 c1 v,
  In (AHit v) (a_answers k1 c1 o (snd (astep (arun ops ainit) o))) ->
  exists u k c v0 x,
    nth_error ops u = Some (AUpdate k c v0) /\ k ++ c = k1 ++ c1 /\ v = set_xat v0 x /\
    unix_milli (a_now_of o) < m_xat v /\
    forall j oj, (u < j)%nat -> nth_error ops j = Some oj -> a_invalidates k oj ->
      exists q oq nowq, (q < j)%nat /\ nth_error ops q = Some oq /\ a_lookup_at oq = Some nowq /\
                        unix_milli (a_now_of o) < unix_milli nowq.
Proof. exact a_no_stale_hit. Qed.
Print Assumptions C06_adapter_no_stale_hit.

(** the same, in the property's words: if the hit's caller read its clock no earlier than every lookup
    that preceded an invalidation, that invalidation did not concern the committing key *)
Theorem C06_adapter_started_afterwards : forall ops o k1 c1 v,
  In (AHit v) (a_answers k1 c1 o (snd (astep (arun ops ainit) o))) ->
  (forall q oq nowq, nth_error ops q = Some oq -> a_lookup_at oq = Some nowq -> unix_milli nowq <= unix_milli (a_now_of o)) ->
  exists u k c v0 x,
    nth_error ops u = Some (AUpdate k c v0) /\ k ++ c = k1 ++ c1 /\ v = set_xat v0 x /\
    forall j oj, (u < j)%nat -> nth_error ops j = Some oj -> ~ a_invalidates k oj.
Proof.
  intros ops o k1 c1 v H Hclock. destruct (a_no_stale_hit ops o k1 c1 v H) as [u [k [c [v0 [x [A [B [C [_ D]]]]]]]]].
  exists u, k, c, v0, x. repeat split; try assumption. intros j oj Hj Hn Hinv.
  destruct (D j oj Hj Hn Hinv) as [q [oq [nowq [_ [Hq [Hat Hlt]]]]]]. specialize (Hclock q oq nowq Hq Hat). lia.
Qed.
Print Assumptions C06_adapter_started_afterwards.

(** in-flight adapter entries survive invalidations as well *)
Theorem C06_adapter_pending_survives : forall ops keys k c ae,
  a_pending (arun ops ainit) k c ae -> a_pending (fst (astep (arun ops ainit) (ADelete keys))) k c ae.
Proof. intros ops keys k c ae H. apply a_flight_persists; [apply ainv_run|exact H|intros []]. Qed.
Print Assumptions C06_adapter_pending_survives.

(** non-vacuity: commit, hit, invalidate, miss; flush; the adapter likewise, including the repaired race *)
Definition ex_g := mkCfg 100000 336 40.
Definition kA : bytes := [97%N]. Definition kB : bytes := [98%N]. Definition cG : bytes := [71%N].
Definition rep (n : N) : msg := Msg 36 0 [n] [] 0 true.
Definition ex1 : list op := [Flight kA cG 1000000000 0; Update kA cG (rep 1); Flight kB cG 1000000000 0; Update kB cG (rep 2)].

Example C06_nonvacuous :
  answers kA cG (Flight kA cG 5 7) (snd (step ex_g (run ex_g ex1 init) (Flight kA cG 5 7))) = [AHit (set_xat (rep 1) 1000)] /\
  answers kA cG (Flight kA cG 5 7) (snd (step ex_g (run ex_g (ex1 ++ [Delete (Some [kA])]) init) (Flight kA cG 5 7))) = [AMiss] /\
  answers kB cG (Flight kB cG 5 7) (snd (step ex_g (run ex_g (ex1 ++ [Delete (Some [kA])]) init) (Flight kB cG 5 7))) = [AHit (set_xat (rep 2) 1000)] /\
  answers kB cG (Flight kB cG 5 7) (snd (step ex_g (run ex_g (ex1 ++ [Delete None]) init) (Flight kB cG 5 7))) = [AMiss] /\
  (* adapter: caller A misses in its read-locked section, caller B fetches and commits, A continues:
     served the fresh value instead of starting a flight; after the invalidation the next lookup misses *)
  let race := [AFlightFast kA cG 0; AFlight kA cG 1000000000 1; AUpdate kA cG (rep 3); AFlightSlow kA cG 1000000000 0] in
  a_answers kA cG (AFlightSlow kA cG 1000000000 0)
     (snd (astep (arun [AFlightFast kA cG 0; AFlight kA cG 1000000000 1; AUpdate kA cG (rep 3)] ainit) (AFlightSlow kA cG 1000000000 0)))
     = [AHit (set_xat (rep 3) 1000)] /\
  a_answers kA cG (AFlight kA cG 5 9) (snd (astep (arun (race ++ [ADelete (Some [kA])]) ainit) (AFlight kA cG 5 9))) = [AMiss].
Proof. repeat split; vm_compute; reflexivity. Qed.
