(** C08 — Distinct cacheable commands never share a cache entry.

    FULL STATEMENT (does not hold for the code as it is):

      forall scr1 s1 scr2 s2 id,
        lru_id scr1 s1 = Ok id -> lru_id scr2 s2 = Ok id -> (scr1, s1) = (scr2, s2)
      (and the same for adapter_id)

    where a command is its token list and the script-read-only flag, [lru_id] = cmds.CacheKey (the
    (key, cmd) pair that addresses an lru entry) and [adapter_id] = key ++ cmd (the SimpleCache key of
    NewSimpleCacheAdapter).  CacheKey concatenates every token except the key without separators, so the
    statement is refuted ([C08_refuted]); the identity is characterised exactly ([C08_characterised]) and is
    injective wherever the token lengths are fixed ([C08_partial_*]).  The format is fixed by
    internal/cmds/cmds_test.go ("HMGETBC", "EVALSHA_ROsha11XXX"): a separator or length prefix fails three
    unedited tests, so the defect is recorded as a known finding (known_findings.d/lru.json) rather than
    repaired.  The observer labels a colliding pair with the class of that finding only when the pair
    satisfies the right-hand side of [C08_characterised]; any other collision is a violation. *)
From Coq Require Import List NArith Bool.
Require Import RV.Model.Base RV.Model.CacheKey RV.Proofs.LruBase RV.Proofs.CacheKeyProofs.
Import ListNotations.
Open Scope N_scope.

Definition s_getrange : bytes := [71; 69; 84; 82; 65; 78; 71; 69].     (* "GETRANGE" *)
Definition w1 : tokens := [s_getrange; [107]; [49]; [50; 51]].   (* GETRANGE k 1 23 *)
Definition w2 : tokens := [s_getrange; [107]; [49; 50]; [51]].   (* GETRANGE k 12 3 *)
Definition w3 : tokens := [[84; 84; 76]; [107; 80]].                     (* TTL kP *)
Definition w4 : tokens := [[80; 84; 84; 76]; [107]].                     (* PTTL k *)

Theorem C08_refuted :
  (exists s1 s2 id, s1 <> s2 /\ lru_id false s1 = Ok id /\ lru_id false s2 = Ok id) /\
  (exists s1 s2 id, s1 <> s2 /\ lru_id false s1 <> lru_id false s2 /\ adapter_id false s1 = Ok id /\ adapter_id false s2 = Ok id).
Proof.
  split.
  - exists w1, w2. eexists. split; [discriminate|]. split; vm_compute; reflexivity.
  - exists w3, w4. eexists. split; [discriminate|]. split; [vm_compute; discriminate|]. split; vm_compute; reflexivity.
Qed.
Print Assumptions C08_refuted.

(** Exactly which pairs share an identity: same key token and same concatenation of the other tokens
    (built-in store); same key ++ concatenation (adapter).  The key token is token 1, or token 3 for a
    read-only script command with more than two tokens. *)
Theorem C08_characterised : forall scr1 s1 scr2 s2 k1 c1 k2 c2,
  cache_key scr1 s1 = Ok (k1, c1) -> cache_key scr2 s2 = Ok (k2, c2) ->
  ((k1, c1) = (k2, c2) <-> key_of scr1 s1 = key_of scr2 s2 /\ concat (rest_of scr1 s1) = concat (rest_of scr2 s2)) /\
  (k1 ++ c1 = k2 ++ c2 <-> key_of scr1 s1 ++ concat (rest_of scr1 s1) = key_of scr2 s2 ++ concat (rest_of scr2 s2)).
Proof.
  intros scr1 s1 scr2 s2 k1 c1 k2 c2 H1 H2. apply cache_key_spec in H1, H2. destruct H1 as [-> ->], H2 as [-> ->]. split; [|tauto].
  split; [intros [= -> ->]; split; reflexivity|intros [-> ->]; reflexivity].
Qed.
Print Assumptions C08_characterised.

(** Partial injectivity: among commands with the same flag and the same per-token lengths, distinct
    commands have distinct identities in both stores ... *)
Theorem C08_partial_fixed_lengths : forall scr s1 s2,
  map (@length N) s1 = map (@length N) s2 ->
  (forall id, lru_id scr s1 = Ok id -> lru_id scr s2 = Ok id -> s1 = s2) /\
  (forall id, adapter_id scr s1 = Ok id -> adapter_id scr s2 = Ok id -> s1 = s2).
Proof. exact injective_fixed_lengths. Qed.
Print Assumptions C08_partial_fixed_lengths.

(** ... the built-in store separates all two-token commands (GET k, TTL k, PTTL k, ...) ... *)
Theorem C08_partial_two_tokens : forall scr1 scr2 a b a' b',
  lru_id scr1 [a; b] = lru_id scr2 [a'; b'] -> [a; b] = [a'; b'].
Proof. intros scr1 scr2 a b a' b'. cbn. intros [= -> ->]. reflexivity. Qed.
Print Assumptions C08_partial_two_tokens.

(** ... and MGET / JSON.MGET members are cached under the identities of GET k / JSON.GET k path. *)
Theorem C08_mget_agrees : forall (m : bytes) (keys : list bytes) i k,
  nth_error keys i = Some k -> hd 0 m <> 74 -> m <> [] ->
  mget_cache_cmd (m :: keys) = Ok get /\ mget_cache_key (m :: keys) i = Ok k /\ cache_key false [get; k] = Ok (k, get).
Proof.
  intros m keys i k Hk Hm Hne. destruct m as [|b m]; [contradiction|]. cbn in Hm. apply N.eqb_neq in Hm.
  unfold mget_cache_cmd, mget_cache_key. rewrite Hm. cbn [nth_error]. rewrite Hk. repeat split; reflexivity.
Qed.
Print Assumptions C08_mget_agrees.

Theorem C08_json_mget_agrees : forall (m : bytes) (keys : list bytes) (path : bytes) i k,
  nth_error keys i = Some k -> hd 0 m = 74 ->
  mget_cache_cmd (m :: keys ++ [path]) = Ok (json_get ++ path) /\ mget_cache_key (m :: keys ++ [path]) i = Ok k /\
  cache_key false [json_get; k; path] = Ok (k, json_get ++ path).
Proof. exact json_mget_agrees. Qed.
Print Assumptions C08_json_mget_agrees.

(** non-vacuity: the witnesses are inside the characterised class; a fixed-length family is separated *)
Example C08_nonvacuous :
  concat_class false w1 false w2 = true /\ adapter_concat_class false w3 false w4 = true /\ concat_class false w3 false w4 = false /\
  lru_id false [s_getrange; [107]; [49]; [50; 51]] <> lru_id false [s_getrange; [107]; [50]; [49; 51]] /\
  cache_key true [[69; 86; 65; 76; 83; 72; 65; 95; 82; 79]; [115]; [49]; [107]; [97]] = Ok ([107], [69; 86; 65; 76; 83; 72; 65; 95; 82; 79; 115; 49; 97]).
Proof. repeat split; vm_compute; try reflexivity; discriminate. Qed.
