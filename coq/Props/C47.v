(** C47 — Connection setup applies the configured session settings.

    Model: [RV.Model.Setup] transcribes pipe.go [_newPipe] (the two command lists, the two loops that examine
    the replies, the RESP3 -> RESP2 fallback, ErrNoCache) and sentinel.go [newSentinelOpt].  All theorems
    quantify over every option record [o] (any strings, any database number, any tracking option list,
    any ClientSetInfo slice) and every list of replies (any classes, any length: a short list is a
    connection that broke). *)
From Coq Require Import String List Arith NArith ZArith Bool.
Require Import RV.Model.Base RV.Model.PsBase RV.Model.Setup RV.Proofs.SetupProofs.
Import ListNotations.
Open Scope N_scope.
Open Scope string_scope.
Open Scope list_scope.

(** ** contents: each setting's command occurs exactly when configured, exactly once, with the configured value.
    [filter fam l = [c]] says: [c] is in [l], once, and no other command of that family is. *)
Theorem C47_contents : forall o u p, creds o = Some (u, p) ->
  (* RESP3 list *)
  hd_error (init3 o) = Some (hello_cmd u p (o_name o)) /\
  filter (is_cmd "HELLO") (init3 o) = [hello_cmd u p (o_name o)] /\
  filter (is_cmd "AUTH") (init3 o) = [] /\
  filter (is_cmd "INFO") (init3 o) = (if o_az o then [[bs "INFO"; bs "SERVER"]] else []) /\
  filter (is_client "TRACKING") (init3 o) = (if o_nocache o then [] else [tracking_cmd o]) /\
  filter (is_cmd "SELECT") (init3 o) = (if (o_db o =? 0)%Z then [] else [[bs "SELECT"; itoa (o_db o)]]) /\
  filter (is_cmd "READONLY") (init3 o) = (if o_replica o && negb (o_sentinel o) then [[bs "READONLY"]] else []) /\
  filter (is_client "NO-TOUCH") (init3 o) = (if o_notouch o then [[bs "CLIENT"; bs "NO-TOUCH"; bs "ON"]] else []) /\
  filter (is_client "NO-EVICT") (init3 o) = (if o_noevict o then [[bs "CLIENT"; bs "NO-EVICT"; bs "ON"]] else []) /\
  filter (is_client "CAPA") (init3 o) = (if o_redirect o then [[bs "CLIENT"; bs "CAPA"; bs "redirect"]] else []) /\
  filter (is_client "SETINFO") (init3 o) = setinfo_cmds o /\
  (* RESP2 list *)
  filter (is_cmd "AUTH") (init2 o) = auth2_cmds u p /\
  filter (is_cmd "HELLO") (init2 o) = [[bs "HELLO"; bs "2"]] /\
  filter (is_client "SETNAME") (init2 o) = (if is_empty (o_name o) then [] else [[bs "CLIENT"; bs "SETNAME"; o_name o]]) /\
  filter (is_client "TRACKING") (init2 o) = [] /\
  filter (is_cmd "SELECT") (init2 o) = (if (o_db o =? 0)%Z then [] else [[bs "SELECT"; itoa (o_db o)]]) /\
  filter (is_cmd "READONLY") (init2 o) = (if o_replica o && negb (o_sentinel o) then [[bs "READONLY"]] else []) /\
  filter (is_client "NO-TOUCH") (init2 o) = (if o_notouch o then [[bs "CLIENT"; bs "NO-TOUCH"; bs "ON"]] else []) /\
  filter (is_client "NO-EVICT") (init2 o) = (if o_noevict o then [[bs "CLIENT"; bs "NO-EVICT"; bs "ON"]] else []) /\
  filter (is_client "CAPA") (init2 o) = (if o_redirect o then [[bs "CLIENT"; bs "CAPA"; bs "redirect"]] else []) /\
  filter (is_client "SETINFO") (init2 o) = setinfo_cmds o.
Proof.
  intros o u p Hc.
  assert (N : forall b c l, l = opt_cmd (negb b) c -> l = if b then [] else [c])
    by (intros b c l ->; apply opt_cmd_negb).
  split. { destruct (init3_head_count o u p Hc) as [rest [E _]]. rewrite E. reflexivity. }
  repeat split; try apply N;
    eauto using init3_hello, init3_auth, init3_info, init3_tracking, init3_select, init3_readonly, init3_notouch,
      init3_noevict, init3_capa, init3_setinfo, init2_auth, init2_hello, init2_setname, init2_tracking, init2_select,
      init2_readonly, init2_notouch, init2_noevict, init2_capa, init2_setinfo.
Qed.
Print Assumptions C47_contents.

(** AUTH (inside HELLO 3, or as the separate RESP2 command) iff credentials; a lone password authenticates "default" *)
Theorem C47_credentials : forall u p n,
  hello_cmd u p n = [bs "HELLO"; bs "3"] ++ auth_args u p ++ (if is_empty n then [] else [bs "SETNAME"; n]) /\
  auth_args u p = match u, p with
                  | [], [] => []
                  | [], _ => [bs "AUTH"; bs "default"; p]
                  | _, _ => [bs "AUTH"; u; p]
                  end /\
  auth2_cmds u p = match u, p with
                   | [], [] => []
                   | [], _ => [[bs "AUTH"; p]]
                   | _, _ => [[bs "AUTH"; u; p]]
                   end.
Proof. intros u p n. split; [reflexivity|]. split; [apply auth_args_spec|apply auth2_cmds_spec]. Qed.
Print Assumptions C47_credentials.

(** the library-info pair: the configured pair, the library's own name / version for a nil slice, nothing otherwise *)
Theorem C47_setinfo : forall o,
  setinfo_cmds o =
    match o_setinfo o with
    | Some [n; v] => [[bs "CLIENT"; bs "SETINFO"; bs "LIB-NAME"; n]; [bs "CLIENT"; bs "SETINFO"; bs "LIB-VER"; v]]
    | None => [[bs "CLIENT"; bs "SETINFO"; bs "LIB-NAME"; o_libname o]; [bs "CLIENT"; bs "SETINFO"; bs "LIB-VER"; o_libver o]]
    | Some _ => []
    end.
Proof. reflexivity. Qed.
Print Assumptions C47_setinfo.

(** ** the session in force at the server when a RESP3 setup succeeds (the effect of the accepted commands):
    protocol 3, the configured name, credentials, database, tracking mode, NO-TOUCH, NO-EVICT, CAPA redirect;
    READONLY only for a replica-only non-sentinel configuration (its error is tolerated, so only one direction). *)
Theorem C47_session : forall o u p r3 r2,
  creds o = Some (u, p) -> eval_setup o r3 r2 = SetupOk true ->
  let s := final_session o r3 r2 in
  s_proto s = 3 /\
  s_name s = o_name o /\
  s_auth s = match u, p with
             | [], [] => None
             | [], _ => Some (bs "default", p)
             | _, _ => Some (u, p)
             end /\
  s_db s = (if (o_db o =? 0)%Z then bs "0" else itoa (o_db o)) /\
  s_track s = (if o_nocache o then None else Some (track_args o)) /\
  s_notouch s = o_notouch o /\ s_noevict s = o_noevict o /\ s_redirect s = o_redirect o /\
  (s_readonly s = true -> o_replica o && negb (o_sentinel o) = true).
Proof.
  intros o u p r3 r2 Hc H. cbv zeta. destruct (init3_hello_writes o u p Hc) as [Wn Wa].
  pose proof (fun A F b c v => @session3_field A F o r3 r2 b c v H) as S.
  repeat split.
  - change s_proto with (get proto_field). rewrite (S _ proto_field true _ (fun _ => 3) (init3_hello o u p Hc)); auto.
  - change s_name with (get name_field). rewrite (S _ name_field true _ (fun n => if is_empty (o_name o) then n else o_name o) Wn); auto;
      [destruct (o_name o); reflexivity|intros s; apply hello_effect].
  - change s_auth with (get auth_field).
    rewrite (S _ auth_field true _ (fun a => match u, p with [], [] => a | [], _ => Some (bs "default", p) | _, _ => Some (u, p) end) Wa);
      auto. intros s. apply hello_effect.
  - change s_db with (get db_field). rewrite (S _ db_field _ _ (fun _ => itoa (o_db o)) (init3_select o u p Hc)); auto. destruct (o_db o =? 0)%Z; reflexivity.
  - change s_track with (get track_field). rewrite (S _ track_field _ _ (fun _ => Some (track_args o)) (init3_tracking o u p Hc));
      try (rewrite tracking_cmd_args; reflexivity). destruct (o_nocache o); reflexivity.
  - change s_notouch with (get notouch_field). rewrite (S _ notouch_field _ _ (fun _ => true) (init3_notouch o u p Hc)); auto. destruct (o_notouch o); reflexivity.
  - change s_noevict with (get noevict_field). rewrite (S _ noevict_field _ _ (fun _ => true) (init3_noevict o u p Hc)); auto. destruct (o_noevict o); reflexivity.
  - change s_redirect with (get redirect_field). rewrite (S _ redirect_field _ _ (fun _ => true) (init3_capa o u p Hc)); auto. destruct (o_redirect o); reflexivity.
  - (* READONLY's reply is not examined: only that nothing else sets the flag *)
    pose proof (init3_readonly o u p Hc) as Fr. destruct (o_replica o && negb (o_sentinel o)); [reflexivity|].
    change s_readonly with (get readonly_field). rewrite (S _ readonly_field false [] (fun x => x) Fr); auto.
Qed.
Print Assumptions C47_session.

(** … and when the RESP2 setup succeeds, for a server that names HELLO as unknown only in answer to HELLO
    ([honest2]; _newPipe goes by the error text on every step, see C47_step_failure_resp2) *)
Theorem C47_session_resp2 : forall o u p r3 r2,
  creds o = Some (u, p) -> eval_setup o r3 r2 = SetupOk false -> honest2 o r2 ->
  let s := final_session o r3 r2 in
  s_db s = (if (o_db o =? 0)%Z then bs "0" else itoa (o_db o)) /\
  s_track s = None /\
  s_notouch s = o_notouch o /\ s_noevict s = o_noevict o /\ s_redirect s = o_redirect o /\
  (is_empty (o_name o) = false -> s_name s = o_name o) /\
  (s_readonly s = true -> o_replica o && negb (o_sentinel o) = true).
Proof.
  intros o u p r3 r2 Hc H Hh. cbv zeta. destruct (eval_setup_ok2 _ _ _ H) as [_ [_ [_ [Hn _]]]].
  pose proof (fun A F b c3 c v => @session2_field A F o r3 r2 b c3 c v H Hh) as S.
  pose proof (init3_tracking o u p Hc) as T3. rewrite Hn in T3.
  repeat split.
  - change s_db with (get db_field). rewrite (S _ db_field _ _ _ (itoa (o_db o)) (init3_select o u p Hc) (init2_select o u p Hc)); auto.
    destruct (o_db o =? 0)%Z; reflexivity.
  - exact (S _ track_field false _ [] None T3 (init2_tracking o u p Hc) eq_refl eq_refl eq_refl ltac:(discriminate)).
  - change s_notouch with (get notouch_field). rewrite (S _ notouch_field _ _ _ true (init3_notouch o u p Hc) (init2_notouch o u p Hc)); auto.
    destruct (o_notouch o); reflexivity.
  - change s_noevict with (get noevict_field). rewrite (S _ noevict_field _ _ _ true (init3_noevict o u p Hc) (init2_noevict o u p Hc)); auto.
    destruct (o_noevict o); reflexivity.
  - change s_redirect with (get redirect_field). rewrite (S _ redirect_field _ _ _ true (init3_capa o u p Hc) (init2_capa o u p Hc)); auto.
    destruct (o_redirect o); reflexivity.
  - exact (session2_name o r3 r2 H Hh).
  - pose proof (init3_readonly o u p Hc) as F3. pose proof (init2_readonly o u p Hc) as F2.
    destruct (o_replica o && negb (o_sentinel o)); [reflexivity|].
    change s_readonly with (get readonly_field). rewrite (S _ readonly_field false [] [] true F3 F2) by (discriminate || auto). auto.
Qed.
Print Assumptions C47_session_resp2.

(** ** before any user command: a connection carries its whole setup first, and user commands only if the setup
    succeeded — which requires every reply of every pipeline that ran to have arrived. *)
Theorem C47_before_user : forall o r3 r2 user,
  (forall b, eval_setup o r3 r2 = SetupOk b -> conn_log o r3 r2 user = setup_cmds o r3 ++ user) /\
  (forall f, eval_setup o r3 r2 = SetupFail f -> conn_log o r3 r2 user = setup_cmds o r3) /\
  (eval_setup o r3 r2 = SetupOk true ->
     setup_cmds o r3 = init3 o /\ complete (length (init3 o)) r3 = true) /\
  (eval_setup o r3 r2 = SetupOk false ->
     setup_cmds o r3 = (if o_resp2 o then [] else init3 o) ++ init2 o /\
     (o_resp2 o = false -> complete (length (init3 o)) r3 = true) /\
     complete (length (init2 o)) r2 = true) /\
  (creds o = None -> eval_setup o r3 r2 = SetupFail FCred /\ conn_log o r3 r2 user = []).
Proof.
  intros o r3 r2 user. repeat split.
  - intros b H. eapply conn_log_ok; eauto.
  - intros f H. eapply conn_log_fail; eauto.
  - eapply setup_cmds_ok3; eauto.
  - destruct (ok3_clean _ _ _ H) as [_ [X _]]. exact X.
  - eapply setup_cmds_ok2; eauto.
  - destruct (ok2_clean _ _ _ H) as [_ [X _]]. exact X.
  - destruct (ok2_clean _ _ _ H) as [_ [_ [X _]]]. exact X.
  - destruct (cred_failure o r3 r2 user H) as [X _]. exact X.
  - destruct (cred_failure o r3 r2 user H) as [_ X]. exact X.
Qed.
Print Assumptions C47_before_user.

(** ** every setup step failing.
    RESP3 pipeline: the first examined reply (all but the two trailing CLIENT SETINFO) that is an error fails the
    connection, unless the command is READONLY or the error names HELLO as an unknown command (the fallback). *)
Theorem C47_step_failure : forall o u p r3 r2 k c,
  creds o = Some (u, p) -> o_resp2 o = false ->
  (k < count_of o (init3 o))%nat -> nth_error (init3 o) k = Some c -> head_is (bs "READONLY") c = false ->
  (forall j, (j < k)%nat -> exam (o_az o) j (nth j r3 RIO) = ENone) ->
  exam (o_az o) k (nth k r3 RIO) <> ENone -> exam (o_az o) k (nth k r3 RIO) <> ERedis true ->
  exists f, eval_setup o r3 r2 = SetupFail f.
Proof.
  intros o u p r3 r2 k c Hc Hr Hk Hck Hro Hpre Hne Hnh. unfold eval_setup. rewrite Hc.
  destruct (complete (length (init3 o)) r3) eqn:Hcm.
  - destruct (eval3_first_error o u p Hc Hr r3 k c Hcm Hk Hck Hro Hpre Hne Hnh) as [f ->]. eauto.
  - rewrite (eval3_incomplete o u p Hc Hr r3 Hcm). eauto.
Qed.
Print Assumptions C47_step_failure.

(** RESP2 pipeline, same statement (there the "unknown command HELLO" text is tolerated on every step) *)
Theorem C47_step_failure_resp2 : forall o u p r3 r2 k c,
  creds o = Some (u, p) -> eval3 o r3 = S1Fallback ->
  (k < count_of o (init2 o))%nat -> nth_error (init2 o) k = Some c -> head_is (bs "READONLY") c = false ->
  (forall j, (j < k)%nat -> err_of (nth j (r2_eff o r3 r2) RIO) = ENone) ->
  err_of (nth k (r2_eff o r3 r2) RIO) <> ENone -> err_of (nth k (r2_eff o r3 r2) RIO) <> ERedis true ->
  exists f, eval_setup o r3 r2 = SetupFail f.
Proof.
  intros o u p r3 r2 k c Hc H3 Hk Hck Hro Hpre Hne Hnh. unfold eval_setup. rewrite Hc, H3.
  destruct (negb (o_nocache o)); [eauto|].
  destruct (complete (length (init2 o)) (r2_eff o r3 r2)) eqn:Hcm.
  - destruct (eval2_first_error o u p Hc _ k c Hcm Hk Hck Hro Hpre Hne Hnh) as [f ->]. eauto.
  - rewrite (eval2_incomplete o u p Hc _ Hcm). eauto.
Qed.
Print Assumptions C47_step_failure_resp2.

(** the converse: a successful setup saw no error at any examined step (READONLY aside) — not only at the first *)
Theorem C47_ok_clean : forall o r3 r2,
  (eval_setup o r3 r2 = SetupOk true ->
     forall k c, (k < count_of o (init3 o))%nat -> nth_error (init3 o) k = Some c -> head_is (bs "READONLY") c = false ->
       exam (o_az o) k (nth k r3 RIO) = ENone) /\
  (eval_setup o r3 r2 = SetupOk false ->
     forall k c, (k < count_of o (init2 o))%nat -> nth_error (init2 o) k = Some c -> head_is (bs "READONLY") c = false ->
       err_of (nth k r2 RIO) = ENone \/ err_of (nth k r2 RIO) = ERedis true).
Proof.
  intros o r3 r2. split; intros H.
  - destruct (ok3_clean _ _ _ H) as [_ [_ [X _]]]. exact X.
  - destruct (ok2_clean _ _ _ H) as [_ [_ [_ X]]]. exact X.
Qed.
Print Assumptions C47_ok_clean.

(** a broken connection (a reply missing anywhere in the pipeline, even an unexamined one) fails the setup *)
Theorem C47_io_failure : forall o u p r3 r2,
  creds o = Some (u, p) -> o_resp2 o = false -> complete (length (init3 o)) r3 = false ->
  eval_setup o r3 r2 = SetupFail FOther.
Proof. intros o u p r3 r2 Hc Hr Hcm. unfold eval_setup. rewrite Hc, (eval3_incomplete o u p Hc Hr r3 Hcm). reflexivity. Qed.
Print Assumptions C47_io_failure.

(** RESP2 only when asked for, or a reply names HELLO as unknown, or HELLO itself reports a protocol below 3;
    and never with the client-side cache enabled (ErrNoCache instead). *)
Theorem C47_fallback : forall o r3 r2,
  (eval_setup o r3 r2 = SetupOk false ->
     o_resp2 o = true \/
     (exists k, (k < count_of o (init3 o))%nat /\ exam (o_az o) k (nth k r3 RIO) = ERedis true) \/
     (exists pr, nth 0 r3 RIO = RMapP pr /\ (pr < 3)%Z)) /\
  (forall b, eval_setup o r3 r2 = SetupOk b -> o_nocache o = false -> b = true).
Proof.
  intros o r3 r2. split; [apply fallback_only_hello|]. intros b. apply cache_needs_resp3.
Qed.
Print Assumptions C47_fallback.

(** sentinel connections: the sentinel credentials and name, never a SELECT *)
Theorem C47_sentinel_conn : forall o u p, creds (sentinel_opt o) = Some (u, p) ->
  hd_error (init3 (sentinel_opt o)) = Some (hello_cmd u p (o_s_name o)) /\
  filter (is_cmd "SELECT") (init3 (sentinel_opt o)) = [] /\
  filter (is_cmd "SELECT") (init2 (sentinel_opt o)) = [] /\
  (o_credfn o = None -> u = o_s_user o /\ p = o_s_pass o).
Proof.
  intros o u p Hc. repeat split.
  - destruct (init3_head_count (sentinel_opt o) u p Hc) as [rest [E _]]. rewrite E. reflexivity.
  - rewrite (init3_select (sentinel_opt o) u p Hc). reflexivity.
  - rewrite (init2_select (sentinel_opt o) u p Hc). reflexivity.
  - unfold creds, sentinel_opt in Hc. cbn in Hc. rewrite H in Hc. congruence.
  - unfold creds, sentinel_opt in Hc. cbn in Hc. rewrite H in Hc. congruence.
Qed.
Print Assumptions C47_sentinel_conn.

(** ** non-vacuity: a full configuration; success; each kind of failure; the fallback *)
Definition ex_opts : opts :=
  mkOpts (bs "alice") (bs "s3cret") None (bs "conn") true false (Some [bs "BCAST"; bs "PREFIX"; bs "p:"]) 3%Z
         true false true true true None false (bs "rueidis") (bs "1.0.76") [] [] [].

Example C47_nonvacuous_lists :
  init3 ex_opts =
    [[bs "HELLO"; bs "3"; bs "AUTH"; bs "alice"; bs "s3cret"; bs "SETNAME"; bs "conn"];
     [bs "INFO"; bs "SERVER"];
     [bs "CLIENT"; bs "TRACKING"; bs "ON"; bs "BCAST"; bs "PREFIX"; bs "p:"];
     [bs "SELECT"; bs "3"]; [bs "READONLY"];
     [bs "CLIENT"; bs "NO-TOUCH"; bs "ON"]; [bs "CLIENT"; bs "NO-EVICT"; bs "ON"]; [bs "CLIENT"; bs "CAPA"; bs "redirect"];
     [bs "CLIENT"; bs "SETINFO"; bs "LIB-NAME"; bs "rueidis"]; [bs "CLIENT"; bs "SETINFO"; bs "LIB-VER"; bs "1.0.76"]].
Proof. vm_compute. reflexivity. Qed.

Example C47_nonvacuous_outcomes :
  let ok := [RMapP 3; RStr; RStr; RStr; RStr; RStr; RStr; RStr; RStr; RStr] in
  eval_setup ex_opts ok [] = SetupOk true /\
  (* READONLY and the trailing SETINFO may fail *)
  eval_setup ex_opts [RMapP 3; RStr; RStr; RStr; RErr false; RStr; RStr; RStr; RErr false; RErr false] [] = SetupOk true /\
  (* SELECT fails *)
  eval_setup ex_opts [RMapP 3; RStr; RStr; RErr false; RStr; RStr; RStr; RStr; RStr; RStr] [] = SetupFail FRedis /\
  (* a CLIENT step fails: ErrNoCache *)
  eval_setup ex_opts [RMapP 3; RStr; RStr; RStr; RStr; RErr false; RStr; RStr; RStr; RStr] [] = SetupFail FNoCache /\
  (* the connection breaks before the last (unexamined) reply *)
  eval_setup ex_opts [RMapP 3; RStr; RStr; RStr; RStr; RStr; RStr; RStr; RStr] [] = SetupFail FOther /\
  (* HELLO unknown with the cache enabled: ErrNoCache (the tracking command fails as well on such a server) *)
  eval_setup ex_opts [RErr true; RStr; RErr false; RStr; RStr; RStr; RStr; RStr; RStr; RStr] [] = SetupFail FNoCache /\
  (* HELLO unknown with the cache disabled: the RESP2 pipeline runs and succeeds *)
  eval_setup (mkOpts [] (bs "pw") None [] false true None 0%Z false false false false false None false (bs "rueidis") (bs "1") [] [] [])
             [RErr true; RStr; RStr] [RStr; RErr true; RStr; RStr] = SetupOk false.
Proof. vm_compute. repeat split. Qed.
