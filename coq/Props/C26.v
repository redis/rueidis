(** C26 — Pub/Sub delivers exactly the subscribed messages in order.

    Model: [RV.Model.PubSub], a labelled transition system of one connection: the reader goroutine
    ([handlePush], [subs.Publish] with its blocking sends into 16-slot channels, the clean-up of [_background]),
    any number of [Receive] callers (registration, the loop, context cancellation, the locked removal),
    [SetPubSubHooks] callers, [Close] / connection loss, and the server end of the connection
    (subscription sets, PUBLISH / SPUBLISH fan-out, confirmations, unsolicited unsubscribes).
    Every theorem quantifies over ALL schedules [ls] (every interleaving of those actions, any number of
    receivers with arbitrarily overlapping channel sets, any pattern-matching function [pm]) by
    [run pm (init b) ls = Some s]: [s] ranges over every reachable state.

    The code modelled is the repaired one (fix: Receive keeps consuming its channel while it waits for the
    SUBSCRIBE reply — see C26_nonvacuous_overlap, a schedule on which a Receive that does not consume while waiting blocks the reader). *)
From Coq Require Import String List Arith NArith ZArith Bool Lia.
Require Import RV.Model.Base RV.Model.PsBase RV.Model.PubSub RV.Proofs.PsListProofs RV.Proofs.PubSubHookProofs RV.Proofs.PubSubProofs.
Import ListNotations.
Open Scope N_scope.
Open Scope list_scope.

(** ** delivery.  [st_hist s] is the sequence of message frames the reader has taken off the wire — the server's
    pushes on this connection in wire order; [window] cuts out those handled while the receiver was registered
    in [subs] (from [sb.Subscribe], which precedes its SUBSCRIBE, to the removal by an unsubscribe push, the
    clean-up or its own [cancel]); [fmsgs r] keeps those of [r]'s kind whose channel / pattern [r] named.
    (1) what was passed to [fn] is always a prefix of that sequence: in server order, no duplicate, no loss in the
        middle, nothing for another subscription;
    (2) while the receiver runs, delivered ++ buffered ++ about-to-be-sent is that whole sequence: nothing is lost;
    (3) a Receive that ended because its channel was closed (unsubscribe / Close / connection loss) was given
        exactly that sequence. *)
Theorem C26_delivery : forall pm b ls s, run pm (init b) ls = Some s ->
  forall r, In r (st_recvs s) ->
    (exists rest, rc_got r ++ rest = fmsgs r (window (st_hist s) r)) /\
    (rc_drain r = false -> rc_got r ++ rc_buf r ++ pend_msgs (rc_id r) (st_pend s) = fmsgs r (window (st_hist s) r)) /\
    (forall ret, rc_state r = RDone ret ByClose -> rc_got r = fmsgs r (window (st_hist s) r)).
Proof. exact delivery. Qed.
Print Assumptions C26_delivery.

(** the frames the reader handles are the frames the server sent, in order *)
Theorem C26_wire_order : forall pm b ls s, run pm (init b) ls = Some s -> st_hist s = msgs_of (st_handled s).
Proof. intros pm b ls s H. destruct (hook_reach pm b ls s H) as [_ HC]. apply (ci_hist _ HC). Qed.
Print Assumptions C26_wire_order.

(** never a message for another subscription — against the server's publish log: every delivered message was
    published (same channel, same body; SPUBLISH for a shard subscription, PUBLISH otherwise; to a channel its
    pattern matches for a pattern subscription) and its channel / pattern is one the Receive named *)
Theorem C26_no_foreign : forall pm b ls s, run pm (init b) ls = Some s ->
  forall r m, In r (st_recvs s) -> In m (rc_got r) ->
    mem_bytes (msg_key (rc_kind r) m) (rc_cs r) = true /\
    exists sh, In (sh, m_chan m, m_body m) (st_publog s) /\ (sh = true <-> rc_kind r = KS) /\
               (rc_kind r = KP -> pm (m_pat m) (m_chan m) = true) /\ (rc_kind r <> KP -> m_pat m = []).
Proof.
  intros pm b ls s H r m Hr Hm.
  destruct (no_foreign pm b ls s H r m Hr Hm) as [k [Hh [-> Hk]]]. split; [exact Hk|].
  destruct (hook_reach pm b ls s H) as [_ HC].
  pose proof (sinv_reach pm b ls s H) as S.
  rewrite (ci_hist _ HC) in Hh. unfold msgs_of in Hh. apply in_flat_map in Hh. destruct Hh as [f [Hf Hin]].
  destruct f as [k m'| | |]; cbn in Hin; try contradiction. destruct Hin as [Heq|[]]. injection Heq as -> ->.
  unfold sinv in S. rewrite Forall_forall in S. apply (S (FMsg (rc_kind r) m)). apply in_or_app. left. exact Hf.
Qed.
Print Assumptions C26_no_foreign.

(** ** return value: the context error iff it left by the context; nil only after an unsubscribe push naming one
    of its own channels; otherwise the error latched on the pipe (ErrClosing when Close came first). *)
Theorem C26_return : forall pm b ls s, run pm (init b) ls = Some s ->
  forall r ret how, In r (st_recvs s) -> rc_state r = RDone ret how ->
    (how = ByCtx -> ret = Some ECtx /\ rc_ctx r = true) /\
    (how = ByClose -> ret = None -> exists c, rc_by r = Some (RemUnsub c) /\ mem_bytes c (rc_cs r) = true) /\
    (how = ByClose -> forall e, ret = Some e -> st_perr s = Some e) /\
    (rc_by r = Some RemCleanup -> st_perr s <> None).
Proof.
  intros pm b ls s H r ret how Hr Hs. pose proof (ginv_reach pm b ls s H) as [_ Hall _].
  rewrite Forall_forall in Hall. specialize (Hall r Hr). ri_destruct Hall.
  split; [|split; [|split]].
  - intros ->. apply (Hctx ret Hs).
  - intros -> ->. apply Hcnil. exact Hs.
  - intros -> e ->. apply Hcerr. exact Hs.
  - exact Hbc.
Qed.
Print Assumptions C26_return.

(** … and it does return: once its channel is closed and drained the loop's exit is enabled, with p.Error()
    (nil when nothing is latched) *)
Theorem C26_return_enabled : forall pm s r x, find_recv r (st_recvs s) = Some x ->
  rc_state x = RLoop -> rc_buf x = [] -> rc_open x = false ->
  step pm s (LEnd r) = Some (with_recvs s (upd_recv (finished (st_perr s) ByClose) r (st_recvs s))).
Proof. intros pm s r x F A B C. cbn [step]. rewrite F, A, B, C. reflexivity. Qed.
Print Assumptions C26_return_enabled.

(** ** the channel returned by SetPubSubHooks: never a Go panic (close of a closed channel, send on a closed
    channel); closed at most once, and exactly once as soon as its hooks are not the installed ones any more;
    at most one error, none while it is open; once the pipe is dead and no SetPubSubHooks call is in flight
    every such channel is closed. *)
Theorem C26_hook_chan : forall pm b ls s, run pm (init b) ls = Some s ->
  st_panic s = false /\
  forall h, In h (st_hooks s) ->
    (hk_closed h <= 1)%nat /\ (length (hk_err h) <= 1)%nat /\
    (hk_closed h = 0%nat <-> st_cur s = Some (hk_id h)) /\
    (hk_closed h = 0%nat -> hk_err h = []) /\
    (st_cleaned s = true -> st_check s = [] -> hk_closed h = 1%nat).
Proof.
  intros pm b ls s H. destruct (hook_reach pm b ls s H) as [HI _].
  split; [apply (hi_panic _ _ HI)|]. intros h Hin.
  destruct (option_eq_dec_N (st_cur s) (Some (hk_id h))) as [Hc|Hc].
  - destruct (hi_cur _ _ HI _ Hc) as [h' [A [B [C [D E]]]]].
    assert (h' = h) by (apply (keyed_unique hk_id (st_hooks s)); [apply (hi_nodup _ _ HI)|..]; auto).
    subst h'. rewrite C, D. cbn. repeat split; auto; try lia.
    intros Hcl Hck. exfalso. apply (hi_pending _ _ HI Hcl); [congruence|exact Hck].
  - destruct (hi_old _ _ HI h Hin Hc) as [A [B C]]; [discriminate|].
    rewrite A. repeat split; auto; try lia; try discriminate. intros Hx. congruence.
Qed.
Print Assumptions C26_hook_chan.

(** ** non-vacuity.  Two overlapping Receives (one with a context), a pattern Receive, publishes, an unsubscribe,
    a cancellation and Close, under the canonical schedule of the correspondence run. *)
Definition ex_ops : list op :=
  [ OStart 1 KN [bs "a"; bs "b"] false; OStart 2 KN [bs "b"; bs "c"] true; OStart 3 KP [bs "b*"] false;
    OPublish false (bs "a") (bs "m1"); OPublish false (bs "b") (bs "m2"); OPublish false (bs "bb") (bs "m3");
    OPublish false (bs "c") (bs "m4");
    OUnsub KN [bs "a"];                                  (* ends receiver 1 with nil *)
    OPublish false (bs "b") (bs "m5");
    OCancel 2;                                           (* ends receiver 2 with the context error *)
    OPublish false (bs "b") (bs "m6");
    OClose EClosing ]%string.

Example C26_nonvacuous :
  let s := drive pm_simple (init false) ex_ops in
  map (fun r => (rc_id r, map m_body (rc_got r), rc_state r)) (st_recvs s) =
  [ (1, [bs "m1"; bs "m2"], RDone None ByClose);
    (2, [bs "m2"; bs "m4"; bs "m5"], RDone (Some ECtx) ByCtx);
    (3, [bs "m2"; bs "m3"; bs "m5"; bs "m6"], RDone (Some EClosing) ByClose) ]%string.
Proof. vm_compute. reflexivity. Qed.

(** 17 messages for channel x reach the second
    Receive's channel before its subscription is confirmed.  With LRecv enabled while
    waiting the run goes through and both receivers get everything. *)
Definition overlap_schedule : list label :=
  [LSubscribe 1 KN [bs "x"] false; LSrvSub 1 KN [bs "x"]; LPush;
   LSubscribe 2 KN [bs "x"] false]%string ++
  flat_map (fun i => [LSrvPublish false (bs "x") [i]; LPush; LSend; LSend; LRecv 1; LRecv 2]%string)
           [1; 2; 3; 4; 5; 6; 7; 8; 9; 10; 11; 12; 13; 14; 15; 16; 17; 18; 19; 20] ++
  [LSrvSub 2 KN [bs "x"]; LPush]%string.

Example C26_nonvacuous_overlap :
  match run pm_simple (init false) overlap_schedule with
  | Some s => map (fun r => (rc_id r, length (rc_got r), rc_state r)) (st_recvs s) = [(1, 20%nat, RLoop); (2, 20%nat, RLoop)]
  | None => False
  end.
Proof. vm_compute. reflexivity. Qed.

(** without consuming while waiting, the 17th send to receiver 2 is not enabled: the reader is stuck *)
Example C26_old_deadlock_state :
  let sched := [LSubscribe 1 KN [bs "x"] false; LSrvSub 1 KN [bs "x"]; LPush; LSubscribe 2 KN [bs "x"] false]%string ++
               flat_map (fun i => [LSrvPublish false (bs "x") [i]; LPush; LSend; LSend; LRecv 1]%string)
                        [1; 2; 3; 4; 5; 6; 7; 8; 9; 10; 11; 12; 13; 14; 15; 16] ++
               [LSrvPublish false (bs "x") [17]; LPush; LSend; LRecv 1]%string in
  match run pm_simple (init false) sched with
  | Some s => step pm_simple s LSend = None /\ step pm_simple s LPush = None
  | None => False
  end.
Proof. vm_compute. split; reflexivity. Qed.
