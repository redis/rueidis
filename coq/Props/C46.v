(** C46 — Scanner iterates every page element in order.

    Quantifier: all page sequences (a script of answers of the [next] callback, of any length, any
    mix of successful pages / errors / cursor values; past its end the callback fails) and all
    consumer stop points ([None] = never stops, [Some k] = says stop on yield number k+1).

    [live script] are the pages a consumer that never stops gets to see (up to and including the
    first page that fails or carries cursor 0); [take b l] is what a consumer with stop point [b]
    receives from the stream [l]; [stopped b l] tells whether it said stop. *)
From Coq Require Import String List NArith Bool.
Require Import RV.Model.Base RV.Model.Scanner RV.Proofs.ScannerProofs.
Import ListNotations.
Open Scope N_scope.

(** Iter yields every element of every page, in order, until the consumer stops. *)
Theorem C46_iter_yields : forall script b,
  yielded (iter script b) = take b (concat (map elems (live script))).
Proof. intros. unfold iter. now rewrite scan_yielded, items_id. Qed.
Print Assumptions C46_iter_yields.

(** The scan starts at cursor 0 and follows the returned cursors; it makes exactly the calls it
    needs: after [n] pages that all let it continue (successful, non-zero cursor, consumer not yet
    stopped) the next call is the last one (it fails, returns cursor 0, or the consumer stops in it). *)
Theorem C46_iter_cursors : forall script b,
  exists n : nat,
    cursors (iter script b) = firstn (S n) (0 :: map cursor_of script) /\
    (n <= length script)%nat /\
    Forall passes (firstn n script) /\
    stopped b (concat (map elems (firstn n script))) = false /\
    match nth_error script n with
    | None => True
    | Some (PErr _) => True
    | Some (POk vs c) => c = 0 \/ stopped b (concat (map elems (firstn (S n) script))) = true
    end.
Proof.
  intros script b. destruct (scan_cursors (fun vs => vs) script 0 b) as (n & H1 & H2 & H3 & H4 & H5).
  exists n. rewrite !items_id in *. auto.
Qed.
Print Assumptions C46_iter_cursors.

(** Err(): nil when the consumer stopped, otherwise the error of the failing page (nil when the
    scan ended with cursor 0). *)
Theorem C46_iter_err : forall script b,
  err (iter script b) = if stopped b (concat (map elems (live script))) then None else final_err script.
Proof. intros. unfold iter. now rewrite scan_err, items_id. Qed.
Print Assumptions C46_iter_err.

(** A scan allowed to finish: all elements of all pages up to the page with cursor 0, no error,
    cursors requested = 0 followed by the returned ones; pages after cursor 0 are never requested. *)
Theorem C46_iter_complete : forall pre vs post,
  Forall passes pre ->
  yielded (iter (pre ++ POk vs 0 :: post) None) = concat (map elems pre) ++ vs /\
  err (iter (pre ++ POk vs 0 :: post) None) = None /\
  cursors (iter (pre ++ POk vs 0 :: post) None) = 0 :: map cursor_of pre.
Proof.
  intros pre vs post Hp. destruct (scan_terminal (fun vs => vs) pre (POk vs 0) post Hp eq_refl 0) as (Y & E & C).
  rewrite items_id, map_app, concat_app in Y. cbn in Y. rewrite app_nil_r in Y. now repeat split.
Qed.
Print Assumptions C46_iter_complete.

(** A failing page stops the scan and is exposed through Err (consumer that never stops). *)
Theorem C46_iter_error_stops : forall pre e post,
  Forall passes pre ->
  yielded (iter (pre ++ PErr e :: post) None) = concat (map elems pre) /\
  err (iter (pre ++ PErr e :: post) None) = Some e.
Proof.
  intros pre e post Hp. destruct (scan_terminal (fun vs => vs) pre (PErr e) post Hp I 0) as (Y & E & _).
  rewrite items_id, map_app, concat_app in Y. cbn in Y. rewrite app_nil_r in Y. now split.
Qed.
Print Assumptions C46_iter_error_stops.

(** Iter2 yields the consecutive pairs of every page (a trailing odd element of a page is skipped,
    as in the loop [for i := 0; i+1 < len(vs); i += 2]). *)
Theorem C46_iter2_yields : forall script b,
  yielded (iter2 script b) = take b (concat (map (fun p => pairs_of (elems p)) (live script))).
Proof. intros. unfold iter2. now rewrite scan_yielded, items_pairs. Qed.
Print Assumptions C46_iter2_yields.

Theorem C46_iter2_err : forall script b,
  err (iter2 script b) =
  if stopped b (concat (map (fun p => pairs_of (elems p)) (live script))) then None else final_err script.
Proof. intros. unfold iter2. now rewrite scan_err, items_pairs. Qed.
Print Assumptions C46_iter2_err.

(** [pairs_of] really is "consecutive pairs": pair i is (vs[2i], vs[2i+1]), there are len/2 of them. *)
Theorem C46_pairs_consecutive : forall (vs : list bytes) i,
  length (pairs_of vs) = Nat.div2 (length vs) /\
  ((i < Nat.div2 (length vs))%nat -> nth_error (pairs_of vs) i = Some (nth (2 * i) vs [], nth (2 * i + 1) vs [])).
Proof. intros vs i. split; [apply pairs_of_length|apply pairs_of_nth]. Qed.
Print Assumptions C46_pairs_consecutive.

(** non-vacuity: a three page scan with an empty page, a consumer stopping in the second page,
    an error after two pages, and Iter2 on an odd page *)
Example C46_nonvacuous_complete :
  iter [POk [h "61"%string; h "62"%string] 7; POk [] 9; POk [h "63"%string] 0; POk [h "64"%string] 0] None =
  mkOut [h "61"%string; h "62"%string; h "63"%string] [0; 7; 9] None.
Proof. vm_compute. reflexivity. Qed.

Example C46_nonvacuous_stop :
  iter [POk [h "61"%string; h "62"%string] 7; POk [h "63"%string; h "64"%string] 9; PErr 3] (Some 2%nat) =
  mkOut [h "61"%string; h "62"%string; h "63"%string] [0; 7] None.
Proof. vm_compute. reflexivity. Qed.

Example C46_nonvacuous_error :
  iter [POk [h "61"%string] 7; PErr 3; POk [h "62"%string] 0] None = mkOut [h "61"%string] [0; 7] (Some 3).
Proof. vm_compute. reflexivity. Qed.

Example C46_nonvacuous_iter2 :
  iter2 [POk [h "61"%string; h "62"%string; h "63"%string] 5; POk [h "64"%string; h "65"%string] 0] None =
  mkOut [(h "61"%string, h "62"%string); (h "64"%string, h "65"%string)] [0; 5] None.
Proof. vm_compute. reflexivity. Qed.
