(** C15 — Typed reply accessors never panic and propagate errors.

    [run e a m] is accessor [a] (38 of them: Error, the To* / As* scalar family, DecodeJSON, the slice and
    map accessors, the stream / sorted-set / scan / pop / FT.SEARCH / FT.AGGREGATE / GEOSEARCH helpers, ToMap,
    ToAny, DecodeSliceOfJSON) applied to the reply tree [m], for ANY behaviour [e] of strconv.ParseFloat,
    float64(int64) and json.Unmarshal.  [run_result] is the same through a
    RedisResult.  [classify k text] are the RedisError classifiers on an error text.

    Quantifier: every reply tree — the theorems of the first group hold for ALL trees of the model's type,
    a superset of what the decoder can produce (children lists of any length, hence odd-length streamed maps,
    empty aggregates, scalars where aggregates are expected, any nesting depth); the wrong-shape theorem is
    stated for [decodable] trees.

    The statements are about the repaired code (fix: accessor guards); the [_before_fix] theorems record what
    the original code did at two of the repaired places (the others are kept as corpus witnesses). *)
From Coq Require Import String List NArith ZArith Bool.
Require Import RV.Model.Base RV.Model.AccBase RV.Model.Accessors RV.Proofs.AccNoPanic RV.Proofs.AccErrors.
Import ListNotations.
Open Scope N_scope.

(** no accessor panics, on any tree, directly or through a RedisResult *)
Theorem C15_no_panic : forall e a m, run e a m <> RPanic.
Proof.
  intros e a m. change (np (run e a m)). destruct a; cbn [run]; unfold as_reader, as_bytes; auto with np.
Qed.
Print Assumptions C15_no_panic.

Theorem C15_no_panic_result : forall e a rerr m, run_result e a rerr m <> RPanic.
Proof. intros e a [k|] m; [discriminate|apply C15_no_panic]. Qed.
Print Assumptions C15_no_panic_result.

(** … in particular on every tree the decoder can produce *)
Theorem C15_no_panic_decodable : forall e a m, decodable m = true -> run e a m <> RPanic.
Proof. intros e a m _. apply C15_no_panic. Qed.
Print Assumptions C15_no_panic_decodable.

(** the classifiers never panic, on any error text *)
Theorem C15_classifiers_no_panic : forall k text, classify k text <> RPanic.
Proof. intros [] text; cbn [classify]; try discriminate; apply np_rmap, np_redirect_addr. Qed.
Print Assumptions C15_classifiers_no_panic.

(** a nil reply surfaces as the Nil error from every accessor *)
Theorem C15_nil : forall e a m, mtyp m = tNull -> has_arr m = false -> run e a m = RErr ENil.
Proof. intros e a m Ht Ha. apply error_reply_propagates; [unfold msg_error; rewrite Ht; reflexivity|exact Ha]. Qed.
Print Assumptions C15_nil.

(** an error reply surfaces as that RedisError (type byte kept, "ERR " prefix trimmed) from every accessor *)
Theorem C15_error_reply : forall e a m, (mtyp m = tSimpleErr \/ mtyp m = tBlobErr) -> has_arr m = false ->
  run e a m = RErr (ERedis (mtyp m) (trim_prefix (b "ERR ") (mstr m))).
Proof.
  intros e a m Ht Ha. apply error_reply_propagates; [|exact Ha].
  unfold msg_error. destruct Ht as [-> | ->]; reflexivity.
Qed.
Print Assumptions C15_error_reply.

(** decodable nil / error replies satisfy the side condition of the two theorems above *)
Theorem C15_nil_error_decodable : forall m, decodable m = true ->
  (mtyp m =? tNull) || (mtyp m =? tSimpleErr) || (mtyp m =? tBlobErr) = true -> has_arr m = false.
Proof.
  intros m Hd H. apply decodable_not_aggregate; [exact Hd|].
  apply orb_true_iff in H as [H|H]; [apply orb_true_iff in H as [H|H]|]; apply N.eqb_eq in H; rewrite H; reflexivity.
Qed.
Print Assumptions C15_nil_error_decodable.

(** a RedisResult holding a non-redis error returns it from every accessor; otherwise it delegates *)
Theorem C15_result_error : forall e a k m,
  run_result e a (Some k) m = RErr (EOther k) /\ run_result e a None m = run e a m.
Proof. intros. split; [apply result_error_propagates|apply result_delegates]. Qed.
Print Assumptions C15_result_error.

(** wrong shape.  Full statement (every accessor, every decodable non-nil non-error reply of a type the
    accessor is not meant for, gives a parse error):

      forall e a m, decodable m = true -> msg_error m = None -> accepts a (mtyp m) = false -> run e a m = RErr EParse

    is REFUTED by the code: ToString reads a boolean (or end-marker) reply as the empty string, and so do the
    accessors built on it.  Proved: the witness, the exact behaviour on that class, and the statement with
    that class excluded. *)
Theorem C15_wrong_shape_refuted : forall e,
  exists m, decodable m = true /\ msg_error m = None /\ accepts AToString (mtyp m) = false /\
            run e AToString m = ROk (VStr []).
Proof. intro e. exists (MInt tBool 1 None). repeat split. Qed.
Print Assumptions C15_wrong_shape_refuted.

Theorem C15_wrong_shape_characterised : forall e m,
  has_arr m = false -> (mtyp m = tBool \/ mtyp m = tEnd) ->
  to_string m = ROk (mstr m) /\
  run e AToString m = ROk (VStr (mstr m)) /\ run e AAsReader m = ROk (VStr (mstr m)) /\ run e AAsBytes m = ROk (VStr (mstr m)) /\
  run e ADecodeJSON m = (if json_ok e (mstr m) then ROk VUnit else RErr EJson) /\
  run e AAsInt64 m = (match parse_int10 (mstr m) with Some z => ROk (VInt z) | None => RErr ENum end) /\
  run e AAsUint64 m = (match parse_uint10 (mstr m) with Some n => ROk (VUint n) | None => RErr ENum end).
Proof.
  intros e m Ha Ht. destruct m as [t i at_|t s at_|t l at_]; cbn in Ha, Ht; try discriminate;
    destruct Ht; subst t; cbn; repeat split; try reflexivity;
    try (destruct (json_ok e _); reflexivity);
    try (destruct (parse_int10 _); reflexivity); try (destruct (parse_uint10 _); reflexivity).
Qed.
Print Assumptions C15_wrong_shape_characterised.

Theorem C15_wrong_shape_partial : forall e a m,
  decodable m = true -> msg_error m = None -> accepts a (mtyp m) = false -> scalar_as_string a m = false ->
  run e a m = RErr EParse.
Proof.
  intros e a m Hd He Ha Hs. apply wrong_shape_guards; trivial; [|apply not_aggregate, Hd].
  intros Hv Hsb. apply to_string_wrong; trivial. unfold scalar_as_string in Hs. now rewrite Hv in Hs.
Qed.
Print Assumptions C15_wrong_shape_partial.

(** the original code at two of the repaired places *)
Theorem C15_classifiers_before_fix_characterised : forall prefix field text,
  redirect_addr_before_fix prefix field text = RPanic <->
  has_prefix text prefix = true /\ (length (split_byte 32 text) <= field)%nat.
Proof.
  intros prefix field text. unfold redirect_addr_before_fix. rewrite <- idx_panic.
  destruct (has_prefix text prefix); [|split; [discriminate|intros [[=] _]]].
  destruct (idx (split_byte 32 text) field); cbn [rbind]; split; try discriminate; try (intros [_ [=]]); auto.
Qed.
Print Assumptions C15_classifiers_before_fix_characterised.

Theorem C15_classifiers_fix_conservative : forall prefix field text,
  redirect_addr_before_fix prefix field text <> RPanic ->
  redirect_addr prefix field text = redirect_addr_before_fix prefix field text.
Proof.
  intros prefix field text H. unfold redirect_addr, redirect_addr_before_fix in *. destruct (has_prefix text prefix); [|reflexivity].
  destruct (Nat.ltb_spec field (length (split_byte 32 text))) as [Hl|Hl]; [reflexivity|].
  apply idx_panic in Hl. rewrite Hl in H. now elim H.
Qed.
Print Assumptions C15_classifiers_fix_conservative.

Theorem C15_to_map_before_fix_refuted :
  to_map_before_fix (MArr tMap [MStr tBlobString (b "k") None] None) = RPanic /\
  (forall m, even_len (mvals m) = true -> to_map m = to_map_before_fix m).
Proof. split; [reflexivity|]. intros m H. unfold to_map, to_map_before_fix. now rewrite H. Qed.
Print Assumptions C15_to_map_before_fix_refuted.

(** non-vacuity: the inputs that used to panic now give errors / ok=false; an odd streamed map inside a
    well-formed reply; a deep tree through ToAny *)
Definition ex_env : env := mkEnv (fun _ => (0, false)) (fun _ => 0) (fun _ => false).

Example C15_nonvacuous_classifiers :
  classify KMoved (b "MOVED 1") = ROk (VTup [VStr []; VBool false]) /\
  classify KRedirect (b "REDIRECT") = ROk (VTup [VStr []; VBool false]) /\
  classify KMoved (b "MOVED 3999 127.0.0.1:6381") = ROk (VTup [VStr (b "127.0.0.1:6381"); VBool true]) /\
  classify KAsk (b "ASK 3999 ::1:6381") = ROk (VTup [VStr (b "[::1]:6381"); VBool true]).
Proof. vm_compute. repeat split; reflexivity. Qed.

Example C15_nonvacuous_odd_map :
  let odd := MArr tMap [MStr tBlobString (b "k") None] None in
  run ex_env AToMap odd = RErr EParse /\ run ex_env AAsXRead odd = RErr EParse /\
  run ex_env AToAny odd = RErr EParse /\ run ex_env AAsFtSearch odd = ROk (VTup [VInt 0; VList []]) /\
  run ex_env AToAny (MArr tArray [odd; MInt tInteger 5 None] None) = ROk (VList [VErr EParse; VInt 5]).
Proof. vm_compute. repeat split; reflexivity. Qed.

Example C15_nonvacuous_ft_geo :
  run ex_env AAsFtSearch (MArr tArray [MInt tInteger 2 None; MStr tBlobString (b "a") None; MStr tBlobString (b "1.0") None; MStr tBlobString (b "b") None] None)
    = ROk (VTup [VInt 2; VList [VTup [VStr (b "a"); VNil; VFloat 0]; VTup [VStr (b "1.0"); VNil; VFloat 0]; VTup [VStr (b "b"); VNil; VFloat 0]]]) /\
  run ex_env AAsGeosearch (MArr tArray [MInt tInteger 1 None] None) = RErr EParse /\
  run ex_env AAsGeosearch (MArr tArray [MArr tArray [] None] None) = RErr EParse.
Proof. vm_compute. repeat split; reflexivity. Qed.
