(** C37 — Sliding Bloom filters keep items for at least half a window.

    [size > 0], [k >= 1] (tested side condition as for C35), any hash function, [wh] = windowHalfMs =
    window.Milliseconds() / 2, times are server-clock milliseconds.
    From ANY server state [s] (whatever happened before, including Reset/Delete/expired or missing keys):
    if Add/AddMulti at time [t] succeeds with [x] among its keys, then after any further operations
    other than Reset/Delete that all run at times in [t, t + wh] — Add, AddMulti, Exists, ExistsMulti,
    Count, re-initialisation by another NewSlidingBloomFilter, in any number and order, by any client —
    an ExistsMulti at any time [t'] in [t, t + wh] answers one boolean per queried key and [true] at
    every position that holds [x].  No bound on the history; no monotonicity of the times is needed.
    (The lock key of the model expires as in the fake server, when [pxat <= now]; Redis keeps it one
    millisecond longer, which only lengthens the guarantee.) *)
From Coq Require Import List NArith ZArith Bool Lia.
Require Import RV.Model.Base RV.Model.Bloom RV.Model.SlidingBloom RV.Proofs.SlidingBloomProofs
               RV.Model.ScriptTexts RV.Gen.Scripts.
Import ListNotations.
Open Scope Z_scope.

Theorem C37_half_window : forall (K : Type) (hash : K -> N * N) (size k : N) (wh : Z),
  (1 <= k)%N -> (0 < size)%N ->
  forall (s : sstate) (t : Z) (keys : list K) (x : K) (s1 : sstate),
  In x keys -> sstep K hash size k wh s t (SAdd keys) = (s1, XDone) ->
  forall (post : list (Z * sop K)),
  Forall (fun p => t <= fst p <= t + wh /\ sdestructive K (snd p) = false) post ->
  forall (t' : Z) (qs : list K), t <= t' <= t + wh ->
  exists bs, snd (sstep K hash size k wh (srun K hash size k wh s1 post) t' (SExists qs)) = XBools (Ok bs)
    /\ length bs = length qs
    /\ forall i, nth_error qs i = Some x -> nth_error bs i = Some true.
Proof.
  intros K hash size k wh Hk Hs s t keys x s1 Hin Hadd post Hpost t' qs Ht'.
  destruct (add_establishes K hash size k wh Hk Hs s t keys x s1 Hin Hadd) as [Hwh HI].
  pose proof (run_preserves K hash size k wh Hk Hs x t post s1 Hwh Hpost HI) as HI'.
  exact (proj2 (exists_in_window K hash size k wh Hk Hs x t _ t' qs Hwh Ht' HI')).
Qed.
Print Assumptions C37_half_window.

(** the window half the client sends is the integer halving of the window in milliseconds, so the closed
    interval [t, t + wh] contains every millisecond instant t' with t' < t + w/2 in exact arithmetic
    (2 * (t' - t) < w), for even and odd w alike: "at least half the window" *)
Theorem C37_window_half : forall w t t', 0 <= w -> t <= t' -> 2 * (t' - t) < w -> t <= t' <= t + w / 2.
Proof.
  intros w t t' Hw H1 H2. split; [exact H1|].
  assert (t' - t <= w / 2); [|lia]. apply Z.div_le_lower_bound; lia.
Qed.
Print Assumptions C37_window_half.

(** rotation needs the lock to have expired: an operation at a time when the lock is alive never rotates *)
Theorem C37_no_rotation_while_locked : forall wh now s, 0 < wh -> lock_alive s now = true -> rotate wh now s = SOk s tt.
Proof. intros wh now s Hwh Ha. unfold rotate. rewrite Ha. destruct (wh <=? 0) eqn:E; [apply Z.leb_le in E; lia|reflexivity]. Qed.
Print Assumptions C37_no_rotation_while_locked.

Theorem C37_scripts_pinned :
  rueidisprob_slidingBloomFilterInitializeScript = pin_rueidisprob_slidingBloomFilterInitializeScript /\
  rueidisprob_slidingBloomFilterAddMultiScript = pin_rueidisprob_slidingBloomFilterAddMultiScript /\
  rueidisprob_slidingBloomFilterExistsMultiScript = pin_rueidisprob_slidingBloomFilterExistsMultiScript /\
  rueidisprob_slidingBloomFilterExistsReadOnlyMultiScript = pin_rueidisprob_slidingBloomFilterExistsReadOnlyMultiScript /\
  rueidisprob_slidingBloomFilterResetScript = pin_rueidisprob_slidingBloomFilterResetScript.
Proof. repeat split; vm_compute; reflexivity. Qed.
Print Assumptions C37_scripts_pinned.

(** non-vacuity: an add at t = 1000 with window half 500 right before the lock expires (at 1001), a
    rotation at 1001, more traffic, and the query at 1500 still finds the item; at 1501 a second
    rotation has happened and it is gone *)
Example C37_nonvacuous :
  let hash := fun x : N => (x * 11 + 3, x * 5 + 1)%N in
  let s0 := fst (sstep N hash 1021 3 500 sempty 501 SInit) in
  let '(s1, v) := sstep N hash 1021 3 500 s0 1000 (SAdd [7%N]) in
  let post := [(1001, SAdd [8%N]); (1200, SExists [9%N]); (1300, SInit); (1499, SCount)] in
  v = XDone
  /\ Forall (fun p => 1000 <= fst p <= 1000 + 500 /\ sdestructive N (snd p) = false) post
  /\ snd (sstep N hash 1021 3 500 (srun N hash 1021 3 500 s1 post) 1500 (SExists [8; 7; 9]%N)) = XBools (Ok [true; true; false])
  /\ snd (sstep N hash 1021 3 500 (srun N hash 1021 3 500 s1 post) 1501 (SExists [7]%N)) = XBools (Ok [false]).
Proof.
  intros hash s0. destruct (sstep N hash 1021 3 500 s0 1000 (SAdd [7%N])) as [s1 v] eqn:E. intros post.
  vm_compute in E. injection E as <- <-.
  split; [reflexivity|]. split; [|split; vm_compute; reflexivity].
  (* the side condition is arithmetic: evaluating [<=] against the literals would unfold their comparison tables *)
  repeat constructor; cbn [fst snd]; lia.
Qed.
