(** C38 — Rate limiter never admits more than the limit per window.

    Script executions are atomic on the server, so every interleaving of concurrent callers is a
    sequence of calls in the order the server ran their scripts; the theorems quantify over ALL such
    sequences (any number of callers and identifiers, any n, limits, windows) and over ALL clock
    values: every call carries the caller's clock [now_c] and the server's clock [now_s]; the callers'
    clocks need not be monotone or shared.  (The model evaluates key expiry against [now_s] of each call;
    this is Redis' behaviour when the server clock does not go back between script runs — a key that
    expired stays expired.  The theorems hold for all [now_s] sequences of the model.)  Hypotheses ([good]): windows are positive and
    the server clock is less than 1000 ms ahead of the caller's clock — the slack by which the script
    keeps its keys beyond the end of a window.  (Without it the statement is false: a server clock far
    ahead expires the keys at once and every call opens a new window with the same ResetAtMs.)

    A window is identified by (identifier, ResetAtMs). *)
From Coq Require Import List NArith ZArith Bool Lia.
Require Import RV.Model.Base RV.Model.Limiter RV.Proofs.LimiterProofs RV.Model.ScriptTexts RV.Gen.Scripts.
Import ListNotations.
Open Scope Z_scope.

(** calls of other identifiers never influence an identifier: its calls, state and results are those of
    the projected history *)
Theorem C38_identifiers_independent : forall (calls : list call) (id : N),
  let '(st', tr') := run sempty_store [] calls in
  lrun lempty [] (calls_of id calls) = (st' id, proj id tr').
Proof. intros calls id. exact (run_proj calls sempty_store [] id). Qed.
Print Assumptions C38_identifiers_independent.

(** per (identifier, window): the units admitted (n > 0, Allowed) add up to at most the limit, when the
    calls of that identifier use one limit L (the limiter's own, or the same custom limit) *)
Theorem C38_admitted_le_limit : forall (calls : list call) (id : N) (L R : Z),
  Forall (fun c => good (body c)) calls ->
  (forall c, In c calls -> cid c = id -> limit (body c) = L) ->
  admitted_sum (snd (run sempty_store [] calls)) id R <= Z.max L 0.
Proof.
  intros calls id L R Hg HL. unfold admitted_sum. rewrite proj_run. apply admitted_bound.
  - exact Jinv_empty.
  - apply calls_of_good. exact Hg.
  - intros c Hin. destruct (calls_of_In id calls c Hin) as [c0 [H1 [H2 H3]]]. rewrite <- H3. apply HL; assumption.
  - intros R'. cbn [admitted]. lia.
Qed.
Print Assumptions C38_admitted_le_limit.

(** the general form, with per-call limits and windows (WithCustomRateLimit): at every admitted call, what
    was admitted in its window so far (that call included) is within THAT call's limit; and for every
    call: Remaining = max(limit - everything requested so far in the window, 0), the script's counter is
    exactly that requested sum, and no earlier call was counted in a later window (ResetAtMs never goes
    back: it identifies the window the call was counted in) *)
Theorem C38_every_call : forall (calls : list call) (id : N),
  Forall (fun c => good (body c)) calls ->
  forall pre c r post, proj id (snd (run sempty_store [] calls)) = pre ++ (c, Ok r) :: post ->
    remaining r = Z.max (limit c - requested (pre ++ [(c, Ok r)]) (reset r)) 0
    /\ current r = requested (pre ++ [(c, Ok r)]) (reset r)
    /\ (allowed r = true -> 0 < n c -> admitted (pre ++ [(c, Ok r)]) (reset r) <= limit c)
    /\ (forall c' r', In (c', Ok r') pre -> reset r' <= reset r).
Proof.
  intros calls id Hg pre c r post Heq. rewrite proj_run in Heq.
  pose proof (lrun_spec (calls_of id calls) lempty [] Jinv_empty (calls_of_good id calls Hg)) as Hs.
  destruct (lrun lempty [] (calls_of id calls)) as [s' tr']. destruct Hs as (_ & suf & -> & Hall).
  exact (Hall pre c (Ok r) post Heq).
Qed.
Print Assumptions C38_every_call.

Theorem C38_remaining : forall (calls : list call) (id : N),
  Forall (fun c => good (body c)) calls ->
  forall pre c r post, proj id (snd (run sempty_store [] calls)) = pre ++ (c, Ok r) :: post ->
    remaining r = Z.max (limit c - requested (pre ++ [(c, Ok r)]) (reset r)) 0.
Proof. intros calls id Hg pre c r post Heq. exact (proj1 (C38_every_call calls id Hg pre c r post Heq)). Qed.
Print Assumptions C38_remaining.

(** Check (n = 0) consumes nothing: when the window is live for the caller the server state is unchanged;
    in every case the units counted in the caller's current window are the same before and after, and
    the result reports them (Remaining = max(limit - counted, 0), Allowed = counted < limit) *)
Theorem C38_check_pure : forall (s : lstate) (c : lcall), n c = 0 -> good c ->
  let '(s', o) := allow_n s c in
  (window_live s (now_c c) (now_s c) = true -> s' = s) /\
  counted s' (now_c c) (now_s c) = counted s (now_c c) (now_s c) /\
  exists r, o = Ok r /\ current r = counted s (now_c c) (now_s c) /\
            remaining r = Z.max (limit c - counted s (now_c c) (now_s c)) 0 /\
            allowed r = (counted s (now_c c) (now_s c) <? limit c).
Proof.
  intros s c Hn [Hw Hskew]. unfold allow_n. rewrite Hn. cbn [Z.ltb Z.compare].
  pose proof (script_counted s 0 (now_c c + window c) (now_c c) (now_s c)) as Hs.
  pose proof (script_check_keeps s (now_c c + window c) (now_c c) (now_s c)) as Hkeep.
  destruct (script s 0 (now_c c + window c) (now_c c) (now_s c)) as [s' [cur e]].
  destruct Hs as [-> Hcnt]; [lia..|]. rewrite Z.add_0_r in *.
  split; [exact Hkeep|]. split; [exact Hcnt|].
  eexists. split; [reflexivity|]. cbn [current remaining allowed]. split; [reflexivity|]. split; [reflexivity|]. lia.
Qed.
Print Assumptions C38_check_pure.

(** a negative n is refused before anything is sent *)
Theorem C38_negative_refused : forall s c, n c < 0 -> allow_n s c = (s, Err 1).
Proof. intros s c H. unfold allow_n. destruct (n c <? 0) eqn:E; [reflexivity|]. apply Z.ltb_ge in E. lia. Qed.
Print Assumptions C38_negative_refused.

(** why the clock hypothesis is needed: with a server clock 2 s ahead, two Allow calls in the same
    millisecond are both admitted under limit 1 with the same ResetAtMs *)
Theorem C38_clock_hypothesis_needed : exists calls id R,
  Forall (fun c => 0 < window (body c)) calls /\ (forall c, In c calls -> limit (body c) = 1) /\
  admitted_sum (snd (run sempty_store [] calls)) id R = 2.
Proof.
  exists [ {| cid := 7%N; body := {| n := 1; limit := 1; window := 100; now_c := 5000; now_s := 7000 |} |};
           {| cid := 7%N; body := {| n := 1; limit := 1; window := 100; now_c := 5000; now_s := 7000 |} |} ], 7%N, 5100.
  split; [repeat constructor|]. split; [intros c [<-|[<-|[]]]; reflexivity|]. vm_compute. reflexivity.
Qed.
Print Assumptions C38_clock_hypothesis_needed.

Theorem C38_script_pinned : rueidislimiter_rateLimitScript = pin_rueidislimiter_rateLimitScript.
Proof. vm_compute. reflexivity. Qed.
Print Assumptions C38_script_pinned.

(** non-vacuity: two identifiers interleaved, a window boundary, a Check, a denied request that still counts *)
Example C38_nonvacuous :
  let mk := fun id n now => {| cid := id; body := {| n := n; limit := 5; window := 100; now_c := now; now_s := now + 300 |} |} in
  let calls := [mk 1%N 2 1000; mk 2%N 5 1001; mk 1%N 3 1050; mk 1%N 1 1060; mk 1%N 0 1070; mk 1%N 4 1101; mk 2%N 1 1002] in
  Forall (fun c => good (body c)) calls
  /\ map (fun p => match snd p with Ok r => (allowed r, remaining r, reset r) | _ => (false, -1, -1) end) (snd (run sempty_store [] calls))
     = [(true, 3, 1100); (true, 0, 1101); (true, 0, 1100); (false, 0, 1100); (false, 0, 1100); (true, 1, 1201); (false, 0, 1101)]
  /\ admitted_sum (snd (run sempty_store [] calls)) 1%N 1100 = 5.
Proof. vm_compute. repeat split; repeat constructor; reflexivity. Qed.
