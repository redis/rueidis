(** C25 — Dedicated clients are isolated and single-use.

    Model: [RV.Model.Dedicated].  A wire of the blocking pool is idle or held by exactly one holder — a dedicated
    client or an ordinary blocking command ([mux.blocking] shares the pool); shared auto-pipelined traffic runs on
    other connections.  [d_log] is everything the server sees on the pool connections, with acquire / release markers.
    All theorems quantify over every program [ls]: any number of dedicated sessions, blocking commands and shared
    commands in any interleaving, sessions that subscribe, install hooks, switch tracking on, abandon a blocking
    command, are released, closed, and used again afterwards.  (The interleaving is one of whole client operations;
    the concurrency inside the pool itself is C24's subject — here the pool is its abstraction "idle | held by one".)

    The code modelled is the repaired one (fix: Close() of a released client no longer closes the recycled wire). *)
From Coq Require Import String List Arith NArith ZArith Bool.
Require Import RV.Model.Base RV.Model.PsBase RV.Model.Dedicated RV.Proofs.DedicatedProofs.
Import ListNotations.
Open Scope N_scope.
Open Scope list_scope.

(** ** exclusivity: replayed against the specification "a set of holders per wire", the log of every reachable state
    is accepted: a wire is acquired only when nobody holds it, every command on it between an acquire and the matching
    release is its holder's (the clean-up commands of Store included), and it is released by its holder.  So nothing
    can interleave with a WATCH / MULTI / EXEC sequence of a dedicated client. *)
Theorem C25_exclusive : forall f v ls s, drun (dinit f v) ls = Some s -> log_ok [] (d_log s) = true.
Proof.
  intros f v ls s H. destruct (di_replay _ (dinv_reach f v ls s H)) as [hs [Hr _]].
  apply log_ok_replay. eauto.
Qed.
Print Assumptions C25_exclusive.

(** shared pipelines never use pool wires *)
Theorem C25_shared_elsewhere : forall s a s', dstep s (SDo a) = Some s' -> d_log s' = d_log s /\ d_wires s' = d_wires s.
Proof. intros s a s' H. cbn in H. injection H as <-. split; reflexivity. Qed.
Print Assumptions C25_shared_elsewhere.

(** ** single use: release and Close mark the client; the mark never goes away; every entry point of a marked client
    answers ErrDedicatedClientRecycled and changes nothing else — no command is written, no wire is touched (release
    and Close themselves become no-ops). *)
Theorem C25_recycled : forall s d,
  (forall s', (dstep s (DRelease d) = Some s' \/ dstep s (DClose d) = Some s') -> recycled s' d) /\
  (forall l s', recycled s d -> dstep s l = Some s' -> recycled s' d) /\
  (recycled s d ->
     (forall a, dstep s (DDo d a) = Some (add_res s d RRecycled)) /\
     (forall a, dstep s (DSubscribe d a) = Some (add_res s d RRecycled)) /\
     (forall a, dstep s (DBlockFail d a) = Some (add_res s d RRecycled)) /\
     (forall a, dstep s (DTrackingOn d a) = Some (add_res s d RRecycled)) /\
     (forall z i, dstep s (DSetHooks d z i) = Some (add_res s d RRecycled)) /\
     dstep s (DRelease d) = Some s /\ dstep s (DClose d) = Some s /\
     (forall a, dstep s (DTry d a) = None)).
Proof.
  intros s d. split; [intros s'; apply release_marks|]. split; [intros l s' R H; eapply recycled_sticky; eauto|apply recycled_rejects].
Qed.
Print Assumptions C25_recycled.

(** ** no send after release.  Do / DoMulti retry a read-only command after a retryable failure that leaves the
    connection healthy (-LOADING); every attempt re-checks the mark ([DTry] / [DDo] both start with check()).  So from a
    state in which the client is marked — released or closed at ANY point, in particular during the back-off of a call
    that is still in progress (from another goroutine or from the RetryDelay callback) — no step, and no continuation of
    the program, adds an event of that client to any connection's log: nothing of a released session reaches the
    server, whoever holds its former connection now (e.g. another session between MULTI and EXEC). *)
Theorem C25_no_send_after_release : forall ls s s' d, recycled s d -> drun s ls = Some s' ->
  exists evs, d_log s' = d_log s ++ evs /\ forall e, In e evs -> ev_holder e <> HDed d.
Proof.
  induction ls as [|l ls IH]; intros s s' d R H; cbn in H.
  - injection H as <-. exists []. rewrite app_nil_r. split; [reflexivity|intros e []].
  - destruct (dstep s l) as [s1|] eqn:S; [|discriminate].
    destruct (no_send_after_release s l s1 d R S) as [e1 [E1 B1]].
    destruct (IH s1 s' d (recycled_sticky s l s1 d R S) H) as [e2 [E2 B2]].
    exists (e1 ++ e2). rewrite E2, E1, app_assoc. split; [reflexivity|].
    intros e Hin. apply in_app_or in Hin. destruct Hin; auto.
Qed.
Print Assumptions C25_no_send_after_release.

(** ** clean-up on release: the log grows by exactly Store's events, issued by the releasing client, ending with the
    release marker; the wire is in the idle list afterwards iff it is still usable. *)
Theorem C25_cleanup : forall s d c x,
  find_dc d (d_clients s) = Some c -> dc_mark c = false -> find_wire (dc_wire c) (d_wires s) = Some x ->
  exists s', dstep s (DRelease d) = Some s' /\
    d_log s' = d_log s ++ store_events x (HDed d) /\
    find_wire (dc_wire c) (d_wires s') = Some (stored_wire x) /\
    (In (dc_wire c) (d_idle s') <-> (w_dead x || w_blocked x = false \/ In (dc_wire c) (d_idle s))).
Proof. exact cleanup. Qed.
Print Assumptions C25_cleanup.

(** … spelled out: SetPubSubHooks({}) (no hooks, no invalidation callback left), CleanSubscriptions (UNSUBSCRIBE,
    PUNSUBSCRIBE, SUNSUBSCRIBE on version >= 7, DISCARD — if the pipe was pipelining; the connection is closed instead
    if a blocking command was abandoned on it), CLIENT TRACKING OFF iff an invalidation hook was installed, and only
    then the release marker; a dead wire is discarded. *)
Theorem C25_cleanup_sequence : forall x h,
  w_hooks (stored_wire x) = false /\ w_inval (stored_wire x) = false /\ w_holder (stored_wire x) = None /\
  (w_dead x = false -> w_blocked x = false ->
     store_events x h =
       (if w_bg x then [EvCmd (w_id x) h (WUnsub (w_v7 x))] else []) ++
       (if w_inval x then [EvCmd (w_id x) h WTrackingOff] else []) ++ [EvRel (w_id x) h true] /\
     w_dead (stored_wire x) = false /\
     (w_inval x = true -> w_tracking (stored_wire x) = false)) /\
  (w_dead x = false -> w_blocked x = true ->
     store_events x h = [EvCmd (w_id x) h WCloseConn; EvRel (w_id x) h false] /\ w_dead (stored_wire x) = true) /\
  (w_dead x = true -> store_events x h = [EvRel (w_id x) h false] /\ w_dead (stored_wire x) = true).
Proof. exact cleanup_spelled. Qed.
Print Assumptions C25_cleanup_sequence.

(** ** non-vacuity: two dedicated sessions, a blocking command and shared traffic; session 1 subscribes, installs an
    invalidation hook and is released; its wire is reused by session 2; session 1 is used after release *)
Definition ex_prog : list dlabel :=
  [ DAcquire 1; DDo 1 [bs "WATCH"; bs "k"]%string; SDo [bs "INCR"; bs "n"]%string; DSubscribe 1 [bs "SUBSCRIBE"; bs "c"]%string;
    DSetHooks 1 false true; DTrackingOn 1 [bs "CLIENT"; bs "TRACKING"; bs "ON"]%string;
    BDo 7 [bs "BLPOP"; bs "l"; bs "0"]%string false;
    DDo 1 [bs "MULTI"]%string; DDo 1 [bs "EXEC"]%string; DRelease 1;
    DAcquire 2; DDo 1 [bs "GET"; bs "k"]%string; DDo 2 [bs "GET"; bs "k"]%string; DClose 1; DRelease 2 ].

Example C25_nonvacuous :
  match drun (dinit 2 true) ex_prog with
  | Some s =>
    log_ok [] (d_log s) = true /\
    served_cmds 2 (d_log s) =
      [WUser [bs "WATCH"; bs "k"]; WUser [bs "SUBSCRIBE"; bs "c"]; WUser [bs "CLIENT"; bs "TRACKING"; bs "ON"];
       WUser [bs "MULTI"]; WUser [bs "EXEC"]; WUnsub true; WTrackingOff; WUser [bs "GET"; bs "k"]; WUnsub true]%string /\
    served_cmds 3 (d_log s) = [WUser [bs "BLPOP"; bs "l"; bs "0"]]%string /\
    d_res s = [(1, ROk); (1, ROk); (1, ROk); (1, ROk); (1, ROk); (1, ROk); (1, RRecycled); (2, ROk)] /\
    d_idle s = [2; 3]
  | None => False
  end.
Proof. vm_compute. repeat split. Qed.

(** non-vacuity of the retry loop: session 1's GET gets -LOADING (first attempt, [DTry]); during the back-off session 1
    is released, session 2 acquires the same wire and opens a transaction; session 1's second attempt is rejected
    (RRecycled) and writes nothing: the wire's log shows session 2's MULTI, SET, EXEC uninterrupted. *)
Definition ex_retry : list dlabel :=
  [ DAcquire 1; DDo 1 [bs "SET"; bs "k"; bs "v"]%string; DTry 1 [bs "GET"; bs "r"]%string;
    DRelease 1; DAcquire 2; DDo 2 [bs "MULTI"]%string; DDo 2 [bs "SET"; bs "k2"; bs "v"]%string;
    DDo 1 [bs "GET"; bs "r"]%string;
    DDo 2 [bs "EXEC"]%string; DRelease 2 ].

Example C25_nonvacuous_retry :
  match drun (dinit 2 true) ex_retry with
  | Some s =>
    log_ok [] (d_log s) = true /\
    served_cmds 2 (d_log s) =
      [WUser [bs "SET"; bs "k"; bs "v"]; WUser [bs "GET"; bs "r"];
       WUser [bs "MULTI"]; WUser [bs "SET"; bs "k2"; bs "v"]; WUser [bs "EXEC"]]%string /\
    d_res s = [(1, ROk); (2, ROk); (2, ROk); (1, RRecycled); (2, ROk)] /\
    drun (dinit 2 true) (firstn 4 ex_retry ++ [DTry 1 [bs "GET"; bs "r"]%string]) = None
  | None => False
  end.
Proof. vm_compute. repeat split. Qed.

