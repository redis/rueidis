(** C29 — Streaming reads deliver exact bytes (byte-level half: streamTo of resp.go).
    The connection-recycling half (DoStream / DoMultiStream / pool) is Props/C29b.v.

    [stream_to] (Model/RespStream.v) transcribes streamTo after two repairs found by this property
    (a failing writer made it discard bytes of the next reply while reporting the reply clean; a streamed
    string abandoned after an error was reported clean).  [runw] runs it on a byte stream with a writer
    that accepts a budget of bytes and then fails ([unlimited]: never fails) -- "failure at every byte of
    the output"; failure of the input at every byte is the correspondence run's truncation sweep.
    Values and encodings are those of C12 (all sizes, arbitrary payload bytes, B >= 32). *)
From Coq Require Import List Arith NArith ZArith Bool.
From Coq Require Import String.
Require Import RV.Model.Base RV.Model.RespWrite RV.Model.RespStream.
Require Import RV.Proofs.RespRoundtrip RV.Proofs.RespStreamChunks RV.Proofs.RespStreamC29 RV.Proofs.RespStreamTrunc.
Import ListNotations.
Open Scope N_scope.

(** a string (counted or streamed in any chunks), verbatim string, simple string, double, big number,
    integer or boolean reply: the writer receives exactly the payload, n is its length, no error, and
    exactly the reply has been taken off the connection *)
Theorem C29_bytes_payload : forall (B : nat) (v : rv) (p rest : bytes),
  (32 <= B)%nat -> wf v = true -> payload v = Some p ->
  stream B None (enc v ++ rest) = ((zlen p, SNone, true), rest, p).
Proof. intros B v p rest HB. now apply stream_payload_top. Qed.
Print Assumptions C29_bytes_payload.

(** … in any state of the writer and with any sufficient fuel (the form used for several replies in a row) *)
Theorem C29_bytes_payload_general : forall (B : nat) (v : rv) (p rest : bytes) (f : nat) (w : wstate),
  (32 <= B)%nat -> wf v = true -> payload v = Some p -> unlimited w -> (cost v <= S f)%nat ->
  exists w', runw B (stream_to (S f)) (enc v ++ rest) w = ((zlen p, SNone, true), rest, w') /\ w_out w' = w_out w ++ p.
Proof. intros B v p rest f w HB. now apply stream_payload. Qed.
Print Assumptions C29_bytes_payload_general.

(** the payload is what a normal read of the same reply returns (C12_roundtrip gives [abs v]) *)
Theorem C29_bytes_same_as_read : forall (v : rv) (p : bytes), payload v = Some p ->
  (m_typ (abs v) <> tInteger /\ m_typ (abs v) <> tBool /\ p = m_str (abs v)) \/
  ((m_typ (abs v) = tInteger \/ m_typ (abs v) = tBool) /\ p = decZ (m_ival (abs v))).
Proof. exact payload_is_read. Qed.
Print Assumptions C29_bytes_same_as_read.

(** the writer fails after k bytes, for any k: the first k payload bytes were written, the writer's error
    is reported, and the reply is nevertheless consumed exactly and reported clean *)
Theorem C29_bytes_writer_failure : forall (B : nat) (v : rv) (p rest : bytes) (f : nat) (k : N) (out : bytes),
  (32 <= B)%nat -> wf v = true -> payload v = Some p -> single_copy v = true -> (cost v <= S f)%nat ->
  let w := {| w_budget := Some k; w_out := out; w_failed := false |} in
  let d := firstn (Nat.min (N.to_nat k) (List.length p)) p in
  exists w',
    runw B (stream_to (S f)) (enc v ++ rest) w =
      ((zlen d, (if k <? blen p then SErr eWriter else SNone), true), rest, w') /\
    w_out w' = out ++ d.
Proof. intros B v p rest f k out HB. now apply stream_writer_fails. Qed.
Print Assumptions C29_bytes_writer_failure.

(** null replies (RESP3 null and every RESP2 null) are reported as rueidis.Nil *)
Theorem C29_bytes_nil : forall (B : nat) (t : N) (rest : bytes) (f : nat) (w : wstate),
  (32 <= B)%nat -> is_null_type t = true ->
  runw B (stream_to (S f)) (enc (VNull t) ++ rest) w = ((0%Z, SNil, true), rest, w).
Proof. intros B t rest f w HB. now apply stream_null. Qed.
Print Assumptions C29_bytes_nil.

(** error replies (simple errors, blob errors counted or streamed) are reported as a RedisError that
    carries exactly the decoded message *)
Theorem C29_bytes_error : forall (B : nat) (v : rv) (rest : bytes) (f : nat) (w : wstate),
  (32 <= B)%nat -> wf v = true -> (cost v <= S f)%nat ->
  (m_typ (abs v) = tSimpleErr \/ m_typ (abs v) = tBlobErr) ->
  (forall t s, enc v = t :: s -> k_stream_blob t = false) ->
  runw B (stream_to (S f)) (enc v ++ rest) w = ((0%Z, SRedis (abs v), true), rest, w).
Proof. intros B v rest f w HB. now apply stream_error. Qed.
Print Assumptions C29_bytes_error.

(** push frames that arrive before the reply are skipped *)
Theorem C29_bytes_push_skipped : forall (B : nat) (st : bool) (l : list rv) (s : bytes) (f : nat) (w : wstate),
  (32 <= B)%nat -> wf (VAgg tPush st l) = true -> (cost (VAgg tPush st l) <= S f)%nat ->
  runw B (stream_to (S f)) (enc (VAgg tPush st l) ++ s) w = runw B (stream_to f) s w.
Proof. intros B st l s f w HB. now apply stream_push. Qed.
Print Assumptions C29_bytes_push_skipped.

(** other aggregates are refused with an error, but consumed completely (the connection stays usable) *)
Theorem C29_bytes_aggregate_refused : forall (B : nat) (t : N) (st : bool) (l : list rv) (rest : bytes) (f : nat) (w : wstate),
  (32 <= B)%nat -> (t = tArray \/ t = tSet \/ t = tMap) ->
  wf (VAgg t st l) = true -> (cost (VAgg t st l) <= S f)%nat ->
  runw B (stream_to (S f)) (enc (VAgg t st l) ++ rest) w = ((0%Z, SErr eUnsupported, true), rest, w).
Proof. intros B t st l rest f w HB. now apply stream_aggregate. Qed.
Print Assumptions C29_bytes_aggregate_refused.

(** failure of the INPUT at every byte, combined with ANY writer (also one that has already failed part-way
    through the payload): every strict prefix of a counted string reply (cut inside the length line, inside
    the payload or inside the final CRLF, or empty) is reported unclean, with an error -- a connection on which
    the rest of the reply is still outstanding must not be recycled *)
Theorem C29_bytes_truncated_unclean : forall (B : nat) (t : N) (s : bytes) (k f : nat) (w : wstate),
  (32 <= B)%nat -> (t = tBlobString \/ t = tVerbatim) -> (zlen s + 2 < two63)%Z ->
  (k < List.length (enc (VBlob t s)))%nat ->
  unclean (fst (fst (runw B (stream_to (S f)) (firstn k (enc (VBlob t s))) w))).
Proof. intros B t s k f w HB. now apply stream_counted_trunc. Qed.
Print Assumptions C29_bytes_truncated_unclean.

(** Not proved, observed on every run (obs_respstream, kinds trunc / writer): truncations of the other reply
    kinds (streamed strings, lines, integers, …) are unclean; a streamed string whose writer fails is unclean. *)

(** non-vacuity: a streamed verbatim string after a push, a writer failing inside a counted string,
    a RESP2 null, a blob error *)
Example C29_bytes_nonvacuous :
  let push := VAgg tPush false [VLine tSimpleString (h "6d657373616765"); VInt 7] in
  stream 32 None (enc push ++ enc (VBlobStream tVerbatim [h "7478743a"; h "0d0a00ff"]) ++ h "2b4e4558540d0a")
    = ((8%Z, SNone, true), h "2b4e4558540d0a", h "7478743a0d0a00ff") /\
  stream 32 (Some 3) (enc (VBlob tBlobString (h "30313233343536373839")) ++ h "2b4e4558540d0a")
    = ((3%Z, SErr eWriter, true), h "2b4e4558540d0a", h "303132") /\
  stream 32 None (enc (VNull tBlobString) ++ [1]) = ((0%Z, SNil, true), [1], []) /\
  fst (fst (stream 32 None (enc (VBlob tBlobErr (h "455252")) ++ [1]))) = (0%Z, SRedis (abs (VBlob tBlobErr (h "455252"))), true).
Proof. vm_compute. repeat split. Qed.
