(** C10 — Client-side cache memory stays within CacheSizeEachConn.

    Model: RV.Model.Lru (lru.go as repaired by the `fix:` commit recorded in known_findings.d/lru.json:
    the eviction walk takes the successor before removing an element).  A history is any list of
    operations of the store, including the individual critical sections of Flight / Flights, so every
    lock-granular interleaving of concurrent callers is a history.

    Hypotheses: [0 <= cmax] (rueidis.go replaces a non-positive CacheSizeEachConn by the default),
    [0 <= cbase], [0 <= cmss] (entryBaseSize and messageStructSize are unsafe.Sizeof sums), and
    [wf_op]: a reply handed to Update is a real message (type byte <> 0), as every message produced
    by the RESP reader is.

    After Close the store and list are dropped and [size] is left untouched by the code (it is never
    read again); the accounting equation is therefore stated for an open store, the bound on the
    retained entries for every state. *)
From Coq Require Import List NArith ZArith Bool.
Require Import RV.Model.Base RV.Model.Lru RV.Proofs.LruBase RV.Proofs.LruSteps RV.Proofs.LruC10.
Import ListNotations.
Open Scope Z_scope.

(** The accounted size equals the sum of the sizes of the completed entries actually retained, and
    that sum never exceeds the limit — after every operation of every history. *)
Theorem C10_inv : forall g ops,
  0 <= cmax g -> 0 <= cbase g -> 0 <= cmss g -> Forall wf_op ops ->
  let s := run g ops init in
  (closed s = false -> size s = sum_done (order s)) /\ sum_done (order s) <= cmax g.
Proof.
  intros g ops Hmax Hb Hm Hw s.
  destruct (all_run g ops Hmax Hb Hm init Hw inv_init (fun e (H : In e []) => match H with end) (fun _ => Hmax)) as [Hi [Hn Hbd]].
  fold s in Hi, Hn, Hbd.
  pose proof (sum_done_eq (order s) (inv_pend0 s Hi)) as Hd. split.
  - intro Hc. rewrite Hd. apply (inv_size s Hi Hc).
  - destruct (closed s) eqn:Hc.
    + rewrite (inv_closed s Hi Hc). cbn. exact Hmax.
    + rewrite Hd, <- (inv_size s Hi Hc). apply Hbd. exact Hc.
Qed.
Print Assumptions C10_inv.

(** Update evicts least-recently-used completed entries first: with [s1] the store as Update leaves it
    before the walk (reply committed, size added), the list splits as [l1 ++ l2] such that exactly the
    completed entries of the prefix [l1] are removed (pending ones of [l1] stay in place), the size was
    above the limit when each element of [l1] was visited (so no shorter prefix would do), and the walk
    stops as soon as the size fits or the list is exhausted. *)
Theorem C10_lru_first : forall g ops k c v s1,
  pre_evict g (run g ops init) k c v = Some s1 ->
  let s' := fst (step g (run g ops init) (Update k c v)) in
  exists l1 l2, order s1 = l1 ++ l2 /\
    order s' = filter pending l1 ++ l2 /\
    size s' = size s1 - sum_sizes (filter done l1) /\
    (forall a e b, l1 = a ++ e :: b -> cmax g < size s1 - sum_sizes (filter done a)) /\
    (size s' <= cmax g \/ l2 = []).
Proof. intros g ops k c v s1 H. exact (update_lru_first g _ k c v s1 H). Qed.
Print Assumptions C10_lru_first.

(** In-flight entries are never evicted: a pending entry leaves the store only through the Update or
    Cancel of its own command, or Close. *)
Theorem C10_pending_never_evicted : forall g ops o e,
  Forall wf_op ops ->
  let s := run g ops init in
  In e (order s) -> pending e = true -> ~ resolves (ekey e) (ecmd e) o ->
  In e (order (fst (step g s o))).
Proof.
  intros g ops o e Hw s He Hp Hr. apply pending_survives; try assumption.
  apply inv_run; [exact Hw|apply inv_init].
Qed.
Print Assumptions C10_pending_never_evicted.

(** non-vacuity: max = 10 x entryMinSize; two replies of 1384 bytes, then one of 2884 bytes whose
    insertion needs two evictions (5652 -> 4268 -> 2884); a pending entry in front is skipped *)
Definition ex_g := mkCfg 3760 336 40.
Definition ex_k (n : N) : bytes := [n].
Definition ex_v (n : N) : msg := Msg 36 0 (pad [] n) [] 0 true.
Definition ex_ops : list op :=
  [Flight (ex_k 0) (ex_k 71) 1000000000 0;      (* stays pending, oldest *)
   Flight (ex_k 1) (ex_k 71) 1000000000 0; Flight (ex_k 2) (ex_k 71) 1000000000 0; Flight (ex_k 3) (ex_k 71) 1000000000 0;
   Update (ex_k 1) (ex_k 71) (ex_v 1004); Update (ex_k 2) (ex_k 71) (ex_v 1004)].

Example C10_nonvacuous :
  Forall wf_op (ex_ops ++ [Update (ex_k 3) (ex_k 71) (ex_v 2504)]) /\
  size (run ex_g ex_ops init) = 2768 /\
  map eid (order (run ex_g ex_ops init)) = [0; 1; 2; 3]%N /\
  (exists s1, pre_evict ex_g (run ex_g ex_ops init) (ex_k 3) (ex_k 71) (ex_v 2504) = Some s1 /\ size s1 = 5652) /\
  let s' := run ex_g (ex_ops ++ [Update (ex_k 3) (ex_k 71) (ex_v 2504)]) init in
  size s' = 2884 /\ map eid (order s') = [0; 3]%N /\ map pending (order s') = [true; false].
Proof.
  split; [repeat constructor; discriminate|].
  split; [vm_compute; reflexivity|]. split; [vm_compute; reflexivity|].
  split.
  { (* the entry found is the pending one of key 3; the committed store is not normalised (2.5 kB reply) *)
    unfold pre_evict.
    assert (E : lookup (ex_k 3) (ex_k 71) (order (run ex_g ex_ops init))
                = Some (mkE 3 (ex_k 3) (ex_k 71) (pending_msg 1000000000 0) 0)) by (vm_compute; reflexivity).
    rewrite E. eexists. split; [reflexivity|vm_compute; reflexivity]. }
  vm_compute. repeat split; reflexivity.
Qed.
