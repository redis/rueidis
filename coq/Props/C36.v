(** C36 — Counting Bloom filters track multiplicities without false negatives.

    [size > 0], [k >= 1] (tested side condition, as for C35), any hash function.
    * no counter ever becomes negative — for ALL histories, including removals of items that were
      never added (the remove script's simulation + rollback);
    * the remove script is, item by item and in order, "remove if every one of the item's counters can
      pay for it, otherwise change nothing"; in particular a single failing Remove changes nothing;
    * if only present items are removed ([wf_hist]: at its turn, every removed key has positive net
      multiplicity), then every counter equals the number of (item, hash position) pairs that map to
      it, Count is the number of items, ItemMinCount(Multi) answers per key in order and never less
      than the key's net multiplicity (capped by MaxUint64, the initial value of Go's running minimum),
      and Exists(Multi) reports every item with positive multiplicity. *)
From Coq Require Import List NArith ZArith Bool Lia.
Require Import RV.Model.Base RV.Model.Bloom RV.Model.CountingBloom RV.Proofs.CountingBloomProofs
               RV.Model.ScriptTexts RV.Gen.Scripts.
Import ListNotations.
Open Scope Z_scope.

Theorem C36_no_negative_counter : forall (K : Type) (hash : K -> N * N) (size k : N),
  (1 <= k)%N -> (0 < size)%N -> forall (ops : list (cop K)) (f : cfilter),
  (forall j, 0 <= getc (ctrs f) j) -> forall j, 0 <= getc (ctrs (crun K hash size k f ops)) j.
Proof.
  intros K hash size k Hk Hs. induction ops as [|o r IH]; intros f Hn; [exact Hn|].
  cbn [crun]. apply IH. exact (cstep_nonneg K hash size k Hk Hs f o Hn).
Qed.
Print Assumptions C36_no_negative_counter.

(** the script, characterised: sequential conditional removal (counters pointwise, and the total) *)
Theorem C36_remove_script_characterised : forall (chunks : list (list N)) (f : cfilter),
  (forall j, getc (ctrs (cremove_script chunks f)) j = getc (spec_loop chunks (ctrs f)) j) /\
  total (cremove_script chunks f) = total f - spec_removed chunks (ctrs f).
Proof. exact cremove_script_spec. Qed.
Print Assumptions C36_remove_script_characterised.

Theorem C36_failed_removal_changes_nothing : forall (K : Type) (hash : K -> N * N) (size k : N),
  (1 <= k)%N -> (0 < size)%N -> forall (f : cfilter) (x : K),
  (forall j, 0 <= getc (ctrs f) j) ->
  (exists j, getc (ctrs f) j < occ j (cindexes_of K hash size k x)) ->
  (forall j, getc (ctrs (fst (cstep K hash size k f (CRemove [x])))) j = getc (ctrs f) j) /\
  total (fst (cstep K hash size k f (CRemove [x]))) = total f.
Proof.
  intros K hash size k Hk Hs f x Hn [j Hj]. destruct (single_removal K hash size k Hk Hs f x) as [Hc Ht].
  destruct (can_remove (ctrs f) (cindexes_of K hash size k x)) eqn:E.
  - pose proof (proj1 (can_remove_occ _ _ Hn) E j). lia.
  - split; [intros j'; rewrite Hc|]; lia.
Qed.
Print Assumptions C36_failed_removal_changes_nothing.

Theorem C36_successful_removal : forall (K : Type) (hash : K -> N * N) (size k : N),
  (1 <= k)%N -> (0 < size)%N -> forall (f : cfilter) (x : K),
  (forall j, 0 <= getc (ctrs f) j) ->
  (forall j, occ j (cindexes_of K hash size k x) <= getc (ctrs f) j) ->
  (forall j, getc (ctrs (fst (cstep K hash size k f (CRemove [x])))) j = getc (ctrs f) j - occ j (cindexes_of K hash size k x)) /\
  total (fst (cstep K hash size k f (CRemove [x]))) = total f - 1.
Proof.
  intros K hash size k Hk Hs f x Hn Hall. pose proof (single_removal K hash size k Hk Hs f x) as H.
  rewrite (proj2 (can_remove_occ _ _ Hn) Hall) in H. exact H.
Qed.
Print Assumptions C36_successful_removal.

Theorem C36_multiplicity_lower_bound : forall (K : Type) (K_eqb : K -> K -> bool),
  (forall a b, K_eqb a b = true <-> a = b) ->
  forall (hash : K -> N * N) (size k : N), (1 <= k)%N -> (0 < size)%N ->
  forall (ops : list (cop K)), wf_hist K K_eqb [] ops ->
  let f := crun K hash size k empty_cfilter ops in
  let bag := bag_run K K_eqb [] ops in
  forall (x : K) (qs : list K),
    snd (cstep K hash size k f (CMinCount qs)) = WCounts (Ok (map (min_of K hash size k f) qs))
    /\ snd (cstep K hash size k f (CExists qs)) = WBools (Ok (map (fun q => 0 <? min_of K hash size k f q) qs))
    /\ Z.min (mult K K_eqb bag x) max_uint64 <= min_of K hash size k f x
    /\ (1 <= mult K K_eqb bag x -> (0 <? min_of K hash size k f x) = true)
    /\ total f = Z.of_nat (length bag)
    /\ (forall j, getc (ctrs f) j = bagsum K hash size k bag j).
Proof.
  intros K K_eqb Hspec hash size k Hk Hs ops Hwf f bag x qs.
  assert (HI : Inv K hash size k f bag) by (apply Inv_run; try assumption; apply Inv_empty).
  assert (Hn : forall j, 0 <= getc (ctrs f) j) by (eapply Inv_nonneg; eassumption).
  assert (Hm : Z.min (mult K K_eqb bag x) max_uint64 <= min_of K hash size k f x) by (apply Inv_min; assumption).
  split; [apply mincount_positional; assumption|].
  split; [apply cexists_positional; assumption|].
  split; [exact Hm|]. split.
  - intros H1. apply Z.ltb_lt. unfold max_uint64 in Hm. lia.
  - destruct HI as [Hc Ht]. split; [exact Ht|exact Hc].
Qed.
Print Assumptions C36_multiplicity_lower_bound.

Theorem C36_scripts_pinned :
  rueidisprob_countingBloomFilterAddMultiScript = pin_rueidisprob_countingBloomFilterAddMultiScript /\
  rueidisprob_countingBloomFilterRemoveMultiScript = pin_rueidisprob_countingBloomFilterRemoveMultiScript /\
  rueidisprob_countingBloomFilterDeleteScript = pin_rueidisprob_countingBloomFilterDeleteScript.
Proof. repeat split; vm_compute; reflexivity. Qed.
Print Assumptions C36_scripts_pinned.

(** non-vacuity: a well-formed history with a duplicate add, a multi-removal, colliding indexes; and a
    history with a failing removal (item 9 was never added) that leaves the counters alone *)
Example C36_nonvacuous :
  let hash := fun x : N => (x * 3, x + 1)%N in
  let ops := [CAdd [1; 2; 1]%N; CRemove [1]%N; CAdd [5]%N; CRemove [2; 5]%N] in
  wf_hist N N.eqb [] ops
  /\ bag_run N N.eqb [] ops = [1]%N
  /\ snd (cstep N hash 7 2 (crun N hash 7 2 empty_cfilter ops) (CMinCount [1; 2]%N)) = WCounts (Ok [1; 0])
  /\ total (crun N hash 7 2 empty_cfilter ops) = 1
  /\ (let f := crun N hash 7 2 empty_cfilter [CAdd [1]%N] in
      map (getc (ctrs (fst (cstep N hash 7 2 f (CRemove [9]%N))))) [0; 1; 2; 3; 4; 5; 6]%N = map (getc (ctrs f)) [0; 1; 2; 3; 4; 5; 6]%N).
Proof. vm_compute. repeat split; auto. Qed.
