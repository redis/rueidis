(** C02 - Pipeline queue hands each command off exactly once in FIFO order.

    Models: [RV.Model.Ring] (ring.go) and [RV.Model.Flow] (flowbuffer.go), labelled transition
    systems; a schedule is a [list label], [run] executes it.  Every theorem quantifies over ALL
    schedules, any number of putters and any ring size 2^k / any number of tokens
    ([reachable] = some schedule leads from the initial state to the state).

    Putters are numbered by their ticket (ring) / by the token they received (flow buffer); the
    command of putter p is item p.  "Queue order" is position order: position j is the j-th value of
    the ring's counters after their start value, it lives in slot [sof k start j] and is the
    [lap j]-th occupant of that slot.  With more than 2N concurrent callers a later ticket can
    occupy an earlier position; replies follow positions, so all statements are over positions.

    Proved: safety (exactly-once, order, slot owner, wrap), lost-wake-up freedom (L1, L2) and absence
    of stuck states.  NOT claimed: fair termination under the real Go scheduler. *)
From Coq Require Import List NArith ZArith Bool Arith.
Require Import RV.Model.Base RV.Model.Ring.
Require RV.Model.Flow.
Require Import RV.Model.QueueSpec.
Require Import RV.Proofs.RingBase RV.Proofs.RingInv RV.Proofs.RingTheorems RV.Proofs.RingProgress
               RV.Proofs.RingRefine RV.Proofs.RingEF RV.Proofs.RingPayload.
Require RV.Proofs.FlowProofs.
Import ListNotations.
Local Open Scope nat_scope.

(** the uint32 wrap of the tickets is harmless: (t mod 2^32) land (2^k - 1) = t mod 2^k *)
Theorem C02_wrap : forall k x, k <= 32 -> idx k (u32 x) = N.to_nat (x mod 2 ^ N.of_nat k)%N.
Proof. intros k x Hk. apply idx_u32. exact Hk. Qed.
Print Assumptions C02_wrap.

(** refinement: under [abs] (fill history per slot + the three cursors) every step of the ring is a step of
    the abstract queue of positions [QueueSpec] with the same output - a ticket, a fill of the next position
    of a free slot, the writer's dequeue of position n1+1, the reader's completion of position n2+1 - or a
    stutter (locks, condition variables, sleep flags, uint32 counters are invisible) *)
Theorem C02_refines_fifo : forall k start st l st', reachable k start st -> lstep k st l = Some st' ->
  refines_step k start st st'.
Proof. intros k start st l st' Hr. destruct (inv_reachable _ _ _ Hr) as [C Q _ _ _]. apply ring_refines; assumption. Qed.
Print Assumptions C02_refines_fifo.

(** the writer's j-th dequeue is the command of position j, i.e. the [lap j]-th command that filled
    slot [sof j]: the writer walks the positions in order *)
Theorem C02_wire_order : forall k start st, reachable k start st ->
  wseq st = map (item_at k start st) (seq 1 (n1 st)) /\ length (wseq st) = n1 st /\
  forall j, 1 <= j <= n1 st ->
    nth_error (fillseq (slots st (sof k start j))) (lap k start j) = Some (item_at k start st j).
Proof. intros k start st Hr. apply ring_writer_order, (inv_reachable _ _ _ Hr). Qed.
Print Assumptions C02_wire_order.

(** the reader completes in the writer's order *)
Theorem C02_reader_order : forall k start st, reachable k start st ->
  n2 st <= n1 st /\ rseq st = firstn (n2 st) (wseq st).
Proof.
  intros k start st Hr. destruct (inv_reachable _ _ _ Hr) as [_ [Le _ Ws Rs] _ _ _]. split; [exact Le|].
  rewrite Rs, Ws. symmetry. apply firstn_map_seq. exact Le.
Qed.
Print Assumptions C02_reader_order.

(** no command is handed to the writer twice, and whatever is handed over was put by a ticket holder
    into the slot of its ticket *)
Theorem C02_exactly_once : forall k start st, reachable k start st ->
  NoDup (wseq st) /\ forall p, In p (wseq st) -> 1 <= p <= nw st /\ In p (fillseq (slots st (sof k start p))).
Proof.
  intros k start st Hr. destruct (inv_reachable _ _ _ Hr) as [_ Q _ T _]. split; [apply (ring_wseq_nodup k start st Q T)|].
  intros p Hp. apply (ring_dequeued_were_put k start st p Q T Hp).
Qed.
Print Assumptions C02_exactly_once.

(** slot owner: the result channel is handed over to exactly the caller whose command it answers,
    the reader's lock tenure keeps every putter out of the slot, and while a result is undelivered
    nobody else can occupy the slot (position p+N cannot reuse it before p's result is delivered) *)
Theorem C02_slot_owner : forall k start st, reachable k start st ->
  (forall p st', lstep k st (RDeliver p) = Some st' ->
     exists s, rpc st = RHold s (Some p) /\ wt (slots st s) = [p] /\ bc (slots st s) = [] /\ recv st' = (p, p) :: recv st) /\
  own_results (recv st) = true /\
  (forall s it, rpc st = RHold s it -> forall p m, lstep k st (PutLock p s m) = None) /\
  (forall s i p m st', und st s = Some i -> lstep k st (PutLock p s m) = Some st' ->
     fillseq (slots st' s) = fillseq (slots st s) /\ und st' s = Some i).
Proof.
  intros k start st Hr. destruct (inv_reachable _ _ _ Hr) as [_ _ O _ _]. split; [|split; [|split]].
  - intros p st' Hl. eapply ring_own_result; eassumption.
  - apply (o_recv _ O).
  - intros s it Hh p m. eapply ring_lock_tenure; eassumption.
  - intros s i p m st' Hu Hl. eapply ring_slot_owner; eassumption.
Qed.
Print Assumptions C02_slot_owner.

(** payload own.  The slot stores the tuple (one, multi, resps) the code stores: PutOne writes [one] only,
    PutMulti writes [multi] and [resps] only, NextResultCh resets all three when it frees the slot.  In every
    reachable state a free slot holds the zero tuple and an occupied slot holds exactly what its occupant
    supplied ([own p false] = (cmd p, nil, nil) for PutOne, [own p true] = (zero, multi p, resps p) for PutMulti);
    a fill stores exactly the caller's payload; and the tuples handed to the reader and to the writer are the
    own tuples of the item they take - for every schedule, ring size and lap, in particular when a PutOne
    re-uses the slot a PutMulti used one lap earlier. *)
Theorem C02_payload_own : forall k start st, reachable k start st ->
  (forall s, slot_ok (slots st s)) /\
  (forall p s m st', lstep k st (PutLock p s m) = Some st' ->
     length (fillseq (slots st' s)) = S (length (fillseq (slots st s))) ->
     payload (slots st' s) = Some p /\ pm (slots st' s) = m /\ trip (slots st' s) = own p m /\
     fillseq (slots st' s) = fillseq (slots st s) ++ [p]) /\
  (forall st' s i, lstep k st RNext = Some st' -> rpc st' = RHold s (Some i) ->
     s = idx k (u32 (read2 st + 1)) /\ payload (slots st s) = Some i /\ handed k st RNext = own i (pm (slots st s)) /\
     trip (slots st' s) = (None, None, None)) /\
  (forall l st', (l = WNext \/ l = WWaitEnter \/ l = WWaitRetry) -> lstep k st l = Some st' -> n1 st' = S (n1 st) ->
     exists s i, payload (slots st s) = Some i /\ wseq st' = wseq st ++ [i] /\
       fst (handed k st l) = fst (own i (pm (slots st s)))).
Proof.
  intros k start st Hr. pose proof (invp_reachable k start st Hr) as I. split; [exact I|]. split; [|split].
  - intros p s m st' Hl Hlen. eapply fill_supplies; eassumption.
  - intros st' s i Hl Hh. eapply reader_handout_own; eassumption.
  - intros l st' Hlab Hl Hn. eapply writer_handout_own; eassumption.
Qed.
Print Assumptions C02_payload_own.

(** no lost wake-up.  L1: putters parked on a slot => the slot is occupied, or the reader holds its lock,
    or the reader is about to signal it, or one of them is already woken.  L2: the writer parked on a
    slot => slept is set and either there is nothing to write there or a putter is about to broadcast. *)
Theorem C02_no_lost_wakeup : forall k start st, reachable k start st ->
  (forall s, parked1 (slots st s) <> [] ->
      mark (slots st s) <> 0 \/ rlock (slots st s) = true \/ rpc st = RSig s \/ woken1 (slots st s) <> []) /\
  (forall s, wparked (slots st s) = true ->
      slept (slots st s) = true /\ wpc st = WWait s /\ (mark (slots st s) <> 1 \/ bc (slots st s) <> [])).
Proof.
  intros k start st Hr. destruct (inv_reachable _ _ _ Hr) as [_ _ _ _ W]. split; intro s; destruct (W s) as (L1 & L2 & Fl & _).
  - exact L1.
  - intro Hp. destruct (L2 Hp) as [A B]. split; [exact A|]. split; [apply Fl; left; exact Hp|exact B].
Qed.
Print Assumptions C02_no_lost_wakeup.

(** no stuck state: while a ticket holder is unanswered (or the reader is in the middle of a hand-over)
    a step that moves the queue forward is enabled - a fill, a dequeue, a completion, a hand-over, an
    unlock or a wake-up; empty polls do not count.  Fair termination is not claimed. *)
Theorem C02_not_stuck : forall k start st, reachable k start st -> (n2 st < nw st \/ rpc st <> RIdle) ->
  exists l st', lstep k st l = Some st' /\ progress st l st'.
Proof. intros k start st Hr. apply (ring_not_stuck k start), inv_reachable, Hr. Qed.
Print Assumptions C02_not_stuck.

(** D15.  In the code as found NextWriteCmd locks the slot mutex unconditionally: the system without the
    label [WNextBusy].  There a state is reachable in which the writer is idle, has dequeued everything up to
    position 2, and its next NextWriteCmd (position 3, slot 1) is disabled because the reader holds slot 1 while
    it waits for the rest of position 1's replies - the writer blocks with whatever it has buffered (pipe.go
    flushes only when NextWriteCmd returns nothing).  In the repaired code the call never blocks. *)
Definition d15_schedule : list label :=
  [PutTicket; PutLock 1 1 true; WNext; RNext; PutTicket; PutLock 2 0 false; WNext].

Theorem C02_next_write_blocks_orig :
  exists st, run 1 d15_schedule (init 0) = Some st /\ forallb (fun l => match l with WNextBusy => false | _ => true end) d15_schedule = true /\
    wpc st = WIdle /\ n1 st = 2 /\ rpc st = RHold 1 (Some 1) /\ lstep 1 st WNext = None.
Proof. eexists. split; [vm_compute; reflexivity|]. repeat split. Qed.
Print Assumptions C02_next_write_blocks_orig.

Theorem C02_next_write_never_blocks : forall k st, wpc st = WIdle ->
  lstep k st WNextBusy = Some st /\
  (rlock (slots st (idx k (u32 (read1 st + 1)))) = false -> exists st', lstep k st WNext = Some st').
Proof.
  intros k st Hw. split.
  - cbn [lstep]. rewrite Hw. reflexivity.
  - intro Hr. cbn [lstep]. rewrite Hw, Hr.
    destruct (writer_take st (idx k (u32 (read1 st + 1))) (u32 (read1 st + 1))); eexists; reflexivity.
Qed.
Print Assumptions C02_next_write_never_blocks.

(** AG EF: from every reachable state there is a finite continuation without new tickets after which every
    ticket holder's command has been written and completed and the reader is idle.  (Existence of a
    schedule; fair termination under the Go scheduler is not claimed.) *)
Theorem C02_all_answered_EF : forall k start st, reachable k start st ->
  exists sch st', run k sch st = Some st' /\ forallb no_ticket sch = true /\
                  nw st' = nw st /\ n2 st' = nw st' /\ n1 st' = nw st' /\ rpc st' = RIdle.
Proof. intros k start st Hr. apply (ring_all_answered_EF k start); [apply inv_reachable|apply (out_reachable k start)]; exact Hr. Qed.
Print Assumptions C02_all_answered_EF.

(** ---- flow buffer ---- *)

(** token conservation |f| + in hand + |w| + |r| = N, all tokens distinct *)
Theorem C02_flow_conservation : forall n st, FlowProofs.reachable n st ->
  Flow.tokens st = n /\ NoDup (FlowProofs.toks st).
Proof. intros n st Hr. apply FlowProofs.flow_conservation, FlowProofs.invf_reachable, Hr. Qed.
Print Assumptions C02_flow_conservation.

Theorem C02_flow_sends_never_block : forall n st, FlowProofs.reachable n st ->
  (forall p t, Flow.find_tok p (Flow.ph st) = Some t -> length (Flow.w st) < n) /\
  (forall c, Flow.wh st = Some c -> length (Flow.r st) < n) /\
  (forall t i b, Flow.rh st = Some (t, i, b) -> length (Flow.f st) < n).
Proof. intros n st Hr. apply FlowProofs.flow_sends_never_block, FlowProofs.invf_reachable, Hr. Qed.
Print Assumptions C02_flow_sends_never_block.

(** FIFO order and exactly-once: the writer dequeues in the order of the sends, the reader completes
    in the writer's order, nothing was sent twice *)
Theorem C02_flow_order : forall n st, FlowProofs.reachable n st ->
  Flow.sent st = Flow.wseq st ++ map snd (Flow.w st) /\
  Flow.wseq st = Flow.rseq st ++ map snd (Flow.r st) ++ map snd (FlowProofs.optl (Flow.wh st)) /\
  NoDup (Flow.sent st).
Proof. intros n st Hr. apply (FlowProofs.flow_order n), FlowProofs.invf_reachable, Hr. Qed.
Print Assumptions C02_flow_order.

Theorem C02_flow_own_result : forall n st, FlowProofs.reachable n st ->
  Flow.own_results (Flow.recv st) = true /\
  forall p st', Flow.lstep n st (Flow.FDeliver p) = Some st' ->
    exists t, Flow.rh st = Some (t, p, false) /\ Flow.recv st' = (p, p) :: Flow.recv st /\ exists rest, Flow.wt st = (p, t) :: rest.
Proof.
  intros n st Hr. pose proof (FlowProofs.invf_reachable n st Hr) as I. split; [apply (FlowProofs.f_recv _ _ I)|].
  intros p st' Hl. eapply FlowProofs.flow_own_result; eassumption.
Qed.
Print Assumptions C02_flow_own_result.

Theorem C02_flow_not_stuck : forall n st, FlowProofs.reachable n st -> (Flow.ph st <> [] \/ Flow.wt st <> []) ->
  exists l st', Flow.lstep n st l = Some st'.
Proof. intros n st Hr. apply (FlowProofs.flow_not_stuck n), FlowProofs.invf_reachable, Hr. Qed.
Print Assumptions C02_flow_not_stuck.

(** non-vacuity: five callers on a two-slot ring whose counters start at 2^32 - 2 (the tickets wrap),
    two of them parked on the same slot, the writer asleep: a reachable state with work pending *)
Definition nv_schedule : list label :=
  [WWaitEnter; PutTicket; PutTicket; PutTicket; PutTicket; PutTicket;
   PutLock 1 1 true; PutLock 3 1 false; PutLock 5 1 true; PutBcast 1 1; WWaitRetry; PutLock 2 0 false; WNext; RNext].

Example C02_nonvacuous :
  exists st, run 1 nv_schedule (init 4294967294) = Some st /\
    nw st = 5 /\ n1 st = 2 /\ n2 st = 1 /\ wseq st = [1; 2] /\ rseq st = [1] /\
    parked1 (slots st 1) = [3; 5] /\ write st = 3%N /\ rpc st = RHold 1 (Some 1).
Proof. eexists. split; [vm_compute; reflexivity|]. repeat split. Qed.

Example C02_flow_nonvacuous :
  exists st, Flow.run 2 [Flow.FTake; Flow.FTake; Flow.FPutW 2; Flow.FPutW 1; Flow.FWTake; Flow.FPutR; Flow.FRTake] (Flow.init 2) = Some st /\
    Flow.sent st = [2; 1] /\ Flow.wseq st = [2] /\ Flow.rseq st = [2] /\ Flow.tokens st = 2.
Proof. eexists. split; [vm_compute; reflexivity|]. repeat split. Qed.

(** non-vacuity of [C02_payload_own]: on a 2-slot ring putter 1 (PutMulti) uses slot 1 and is answered, then one
    lap later putter 3 (PutOne) uses slot 1 again: the reader is handed (cmd 3, nil, nil), not putter 1's slices *)
Example C02_payload_nonvacuous :
  exists st, run 1 [PutTicket; PutLock 1 1 true; WNext; RNext; RDeliver 1; RUnlock; RSignal None;
                    PutTicket; PutLock 2 0 false; WNext; RNext; RDeliver 2; RUnlock; RSignal None;
                    PutTicket; PutLock 3 1 false; WNext] (init 0) = Some st /\
    fillseq (slots st 1) = [1; 3] /\ handed 1 st RNext = (Some 3, None, None) /\ trip (slots st 0) = (None, None, None).
Proof. eexists. split; [vm_compute; reflexivity|]. repeat split. Qed.
