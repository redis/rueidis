(** C27 — Invalidation callbacks observe exactly the server's invalidations.

    Model: the invalidation branch of [handle_push], the clean-up of [_background] and the hook swaps of
    [RV.Model.PubSub]; [mux.Store] of [RV.Model.Dedicated].  [st_handled s] is the sequence of frames the reader
    has taken off the wire (the server's pushes in wire order, C26_wire_order); [invals] keeps the key lists of the
    invalidate pushes among them ([None] = a flush, delivered as nil).  All schedules, as in C26. *)
From Coq Require Import String List Arith NArith ZArith Bool.
Require Import RV.Model.Base RV.Model.PsBase RV.Model.PubSub RV.Model.Dedicated
               RV.Proofs.PubSubHookProofs RV.Proofs.DedicatedProofs.
Import ListNotations.
Open Scope N_scope.
Open Scope list_scope.

(** ClientOption.OnInvalidations: called with exactly the key lists of the invalidation pushes handled, in wire
    order, nil for a flush, and once more with nil when the connection is lost (the clean-up ran); never when unset. *)
Theorem C27_exact : forall pm b ls s, run pm (PubSub.init b) ls = Some s ->
  st_cb s = (if b then invals (st_handled s) ++ (if st_cleaned s then [None] else []) else []).
Proof.
  intros pm b ls s H. destruct (hook_reach pm b ls s H) as [_ HC]. rewrite (ci_cb _ HC). unfold cb_spec.
  assert (Hb : st_oninval s = b).
  { apply (run_invariant pm (fun s => st_oninval s = b)) with (ls := ls) (s := PubSub.init b); auto.
    intros s0 l s1 E Hs. rewrite (step_oninval _ _ _ _ Hs). exact E. }
  rewrite Hb. reflexivity.
Qed.
Print Assumptions C27_exact.

(** SetOnInvalidations on a dedicated client: the callback of a hook set is called with exactly the invalidation
    pushes handled while that hook set was the installed one, and with a final nil iff it was the installed one when
    the connection was lost. *)
Theorem C27_exact_hooks : forall pm b ls s, run pm (PubSub.init b) ls = Some s ->
  forall h, In h (st_hooks s) -> hook_inval_log s (hk_id h) = hook_inval_spec s h.
Proof. intros pm b ls s H h Hin. destruct (hook_reach pm b ls s H) as [_ HC]. apply (ci_hooks _ HC). exact Hin. Qed.
Print Assumptions C27_exact_hooks.

(** both callbacks on one connection: with ClientOption.OnInvalidations set AND a hook set with an invalidation callback
    installed on the same connection (SetOnInvalidations on a dedicated client), every invalidate push — single key,
    several keys, flush — is delivered to BOTH: the hook's callback does not replace the client-wide one.  Step level:
    handling one push appends its keys to the client-wide log and to the installed hook's log.  Run level: in every
    reachable state the client-wide log is exactly the pushes handled on the connection (+ nil once it is lost) while each
    hook set's log is exactly the pushes handled while it was installed (+ nil iff installed at the loss). *)
Theorem C27_exact_both_callbacks :
  (forall s keys h, st_oninval s = true -> cur_hook s = Some h -> hk_inval h = true ->
     st_cb (handle_push s (FInval keys)) = st_cb s ++ [keys] /\
     st_hinval (handle_push s (FInval keys)) = st_hinval s ++ [(hk_id h, keys)]) /\
  (forall pm ls s, run pm (PubSub.init true) ls = Some s ->
     st_cb s = invals (st_handled s) ++ (if st_cleaned s then [None] else []) /\
     forall h, In h (st_hooks s) -> hook_inval_log s (hk_id h) = hook_inval_spec s h).
Proof.
  split.
  - intros s keys h Ho Hc Hi. unfold handle_push, cur_hook in *. cbn [st_oninval st_cur st_hooks st_cb st_hinval]. rewrite Ho, Hc, Hi. split; reflexivity.
  - intros pm ls s H. split; [exact (C27_exact pm true ls s H)|exact (C27_exact_hooks pm true ls s H)].
Qed.
Print Assumptions C27_exact_both_callbacks.

(** releasing a dedicated client that installed an invalidation callback: CLIENT TRACKING OFF is sent by the
    releasing client on its wire, tracking is off, and only then is the wire released / idle *)
Theorem C27_tracking_off : forall s d c x,
  find_dc d (d_clients s) = Some c -> dc_mark c = false -> find_wire (dc_wire c) (d_wires s) = Some x ->
  w_inval x = true -> w_dead x = false -> w_blocked x = false ->
  exists s', dstep s (DRelease d) = Some s' /\
    d_log s' = d_log s ++ (if w_bg x then [EvCmd (w_id x) (HDed d) (WUnsub (w_v7 x))] else []) ++
                          [EvCmd (w_id x) (HDed d) WTrackingOff; EvRel (w_id x) (HDed d) true] /\
    exists x', find_wire (dc_wire c) (d_wires s') = Some x' /\ w_tracking x' = false /\ w_inval x' = false /\ w_holder x' = None.
Proof.
  intros s d c x F M Fx Hi Hd Hb. destruct (cleanup s d c x F M Fx) as [s' [A [B [C _]]]].
  exists s'. split; [exact A|]. destruct (cleanup_spelled x (HDed d)) as [P1 [P2 [P3 [P4 _]]]].
  destruct (P4 Hd Hb) as [E [_ T]]. split.
  - rewrite B, E, Hi. reflexivity.
  - exists (stored_wire x). repeat split; auto.
Qed.
Print Assumptions C27_tracking_off.

(** non-vacuity: pushes, a flush, hook sets replacing each other, the connection lost *)
Example C27_nonvacuous :
  let s := drive pm_simple (PubSub.init true)
             [OInval (Some [bs "k1"]); OSetHooks 1 true; OInval (Some [bs "k1"; bs "k2"]); OInval None; OSetHooks 2 true;
              OInval (Some [bs "k3"]); OClose EConn]%string in
  st_cb s = [Some [bs "k1"]; Some [bs "k1"; bs "k2"]; None; Some [bs "k3"]; None]%string /\
  hook_inval_log s 1 = [Some [bs "k1"; bs "k2"]; None]%string /\
  hook_inval_log s 2 = [Some [bs "k3"]; None]%string /\
  map (fun h => (hk_id h, hk_closed h, hk_err h)) (st_hooks s) = [(1, 1%nat, []); (2, 1%nat, [EConn])].
Proof. vm_compute. repeat split. Qed.
