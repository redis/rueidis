(** C03 — Non-retryable commands are executed at most once per call.

    The environment of a call lists, per attempt, what came back and whether the server executed
    the command on that attempt; [consistent] ties the two: MOVED / ASK / REDIRECT / TRYAGAIN /
    CLUSTERDOWN / LOADING replies and unwritten attempts are never executions, a transport failure
    or an expired connection may or may not hide one.

    FULL STATEMENT (refuted on the faithful model, see [C03_at_most_once_refuted]):
      forall env, Forall consistent env -> single_do … false … env = (tr, o) -> executions tr <= 1
    and the same for the cluster / standalone clients and for every non-retryable member of a batch. *)
From Coq Require Import List Arith NArith ZArith Bool Lia.
Require Import RV.Model.Base RV.Model.ClusterTopo RV.Model.Retry RV.Model.ClusterDo.
Require Import RV.Proofs.RetryProofs RV.Proofs.ClusterDoProofs.
Require RV.Props.C28.
Import ListNotations.
Open Scope Z_scope.

(** the defect: the pipe hands errConnExpired to a command that was written and executed (the
    connection lifetime ran out and the reply did not come within the close grace period), and
    every client re-sends on errConnExpired unconditionally *)
Theorem C03_at_most_once_refuted :
  exists env, forallb consistent env = true /\
    let '(tr, o) := single_do (S (length env)) (mkPolicy true (fun _ _ => 0) true) false 1 WFirst env in
    (1 < executions tr)%nat.
Proof. exists [w_expired_exec; w_value_exec]. vm_compute. split; [reflexivity|lia]. Qed.
Print Assumptions C03_at_most_once_refuted.

(** exactly which inputs fail (single / sentinel client): every execution beyond the first sits
    behind an attempt that the server executed and that ended with the expired-connection marker *)
Theorem C03_at_most_once_characterised : forall f p attempts w env tr o,
  single_do f p false attempts w env = (tr, o) ->
  (executions tr <= 1 + length (filter expired_executed tr))%nat.
Proof. intros f p attempts w env tr o H. exact (sruns_c03 (single_do_runs _ _ _ _ _ _ _ _ H)). Qed.
Print Assumptions C03_at_most_once_characterised.

(** the property outside that class: when no attempt that ended with an expired connection had been
    executed (the command was never written, or written but not run), at most one execution —
    for every policy, failure sequence, context state *)
Theorem C03_at_most_once_partial : forall f p attempts w env tr o,
  single_do f p false attempts w env = (tr, o) ->
  (forall e, In e tr -> k_reply (e_tick e) = RExpired -> k_executed (e_tick e) = false) ->
  (executions tr <= 1)%nat.
Proof.
  intros f p attempts w env tr o H Hn. pose proof (sruns_c03 (single_do_runs _ _ _ _ _ _ _ _ H)) as B.
  assert (Z : filter expired_executed tr = []).
  { clear - Hn. induction tr as [|e r IH]; [reflexivity|]. cbn [filter]. unfold expired_executed at 1.
    destruct (is_expired (k_reply (e_tick e))) eqn:X; cbn [andb].
    - rewrite (Hn e (or_introl eq_refl)) by (destruct (k_reply (e_tick e)); try discriminate; reflexivity).
      apply IH. intros; apply Hn; auto; now right.
    - apply IH. intros; apply Hn; auto; now right. }
  rewrite Z in B. cbn in B. lia.
Qed.
Print Assumptions C03_at_most_once_partial.

(** a second send of a non-retryable command happens only after an expired-connection result:
    connection drops, timeouts and client-side retries never cause one *)
Theorem C03_resend_only_after_proof_partial : forall f p attempts w env tr o,
  single_do f p false attempts w env = (tr, o) ->
  forall pre e post, tr = pre ++ e :: post -> post <> [] -> k_reply (e_tick e) = RExpired.
Proof. intros f p attempts w env tr o H. exact (sruns_nonretryable_shape (single_do_runs _ _ _ _ _ _ _ _ H)). Qed.
Print Assumptions C03_resend_only_after_proof_partial.

(** cluster client: a further send follows only MOVED / ASK (not executed by a consistent server)
    or an expired connection; same characterisation *)
Theorem C03_cluster_characterised : forall c slot to_replica st env tr out st',
  (forall ct, In ct env -> consistent (ct_tick ct) = true) ->
  cluster_do c slot false to_replica st env = (tr, out, st') ->
  (cexecutions tr <= 1 + length (filter cexpired_executed tr))%nat.
Proof.
  intros c slot to_replica st env tr out st' Hc H. apply do_loop_runs in H.
  apply (chain_c03 c); [exact (runs_chain _ _ _ _ H)|].
  intros s Hs. destruct (runs_sends_env _ _ _ _ H s Hs) as [ct [I E]]. rewrite E. now apply Hc.
Qed.
Print Assumptions C03_cluster_characterised.

(** standalone client with EnableRedirect, single command: REDIRECT proves non-execution *)
Theorem C03_standalone_characterised : forall f p redirect attempts w env tr o,
  (forall o', In o' env -> forall t, In t (o_inner o') -> consistent t = true) ->
  standalone_do f p redirect false attempts w env = (tr, o) ->
  (executions tr <= 1 + length (filter expired_executed tr))%nat.
Proof. exact standalone_do_c03. Qed.
Print Assumptions C03_standalone_characterised.

(** second defect: standalone.DoMulti re-sends the whole batch when any member was answered
    REDIRECT, including members the old primary had already executed *)
Theorem C03_standalone_batch_refuted :
  exists cs env, forallb (fun ob => forallb (forallb consistent) (ob_inner ob)) env = true /\
    all_retryable cs = false /\
    let '(tr, o) := standalone_domulti (S (length env)) (mkPolicy true (fun _ _ => 0) true) true cs 1 WFirst env in
    (1 < batch_executions 0 tr)%nat.
Proof. exists w_cmds, w_env_batch. vm_compute. split; [reflexivity|]. split; [reflexivity|lia]. Qed.
Print Assumptions C03_standalone_batch_refuted.

(** batches on one connection (single / sentinel): without an expired connection a batch with a
    non-retryable member is written exactly once *)
Theorem C03_batch_partial : forall f p cs attempts w x env,
  all_retryable cs = false ->
  (forall t, In t x -> is_expired (k_reply (effective t)) = false) ->
  fst (single_domulti (S f) p cs attempts w (x :: env)) = [mkBsend w 0 x].
Proof. intros. now rewrite RV.Props.C28.C28_batch_not_all_retryable. Qed.
Print Assumptions C03_batch_partial.

(** the recovery after a partially answered batch resumes inside a transaction whose MULTI is at
    index 0 ([txIdx == 0] doubles as "no transaction") *)
Theorem C03_txidx_conflation :
  recover_from [mkCmd None KMulti false false 1; mkCmd None KPlain false false 2; mkCmd None KExec false false 3]
               [RVal 1; RExpired; RExpired] 0 0 = Some 1%nat /\
  recover_from [mkCmd None KPlain true false 0; mkCmd None KMulti false false 1; mkCmd None KPlain false false 2; mkCmd None KExec false false 3]
               [RVal 5; RVal 1; RExpired; RExpired] 0 0 = Some 1%nat.
Proof. split; reflexivity. Qed.
Print Assumptions C03_txidx_conflation.

(** non-vacuity of the partial theorem: drops after execution never lead to a second send *)
Example C03_nonvacuous :
  let t r x := mkTick r x false false false None in
  let '(tr, o) := single_do 9 (mkPolicy true (fun _ _ => 0) true) false 1 WFirst [t RTransport true; t (RVal 1) true] in
  executions tr = 1%nat /\ o = Done RTransport.
Proof. vm_compute. split; reflexivity. Qed.
