(** C05 — Calls honour context deadlines and cancellation (everything except the blocking pool's
    wake-up, which is Props/C05pool.v).

    Object: the LTS [PipeLts.pstep] with the environment event [LCtxDone t] (the context of call t is
    cancelled / its deadline passes), and [Model/PipeWait.v] for the selects outside the pipeline
    (client-side-cache flight wait, retry back-off).
    "Returns shortly after the deadline" is not a model notion: the theorems say that after CtxDone the
    caller's own next step is enabled (it is not blocked on anything) and returns the context's error;
    the wall-clock slack is measured by obs_ctx.  Partial for scheduling/timing.

    The ring queue does not observe the context while a caller is parked on a full ring (ring.go
    PutOne ignores ctx; documented in rueidis.go); that waiting state is therefore not covered — for
    the flow buffer it is ([C05_exit_enabled_flow_put]). *)
From Coq Require Import List NArith ZArith Bool Lia.
Require Import RV.Model.Base RV.Model.PipeQueue RV.Model.Pipe RV.Model.PipeLts RV.Model.PipeWait.
Require Import RV.Proofs.PipeLtsBasics RV.Proofs.PipeExclusive RV.Proofs.PipeCtx.
Import ListNotations.
Open Scope N_scope.

(** waiting for the reply of a queued command: in any state, once the context is done the caller's
    abort step is enabled; it returns the context error for every command and leaves queue and wire
    untouched (the abandoned slot is drained by a goroutine that keeps the count) *)
Theorem C05_exit_enabled : forall g s t,
  k_pc (p_calls s t) = PWait -> k_done (p_calls s t) = true ->
  exists s', pstep g s (LAbort t) = Some s' /\ k_pc (p_calls s' t) = PRet /\
             k_ret (p_calls s' t) = Some (errs_for (p_calls s t) ECtx) /\
             p_q s' = p_q s /\ p_c2s s' = p_c2s s /\ p_wbuf s' = p_wbuf s.
Proof.
  intros g s t Epc Ed. eexists. cbn [pstep]. rewrite Epc, Ed. split; [reflexivity|]. cbn. rewrite upd_same. cbn. auto.
Qed.
Print Assumptions C05_exit_enabled.

(** blocked in PutOne / PutMulti of the flow buffer *)
Theorem C05_exit_enabled_flow_put : forall g s t,
  g_kind g = Flow -> k_pc (p_calls s t) = PPut -> k_done (p_calls s t) = true -> k_ctxput (p_calls s t) = true ->
  exists s', pstep g s (LPutFail t) = Some s' /\ k_pc (p_calls s' t) = PRet /\
             k_ret (p_calls s' t) = Some (errs_for (p_calls s t) ECtx) /\ p_q s' = p_q s /\ p_c2s s' = p_c2s s.
Proof.
  intros g s t Ek Epc Ed Ec. eexists. cbn [pstep]. rewrite Epc, Ek, Ed, Ec.
  cbn. split; [reflexivity|]. cbn. rewrite upd_same. cbn. auto.
Qed.
Print Assumptions C05_exit_enabled_flow_put.

(** a synchronous call (syncDo / syncDoMulti) whose connection deadline — derived from the context's
    deadline — has passed: the failure step is enabled, and from there the caller's own non-blocking steps
    (the compare-and-swap of leaveSync, or background() and the decrement when others are queued behind it)
    make it return the context error for every command *)
Theorem C05_exit_enabled_sync : forall g s t,
  sync_user (p_calls s t) = true -> k_ctx (p_calls s t) = CtxDeadline -> k_done (p_calls s t) = true ->
  exists s1, pstep g s (LSyncFail t true) = Some s1 /\ k_pc (p_calls s1 t) = PDecr true /\
             k_res (p_calls s1 t) = errs_for (p_calls s t) ECtx /\
             exists path s2, (path = [LDecr t] \/ path = [LDecr t; LBgAfter t; LDecr t]) /\
                             prun g path s1 = Some s2 /\
                             k_ret (p_calls s2 t) = Some (errs_for (p_calls s t) ECtx).
Proof. intros g s t Hs Hc Hd. apply (syncfail_returns g s t true Hs). auto. Qed.
Print Assumptions C05_exit_enabled_sync.

(** cancellation can arrive in every state of a started call with a cancellable context *)
Theorem C05_ctxdone_any_time : forall g s t,
  k_ctx (p_calls s t) <> CtxBg -> k_pc (p_calls s t) <> PIdle -> k_done (p_calls s t) = false ->
  exists s', pstep g s (LCtxDone t) = Some s' /\ k_done (p_calls s' t) = true /\ k_pc (p_calls s' t) = k_pc (p_calls s t).
Proof.
  intros g s t Hc Hp Hd. cbn [pstep].
  destruct (k_ctx (p_calls s t)) eqn:Ec; [contradiction| |]; destruct (k_pc (p_calls s t)) eqn:Ep; try contradiction;
    rewrite Hd; eexists; (split; [reflexivity|]); cbn; rewrite upd_same; cbn; rewrite ?Ep; auto.
Qed.
Print Assumptions C05_ctxdone_any_time.

(** waiting on another caller's cache flight (cacheEntry.Wait / adapterEntry.Wait) and the retry
    back-off (WaitForRetry): with a cancellable context that is done, the select is not blocked and its
    context branch is enabled, whatever the other channel does *)
Theorem C05_exit_enabled_cache_wait : forall ready,
  In WCtxErr (cache_wait true true ready) /\ cache_wait true true ready <> [].
Proof.
  intros ready. pose proof (select_ctx_enabled true true ready eq_refl) as K. split; [exact K|].
  intros E. unfold cache_wait in E. rewrite E in K. destruct K.
Qed.
Print Assumptions C05_exit_enabled_cache_wait.

Theorem C05_exit_enabled_retry : forall d fired, (0 < d)%Z ->
  exists outs, wait_for_retry d true true fired = Some outs /\ In WCtxErr outs.
Proof.
  intros d fired Hd. unfold wait_for_retry. destruct (d <=? 0)%Z eqn:E; [apply Z.leb_le in E; lia|].
  eexists. split; [reflexivity|now apply select_ctx_enabled].
Qed.
Print Assumptions C05_exit_enabled_retry.

(** the same for every cancellable context, with or without a deadline: whenever WaitOrSkipRetry decides to wait (no
    deadline, or a deadline later than the end of the back-off) the wait it performs is the select over ctx.Done() and
    the timer; once the context is done the context's error is an outcome, and the only one while the timer has not fired *)
Theorem C05_exit_enabled_retry_any_ctx : forall delay has_dl until fired,
  (0 < delay)%Z -> has_dl = false \/ (delay < until)%Z ->
  exists outs, wait_or_skip delay has_dl until true true fired = (true, Some outs) /\ In WCtxErr outs /\
               (fired = false -> outs = [WCtxErr]).
Proof.
  intros delay has_dl until fired Hd H. unfold wait_or_skip, wait_for_retry.
  assert (E0 : (delay =? 0)%Z = false) by (apply Z.eqb_neq; lia).
  assert (E1 : (0 <? delay)%Z = true) by (apply Z.ltb_lt; lia).
  assert (E2 : (delay <=? 0)%Z = false) by (apply Z.leb_gt; lia).
  assert (E3 : negb has_dl || (delay <? until)%Z = true).
  { destruct H as [->|H]; [reflexivity|]. apply orb_true_iff. right. apply Z.ltb_lt. exact H. }
  rewrite E0, E1, E3, E2. eexists. split; [reflexivity|]. split; [now apply select_ctx_enabled|].
  intros ->. reflexivity.
Qed.
Print Assumptions C05_exit_enabled_retry_any_ctx.

(** WaitOrSkipRetry never starts a back-off that would outlast the context's deadline *)
Theorem C05_retry_skips_when_deadline_sooner : forall delay until c d f,
  (0 < delay)%Z -> (until <= delay)%Z -> wait_or_skip delay true until c d f = (false, None).
Proof.
  intros delay until c d f H1 H2. unfold wait_or_skip.
  destruct (delay =? 0)%Z eqn:E0; [apply Z.eqb_eq in E0; lia|].
  assert ((0 <? delay)%Z = true) as -> by (apply Z.ltb_lt; lia).
  assert ((delay <? until)%Z = false) as -> by (apply Z.ltb_ge; lia). reflexivity.
Qed.
Print Assumptions C05_retry_skips_when_deadline_sooner.

(** While a caller uses the connection synchronously (syncDo / syncDoMulti: the connection deadline is the one
    derived from its context) it is the only user: no other synchronous caller, no background writer or reader,
    and the background workers - whose first action is to clear the connection deadline - have not been started.
    Whatever step any thread takes, as long as the caller is still in its synchronous section afterwards the
    background workers still have not been started: only the caller's own step (its failure step, which ends
    the section) can start them.  Hence nobody but the caller touches the deadline it installed. *)
Theorem C05_sync_owner_alone : forall g sched s t,
  prun g sched (p_init g) = Some s -> sync_user (p_calls s t) = true ->
  p_bg s = false /\ bg_user s = false /\ (forall u, sync_user (p_calls s u) = true -> u = t).
Proof.
  intros g sched s t H Hs. pose proof (inva_run g sched _ _ (inva_init g) H) as I.
  assert (Hb : p_bg s = false).
  { destruct (p_bg s) eqn:E; [|reflexivity]. rewrite (a_e2 s I E t) in Hs. discriminate. }
  split; [exact Hb|split].
  - destruct (a_bgw s I Hb) as [K1 K2]. unfold bg_user. rewrite K1, K2. reflexivity.
  - intros u Hu. apply (a_tok1 s I); now apply sync_tok.
Qed.
Print Assumptions C05_sync_owner_alone.

Theorem C05_sync_deadline_preserved : forall g sched s t l s',
  prun g sched (p_init g) = Some s -> sync_user (p_calls s t) = true -> pstep g s l = Some s' ->
  sync_user (p_calls s' t) = true -> p_bg s' = false.
Proof.
  intros g sched s t l s' H Hs Hstep Hs'. pose proof (inva_run g sched _ _ (inva_init g) H) as I.
  pose proof (inva_step g s l s' I Hstep) as I'.
  destruct (p_bg s') eqn:E; [|reflexivity]. rewrite (a_e2 s' I' E t) in Hs'. discriminate.
Qed.
Print Assumptions C05_sync_deadline_preserved.

(** a call whose context is already done when it starts returns the context error, its commands are
    never put on the wire (neither by itself nor by the writer) and it never owns a queue slot *)
Theorem C05_done_ctx_sends_nothing : forall g sched s t,
  prun g sched (p_init g) = Some s -> k_donestart (p_calls s t) = true ->
  k_pc (p_calls s t) = PRet /\ ~ In t (p_sent s) /\ ~ In t (map s_owner (q_pend (p_q s) ++ q_wr (p_q s))).
Proof.
  intros g sched s t H Hd. destruct (invs_run g sched _ _ (inva_init g) (invs_init g) H) as [_ IS].
  split; [apply (s_start s IS t Hd)|split].
  - intros K. destruct (s_sent s IS t K) as (K1&_). congruence.
  - intros K. apply in_map_iff in K as (sl&E&Hsl). destruct (s_queue s IS sl Hsl) as (K1&_). rewrite E in K1. congruence.
Qed.
Print Assumptions C05_done_ctx_sends_nothing.

(** non-vacuity: a queued call is cancelled while the server has not answered; a call with a done
    context sends nothing *)
Definition echo_srv : server := mkSrv (fun c => Msg 36 [c_id c] 0 []) (fun c => []) (fun c => pong_msg).
Definition plain (id : N) : cmd := mkCmd id 2 false false false false false false.
Definition cfg : config := mkCfg Ring 4 false 7 echo_srv.
Definition sched : list label :=
  [LCall 1 [plain 10] false CtxCancel; LIncr 1; LLoad 1; LBg 1; LPut 1; LWNext; LWFlush;
   LCtxDone 1; LAbort 1;
   LCall 2 [plain 20] false CtxDeadline; LCtxDone 2; LIncr 2].

Example C05_nonvacuous :
  option_map (fun s => (k_ret (p_calls s 1), k_drain (p_calls s 1), k_ret (p_calls s 2), k_donestart (p_calls s 2), p_sent s, p_c2s s))
             (prun cfg sched (p_init cfg)) =
  Some (Some [RErr ECtx], DWait, Some [RErr ECtx], true, [1], [WReply (plain 10)]).
Proof. vm_compute. reflexivity. Qed.
