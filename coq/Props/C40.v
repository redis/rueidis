(** C40 — Object-mapping saves are optimistic and round-trip.

    Model: Model/Om.v (hashSaveScript / jsonSaveScript as state transformers on one key; toExec, Save,
    Fetch and the field converters of om/conv.go).  A script execution is atomic on the server, so
    "concurrent Save calls" are the saves of a history in any order: the theorems quantify over all
    histories ([list op]), all initial server states, all entities of all schemas.

    Abstract (universally quantified, with the stated law): the JSON codec of struct-like hash fields
    ([jprint]/[jparse]), and for the JSON repository the RedisJSON document store and the entity codec.

    Preconditions that are part of the statements:
    - [wf]: the entity has the schema's fields (distinct non-empty names), int64 / float-bit values in range;
    - [lua_ver_ok]: -10^14 < version and version + 1 < 10^14 (Lua 5.1 prints larger numbers in exponent
      form; such versions need 10^14 saves and are outside the model: outcome [SaveOutOfRange]);
    - [quiet]: during the history the key does not expire, is not removed, is not written by another
      application, and no save writes an entity whose exat is already in the past ([ext_future]).

    Values, not cells: an entity of the model is an immutable VALUE (a version and a list of field
    values); Fetch returns a value, and nothing the caller does with one entity afterwards can reach
    another.  The Go entities are structs with pointer, slice and struct fields, so this is an
    assumption about the code — "two decoded entities never share a memory cell with each other, with
    the reply they were decoded from, or with a process-wide variable" — that no theorem here can
    state.  Its tie is the observer: obs_om writes through every pointer / slice / nested field of
    entities Fetch and FetchCache handed out earlier (ops mutate and modsave) and then re-checks every
    other field of every fetched entity, later fetches, the entity of a second key and the next save
    (oracle classes fetched-values-share-cells, roundtrip, roundtrip-other-key).  It found that a
    []byte field shared the bytes of the (cached) reply string; fixed by "om copies []byte fields out
    of the reply string".

    The theorems are about the code as repaired by the fix "om: clear hash fields of nil pointers"
    (suspicion S3 of DESIGN.md, confirmed): before it, nil pointer fields were neither written nor
    cleared, and [C40_unfixed_script_keeps_stale_field] below exhibits the stale field in the model of
    the old argument vector. *)
From Coq Require Import List Arith NArith ZArith Bool String.
Require Import RV.Model.Base RV.Model.Om RV.Proofs.OmProofs.
Import ListNotations.
Open Scope N_scope.
Open Scope string_scope.

(** At most one of the saves that carry version [v] succeeds — in every history of saves and fetches
    (any versions, any entities, any initial server state) during which the key is [quiet]. *)
Theorem C40_one_winner :
  forall (J : Type) (jprint : J -> bytes) (jparse : bytes -> option J) (jzero : bytes -> J)
         (sc : schema) (vn : bytes) (v : Z) (ops : list (op J)) (st : option hrec),
    s_ver sc = Some vn -> saves_wf J sc ops -> quiet J jprint sc st ops ->
    (wins J v ops (snd (run J jprint jparse jzero sc st ops)) <= 1)%nat.
Proof.
  intros J jprint jparse jzero sc vn v ops st Hv W Q. rewrite run_answers, wins_wins_of.
  exact (proj1 (register_one_winner (hash_register J jprint sc jparse jzero vn Hv) v ops st I
                  (quiet_all_ok J jprint sc jparse jzero ops st W Q))).
Qed.
Print Assumptions C40_one_winner.

(** … and every save of the history answers with its version + 1 or with ErrVersionMismatch. *)
Theorem C40_others_mismatch :
  forall (J : Type) (jprint : J -> bytes) (jparse : bytes -> option J) (jzero : bytes -> J)
         (sc : schema) (vn : bytes) (ops : list (op J)) (st : option hrec),
    s_ver sc = Some vn -> saves_wf J sc ops -> quiet J jprint sc st ops ->
    Forall2 (fun o b => match o with
                        | OSave _ _ e => b = BSave J (SaveOk (e_ver J e + 1)%Z) \/ b = BSave J SaveMismatch
                        | _ => True end) ops (snd (run J jprint jparse jzero sc st ops)).
Proof.
  intros J jprint jparse jzero sc vn ops st Hv W Q. rewrite run_answers.
  exact (register_answers (hash_register J jprint sc jparse jzero vn Hv) ops st I
           (quiet_all_ok J jprint sc jparse jzero ops st W Q)).
Qed.
Print Assumptions C40_others_mismatch.

(** A successful Save reports version + 1 and stores exactly that numeral in the version field. *)
Theorem C40_version_plus_one :
  forall (J : Type) (jprint : J -> bytes) (sc : schema) (now : Z) (st0 st' : option hrec)
         (e : entity J) (v' : Z) (vn : bytes),
    s_ver sc = Some vn -> wf J sc e -> lua_ver_ok (e_ver J e) = true ->
    save J jprint sc now st0 e = (st', SaveOk v') ->
    v' = (e_ver J e + 1)%Z /\
    (ext_future J now e -> exists r, st' = Some r /\ hget (h_fields r) vn = Some (print_Z (e_ver J e + 1)%Z)).
Proof.
  intros J jprint sc now st0 st' e v' vn Hv W R S.
  destruct (save_ok_spec J jprint sc now st0 e st' v' W) as (vv & Hvv & K);
    [unfold ver_in_range; rewrite Hv; exact R|exact S|].
  rewrite Hv in Hvv. destruct Hvv as (-> & -> & _). split; [reflexivity|]. intros F.
  destruct (K F) as (r & -> & _ & G). exists r. split; [reflexivity|].
  rewrite <- (ver_name_some sc vn Hv). apply G. left. reflexivity.
Qed.
Print Assumptions C40_version_plus_one.

(** Fetch after a successful Save — at any instant at which the key still lives, over any previous
    content of the key — returns the saved entity: same key, every field of every supported kind
    (nil pointers included), and the version the save reported. *)
Theorem C40_roundtrip :
  forall (J : Type) (jprint : J -> bytes) (jparse : bytes -> option J) (jzero : bytes -> J),
    (forall j, jparse (jprint j) = Some j) ->
  forall (sc : schema) (now now' : Z) (st0 st' : option hrec) (e : entity J) (v' : Z),
    wf J sc e -> ver_in_range J sc e -> ext_future J now e ->
    save J jprint sc now st0 e = (st', SaveOk v') -> live now' st' = st' ->
    exists e', fetch J jparse jzero sc now' st' = Ok e' /\ e_key J e' = e_key J e /\
               e_fields J e' = e_fields J e /\
               e_ver J e' = match s_ver sc with Some _ => v' | None => 0%Z end.
Proof.
  intros J jprint jparse jzero H sc now now' st0 st' e v' W R F S L.
  destruct (save_ok_spec J jprint sc now st0 e st' v' W R S) as (vv & Hvv & K).
  destruct (K F) as (r & -> & _ & G). apply (fetch_sent J jprint sc jparse jzero H now' r e vv v' W L G).
  destruct (s_ver sc); [apply Hvv|exact I].
Qed.
Print Assumptions C40_roundtrip.

(** The key is live at the instant of the save, so [C40_roundtrip]'s last hypothesis is satisfiable. *)
Theorem C40_saved_key_lives :
  forall (J : Type) (jprint : J -> bytes) (sc : schema) (now : Z) (st0 st' : option hrec) (e : entity J) (v' : Z),
    wf J sc e -> ver_in_range J sc e -> ext_future J now e ->
    save J jprint sc now st0 e = (st', SaveOk v') -> live now st' = st' /\ st' <> None.
Proof.
  intros J jprint sc now st0 st' e v' W R F S.
  destruct (save_ok_spec J jprint sc now st0 e st' v' W R S) as (vv & _ & K).
  destruct (K F) as (r & -> & L & _). split; [exact L|discriminate].
Qed.
Print Assumptions C40_saved_key_lives.

(** JSON repository (partial: RedisJSON and the entity codec are abstract, constrained by two laws). *)
Section JsonStatement.
  Variables (doc ent : Type).
  Variables (jset : bytes -> option doc) (jget : doc -> bytes -> option bytes)
            (jincr : doc -> bytes -> option (doc * bytes)) (jroot : doc -> bytes)
            (jenc : ent -> bytes) (jdec : bytes -> option ent)
            (ent_ver : ent -> Z) (ent_set_ver : ent -> Z -> ent) (ent_ext : ent -> Z) (vn : bytes).

  Definition json_laws : Prop :=
    vn <> [] /\
    (forall e, exists d, jset (jenc e) = Some d /\ jget d vn = Some (print_Z (ent_ver e)) /\ jdec (jroot d) = Some e) /\
    (forall d z, jget d vn = Some (print_Z z) -> exists d',
        jincr d vn = Some (d', print_Z (z + 1)%Z) /\ jget d' vn = Some (print_Z (z + 1)%Z) /\
        (forall e, jdec (jroot d) = Some e -> jdec (jroot d') = Some (ent_set_ver e (z + 1)%Z))).
End JsonStatement.

Theorem C40_json_one_winner_partial :
  forall doc ent jset jget jincr jroot jenc jdec ent_ver ent_set_ver ent_ext vn,
    json_laws doc ent jset jget jincr jroot jenc jdec ent_ver ent_set_ver vn ->
  forall (v : Z) (ops : list (Z * ent)) (st : option (jrec doc)),
    doc_ok doc jget vn st -> jquiet doc jset jget jincr ent jenc ent_ver ent_ext vn st ops ->
    (jwins ent ent_ver v ops (jhist doc jset jget jincr ent jenc ent_ver ent_ext vn st ops) <= 1)%nat.
Proof.
  intros doc ent jset jget jincr jroot jenc jdec ent_ver ent_set_ver ent_ext vn (H1 & H2 & H3) v ops st D Q.
  rewrite jhist_answers, jwins_wins_of.
  exact (proj1 (register_one_winner
                  (json_register doc jset jget jincr jroot ent jenc jdec ent_ver ent_set_ver ent_ext vn H1 H2 H3)
                  v ops st D (jquiet_all_ok doc jset jget jincr ent jenc ent_ver ent_ext vn ops st Q))).
Qed.
Print Assumptions C40_json_one_winner_partial.

Theorem C40_json_others_mismatch_partial :
  forall doc ent jset jget jincr jroot jenc jdec ent_ver ent_set_ver ent_ext vn,
    json_laws doc ent jset jget jincr jroot jenc jdec ent_ver ent_set_ver vn ->
  forall (ops : list (Z * ent)) (st : option (jrec doc)),
    doc_ok doc jget vn st -> jquiet doc jset jget jincr ent jenc ent_ver ent_ext vn st ops ->
    Forall2 (fun o r => r = JSaveOk (ent_ver (snd o) + 1)%Z \/ r = JSaveMismatch) ops
            (jhist doc jset jget jincr ent jenc ent_ver ent_ext vn st ops).
Proof.
  intros doc ent jset jget jincr jroot jenc jdec ent_ver ent_set_ver ent_ext vn (H1 & H2 & H3) ops st D Q.
  rewrite jhist_answers.
  exact (register_answers
           (json_register doc jset jget jincr jroot ent jenc jdec ent_ver ent_set_ver ent_ext vn H1 H2 H3)
           ops st D (jquiet_all_ok doc jset jget jincr ent jenc ent_ver ent_ext vn ops st Q)).
Qed.
Print Assumptions C40_json_others_mismatch_partial.

Theorem C40_json_save_fetch_partial :
  forall doc ent jset jget jincr jroot jenc jdec ent_ver ent_set_ver ent_ext vn,
    json_laws doc ent jset jget jincr jroot jenc jdec ent_ver ent_set_ver vn ->
  forall (now now' : Z) (st0 st' : option (jrec doc)) (e : ent) (v' : Z),
    ent_ok ent ent_ver ent_ext e -> doc_ok doc jget vn (jlive doc now st0) -> jext_future ent ent_ext now e ->
    jsave doc jset jget jincr ent jenc ent_ver ent_ext vn now st0 e = (st', JSaveOk v') ->
    jlive doc now' st' = st' ->
    v' = (ent_ver e + 1)%Z /\ jfetch doc jroot ent jdec now' st' = Ok (ent_set_ver e (ent_ver e + 1)%Z).
Proof.
  intros doc ent jset jget jincr jroot jenc jdec ent_ver ent_set_ver ent_ext vn (H1 & H2 & H3) now now' st0 st' e v' He D F S L.
  destruct (jsave_ok_spec doc jset jget jincr jroot ent jenc jdec ent_ver ent_set_ver ent_ext vn H1 H2 H3
              now st0 e st' v' He D S) as (-> & K).
  split; [reflexivity|]. destruct (K F) as (d' & px & -> & _ & _ & Hdec).
  unfold jfetch. rewrite L. cbn [j_doc]. rewrite Hdec. reflexivity.
Qed.
Print Assumptions C40_json_save_fetch_partial.

(** non-vacuity and the S3 witness, on the tie's instance (struct value = its JSON text) *)

Definition ex_schema : schema :=
  {| s_key := h "4b6579"; s_ver := Some (h "566572");
     s_fields := [(h "4631", KBool); (h "4633", KPStr); (h "4634", KPInt); (h "56616c", KBytes); (h "5633", KVec32)] |}.

Definition ex_entity (p : option bytes) (ver : Z) : tentity :=
  {| e_key := h "6b31"; e_ver := ver;
     e_fields := [(h "4631", VBool true); (h "4633", VPStr p); (h "4634", VPInt (Some (-5)%Z));
                  (h "56616c", VBytes (h "00ff")); (h "5633", VVec32 [0x7fc00001; 0x80000000])];
     e_ext := 0 |}.

(** two savers with the same version: one winner, one mismatch; then a save of a nil pointer over the
    stored string, and the fetch returns the nil *)
Example C40_nonvacuous :
  snd (run tJ tjprint tjparse tjzero ex_schema None
         [OSave _ 10%Z (ex_entity (Some (h "6f6c64")) 0); OSave _ 11%Z (ex_entity (Some (h "78")) 0);
          OSave _ 12%Z (ex_entity None 1); OFetch _ 13%Z]) =
  [BSave _ (SaveOk 1); BSave _ SaveMismatch; BSave _ (SaveOk 2);
   BFetch _ (Ok (with_ver _ (ex_entity None 2) 2))].
Proof. vm_compute. reflexivity. Qed.

Example C40_nonvacuous_hyps :
  fields_ok tJ (e_fields _ (ex_entity None 1)) (s_fields ex_schema) = true /\
  lua_ver_ok 1 = true /\ wins tJ 0%Z
    [OSave _ 10%Z (ex_entity (Some (h "6f6c64")) 0); OSave _ 11%Z (ex_entity (Some (h "78")) 0)]
    [BSave _ (SaveOk 1); BSave _ SaveMismatch] = 1%nat.
Proof. vm_compute. repeat split. Qed.

(** S3 as it was before the fix: the old toExec sent no names to clear (in the repaired script that is
    the argument vector with an empty clear list), and the stale string survives the save of a nil. *)
Definition old_args (e : tentity) : list bytes :=
  ver_name ex_schema :: print_Z (e_ver _ e) :: (s_key ex_schema :: e_key _ e :: field_pairs tJ tjprint (e_fields _ e)) ++ [print_N 0].

Example C40_unfixed_script_keeps_stale_field :
  let st1 := fst (hash_save_script 10%Z None (old_args (ex_entity (Some (h "6f6c64")) 0))) in
  let st2 := fst (hash_save_script 12%Z st1 (old_args (ex_entity None 1))) in
  match fetch tJ tjparse tjzero ex_schema 13%Z st2 with
  | Ok e' => e_fields _ e' = e_fields _ (ex_entity (Some (h "6f6c64")) 0)   (* the old *string is back, not nil *)
  | _ => False
  end.
Proof. vm_compute. reflexivity. Qed.
