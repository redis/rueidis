(** C29 (connection-recycling half) — DoStream / DoMultiStream take one WriteTo per command, report nil and error
    replies as errors, and return the pooled connection exactly once after the last reply, closing it first if a
    reply could not be consumed completely.

    Model: [RV.Model.Stream] transcribes [RedisResultStream] ([HasNext], [WriteTo] with its [n] / [e] bookkeeping),
    [DoStream] / [DoMultiStream] and the caller's loop; one reply is abstracted to what [WriteTo] looks at, the
    (n, err, clean) triple of [streamTo] — whose byte-level correctness is the other half (Props/C29.v).
    The theorems quantify over every number of commands, every list of replies (any mix of payloads, nil, error
    replies, writer failures, I/O failures at any reply) and every way DoStream itself can go. *)
From Coq Require Import String List Arith NArith ZArith Bool Lia.
Require Import RV.Model.Base RV.Model.PsBase RV.Model.Stream RV.Proofs.StreamProofs.
Import ListNotations.
Open Scope N_scope.
Open Scope list_scope.

(** ** one WriteTo per command: draining a stream of n commands makes one WriteTo per reply read, each consuming
    exactly one reply, in order (outs = the (n, err) of the replies read, [rem] = the replies left on the wire);
    all n when every reply is clean, up to and including the first unclean one otherwise. *)
Theorem C29_one_per_cmd : forall n rs w,
  (0 < n)%nat -> (n <= length rs)%nat -> forallb sres_wf rs = true ->
  let '(s', outs, evs, rem) := drain (S (length rs)) (mkStream n None w) rs in
  has_next s' = false /\
  outs = map proj (firstn (length outs) rs) /\ rem = skipn (length outs) rs /\
  match first_unclean (firstn n rs) with
  | None => length outs = n /\ st_e s' = Some EEOF
  | Some k => length outs = S k
  end.
Proof.
  intros n rs w Hn Hl Hwf. pose proof (store_once n rs w Hn Hl Hwf) as H.
  destruct (drain (S (length rs)) (mkStream n None w) rs) as [[[s' outs] evs] rem].
  destruct H as [_ [H2 [H3 [H4 H5]]]]. repeat split; auto.
  destruct (first_unclean (firstn n rs)); tauto.
Qed.
Print Assumptions C29_one_per_cmd.

(** ** the wire is stored exactly once, by the WriteTo that reads the last reply, and closed first exactly when a
    reply was not consumed cleanly; a finished stream never touches the pool again. *)
Theorem C29_store_once : forall n rs w,
  (0 < n)%nat -> (n <= length rs)%nat -> forallb sres_wf rs = true ->
  let '(s', outs, evs, rem) := drain (S (length rs)) (mkStream n None w) rs in
  count_store evs = 1%nat /\
  (first_unclean (firstn n rs) = None -> evs = [PStore]) /\
  (first_unclean (firstn n rs) <> None -> evs = [PClose; PStore]) /\
  (forall fuel rs', drain fuel s' rs' = (s', [], [], rs')) /\
  (forall r, exists out, write_to s' r = (s', out, false, [])).
Proof.
  intros n rs w Hn Hl Hwf. pose proof (store_once n rs w Hn Hl Hwf) as H.
  destruct (drain (S (length rs)) (mkStream n None w) rs) as [[[s' outs] evs] rem].
  destruct H as [H1 [H2 [H3 _]]]. split; [exact H1|].
  destruct (first_unclean (firstn n rs)) as [k|]; repeat split; try tauto; try congruence.
  - intros fuel rs'. apply drain_done. exact H2.
  - intros r. apply write_to_done. exact H2.
  - intros fuel rs'. apply drain_done. exact H2.
  - intros r. apply write_to_done. exact H2.
Qed.
Print Assumptions C29_store_once.

(** ** nil and error replies (clean, with an error) are reported as the error of that WriteTo only: the stream goes
    on with the next reply, the wire is neither closed nor stored early. *)
Theorem C29_nil_err : forall n w r, (1 < n)%nat -> sr_clean r = true ->
  write_to (mkStream n None w) r = (mkStream (n - 1) None w, (sr_n r, sr_err r), true, []) /\
  has_next (mkStream (n - 1) None w) = true.
Proof.
  intros n w r Hn Hc. split; [apply write_to_clean_err; assumption|].
  unfold has_next. cbn. destruct n as [|[|n]]; try lia. reflexivity.
Qed.
Print Assumptions C29_nil_err.

(** ** the whole call (the property): over the life of a DoStream / DoMultiStream call the wire taken from the pool is
    stored exactly once and never left behind — on every path: a context that is already done at the check in DoStream
    (whether spool.Acquire handed out its made-up dead pipe or a counted wire whose set-up outlived the context), a pipe
    that is closing, a failed flush, and the stream the caller drains, whatever the replies.
    This is the repaired code (fix: "DoStream/DoMultiStream must store the wire back when the context is already done"). *)
Theorem C29_store_once_call : forall c rs outs evs leak,
  (0 < c_ncmd c)%nat -> (c_ncmd c <= length rs)%nat -> forallb sres_wf rs = true ->
  lifetime c rs = Ok (outs, evs, leak) ->
  count_store evs = 1%nat /\ leak = false /\ (c_ctx_done c = true -> evs = [PStore] /\ outs = []).
Proof.
  intros c rs outs evs leak Hn Hl Hwf H.
  destruct (lifetime_cases c rs outs evs leak Hn Hl Hwf H) as [-> [[Hc [-> ->]]|[[Hc [_ ->]]|[Hc [_ ->]]]]].
  - auto.
  - destruct (c_flush_ok c); [destruct (first_unclean _)|]; repeat split; congruence.
  - repeat split; congruence.
Qed.
Print Assumptions C29_store_once_call.

(** ** the pool's books after the call: the pool accounts for exactly what is on its idle list — the connection when it
    is still good (no error latched, nothing sent or everything consumed cleanly), nothing otherwise: a wire that was
    closed gave its slot back, the dead pipe made up for a done context never had one.  No slot is lost, none is
    given back twice. *)
Theorem C29_books : forall c rs outs evs leak,
  (0 < c_ncmd c)%nat -> (c_ncmd c <= length rs)%nat -> forallb sres_wf rs = true -> call_wf c = true ->
  lifetime c rs = Ok (outs, evs, leak) ->
  books c evs = if recycled c rs then (1, 1)%nat else (0, 0)%nat.
Proof.
  intros c rs outs evs leak Hn Hl Hwf Hcw H. unfold call_wf in Hcw.
  destruct (lifetime_cases c rs outs evs leak Hn Hl Hwf H) as [_ [[Hc [_ ->]]|[[Hc [H0 ->]]|[Hc [H0 ->]]]]];
    unfold books, recycled, wire_noslot, wire_err in *; rewrite Hc.
  - destruct (c_state c =? 0), (c_real c); try discriminate; reflexivity.
  - rewrite H0 in *. rewrite orb_false_r in Hcw. rewrite Hcw.
    destruct (c_flush_ok c); [destruct (first_unclean _)|]; reflexivity.
  - apply N.eqb_neq in H0. rewrite H0. destruct (c_real c); reflexivity.
Qed.
Print Assumptions C29_books.

(** ** record of the code as it was found (DESIGN D7): the early return on a done context did not store, so the
    call-level statement failed for every call whose context ended between spool.Acquire and the check — a counted
    wire was neither stored nor carried by the stream. *)
Theorem C29_store_once_call_before_fix_refuted :
  (exists c rs outs evs,
     (0 < c_ncmd c)%nat /\ (c_ncmd c <= length rs)%nat /\ forallb sres_wf rs = true /\
     lifetime_orig c rs = Ok (outs, evs, true) /\ count_store evs = 0%nat) /\
  (forall c rs, c_ctx_done c = true -> lifetime_orig c rs = Ok ([], [], c_real c)).
Proof.
  split; [|exact lifetime_orig_ctx_done].
  exists (mkCall 1 true true 0 true), [mkSres 5 None true], [], []. vm_compute. repeat split; auto.
Qed.
Print Assumptions C29_store_once_call_before_fix_refuted.

(** non-vacuity: five commands — payload, nil, error reply, payload, then an I/O failure; a clean call of two; a
    fault on a NON-final reply (the second of four): the stream ends there, the wire is closed and stored by that very
    WriteTo, the slot is free again; the context paths *)
Example C29b_nonvacuous :
  lifetime (mkCall 5 false true 0 true)
           [mkSres 10 None true; mkSres 0 (Some ENil) true; mkSres 0 (Some ERedis) true; mkSres 3 None true; mkSres 2 (Some EIO) false] =
  Ok ([(10, None); (0, Some ENil); (0, Some ERedis); (3, None); (2, Some EIO)], [PClose; PStore], false) /\
  lifetime (mkCall 2 false true 0 true) [mkSres 10 None true; mkSres 4 None true; mkSres 7 None true] =
  Ok ([(10, None); (4, None)], [PStore], false) /\
  lifetime (mkCall 4 false true 0 true) [mkSres 10 None true; mkSres 2 (Some EIO) false; mkSres 4 None true; mkSres 7 None true] =
  Ok ([(10, None); (2, Some EIO)], [PClose; PStore], false) /\
  books (mkCall 4 false true 0 true) [PClose; PStore] = (0, 0)%nat /\
  (* the context ended while the counted wire was being set up: stored, back on the idle list *)
  lifetime (mkCall 1 true true 0 true) [mkSres 5 None true] = Ok ([], [PStore], false) /\
  books (mkCall 1 true true 0 true) [PStore] = (1, 1)%nat /\
  (* the context was done before Acquire: the made-up dead pipe is stored (closed), the books stay at zero *)
  lifetime (mkCall 1 true false 3 true) [mkSres 5 None true] = Ok ([], [PStore], false) /\
  books (mkCall 1 true false 3 true) [PStore] = (0, 0)%nat /\
  (* the dial failed: the shared dead wire took a slot and gives it back *)
  books (mkCall 1 false true 3 true) [PStore] = (0, 0)%nat.
Proof. vm_compute. repeat split; reflexivity. Qed.
