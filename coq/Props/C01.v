(** C01 — Auto-pipelined calls always receive their own replies, in order.

    Object: the labelled transition system [PipeLts.pstep] (any number of callers of Do / DoMulti with
    single, batched, opt-in-cached and subscribe / unsubscribe commands, context cancellation at any
    moment, Close, connection failures, the writer, the reader [Pipe.reader_step] — a transcription of
    _backgroundRead —, the clean-up loop, a server that follows ServerProto and may push at any time).
    Quantifier: every schedule ([prun g sched]), every configuration [g] (queue kind and capacity,
    RESP2 pub/sub mode, any server behaviour allowed by ServerProto, version <> 6).

    Reading guide
    - [users s]: synchronous callers currently writing/reading the connection + 1 if the background
      writer or reader runs.
    - [k_res (p_calls s t)]: what has been written into call t's result slots so far;
      [k_ret (p_calls s t)]: what Do / DoMulti returned to the caller of t.
    - [result_of srv c]: the reply the server gave to command c (the empty message for a confirmed
      subscribe, the PONG of the appended PING for an unsubscribe).

    leaveSync (pipe.go) keeps the caller's count until background() has been called for the callers queued behind
    it, and so does the model.  Releasing it before would break exclusivity for the flow buffer: PutOne / PutMulti
    giving up on a done context in that window lets a newcomer see waits = 1 and use the connection synchronously
    while the background loops start (16-step schedule [flow_race] below, see docs/pipe.md, D5). *)
From Coq Require Import List NArith ZArith Bool String.
Require Import RV.Model.Base RV.Model.PipeQueue RV.Model.Pipe RV.Model.PipeLts.
Require Import RV.Proofs.PipeLtsBasics RV.Proofs.PipeExclusive RV.Proofs.PipeRouting RV.Proofs.PipeHistory.
Import ListNotations.
Open Scope N_scope.

(** ServerProto *)
Definition server_ok (g : config) : Prop := forall c, cmd_served_ok (g_r2ps g) (g_srv g) c = true.

Theorem C01_exclusive_conn : forall g sched s,
  prun g sched (p_init g) = Some s -> (users s <= 1)%nat.
Proof. intros g sched s H. exact (exclusive s (inva_run g sched _ _ (inva_init g) H)). Qed.
Print Assumptions C01_exclusive_conn.

Definition echo_srv : server := mkSrv (fun c => Msg 36 [c_id c] 0 []) (fun c => []) (fun c => pong_msg).
Definition plain (id : N) : cmd := mkCmd id 2 false false false false false false.
Definition flow_cfg : config := mkCfg Flow 2 false 7 echo_srv.
(** the schedule that broke exclusivity before the repair: caller 1 synchronous, caller 2 queued behind it and
    giving up in PutOne, caller 3 arriving before caller 1 calls background() *)
Definition flow_race : list label :=
  [LCall 1 [plain 10] false CtxBg; LIncr 1; LLoad 1; LSyncW 1;
   LCall 2 [plain 20] false CtxDeadline; LIncr 2; LLoad 2; LCtxDone 2;
   LSrv; LSyncR 1; LDecr 1; LPutFail 2;
   LCall 3 [plain 30] false CtxBg; LIncr 3; LLoad 3; LBgAfter 1].

(** with the repaired leaveSync caller 1 is still counted when caller 3 arrives: caller 3 queues *)
Example C01_flow_race_repaired :
  option_map (fun s => (users s, k_pc (p_calls s 3), p_waits s)) (prun flow_cfg flow_race (p_init flow_cfg)) =
  Some (1%nat, PPut, 2%nat).
Proof. vm_compute. reflexivity. Qed.

(** Routing: in every reachable state, for every call t,
    (a) the results delivered to t so far are a prefix of the replies the server gave to t's own
        commands, in command order, possibly followed by error entries (connection failure / Close);
    (b) if t returned and every returned entry is a reply (no error, in particular no cancellation),
        it returned exactly the replies to its own commands. *)
Theorem C01_routing : forall g sched s t,
  server_ok g -> g_ver g <> 6%Z ->
  prun g sched (p_init g) = Some s ->
  (exists k es, k_res (p_calls s t) =
                map RMsg (map (result_of (g_srv g)) (firstn k (k_cmds (p_calls s t)))) ++ map RErr es) /\
  (forall r, k_ret (p_calls s t) = Some r -> (forall x, In x r -> exists m, x = RMsg m) ->
             k_cmds (p_calls s t) <> [] ->
             r = map RMsg (map (result_of (g_srv g)) (k_cmds (p_calls s t)))).
Proof. intros g sched s t Hs Hv H. exact (routing g Hs Hv sched s t H). Qed.
Print Assumptions C01_routing.

(** for ServerProto servers the reader never reaches panic(protocolbug): it can always take the next frame *)
Theorem C01_no_protocol_panic : forall g sched s r,
  server_ok g -> g_ver g <> 6%Z ->
  prun g sched (p_init g) = Some s ->
  p_b s = BRead r -> p_s2c s <> [] -> exists s', pstep g s LRStep = Some s'.
Proof.
  intros g sched s r Hs Hv H Hb Hne.
  destruct (invb_reach g Hs Hv sched s H) as [_ IB]. exact (rstep_enabled g Hs Hv s r IB Hb Hne).
Qed.
Print Assumptions C01_no_protocol_panic.

(** No reply is lost, duplicated or handed to another slot: [p_wlog] is the list of queue slots in the
    order the writer put them on the wire, [expected] lists for them, in wire order, the triples
    (owner of the slot, index in the slot, reply of the server to that very command); [p_dlog] is the
    list of triples (owner, index, message) the reader has stored so far, in order.  The log is always an
    initial segment of [expected]; while the reader runs, the rest is exactly what is still due to the
    slot being filled (from index ff on) followed by the written slots not yet taken. *)
Theorem C01_no_loss_no_dup : forall g sched s,
  server_ok g -> g_ver g <> 6%Z ->
  prun g sched (p_init g) = Some s ->
  (exists rest, expected g (p_wlog s) = p_dlog s ++ rest) /\
  (forall r, p_b s = BRead r ->
     expected g (p_wlog s) =
     p_dlog s ++ exp_from g (r_owner r) (r_ff r) (skipn (r_ff r) (r_multi r)) ++ flat_map (exp_slot g) (q_wr (p_q s))).
Proof.
  intros g sched s Hs Hv H. destruct (invh_run g Hs Hv sched _ _ (inva_init g) (invb_init g) (invh_init g) H) as (_&_&IH).
  split; [apply (h_pre g s IH)|apply (h_read g s IH)].
Qed.
Print Assumptions C01_no_loss_no_dup.

(** non-vacuity: two callers, the first runs synchronously, the second (a batch with a 2-channel
    subscribe and an unsubscribe) is queued, the pipe switches to background mode, a push arrives in
    between; both calls return their own replies. *)
Definition sub2 (id : N) : cmd := mkCmd id 3 true false false false false false.
Definition unsub1 (id : N) : cmd := mkCmd id 2 true true false false false false.
Definition conf (ch : N) : msg := Msg 62 [] 0 [Msg 36 (b "subscribe"%string) 0 []; Msg 36 [ch] 0 []; Msg 58 [] 1 []].
Definition demo_srv : server :=
  mkSrv (fun c => Msg 36 [c_id c] 0 []) (fun c => [conf 1; conf 2]) (fun c => pong_msg).
Definition demo_cfg : config := mkCfg Ring 2 false 7 demo_srv.
Definition a_push : msg := Msg 62 [] 0 [Msg 36 (b "message"%string) 0 []; Msg 36 [7] 0 []; Msg 36 [8] 0 []].
Definition demo_sched : list label :=
  [LCall 1 [plain 10] false CtxBg; LIncr 1; LLoad 1; LSyncW 1;
   LCall 2 [plain 20; sub2 21; unsub1 22] true CtxBg; LIncr 2; LLoad 2; LPut 2;
   LSrv; LSyncR 1; LDecr 1; LBgAfter 1; LDecr 1;
   LWNext; LWFlush; LSrv; LSrvPush a_push; LSrv; LSrv;
   LRStep; LRStep; LRStep; LRStep; LRStep; LRecv 2; LFin 2].

Example C01_nonvacuous :
  option_map (fun s => (users s, k_ret (p_calls s 1), k_ret (p_calls s 2)))
             (prun demo_cfg demo_sched (p_init demo_cfg)) =
  Some (1%nat, Some [RMsg (Msg 36 [10] 0 [])],
        Some [RMsg (Msg 36 [20] 0 []); RMsg empty_msg; RMsg pong_msg]).
Proof. vm_compute. reflexivity. Qed.

Example C01_nonvacuous_log :
  option_map (fun s => (p_dlog s, expected demo_cfg (p_wlog s))) (prun demo_cfg demo_sched (p_init demo_cfg)) =
  Some ([(2, 0%nat, Msg 36 [20] 0 []); (2, 1%nat, empty_msg); (2, 2%nat, pong_msg)],
        [(2, 0%nat, Msg 36 [20] 0 []); (2, 1%nat, empty_msg); (2, 2%nat, pong_msg)]).
Proof. vm_compute. reflexivity. Qed.

Example C01_nonvacuous_server_ok :
  forallb (cmd_served_ok false demo_srv) [plain 10; plain 20; sub2 21; unsub1 22] = true.
Proof. vm_compute. reflexivity. Qed.
