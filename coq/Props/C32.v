(** C32 — Builder tags match command semantics.

    "Every command the builder marks read-only (and therefore auto-retried and replica-eligible) is a
    side-effect-free read, every command offering Cache() is read-only, every blocking command
    (including XREAD/XREADGROUP with BLOCK) is marked blocking so it never waits on the shared pipeline,
    and the SUBSCRIBE and UNSUBSCRIBE families are marked as Pub/Sub commands."

    Quantifier: all generated command builders and all completion paths through them.  [builders],
    [tags], [predefined] are regenerated from the repository on every run (Gen/Builders.v); the set
    [gen_closure] of reachable (command, builder type, flag word, BLOCK-appended) combinations is
    computed in Coq, proved closed ([C32_closed]) and the five rules are checked on it by the kernel.
    By [completed_obeys] (induction over paths) they then hold for every path of any length with any
    arguments.  The classification of Redis commands is Model/RedisCmds.v (hand-written).

    One rule is violated by the unchanged code: AI.MODELEXECUTE (it stores output tensors) is marked
    read-only and offers Cache().  [C32_readonly_refuted] exhibits it, [C32_readonly_characterised] proves
    it is the only offender, [C32_readonly_partial] is the rule for every other command. *)
From Coq Require Import List Arith NArith ZArith Bool.
Require Import RV.Model.Base RV.Model.Slot RV.Model.BuilderGraph RV.Model.BuilderSem RV.Model.BuilderChecks.
Require Import RV.Model.BuilderTags RV.Model.BuilderKnown RV.Model.RedisCmds.
Require Import RV.Gen.Crc16Tab RV.Gen.Builders.
Require Import RV.Proofs.BuilderProofs RV.Proofs.TagProofs RV.Proofs.BuilderGenProofs.
Require Import RV.Model.BuilderGen. (* not used below: required so that building this file also rebuilds the observer's checker *)
Import ListNotations.
Open Scope N_scope.

(** a command completed through the generated builders: root [r] (index [k]), calls [ss], terminal [t] *)
Definition completes_as (fe : fenv) (init : N) (k : nat) (r : root) (ss : list step) (t : terminal)
           (st : bstate) (c : completed) : Prop :=
  nth_error roots k = Some r /\
  exec_steps builders crc16tab fe (root_state r init) ss = Ok st /\
  finish builders st t = Ok c.

(** did one of the calls append the literal token BLOCK? *)
Definition block_given (tr : list (edge * list arg)) : bool := existsb (fun x => edge_blk (fst x)) tr.

Theorem C32_closed : closedb builders gen_closure = true.
Proof. exact gen_closed. Qed.
Print Assumptions C32_closed.

(** every builder path stays inside the closure *)
Theorem C32_reachable : forall fe init k r ss st,
  nth_error roots k = Some r ->
  exec_steps builders crc16tab fe (root_state r init) ss = Ok st ->
  exists tr, resolve builders (r_node r) ss = Some tr /\
             smem (arun (ainit (N.of_nat k) r) tr) gen_closure = true /\
             a_cf (arun (ainit (N.of_nat k) r) tr) = b_cf st /\ a_node (arun (ainit (N.of_nat k) r) tr) = b_node st.
Proof.
  intros fe init k r ss st Hk Hrun.
  destruct (run_in_closure builders gen_closure crc16tab fe init k r ss st gen_closed Hk Hrun)
    as (tr & Hr & Hm & _ & Hn & Hcf & _).
  now exists tr.
Qed.
Print Assumptions C32_reachable.

(** Rule 1, full statement (FALSE on the unchanged code):
      forall completed commands, is_readonly tags (c_cf c) = true -> in_list read_b (cmd_name r) = true. *)
Theorem C32_readonly_refuted : exists fe init k r ss t st c,
  completes_as fe init k r ss t st c /\ is_readonly tags (c_cf c) = true /\ in_list read_b (cmd_name r) = false.
Proof.
  (* AI.MODELEXECUTE key INPUTS 1 in OUTPUTS 1 out; the whole run is evaluated once *)
  set (fe := FEnv (fun _ => None) (fun _ => None)).
  set (ss := [Call 0x014b6579 [AS [107]]; Call 0x01496e70757473 [AI 1%Z]; Call 0x01496e707574 [ASs [[105]]];
              Call 0x014f757470757473 [AI 1%Z]; Call 0x014f7574707574 [ASs [[111]]]]).
  assert (H : match find_root 0x0141694d6f64656c65786563757465 roots with
              | Some r =>
                match exec_steps builders crc16tab fe (root_state r 32768) ss with
                | Ok st => match finish builders st TBuild with
                           | Ok c => is_readonly tags (c_cf c) && negb (in_list read_b (cmd_name r))
                           | _ => false
                           end
                | _ => false
                end
              | None => false
              end = true) by (vm_compute; reflexivity).
  destruct (find_root _ roots) as [r|] eqn:Er; [|discriminate].
  destruct (exec_steps builders crc16tab fe (root_state r 32768) ss) as [st| |] eqn:Erun; try discriminate.
  destruct (finish builders st TBuild) as [c| |] eqn:Efin; try discriminate.
  destruct (In_nth_error _ _ (proj1 (find_root_In _ _ _ Er))) as [k Hk].
  apply andb_prop in H. exists fe, 32768, k, r, ss, TBuild, st, c.
  split; [now split|]. split; [apply H|]. apply negb_true_iff, H.
Qed.
Print Assumptions C32_readonly_refuted.

(** exactly which commands break rule 1: AI.MODELEXECUTE and nothing else *)
Theorem C32_readonly_characterised :
  offenders tags builders RReadonly gen_closure = [AI_MODELEXECUTE] /\
  forall fe init k r ss t st c, completes_as fe init k r ss t st c ->
    is_readonly tags (c_cf c) = true -> in_list read_b (cmd_name r) = false -> cmd_name r = AI_MODELEXECUTE.
Proof.
  split; [exact (gen_offenders RReadonly)|].
  intros fe init k r ss t st c (Hk & Hrun & Hfin) Hro Hnot.
  destruct (gen_obeys RReadonly crc16tab fe init k r ss st t c Hk Hrun Hfin) as (tr & nd & _ & _ & [Hknown|Hok]).
  - cbn [gen_known known_readonly_mistags in_list existsb] in Hknown. rewrite orb_false_r in Hknown.
    exact (proj1 (BytesProofs.bytes_eqb_eq _ _) Hknown).
  - cbn [rule_ok] in Hok. rewrite Hro, Hnot in Hok. discriminate.
Qed.
Print Assumptions C32_readonly_characterised.

(** Rule 1 for every other command: marked read-only => side-effect-free read *)
Theorem C32_readonly_partial : forall fe init k r ss t st c, completes_as fe init k r ss t st c ->
  in_list known_readonly_mistags (cmd_name r) = false ->
  is_readonly tags (c_cf c) = true -> in_list read_b (cmd_name r) = true.
Proof.
  intros fe init k r ss t st c (Hk & Hrun & Hfin) Hnk Hro.
  destruct (gen_obeys RReadonly crc16tab fe init k r ss st t c Hk Hrun Hfin) as (tr & nd & _ & _ & [Hknown|Hok]).
  - cbn [gen_known] in Hknown. rewrite Hknown in Hnk. discriminate.
  - cbn [rule_ok] in Hok. rewrite Hro in Hok. exact Hok.
Qed.
Print Assumptions C32_readonly_partial.

(** Rule 2: a builder type that offers Cache() only ever holds read-only flags *)
Theorem C32_cache_readonly : forall fe init k r ss t st c, completes_as fe init k r ss t st c ->
  forall nd, get_node builders (b_node st) = Some nd -> n_cache nd = true -> is_readonly tags (c_cf c) = true.
Proof.
  intros fe init k r ss t st c (Hk & Hrun & Hfin) nd Hn Hc.
  destruct (gen_obeys RCache crc16tab fe init k r ss st t c Hk Hrun Hfin) as (tr & nd' & _ & Hn' & [Hknown|Hok]); [discriminate|].
  rewrite Hn in Hn'. inversion Hn'; subst nd'. cbn [rule_ok] in Hok. rewrite Hc in Hok. exact Hok.
Qed.
Print Assumptions C32_cache_readonly.

(** Rule 3: blocking commands, and XREAD / XREADGROUP when BLOCK was given, carry blockTag *)
Theorem C32_blocking : forall fe init k r ss t st c, completes_as fe init k r ss t st c ->
  exists tr, resolve builders (r_node r) ss = Some tr /\
    (in_list blocking_b (cmd_name r) = true \/ (in_list block_opt_b (cmd_name r) = true /\ block_given tr = true) ->
     is_block tags (c_cf c) = true).
Proof.
  intros fe init k r ss t st c (Hk & Hrun & Hfin).
  destruct (gen_obeys RBlocking crc16tab fe init k r ss st t c Hk Hrun Hfin) as (tr & nd & Hr & _ & [Hknown|Hok]); [discriminate|].
  exists tr. split; [exact Hr|]. intros H. cbn [rule_ok] in Hok. unfold block_given in H.
  destruct H as [H|[H1 H2]].
  - rewrite H in Hok. exact Hok.
  - rewrite H1, H2 in Hok. rewrite orb_true_r in Hok. exact Hok.
Qed.
Print Assumptions C32_blocking.

(** Rule 4: SUBSCRIBE / PSUBSCRIBE / SSUBSCRIBE are no-reply (Pub/Sub) commands,
    UNSUBSCRIBE / PUNSUBSCRIBE / SUNSUBSCRIBE carry the unsubscribe mark *)
Theorem C32_pubsub : forall fe init k r ss t st c, completes_as fe init k r ss t st c ->
  (in_list subscribe_b (cmd_name r) = true -> no_reply tags (c_cf c) = true) /\
  (in_list unsubscribe_b (cmd_name r) = true -> is_unsub tags (c_cf c) = true /\ no_reply tags (c_cf c) = true).
Proof.
  intros fe init k r ss t st c (Hk & Hrun & Hfin). split.
  - destruct (gen_obeys RSubscribe crc16tab fe init k r ss st t c Hk Hrun Hfin) as (tr & nd & _ & _ & [Hknown|Hok]); [discriminate|].
    intros H. cbn [rule_ok] in Hok. rewrite H in Hok. exact Hok.
  - destruct (gen_obeys RUnsubscribe crc16tab fe init k r ss st t c Hk Hrun Hfin) as (tr & nd & _ & _ & [Hknown|Hok]); [discriminate|].
    intros H. cbn [rule_ok] in Hok. rewrite H in Hok. split; [exact Hok|].
    (* unsubTag contains noRetTag *)
    apply (has_tag_trans _ _ _ Hok). reflexivity.
Qed.
Print Assumptions C32_pubsub.

(** the predefined commands of cmds.go (SentinelSubscribe, UnsubscribeCmd, …) obey rules 1 and 4 *)
Theorem C32_predefined : forall p, In p predefined -> predef_ok tags p = true.
Proof. apply forallb_forall. vm_compute. reflexivity. Qed.
Print Assumptions C32_predefined.

(** Arbitrary cannot be used to build a SUBSCRIBE-family command without the Pub/Sub marks: it panics *)
Theorem C32_arbitrary_refuses_subscribe : forall tg cs ks t c0 r,
  cs = c0 :: r -> has_suffix SUBSCRIBE (map upper_ascii c0) = true -> arb_finish tg cs ks t = Panic.
Proof.
  intros tg cs ks t c0 r -> Hs.
  assert (Hb : forall cf, arb_build (c0 :: r) cf ks = Panic).
  { intros cf. unfold arb_build. destruct c0; [reflexivity|]. now rewrite Hs. }
  destruct t; cbn [arb_finish]; try apply Hb.
  destruct c0; [reflexivity|]. destruct (_ || _); [apply Hb|reflexivity].
Qed.
Print Assumptions C32_arbitrary_refuses_subscribe.

(** the tag constants have the bit structure the predicates rely on (readonly and blockTag are disjoint bits,
    noRetTag ⊇ readonly, unsubTag ⊇ noRetTag, …) *)
Theorem C32_tags : tags_ok tags = true.
Proof. vm_compute. reflexivity. Qed.
Print Assumptions C32_tags.

(** non-vacuity: XREAD BLOCK is read-only and blocking; XREAD without BLOCK is not blocking; GET offers Cache *)
Example C32_nonvacuous :
  let fe := FEnv (fun _ => None) (fun _ => None) in
  let flags p := match p with Ok c => Some (is_readonly tags (c_cf c), is_block tags (c_cf c)) | _ => None end in
  flags (build_path builders crc16tab fe 32768 0x015872656164
           [Call 0x01426c6f636b [AI 5%Z]; Call 0x0153747265616d73 []; Call 0x014b6579 [ASs [[107]]]; Call 0x014964 [ASs [[48]]]] TBuild)
    = Some (true, true)
  /\ flags (build_path builders crc16tab fe 32768 0x015872656164
           [Call 0x0153747265616d73 []; Call 0x014b6579 [ASs [[107]]]; Call 0x014964 [ASs [[48]]]] TBuild)
    = Some (true, false)
  /\ flags (build_path builders crc16tab fe 32768 0x01476574 [Call 0x014b6579 [AS [107]]] TCache) = Some (true, false)
  /\ flags (build_path builders crc16tab fe 32768 0x01536574 [Call 0x014b6579 [AS [107]]; Call 0x0156616c7565 [AS [118]]] TBuild)
    = Some (false, false).
Proof. vm_compute. repeat split. Qed.
