(** C22 — Read-node selectors follow their documented priorities.

    A node list is the list of the nodes' AZ strings (index 0 = primary).  [select k client azs c]
    is one call of the selector closure [k] whose uint32 counter holds [c]; it answers
    [Ok (new counter, index)] or [Panic].  [run_calls k client calls 0] is any sequence of calls on a
    fresh closure.  All statements hold for every list length below 2^32 (the property asks for
    lists up to 255 nodes) and every counter value; where the uint32 wrap-around of the counter
    matters it is an explicit hypothesis.

    The statements are about the repaired code (fix: AZAffinityNodeSelector on an empty node list);
    [C22_before_fix_refuted] records what the original code did. *)
From Coq Require Import List NArith ZArith Bool Permutation Lia.
Require Import RV.Model.Base RV.Model.Selector RV.Proofs.SelectorProofs.
Import ListNotations.
Open Scope N_scope.

(** every selector, on every node list, with any counter value: never panics, returns -1 or a valid index *)
Theorem C22_range : forall k client azs c, N.of_nat (length azs) < two32 ->
  exists c' r, select k client azs c = Ok (c', r) /\
               (r = (-1)%Z \/ (0 <= r < Z.of_nat (length azs))%Z) /\ (c' = c \/ c' = incr32 c).
Proof.
  intros k client azs c H.
  destruct (select_cases k client azs c H) as [(j & Hj & ->)|[[Hne ->]|[[Hn ->]| ->]]]; eexists _, _; (split; [reflexivity|]).
  - apply cands_in in Hj. unfold window in Hj. split; [right; lia|now right].
  - split; [right; destruct azs; [easy|cbn [length]; lia]|now left].
  - split; [right|now right]. pose proof (N.mod_lt (incr32 c) (N.of_nat (length azs - 1)) ltac:(lia)). lia.
  - split; now left.
Qed.
Print Assumptions C22_range.

(** … hence along any call sequence on one closure *)
Theorem C22_range_any_call_sequence : forall k client calls c,
  Forall (fun azs => N.of_nat (length azs) < two32) calls ->
  exists rs, run_calls k client calls c = Ok rs /\
             Forall2 (fun azs r => r = (-1)%Z \/ (0 <= r < Z.of_nat (length azs))%Z) calls rs.
Proof.
  intros k client. apply run_calls_forall2. intros azs c H.
  destruct (C22_range k client azs c H) as (c' & r & H1 & H2 & _). eauto.
Qed.
Print Assumptions C22_range_any_call_sequence.

(** a same-AZ replica among the first 255 nodes is always preferred (both AZ selectors) *)
Theorem C22_same_az_replica : forall k client azs c, k <> KPrefer ->
  (exists i, (1 <= i < Nat.min (length azs) 255)%nat /\ nth_error azs i = Some client) ->
  exists j, select k client azs c = Ok (incr32 c, Z.of_nat j) /\
            (1 <= j < Nat.min (length azs) 255)%nat /\ nth_error azs j = Some client.
Proof.
  intros k client azs c Hk Hs. destruct (same_az_replica_chosen k client azs c Hk Hs) as (j & H1 & _ & H2 & H3).
  exists j. auto.
Qed.
Print Assumptions C22_same_az_replica.

(** documented fallbacks when there is none *)
Theorem C22_fallback_az_affinity : forall client azs c, N.of_nat (length azs) < two32 ->
  ~ (exists i, (1 <= i < Nat.min (length azs) 255)%nat /\ nth_error azs i = Some client) ->
  select KAz client azs c =
  if (1 <? length azs)%nat
  then Ok (incr32 c, (Z.of_N (incr32 c mod N.of_nat (length azs - 1)) + 1)%Z)   (* any replica, round robin *)
  else Ok (c, (-1)%Z).                                                           (* primary *)
Proof.
  intros client azs c H1 H2. cbn [select]. rewrite az_affinity_fallback by assumption.
  unfold round_robin. now destruct (1 <? length azs)%nat.
Qed.
Print Assumptions C22_fallback_az_affinity.

Theorem C22_fallback_replicas_and_primary : forall client azs c, N.of_nat (length azs) < two32 ->
  ~ (exists i, (1 <= i < Nat.min (length azs) 255)%nat /\ nth_error azs i = Some client) ->
  select KAzRP client azs c =
  match azs with
  | [] => Ok (c, (-1)%Z)
  | az0 :: _ =>
    if bytes_eqb az0 client then Ok (c, 0%Z)                                     (* same-AZ primary *)
    else if (1 <? length azs)%nat then
      Ok (incr32 c, (Z.of_N (incr32 c mod N.of_nat (length azs - 1)) + 1)%Z)     (* any replica *)
    else Ok (c, (-1)%Z)                                                          (* primary *)
  end.
Proof. intros client azs c H1 H2. cbn [select]. now apply az_rp_fallback. Qed.
Print Assumptions C22_fallback_replicas_and_primary.

Theorem C22_prefer_replica : forall client azs c, N.of_nat (length azs) < two32 ->
  select KPrefer client azs c =
  if (1 <? length azs)%nat
  then Ok (incr32 c, (Z.of_N (incr32 c mod N.of_nat (length azs - 1)) + 1)%Z)
  else Ok (c, (-1)%Z).
Proof.
  intros client azs c H. cbn [select]. rewrite prefer_replica_spec by exact H.
  unfold round_robin. now destruct (1 <? length azs)%nat.
Qed.
Print Assumptions C22_prefer_replica.

(** the equally ranked same-AZ candidates are exactly the first (at most 8) same-AZ replicas in the window *)
Theorem C22_candidates : forall client azs j,
  In j (cands client azs 1) -> (1 <= j < Nat.min (length azs) 255)%nat /\ nth_error azs j = Some client.
Proof. intros client azs j. apply cands_in. Qed.
Print Assumptions C22_candidates.

Theorem C22_candidates_cap : forall client azs,
  cands client azs 1 = firstn 8 (same_az client azs 1) /\ NoDup (cands client azs 1) /\
  (forall j, In j (same_az client azs 1) <-> (1 <= j < Nat.min (length azs) 255)%nat /\ nth_error azs j = Some client).
Proof. intros. split; [reflexivity|]. split; [apply cands_nodup|]. intro j. apply same_az_in. Qed.
Print Assumptions C22_candidates_cap.

(** rotation: [count] consecutive calls return each of the [count] candidates exactly once,
    as long as the uint32 counter does not wrap inside the window *)
Theorem C22_rotation_same_az : forall k client azs c0, k <> KPrefer ->
  cands client azs 1 <> [] -> c0 + N.of_nat (length (cands client azs 1)) < two32 ->
  exists rs, run_calls k client (repeat azs (length (cands client azs 1))) c0 = Ok rs /\
             Permutation rs (map Z.of_nat (cands client azs 1)).
Proof.
  intros k client azs c0 Hk Hne Hw.
  exists (map (fun j => snd (pick_az client azs 1 (c0 + N.of_nat j))) (seq 0 (length (cands client azs 1)))).
  split; [|now apply pick_az_rotation]. apply run_calls_repeat. intros j Hj. rewrite select_is_pick by assumption.
  destruct (pick_az_cases client azs 1 (c0 + N.of_nat j)) as [[Hn _]|(i & _ & ->)]; [contradiction|].
  cbn [snd]. now rewrite incr32_small by lia.
Qed.
Print Assumptions C22_rotation_same_az.

Theorem C22_rotation_replicas : forall k client azs c0,
  (k = KPrefer \/ (~ has_same_az_replica client azs /\ (k = KAz \/ nth_error azs 0 <> Some client))) ->
  (1 < length azs)%nat -> c0 + N.of_nat (length azs - 1) < two32 -> N.of_nat (length azs) < two32 ->
  exists rs, run_calls k client (repeat azs (length azs - 1)) c0 = Ok rs /\
             Permutation rs (map Z.of_nat (seq 1 (length azs - 1))).
Proof.
  intros k client azs c0 Hk Hn Hw Hlen.
  exists (map (fun j => snd (any_replica (N.of_nat (length azs)) (c0 + N.of_nat j))) (seq 0 (length azs - 1))).
  split; [|now apply any_replica_rotation]. apply run_calls_repeat. intros j Hj. apply select_any_replica; trivial. lia.
Qed.
Print Assumptions C22_rotation_replicas.

(** the wrap-around is where the hypothesis is needed: with 3 candidates the counter values 2^32-2 and
    2^32-1 pick the same candidate twice in a row (once every 2^32 calls); for 1, 2, 4, 8 candidates the
    index sequence is unaffected by the wrap *)
Theorem C22_rotation_wrap_characterised :
  (let azs := [[]; [1]; [1]; [1]] in
   snd (pick_az [1] azs 1 (two32 - 2)) = snd (pick_az [1] azs 1 (two32 - 1))) /\
  (forall c n, c < two32 -> (n = 1 \/ n = 2 \/ n = 4 \/ n = 8) -> incr32 c mod n = (c + 1) mod n).
Proof.
  split; [vm_compute; reflexivity|]. intros c n Hc Hn. apply incr32_mod_divide; [exact Hc|now destruct Hn as [->|[->|[->| ->]]]|].
  destruct Hn as [->|[->|[->| ->]]]; [exists 4294967296|exists 2147483648|exists 1073741824|exists 536870912]; reflexivity.
Qed.
Print Assumptions C22_rotation_wrap_characterised.

(** the original code: AZAffinityNodeSelector on an empty node list answered 2, 3, … (uint32(0-1) wraps);
    everywhere else it agreed with the repaired code *)
Theorem C22_before_fix_refuted :
  az_selector_before_fix 1 [97] [] 0 = (1, 2%Z) /\ az_selector_before_fix 1 [97] [] 1 = (2, 3%Z).
Proof. vm_compute. split; reflexivity. Qed.
Print Assumptions C22_before_fix_refuted.

Theorem C22_before_fix_characterised : forall client azs c,
  (1 <= length azs)%nat -> N.of_nat (length azs) < two32 ->
  az_selector_before_fix 1 client azs c = az_selector 1 client azs c.
Proof. intros client azs c. apply before_fix_same_elsewhere. Qed.
Print Assumptions C22_before_fix_characterised.

(** non-vacuity: a list with a same-AZ primary, two same-AZ replicas and others; rotation over 3 calls;
    fallback chain of the replicas-and-primary selector; empty list *)
Example C22_nonvacuous_rotation :
  run_calls KAz [97] (repeat [[97]; [98]; [97]; [99]; [97]] 3) 0 = Ok [4%Z; 2%Z; 4%Z] /\
  cands [97] [[97]; [98]; [97]; [99]; [97]] 1 = [2%nat; 4%nat].
Proof. vm_compute. split; reflexivity. Qed.

Example C22_nonvacuous_fallbacks :
  run_calls KAzRP [97] [[[97]; [98]; [99]]; [[98]; [98]; [99]]; [[98]; [98]; [99]]; [[98]]; []] 0 =
  Ok [0%Z; 2%Z; 1%Z; (-1)%Z; (-1)%Z] /\
  run_calls KAz [97] [[]; [[98]]; [[98]; [99]]] 0 = Ok [(-1)%Z; (-1)%Z; 1%Z].
Proof. vm_compute. split; reflexivity. Qed.
