(** C42 — the go-redis adapter sends the same commands as go-redis.

    [adapter] (Model/CompatArgs.v) is the argument construction of rueidiscompat/adapter.go, tied to the code
    on every run; [goredis] (Model/GoRedisSpec.v) is the hand-written specification of go-redis v9 (trusted,
    go-redis is not installed).  [same F ff fpos c] is
        wire (adapter F ff fpos c) = wire (goredis F ff fpos c):
    both send nothing (error / panic), or both send a command and the two commands are equal up to [norm]
    (keywords upper-cased, the default "=" of MAXLEN/MINID dropped, SET options in canonical order; keys and
    values byte for byte).  Every theorem quantifies over all arguments, including unbounded lists of keys,
    members, ids, streams and field values, over the float type [F] with any formatting [ff] and any
    positivity test [fpos].

    Methods outside the list are not claimed.  [_partial] theorems carry a hypothesis on the arguments:
    either the rest is a KNOWN DIFFERENCE, characterised exactly by the [_characterised] theorem next to it,
    or the specification is not certain outside (said in the comment).  Each kind of difference has one
    [_refuted] witness: SetArgs, Sort, LInsert, GeoDist (panic), Migrate, ClientPause (seconds), ZRangeArgs
    (also standing for ZRangeStore), XRead (also for XReadGroup and XClaim), GetEx. *)
From Coq Require Import List NArith ZArith String Bool.
Require Import RV.Model.Base RV.Model.CompatBase RV.Model.GoRedisSpec RV.Model.CompatArgs RV.Proofs.CompatArgsProofs.
Import ListNotations.
Local Open Scope Z_scope.

Section C42.
Variable F : Type.
Variable ff : F -> bytes.
Variable fpos : F -> bool.
Notation same := (same F ff fpos).
Notation adapter := (adapter F ff fpos).
Notation goredis := (goredis F ff fpos).

Theorem C42_Set_equiv : forall key v exp, same (MSet key v exp).
Proof. intros. toks. Qed.

Theorem C42_SetEX_equiv : forall key v exp, same (MSetEX key v exp).
Proof. intros. toks. Qed.

Theorem C42_SetNX_equiv : forall key v exp, same (MSetNX key v exp).
Proof.
  intros key v exp. methods. change g_arg with a_str. rewrite (a_str_D v).
  destruct (exp =? 0); [reflexivity|]. destruct (exp =? -1); [reflexivity|].
  (* the flag and the expiry come in a different order: [canon] sorts them *)
  unfold wire, norm. rewrite !norm_toks_app, <- expiry_same. unfold a_expiry.
  destruct (a_use_precise exp); reflexivity.
Qed.

Theorem C42_SetXX_equiv : forall key v exp, same (MSetXX key v exp).
Proof.
  intros key v exp. methods. change g_arg with a_str. rewrite (a_str_D v).
  destruct (0 <? exp); [|destruct (exp =? -1); reflexivity].
  unfold wire, norm. rewrite !norm_toks_app, <- expiry_same. unfold a_expiry.
  destruct (a_use_precise exp); reflexivity.
Qed.

Theorem C42_Expire_equiv : forall m key d, same (MExpire m key d).
Proof. intros []; intros; toks. Qed.

Theorem C42_PExpire_equiv : forall key d, same (MPExpire key d).
Proof. intros. toks. Qed.

Theorem C42_ExpireAt_equiv : forall key t, same (MExpireAt key t).
Proof. intros. toks. Qed.

Theorem C42_PExpireAt_equiv : forall key t, same (MPExpireAt key t).
Proof. intros. toks. Qed.

Theorem C42_Copy_equiv : forall src dst db replace, same (MCopy src dst db replace).
Proof. intros. toks. Qed.

Theorem C42_Restore_equiv : forall replace key ttl v, same (MRestore replace key ttl v).
Proof. intros. toks. Qed.

Theorem C42_BitCount_equiv : forall key bc, same (MBitCount key bc).
Proof.
  intros key [b|]; [|reflexivity]. methods. unfold is_unit_ok.
  destruct (bytes_eqbP (bc_unit b) (bs "BYTE")) as [->|_]; [reflexivity|].
  destruct (bytes_eqbP (bc_unit b) (bs "BIT")) as [->|_]; [reflexivity|].
  destruct (bc_unit b); reflexivity.
Qed.

Theorem C42_BitPos_equiv : forall key bit pos, same (MBitPos key bit pos).
Proof. intros key bit [|a [|b [|c r]]]; reflexivity. Qed.

Theorem C42_BitField_equiv : forall key args, same (MBitField key args).
Proof. intros. toks. Qed.

Theorem C42_MemoryUsage_equiv : forall key samples, same (MMemoryUsage key samples).
Proof. intros key [|a [|b r]]; reflexivity. Qed.

Theorem C42_LPos_equiv : forall key elem rank maxlen, same (MLPos key elem rank maxlen).
Proof. intros. toks. Qed.

Theorem C42_LPosCount_equiv : forall key elem count rank maxlen, same (MLPosCount key elem count rank maxlen).
Proof. intros. toks. Qed.

Theorem C42_LInsertBA_equiv : forall before key pivot elem, same (MLInsertBA before key pivot elem).
Proof. intros []; intros; toks. Qed.

Theorem C42_ZAdd_equiv : forall fl key members, same (MZAdd fl key members).
Proof. intros. toks. Qed.

Theorem C42_ZAddArgs_equiv : forall incr key a members, same (MZAddArgs incr key a members).
Proof. intros. toks. Qed.

Theorem C42_ZRangeBy_equiv : forall w key o, same (MZRangeBy w key o).
Proof. intros []; intros; toks. Qed.

Theorem C42_ZStoreOp_equiv : forall w s, same (MZStoreOp w s).
Proof. intros [] s; apply norm_of_toks; rewrite !norm_toks_app, zstore_same, norm_toks_app; reflexivity. Qed.

Theorem C42_ZStoreTo_equiv : forall w dst s, same (MZStoreTo w dst s).
Proof. intros [] dst s; apply norm_of_toks; rewrite !norm_toks_app, zstore_same, norm_toks_app; reflexivity. Qed.

Theorem C42_ZDiff_equiv : forall ws keys, same (MZDiff ws keys).
Proof. intros. toks. Qed.

Theorem C42_ZDiffStore_equiv : forall dst keys, same (MZDiffStore dst keys).
Proof. intros. toks. Qed.

Theorem C42_XAdd_equiv : forall a, same (MXAdd a).
Proof. intros a. methods. rewrite negb_is_empty, !if_is_empty. destruct (xa_approx a); toks. Qed.

Theorem C42_XReadStreams_equiv : forall streams, same (MXReadStreams streams).
Proof. intros. toks. Qed.

Theorem C42_XPendingExt_equiv : forall a, same (MXPendingExt a).
Proof. intros. toks. Qed.

Theorem C42_XAutoClaim_equiv : forall justid a, same (MXAutoClaim justid a).
Proof. intros. toks. Qed.

Theorem C42_XTrim_equiv : forall key t, same (MXTrim key t).
Proof. (* a_xtrim's one-token segments, grouped as go-redis's literal head *)
  intros key []; intros; methods; unfold a_xtrim; rewrite !app_assoc; toks.
Qed.

Theorem C42_XInfoStreamFull_equiv : forall key count, same (MXInfoStreamFull key count).
Proof. intros. toks. Qed.

Theorem C42_GeoAdd_equiv : forall key locs, same (MGeoAdd key locs).
Proof. intros. toks. Qed.

Theorem C42_GeoRadius_equiv : forall store key lon lat q, same (MGeoRadius store key lon lat q).
Proof. intros store key lon lat q. methods. rewrite !negb_is_empty.
  destruct (Bool.eqb store _); [destruct store; toks|reflexivity]. Qed.

Theorem C42_GeoRadiusByMember_equiv : forall store key member q, same (MGeoRadiusByMember store key member q).
Proof. intros store key member q. methods. rewrite !negb_is_empty.
  destruct (Bool.eqb store _); [destruct store; toks|reflexivity]. Qed.

Theorem C42_GeoSearch_equiv : forall key q, same (MGeoSearch key q).
Proof. intros. toks. Qed.

Theorem C42_GeoSearchLocation_equiv : forall key q wc wd wh, same (MGeoSearchLocation key q wc wd wh).
Proof. intros. toks. Qed.

Theorem C42_GeoSearchStore_equiv : forall src dst q storedist, same (MGeoSearchStore src dst q storedist).
Proof. intros. toks. Qed.

Theorem C42_FunctionLoad_equiv : forall replace code, same (MFunctionLoad replace code).
Proof. intros. toks. Qed.

Theorem C42_ClientKillByFilter_equiv : forall keys, same (MClientKillByFilter keys).
Proof. intros. toks. Qed.


Theorem C42_ZPop_equiv : forall max key count, same (MZPop max key count).
Proof. intros [] key [|a [|b r]]; reflexivity. Qed.

Theorem C42_ZRangePlain_equiv : forall rev ws key start stop, same (MZRangePlain rev ws key start stop).
Proof. intros []; intros; toks. Qed.

Theorem C42_BPop_equiv : forall w timeout keys, same (MBPop w timeout keys).
Proof. intros []; intros; toks. Qed.

Theorem C42_BRPopLPush_equiv : forall src dst timeout, same (MBRPopLPush src dst timeout).
Proof. intros. toks. Qed.

Theorem C42_LMove_equiv : forall src dst srcpos dstpos, same (MLMove src dst srcpos dstpos).
Proof. intros. toks. Qed.

Theorem C42_BLMove_equiv : forall src dst srcpos dstpos timeout, same (MBLMove src dst srcpos dstpos timeout).
Proof. intros. toks. Qed.

Theorem C42_XRangeCmd_equiv : forall rev stream a b count, same (MXRangeCmd rev stream a b count).
Proof. intros [] stream a b [n|]; reflexivity. Qed.

Theorem C42_XGroupCreate_equiv : forall mk stream group start, same (MXGroupCreate mk stream group start).
Proof. intros. toks. Qed.

Theorem C42_XAck_equiv : forall stream group ids, same (MXAck stream group ids).
Proof. intros. toks. Qed.

Theorem C42_XDel_equiv : forall stream ids, same (MXDel stream ids).
Proof. intros. toks. Qed.

Theorem C42_Eval_equiv : forall w script keys args, same (MEval w script keys args).
Proof. intros w script keys args. methods. destruct (single_nil args); [reflexivity|destruct w; toks]. Qed.

Theorem C42_PopCount_equiv : forall w key count, same (MPopCount w key count).
Proof. intros []; reflexivity. Qed.

Theorem C42_ZRandMember_equiv : forall ws key count, same (MZRandMember ws key count).
Proof. intros. toks. Qed.

Theorem C42_InterCard_equiv : forall zset limit keys, same (MInterCard zset limit keys).
Proof. intros []; intros; toks. Qed.

Theorem C42_SlowLogGet_equiv : forall num, same (MSlowLogGet num).
Proof. intros. toks. Qed.

Theorem C42_FunctionList_equiv : forall pattern withcode, same (MFunctionList pattern withcode).
Proof. intros. toks. Qed.

(** Known differences, exactly characterised. *)

(** SetArgs: go-redis passes Mode through to the server; the adapter panics unless Mode is "", NX or XX in any
    letter case (adapter_test.go pins the panic). *)
Theorem C42_SetArgs_equiv_partial : forall key v a, valid_mode (sa_mode a) -> same (MSetArgs key v a).
Proof.
  intros key v a Hm. methods.
  destruct Hm as [Hm|[Hm|Hm]]; rewrite Hm; [|destruct (passed_keyword _ _ Hm eq_refl) as [-> P] ..].
  all: apply norm_of_toks; cbn [is_empty]; segs.
Qed.
Theorem C42_SetArgs_characterised : forall key v a, same (MSetArgs key v a) <-> valid_mode (sa_mode a).
Proof.
  intros. apply same_iff_no_panic;
    [apply valid_mode_dec|apply C42_SetArgs_equiv_partial|apply SetArgs_panics|eexists; reflexivity].
Qed.
Theorem C42_SetArgs_refuted : exists key v a, ~ same (MSetArgs key v a).
Proof.
  exists (bs "k"), (AStr (bs "v")), (mkSetArgs (bs "GT") 0 None false false). intro H.
  apply C42_SetArgs_characterised in H. destruct H as [H|[H|H]]; vm_compute in H; discriminate.
Qed.

(** Sort / SortRO / SortStore / SortInterfaces: go-redis passes Order through; the adapter panics unless it is
    "", ASC or DESC in any letter case (pinned by adapter_test.go).  SortStore with an empty destination is left
    out: go-redis omits STORE then, the adapter sends STORE "" (specification certain, difference not pinned,
    no caller can mean it). *)
Theorem C42_Sort_equiv_partial : forall c key s, valid_order (so_order s) -> valid_sortcmd c -> same (MSort c key s).
Proof.
  intros c key s Ho Hc. destruct c as [| |store]; methods.
  - destruct (a_sort_valid "SORT" key s Ho) as [l [-> E]]. apply norm_of_toks. exact E.
  - destruct (a_sort_valid "SORT_RO" key s Ho) as [l [-> E]]. apply norm_of_toks. exact E.
  - destruct (a_sort_valid "SORT" key s Ho) as [l [-> E]]. destruct store; [destruct Hc|].
    apply norm_of_toks. rewrite !norm_toks_app, E. reflexivity.
Qed.
Theorem C42_Sort_characterised : forall c key s, valid_sortcmd c -> (same (MSort c key s) <-> valid_order (so_order s)).
Proof.
  intros c key s Hc. apply same_iff_no_panic; [apply valid_order_dec| | |destruct c; eexists; reflexivity].
  - intro Ho. apply C42_Sort_equiv_partial; assumption.
  - intro Ho. destruct c; methods; rewrite a_sort_panics by exact Ho; reflexivity.
Qed.
Theorem C42_Sort_refuted : exists c key s, ~ same (MSort c key s).
Proof.
  exists SortPlain, (bs "k"), (mkSort [] (bs "up") [] 0 0 false). intro H.
  apply C42_Sort_characterised in H; [|exact I]. destruct H as [H|[H|H]]; vm_compute in H; discriminate.
Qed.

(** LInsert: go-redis passes op through; the adapter panics unless it is BEFORE or AFTER (pinned). *)
Theorem C42_LInsert_equiv_partial : forall key op pivot elem, valid_op op -> same (MLInsert key op pivot elem).
Proof.
  intros key op pivot elem Ho. methods.
  destruct Ho as [Ho|Ho]; rewrite Ho; apply norm_of_toks; rewrite !norm_toks_cons; cbn [norm_tok];
    rewrite Ho; reflexivity.
Qed.
Theorem C42_LInsert_characterised : forall key op pivot elem, same (MLInsert key op pivot elem) <-> valid_op op.
Proof.
  intros. apply same_iff_no_panic;
    [apply valid_op_dec|apply C42_LInsert_equiv_partial|apply LInsert_panics|eexists; reflexivity].
Qed.
Theorem C42_LInsert_refuted : exists key op pivot elem, ~ same (MLInsert key op pivot elem).
Proof.
  exists (bs "k"), (bs "x"), ANil, ANil. intro H. apply C42_LInsert_characterised in H.
  destruct H as [H|H]; vm_compute in H; discriminate.
Qed.

(** Migrate: the adapter prints the timeout in seconds (formatSec), go-redis in milliseconds (formatMs) — as the
    MIGRATE command expects; TestPipeliner pins ["MIGRATE","host","0","1","0","1"] for one second. *)
Theorem C42_Migrate_characterised : forall host port key db timeout,
  same (MMigrate host port key db timeout) <-> a_format_sec timeout = a_format_ms timeout.
Proof.
  intros. methods. split.
  - intro H. apply wire_iff_toks in H; [|reflexivity..]. exact (toks_Z_inv [_; _; _; _] [_; _; _; _] [] [] _ _ eq_refl H).
  - intros ->. reflexivity.
Qed.
Theorem C42_Migrate_equiv_partial : forall host port key db timeout,
  a_format_sec timeout = a_format_ms timeout -> same (MMigrate host port key db timeout).
Proof. intros. apply C42_Migrate_characterised. assumption. Qed.
Theorem C42_Migrate_refuted : exists host port key db timeout, ~ same (MMigrate host port key db timeout).
Proof.
  exists (bs "h"), 6379, (bs "k"), 0, 1000000000. intro H. apply C42_Migrate_characterised in H.
  vm_compute in H. discriminate.
Qed.

(** ZRangeArgs / ZRangeArgsWithScores / ZRangeStore: go-redis exchanges Start and Stop when Rev is combined with
    ByScore or ByLex, the adapter does not (adapter_test.go and TestPipeliner pin the adapter's order). *)
Theorem C42_ZRangeArgs_characterised : forall ws z, same (MZRangeArgs ws z) <-> zr_ok z.
Proof.
  intros ws z. methods. etransitivity; [|apply (zrange_iff z [])].
  - apply wire_iff_toks; reflexivity.
  - destruct ws; reflexivity.
Qed.
Theorem C42_ZRangeArgs_equiv_partial : forall ws z, zr_ok z -> same (MZRangeArgs ws z).
Proof. intros ws z. apply C42_ZRangeArgs_characterised. Qed.
Theorem C42_ZRangeStore_characterised : forall dst z, same (MZRangeStore dst z) <-> zr_ok z.
Proof.
  intros dst z. methods. rewrite <- (app_nil_r (a_zrange_tail z)), <- (app_nil_r (g_zrange_args z)).
  etransitivity; [|apply (zrange_iff z [D dst] [] [])].
  - apply wire_iff_toks; reflexivity.
  - reflexivity.
Qed.
Theorem C42_ZRangeStore_equiv_partial : forall dst z, zr_ok z -> same (MZRangeStore dst z).
Proof. intros dst z. apply C42_ZRangeStore_characterised. Qed.
Theorem C42_ZRangeArgs_refuted : exists ws z, ~ same (MZRangeArgs ws z).
Proof.
  exists false, (mkZRange (bs "z") (AInt 1) (AInt 4) true false true 0 0). intro H.
  apply C42_ZRangeArgs_characterised in H. destruct H as [H|H]; vm_compute in H; discriminate.
Qed.

(** GetEx: go-redis sends GETEX key PERSIST for a zero expiration (the doc comment of the adapter says so too), the
    adapter sends a plain GETEX key; pinned by rueidiscompatmock/adapter_test.go TestStringCommands. *)
Theorem C42_GetEx_characterised : forall key exp, same (MGetEx key exp) <-> exp <> 0.
Proof.
  intros key exp. methods. destruct (Z.eqb_spec exp 0) as [->|N]; split.
  - intro H. vm_compute in H. discriminate H.
  - intro H. destruct (H eq_refl).
  - intros _. exact N.
  - intros _. toks.
Qed.
Theorem C42_GetEx_equiv_partial : forall key exp, exp <> 0 -> same (MGetEx key exp).
Proof. intros key exp. apply C42_GetEx_characterised. Qed.
Theorem C42_GetEx_refuted : exists key exp, ~ same (MGetEx key exp).
Proof. exists (bs "k"), 0. intro H. apply C42_GetEx_characterised in H. exact (H eq_refl). Qed.

(** XRead / XReadGroup (Block) and XClaim / XClaimJustID (MinIdle): the adapter uses formatMs, which rounds a
    positive duration below one millisecond up to 1; go-redis computes int64(d / time.Millisecond) = 0
    (BLOCK 0 blocks for ever). *)
Theorem C42_XRead_characterised : forall count block streams, same (MXRead count block streams) <-> sub_ms block = false.
Proof.
  intros count block streams. apply same_iff_false; intro S; methods.
  - rewrite (format_ms_quot _ S). toks.
  - intro H. apply wire_iff_toks in H; [|reflexivity..]. rewrite (sub_ms_nonneg _ S) in H.
    (* before the number: [COUNT n] BLOCK *)
    destruct (0 <? count); [apply (toks_Z_inv [_; _; _] [_; _; _]) in H|apply (toks_Z_inv [_] [_]) in H];
      try reflexivity; exact (sub_ms_differs _ S H).
Qed.
Theorem C42_XRead_equiv_partial : forall count block streams, sub_ms block = false -> same (MXRead count block streams).
Proof. intros count block streams. apply C42_XRead_characterised. Qed.
Theorem C42_XReadGroup_characterised : forall group consumer count block noack streams,
  same (MXReadGroup group consumer count block noack streams) <-> sub_ms block = false.
Proof.
  intros group consumer count block noack streams. apply same_iff_false; intro S; methods.
  - rewrite (format_ms_quot _ S). toks.
  - intro H. apply wire_iff_toks in H; [|reflexivity..]. rewrite (sub_ms_nonneg _ S) in H.
    (* before the number: GROUP g c [COUNT n] BLOCK *)
    destruct (0 <? count);
      [apply (toks_Z_inv [_; _; _; _; _; _] [_; _; _; _; _; _]) in H|apply (toks_Z_inv [_; _; _; _] [_; _; _; _]) in H];
      try reflexivity; exact (sub_ms_differs _ S H).
Qed.
Theorem C42_XReadGroup_equiv_partial : forall group consumer count block noack streams,
  sub_ms block = false -> same (MXReadGroup group consumer count block noack streams).
Proof. intros group consumer count block noack streams. apply C42_XReadGroup_characterised. Qed.
Theorem C42_XClaim_characterised : forall justid a, same (MXClaim justid a) <-> sub_ms (xc_minidle a) = false.
Proof.
  intros justid a. apply same_iff_false; intro S; methods.
  - rewrite (format_ms_quot _ S). toks.
  - intro H. apply wire_iff_toks in H; [|reflexivity..].
    exact (sub_ms_differs _ S (toks_Z_inv [_; _; _] [_; _; _] _ _ _ _ eq_refl H)).
Qed.
Theorem C42_XClaim_equiv_partial : forall justid a, sub_ms (xc_minidle a) = false -> same (MXClaim justid a).
Proof. intros justid a. apply C42_XClaim_characterised. Qed.
Theorem C42_XRead_refuted : exists count block streams, ~ same (MXRead count block streams).
Proof.
  exists 0, 500000, []. intro H. apply C42_XRead_characterised in H. vm_compute in H. discriminate.
Qed.

(** ClientPause: as Migrate — the adapter prints seconds (formatSec) where go-redis and CLIENT PAUSE use milliseconds;
    TestPipeliner pins ["CLIENT","PAUSE","1"] for one second. *)
Theorem C42_ClientPause_characterised : forall dur, same (MClientPause dur) <-> a_format_sec dur = a_format_ms dur.
Proof.
  intros. methods. split.
  - intro H. apply wire_iff_toks in H; [|reflexivity..]. exact (toks_Z_inv [_] [_] [] [] _ _ eq_refl H).
  - intros ->. reflexivity.
Qed.
Theorem C42_ClientPause_equiv_partial : forall dur, a_format_sec dur = a_format_ms dur -> same (MClientPause dur).
Proof. intros. apply C42_ClientPause_characterised. assumption. Qed.
Theorem C42_ClientPause_refuted : exists dur, ~ same (MClientPause dur).
Proof. exists 1000000000. intro H. apply C42_ClientPause_characterised in H. vm_compute in H. discriminate. Qed.

(** GeoDist: go-redis passes the unit through ("" = km); the adapter panics unless it is "", m, km, mi, ft in any letter
    case (adapter_test.go "should panic on invalid unit in GeoDist" pins it). *)
Theorem C42_GeoDist_equiv_partial : forall key m1 m2 unit, valid_unit unit -> same (MGeoDist key m1 m2 unit).
Proof.
  intros key m1 m2 unit Hu. methods.
  destruct Hu as [->|[Hu|[Hu|[Hu|Hu]]]]; [reflexivity|..]; rewrite Hu;
    destruct (passed_keyword _ _ Hu eq_refl) as [-> P]; apply norm_of_toks;
    (apply (toks_app [_; _; _; _] [_; _; _; _] [_] [_]); [reflexivity|exact P]).
Qed.
Theorem C42_GeoDist_characterised : forall key m1 m2 unit, same (MGeoDist key m1 m2 unit) <-> valid_unit unit.
Proof.
  intros. apply same_iff_no_panic;
    [apply valid_unit_dec|apply C42_GeoDist_equiv_partial|apply GeoDist_panics|eexists; reflexivity].
Qed.
Theorem C42_GeoDist_refuted : exists key m1 m2 unit, ~ same (MGeoDist key m1 m2 unit).
Proof.
  exists (bs "k"), (bs "a"), (bs "b"), (bs "yd"). intro H. apply C42_GeoDist_characterised in H.
  destruct H as [H|[H|[H|[H|H]]]]; vm_compute in H; discriminate.
Qed.

(** Partial because the specification is not certain outside the hypothesis. *)

(** BitPosSpan: go-redis passes span through; the adapter sends BIT for "bit" (any case) and BYTE for anything
    else.  Claimed for span = bit / byte in any letter case. *)
Theorem C42_BitPosSpan_equiv_partial : forall key bit start stop span,
  valid_span span -> same (MBitPosSpan key bit start stop span).
Proof.
  intros key bit start stop span Hs. methods. apply norm_of_toks. rewrite !norm_toks_cons.
  cbn [norm_tok]. rewrite <- (upper_lower span). destruct Hs as [->| ->]; reflexivity.
Qed.

(** LMPop / BLMPop: go-redis always appends COUNT count, the adapter only for count > 0. Claimed for count > 0.
    One argument for these two and for ZMPop / BZMPop: the hypothesis settles the adapter's test, and the direction
    go-redis lower-cases normalises alike ([toks_K_lower]). *)
Theorem C42_LMPop_equiv_partial : forall dir count keys, 0 < count -> same (MLMPop dir count keys).
Proof. intros dir count keys H. methods. rewrite (proj2 (Z.ltb_lt 0 count) H). toks. Qed.
Theorem C42_BLMPop_equiv_partial : forall timeout dir count keys, 0 < count -> same (MBLMPop timeout dir count keys).
Proof. intros timeout dir count keys H. methods. rewrite (proj2 (Z.ltb_lt 0 count) H). toks. Qed.

(** ZMPop / BZMPop: as LMPop, with the same argument — claimed for count > 0. *)
Theorem C42_ZMPop_equiv_partial : forall order count keys, 0 < count -> same (MZMPop order count keys).
Proof. intros order count keys H. methods. rewrite (proj2 (Z.ltb_lt 0 count) H). toks. Qed.
Theorem C42_BZMPop_equiv_partial : forall timeout order count keys, 0 < count -> same (MBZMPop timeout order count keys).
Proof. intros timeout order count keys H. methods. rewrite (proj2 (Z.ltb_lt 0 count) H). toks. Qed.

(** SCAN family (Scan, ScanType, SScan, HScan, HScanNoValues, ZScan): the adapter prints the cursor with
    FormatInt(int64(cursor)), go-redis as an unsigned number; the same digits below 2^63. Above, the adapter sends the
    two's-complement negative spelling; whether Redis reads that as the same cursor depends on its version
    (strtoul accepts it, string2ull does not), so nothing is claimed there.  One argument for the three
    theorems: below 2^63 the adapter's cursor token is go-redis's ([cursor_small]). *)
Theorem C42_Scan_equiv_partial : forall cursor mtch count, (cursor < 2 ^ 63)%N -> same (MScan cursor mtch count).
Proof. intros cursor mtch count H. methods. rewrite (cursor_small cursor H). toks. Qed.
Theorem C42_ScanType_equiv_partial : forall cursor mtch count typ, (cursor < 2 ^ 63)%N -> same (MScanType cursor mtch count typ).
Proof. intros cursor mtch count typ H. methods. rewrite (cursor_small cursor H). toks. Qed.
Theorem C42_KScan_equiv_partial : forall w key cursor mtch count, (cursor < 2 ^ 63)%N -> same (MKScan w key cursor mtch count).
Proof. intros [] key cursor mtch count H; methods; rewrite (cursor_small cursor H); toks. Qed.

(** ACLLog: go-redis leaves the count out unless it is positive (certainty of the specification: moderate), the
    adapter always sends it. Claimed for count > 0. *)
Theorem C42_ACLLog_equiv_partial : forall count, 0 < count -> same (MACLLog count).
Proof. intros count H. methods. rewrite (proj2 (Z.ltb_lt 0 count) H). reflexivity. Qed.

(** Every listed method, all arguments in the claimed domain. *)
Theorem C42_all_methods : forall c, in_domain F c -> same c.
Proof.
  intros c H. destruct c; cbn [in_domain] in H.
  - apply C42_Set_equiv.
  - apply C42_SetArgs_equiv_partial; exact H.
  - apply C42_SetEX_equiv.
  - apply C42_SetNX_equiv.
  - apply C42_SetXX_equiv.
  - apply C42_GetEx_equiv_partial; exact H.
  - apply C42_Expire_equiv.
  - apply C42_PExpire_equiv.
  - apply C42_ExpireAt_equiv.
  - apply C42_PExpireAt_equiv.
  - apply C42_Copy_equiv.
  - apply C42_Restore_equiv.
  - apply C42_Migrate_equiv_partial; exact H.
  - apply C42_BitCount_equiv.
  - apply C42_BitPos_equiv.
  - apply C42_BitPosSpan_equiv_partial; exact H.
  - apply C42_BitField_equiv.
  - apply C42_Sort_equiv_partial; apply H.
  - apply C42_Scan_equiv_partial; exact H.
  - apply C42_ScanType_equiv_partial; exact H.
  - apply C42_KScan_equiv_partial; exact H.
  - apply C42_MemoryUsage_equiv.
  - apply C42_LPos_equiv.
  - apply C42_LPosCount_equiv.
  - apply C42_LInsert_equiv_partial; exact H.
  - apply C42_LInsertBA_equiv.
  - apply C42_LMPop_equiv_partial; exact H.
  - apply C42_BLMPop_equiv_partial; exact H.
  - apply C42_ZAdd_equiv.
  - apply C42_ZAddArgs_equiv.
  - apply C42_ZRangeArgs_equiv_partial; exact H.
  - apply C42_ZRangeStore_equiv_partial; exact H.
  - apply C42_ZRangeBy_equiv.
  - apply C42_ZStoreOp_equiv.
  - apply C42_ZStoreTo_equiv.
  - apply C42_ZDiff_equiv.
  - apply C42_ZDiffStore_equiv.
  - apply C42_XAdd_equiv.
  - apply C42_XRead_equiv_partial; exact H.
  - apply C42_XReadStreams_equiv.
  - apply C42_XReadGroup_equiv_partial; exact H.
  - apply C42_XPendingExt_equiv.
  - apply C42_XClaim_equiv_partial; exact H.
  - apply C42_XAutoClaim_equiv.
  - apply C42_XTrim_equiv.
  - apply C42_XInfoStreamFull_equiv.
  - apply C42_GeoAdd_equiv.
  - apply C42_GeoRadius_equiv.
  - apply C42_GeoRadiusByMember_equiv.
  - apply C42_GeoSearch_equiv.
  - apply C42_GeoSearchLocation_equiv.
  - apply C42_GeoSearchStore_equiv.
  - apply C42_FunctionLoad_equiv.
  - apply C42_ClientKillByFilter_equiv.
  - apply C42_ACLLog_equiv_partial; exact H.
  - apply C42_ZPop_equiv.
  - apply C42_ZRangePlain_equiv.
  - apply C42_BPop_equiv.
  - apply C42_BRPopLPush_equiv.
  - apply C42_LMove_equiv.
  - apply C42_BLMove_equiv.
  - apply C42_XRangeCmd_equiv.
  - apply C42_XGroupCreate_equiv.
  - apply C42_XAck_equiv.
  - apply C42_XDel_equiv.
  - apply C42_Eval_equiv.
  - apply C42_PopCount_equiv.
  - apply C42_ZRandMember_equiv.
  - apply C42_InterCard_equiv.
  - apply C42_ZMPop_equiv_partial; exact H.
  - apply C42_BZMPop_equiv_partial; exact H.
  - apply C42_ClientPause_equiv_partial; exact H.
  - apply C42_SlowLogGet_equiv.
  - apply C42_GeoDist_equiv_partial; exact H.
  - apply C42_FunctionList_equiv.
Qed.

End C42.

Print Assumptions C42_Set_equiv.
Print Assumptions C42_SetEX_equiv.
Print Assumptions C42_SetNX_equiv.
Print Assumptions C42_SetXX_equiv.
Print Assumptions C42_Expire_equiv.
Print Assumptions C42_PExpire_equiv.
Print Assumptions C42_ExpireAt_equiv.
Print Assumptions C42_PExpireAt_equiv.
Print Assumptions C42_Copy_equiv.
Print Assumptions C42_Restore_equiv.
Print Assumptions C42_BitCount_equiv.
Print Assumptions C42_BitPos_equiv.
Print Assumptions C42_BitField_equiv.
Print Assumptions C42_MemoryUsage_equiv.
Print Assumptions C42_LPos_equiv.
Print Assumptions C42_LPosCount_equiv.
Print Assumptions C42_LInsertBA_equiv.
Print Assumptions C42_ZAdd_equiv.
Print Assumptions C42_ZAddArgs_equiv.
Print Assumptions C42_ZRangeBy_equiv.
Print Assumptions C42_ZStoreOp_equiv.
Print Assumptions C42_ZStoreTo_equiv.
Print Assumptions C42_ZDiff_equiv.
Print Assumptions C42_ZDiffStore_equiv.
Print Assumptions C42_XAdd_equiv.
Print Assumptions C42_XReadStreams_equiv.
Print Assumptions C42_XPendingExt_equiv.
Print Assumptions C42_XAutoClaim_equiv.
Print Assumptions C42_XTrim_equiv.
Print Assumptions C42_XInfoStreamFull_equiv.
Print Assumptions C42_GeoAdd_equiv.
Print Assumptions C42_GeoRadius_equiv.
Print Assumptions C42_GeoRadiusByMember_equiv.
Print Assumptions C42_GeoSearch_equiv.
Print Assumptions C42_GeoSearchLocation_equiv.
Print Assumptions C42_GeoSearchStore_equiv.
Print Assumptions C42_FunctionLoad_equiv.
Print Assumptions C42_ClientKillByFilter_equiv.
Print Assumptions C42_ZPop_equiv.
Print Assumptions C42_ZRangePlain_equiv.
Print Assumptions C42_BPop_equiv.
Print Assumptions C42_BRPopLPush_equiv.
Print Assumptions C42_LMove_equiv.
Print Assumptions C42_BLMove_equiv.
Print Assumptions C42_XRangeCmd_equiv.
Print Assumptions C42_XGroupCreate_equiv.
Print Assumptions C42_XAck_equiv.
Print Assumptions C42_XDel_equiv.
Print Assumptions C42_Eval_equiv.
Print Assumptions C42_PopCount_equiv.
Print Assumptions C42_ZRandMember_equiv.
Print Assumptions C42_InterCard_equiv.
Print Assumptions C42_SlowLogGet_equiv.
Print Assumptions C42_FunctionList_equiv.
Print Assumptions C42_SetArgs_equiv_partial.
Print Assumptions C42_SetArgs_characterised.
Print Assumptions C42_SetArgs_refuted.
Print Assumptions C42_Sort_equiv_partial.
Print Assumptions C42_Sort_characterised.
Print Assumptions C42_Sort_refuted.
Print Assumptions C42_LInsert_equiv_partial.
Print Assumptions C42_LInsert_characterised.
Print Assumptions C42_LInsert_refuted.
Print Assumptions C42_Migrate_characterised.
Print Assumptions C42_Migrate_equiv_partial.
Print Assumptions C42_Migrate_refuted.
Print Assumptions C42_ZRangeArgs_characterised.
Print Assumptions C42_ZRangeArgs_equiv_partial.
Print Assumptions C42_ZRangeStore_characterised.
Print Assumptions C42_ZRangeStore_equiv_partial.
Print Assumptions C42_ZRangeArgs_refuted.
Print Assumptions C42_GetEx_characterised.
Print Assumptions C42_GetEx_equiv_partial.
Print Assumptions C42_GetEx_refuted.
Print Assumptions C42_XRead_characterised.
Print Assumptions C42_XRead_equiv_partial.
Print Assumptions C42_XReadGroup_characterised.
Print Assumptions C42_XReadGroup_equiv_partial.
Print Assumptions C42_XClaim_characterised.
Print Assumptions C42_XClaim_equiv_partial.
Print Assumptions C42_XRead_refuted.
Print Assumptions C42_ClientPause_characterised.
Print Assumptions C42_ClientPause_equiv_partial.
Print Assumptions C42_ClientPause_refuted.
Print Assumptions C42_GeoDist_equiv_partial.
Print Assumptions C42_GeoDist_characterised.
Print Assumptions C42_GeoDist_refuted.
Print Assumptions C42_BitPosSpan_equiv_partial.
Print Assumptions C42_LMPop_equiv_partial.
Print Assumptions C42_BLMPop_equiv_partial.
Print Assumptions C42_ZMPop_equiv_partial.
Print Assumptions C42_BZMPop_equiv_partial.
Print Assumptions C42_Scan_equiv_partial.
Print Assumptions C42_ScanType_equiv_partial.
Print Assumptions C42_KScan_equiv_partial.
Print Assumptions C42_ACLLog_equiv_partial.
Print Assumptions C42_all_methods.

(** non-vacuity: with floats printed by the harness (F := bytes * bool), a ZADD with GT CH and two members
    (unbounded list instance) and a transaction-free SETNX with a sub-second TTL: both sides send a command and
    the normal forms are the concrete upper-case commands. *)
Example C42_nonvacuous_zadd :
  wire (CompatArgs.adapter (bytes * bool) fst snd
          (MZAddArgs true (bs "z") (mkZAdd false true false true true) [((bs "1.5", true), bs "a"); ((bs "-2", false), bs "b")])) =
  Some [K (bs "ZADD"); D (bs "z"); K (bs "XX"); K (bs "GT"); K (bs "CH"); K (bs "INCR"); D (bs "1.5"); D (bs "a"); D (bs "-2"); D (bs "b")]
  /\ in_domain (bytes * bool) (MZAddArgs true (bs "z") (mkZAdd false true false true true) [((bs "1.5", true), bs "a")]).
Proof. split; [vm_compute; reflexivity|exact I]. Qed.

Example C42_nonvacuous_setnx :
  wire (CompatArgs.adapter (bytes * bool) fst snd (MSetNX (bs "k") (AInt 7) 1500000000)) =
  Some [K (bs "SET"); D (bs "k"); D (bs "7"); K (bs "NX"); K (bs "PX"); D (bs "1500")]
  /\ wire (GoRedisSpec.goredis (bytes * bool) fst snd (MSetNX (bs "k") (AInt 7) 1500000000)) =
     Some [K (bs "SET"); D (bs "k"); D (bs "7"); K (bs "NX"); K (bs "PX"); D (bs "1500")].
Proof. split; vm_compute; reflexivity. Qed.
