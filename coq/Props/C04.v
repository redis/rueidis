(** C04 — Broken connections and Close never leave calls hanging.

    Object: the LTS [PipeLts.pstep] (see Props/C01.v for the reading guide); the events of interest are
    [LFail] (the peer / network closes the connection), [LExtExit] (an _exit from the keep-alive
    watchdog), [LSyncFail], [LRFail] / [LWExit] (the reader / writer observe the failure), the Close
    labels, the tail of _background ([LPostSkip]/[LPostPing]: the sacrificial PING; [LCleanNW],
    [LCleanNR], [LCleanSpin], [LCleanExit]: the clean-up loop; [LFinal]: state 4).
    Quantifier: every schedule, any number of callers and Close calls, any failure point.

    Termination under a real scheduler is not a model notion (blocking is a disabled step): the theorems
    say that nothing is stuck and that nothing is left waiting once the loop is over; the wall-clock
    bound is measured by obs_fault.  Partial for scheduling/timing.
 *)
From Coq Require Import List NArith ZArith Bool.
Require Import RV.Model.Base RV.Model.PipeQueue RV.Model.Pipe RV.Model.PipeLts RV.Model.PipeWatch.
Require Import RV.Proofs.PipeLtsBasics RV.Proofs.PipeExclusive RV.Proofs.PipeRouting RV.Proofs.PipeLifecycle RV.Proofs.PipeNotStuck.
Require Import RV.Proofs.PipeWatchProofs.
Import ListNotations.
Open Scope N_scope.

Definition server_ok (g : config) : Prop := forall c, cmd_served_ok (g_r2ps g) (g_srv g) c = true.

(** Once the clean-up loop has terminated ([drained]: the loop saw waits = 0; state 4 follows), no call is
    waiting on this pipe any more: every caller record is idle, about to look at the state word,
    on the error path, or returned ([quiet_c]); no abandoning caller's drain goroutine is left
    ([k_drain] is DNone / DDone); no Close is waiting for its PING ([quiet_k]); the cache was closed
    (its waiters released with ErrDoCacheAborted), the state is closing/closed, an error is latched,
    and the counter equals the number of counts held (so it is exact, not leaked). *)
Theorem C04_drain : forall g sched s,
  prun g sched (p_init g) = Some s -> drained s ->
  (forall t, quiet_c (p_calls s t)) /\ (forall t, quiet_k (p_closers s t)) /\
  p_cache_closed s = true /\ st_closed s /\ p_conn s = false /\ p_err s <> None /\ p_waits s = hsum s.
Proof. intros g sched s H Hd. exact (drain g sched s H Hd). Qed.
Print Assumptions C04_drain.

(** … and every call that has returned holds, for each of its commands, the server's reply to that very
    command or an error — never a hole, never another call's reply (C01_routing, first half, repeated here
    for the failure case): *)
Theorem C04_results_are_replies_or_errors : forall g sched s t,
  server_ok g -> g_ver g <> 6%Z ->
  prun g sched (p_init g) = Some s ->
  exists k es, k_res (p_calls s t) =
               map RMsg (map (result_of (g_srv g)) (firstn k (k_cmds (p_calls s t)))) ++ map RErr es.
Proof. intros g sched s t Hs Hv H. exact (proj1 (routing g Hs Hv sched s t H)). Qed.
Print Assumptions C04_results_are_replies_or_errors.

(** While the clean-up loop runs and the counter is not zero, some thread other than the loop's idle
    spin (and other than the environment) can take a step: every counted waiter is either about to
    move by itself (including a caller blocked in PutOne on a full queue once a position is freed, and
    the sacrificial PING) or has its slot in the queue, where the loop — or the writer, as long as it
    has not exited — reaches it. *)
Theorem C04_not_stuck : forall g sched s,
  server_ok g -> g_ver g <> 6%Z -> (0 < g_cap g)%nat ->
  prun g sched (p_init g) = Some s -> p_b s = BClean -> (0 < p_waits s)%nat ->
  exists l s', progress_label l = true /\ pstep g s l = Some s'.
Proof.
  intros g sched s Hs Hv Hc H Hb Hw.
  destruct (invw_run g Hs Hv sched _ _ (inva_init g) (invb_init g) (invc_init g) (invw_init g) H) as (IA&IB&IC&IW).
  apply (not_stuck g Hc); auto. rewrite (cap_run g sched _ _ H). reflexivity.
Qed.
Print Assumptions C04_not_stuck.

(** After a Close has passed its compare-and-swap on the state word: the state is closing/closed, an
    error is latched, and a caller that loads the state goes to the error path (it neither queues nor
    touches the connection) … *)
Theorem C04_after_close : forall g sched s k,
  prun g sched (p_init g) = Some s -> closer_past_cas (p_closers s k) ->
  st_closed s /\ p_err s <> None /\
  forall t w s', k_pc (p_calls s t) = PLoad w -> pstep g s (LLoad t) = Some s' -> k_pc (p_calls s' t) = PErr.
Proof.
  intros g sched s k H Hk. destruct (invd_reach g sched s H) as (IA&IC&ID).
  pose proof (c_cas s IC k Hk) as Hcl. split; [exact Hcl|]. split; [apply (c_err s IC Hcl)|].
  intros t w s' Epc Hs. cbn [pstep] in Hs. rewrite Epc in Hs.
  destruct Hcl as [E|E]; rewrite E in Hs; cbn in Hs; inversion Hs; subst; cbn; now rewrite upd_same.
Qed.
Print Assumptions C04_after_close.

(** … where it returns the latched error for every command; the latched error is ErrClosing when Close
    came first, and it never changes afterwards. *)
Theorem C04_error_path_returns_latched : forall g s t s1 s2,
  k_pc (p_calls s t) = PErr -> pstep g s (LErr t) = Some s1 -> pstep g s1 (LDecr t) = Some s2 ->
  k_ret (p_calls s2 t) = Some (errs_for (p_calls s t) (the_err s)).
Proof.
  intros g s t s1 s2 Epc H1 H2. cbn [pstep] in H1. rewrite Epc in H1. inversion H1; subst; clear H1.
  cbn [pstep] in H2. cbn in H2. rewrite upd_same in H2. cbn in H2. inversion H2; subst; clear H2.
  cbn. rewrite upd_same. cbn. reflexivity.
Qed.
Print Assumptions C04_error_path_returns_latched.

Theorem C04_close_latches_errclosing : forall g s t s',
  p_err s = None -> pstep g s (LClose1 t) = Some s' -> p_err s' = Some EClosing.
Proof.
  intros g s t s' He H. cbn [pstep] in H. destruct (fresh s t); [|discriminate]. inversion H; subst. cbn. now rewrite He.
Qed.
Print Assumptions C04_close_latches_errclosing.

Theorem C04_latched_error_is_stable : forall g s l s' e,
  pstep g s l = Some s' -> p_err s = Some e -> p_err s' = Some e.
Proof.
  intros g s l s' e H He. destruct (pstep_inv g s l s' H); subst; rewrite ?do_background_eq; cbn; rewrite ?He; try reflexivity.
  - (* LRStep *)
    destruct (fold_apply_frame (r_owner r') (r_resps r') acts (set_wire s (p_c2s s) rest)) as (q'&cs&dl&->&_). exact He.
  - (* LRFail *) destruct complete; cbn; now rewrite He.
Qed.
Print Assumptions C04_latched_error_is_stable.

(** non-vacuity: two queued calls, the connection fails after the first reply; the reader fails, the
    writer is woken by the sacrificial PING and exits, the loop drains the second call and the PING,
    reaches waits = 0 and state 4; a later call gets the latched error. *)
Definition echo_srv : server := mkSrv (fun c => Msg 36 [c_id c] 0 []) (fun c => []) (fun c => pong_msg).
Definition plain (id : N) : cmd := mkCmd id 2 false false false false false false.
Definition cfg : config := mkCfg Ring 4 false 7 echo_srv.
Definition fail_sched : list label :=
  [LCall 1 [plain 10] false CtxCancel; LIncr 1; LLoad 1; LBg 1; LPut 1;
   LCall 2 [plain 20; plain 21] true CtxBg; LIncr 2; LLoad 2; LPut 2;
   LWNext; LWNext; LWFlush; LSrv; LRStep; LRecv 1; LFin 1;
   LFail; LRFail; LPostPing 9; LPut 9; LWNext; LWExit;
   LCleanNR; LCleanNR; LRecv 2; LFin 2; LRecv 9; LFin 9; LCleanExit; LFinal;
   LCall 3 [plain 30] false CtxBg; LIncr 3; LLoad 3; LErr 3; LDecr 3].

Example C04_nonvacuous :
  option_map (fun s => (p_st s, p_waits s, p_b s, k_ret (p_calls s 1), k_ret (p_calls s 2), k_ret (p_calls s 3)))
             (prun cfg fail_sched (p_init cfg)) =
  Some (4, 0%nat, BDone, Some [RMsg (Msg 36 [10] 0 [])], Some [RErr EConn; RErr EConn], Some [RErr EConn]).
Proof. vm_compute. reflexivity. Qed.

(** the not-stuck hypothesis is met right after the reader failed *)
Example C04_nonvacuous_not_stuck :
  option_map (fun s => (p_b s, p_waits s))
             (prun cfg (firstn 19 fail_sched) (p_init cfg)) = Some (BClean, 2%nat).
Proof. vm_compute. reflexivity. Qed.

(** ** The keep-alive watchdog and the blocking-command signal (Model/PipeWatch.v)

    A connection that goes silent without being closed is failed by backgroundPing only: the pending calls without a
    deadline, Receive and the error channel of SetPubSubHooks depend on it.  The watchdog stands back while
    p.blcksig <> 0.  [wrun] is the pipe LTS extended with that counter as Do / DoMulti maintain it and with the
    watchdog's tick / time-out; every state it reaches is a state of the pipe LTS ([C04_watchdog_states_are_pipe_states]),
    so everything above applies to it. *)
Theorem C04_watchdog_states_are_pipe_states : forall g sched ws,
  wrun g sched (w_init g) = Some ws -> exists base, prun g base (p_init g) = Some (w_p ws).
Proof. intros g sched ws H. apply (wrun_base g sched (w_init g) ws []); [reflexivity|exact H]. Qed.
Print Assumptions C04_watchdog_states_are_pipe_states.

(** the counter is exactly the number of blocking calls that are in flight or were abandoned with a transport or
    context error (whose wire the caller aborts); a blocking call that ended with a reply - a value, a null reply,
    an error reply - no longer counts *)
Theorem C04_blcksig_exact : forall g sched ws,
  wrun g sched (w_init g) = Some ws -> w_blk ws = bsum (w_p ws).
Proof. intros g sched ws H. apply (k_blk ws). eapply invk_run; [apply invk_init|exact H]. Qed.
Print Assumptions C04_blcksig_exact.

Theorem C04_blcksig_zero : forall g sched ws,
  wrun g sched (w_init g) = Some ws -> ~ blocked_or_aborted (w_p ws) -> w_blk ws = 0%nat.
Proof.
  intros g sched ws H Hn. rewrite (C04_blcksig_exact g sched ws H). apply bsum_zero. intros t Ht.
  destruct (bholds_01 (p_calls (w_p ws) t)) as [K|K]; [exact K|]. exfalso. apply Hn. exists t. auto.
Qed.
Print Assumptions C04_blcksig_zero.

(** hence, on a pipe without error that is not in the middle of a synchronous call, with no blocking call in flight or
    abandoned, the watchdog's own steps are enabled and close the connection and latch the error without touching
    the queue or the calls: from there [C04_not_stuck] / [C04_drain] hand every pending call its error *)
Theorem C04_watchdog_fails_silent_connection : forall g sched ws,
  wrun g sched (w_init g) = Some ws -> ~ blocked_or_aborted (w_p ws) ->
  p_err (w_p ws) = None -> (p_st (w_p ws) = 0 -> p_waits (w_p ws) = 0%nat) ->
  exists path ws', (path = [WTick; WTimeout] \/ path = [WTimeout]) /\ wrun g path ws = Some ws' /\
                   p_err (w_p ws') = Some EWatchdog /\ p_conn (w_p ws') = false /\ p_st (w_p ws') <> 1 /\
                   p_calls (w_p ws') = p_calls (w_p ws) /\ p_q (w_p ws') = p_q (w_p ws) /\ p_waits (w_p ws') = p_waits (w_p ws).
Proof.
  intros g sched ws H Hn He Hst. pose proof (C04_blcksig_zero g sched ws H Hn) as Hb.
  destruct (w_wd ws) eqn:Ew.
  - destruct (wtimeout_fails g ws _ eq_refl Hb Ew He) as (ws'&K&R). exists [WTimeout], ws'. split; [now right|]. split; [|exact R].
    cbn [wrun]. now rewrite K.
  - destruct (wtimeout_fails g (mkW (w_p ws) (w_blk ws) true) _ eq_refl Hb eq_refl He) as (ws'&K&R).
    exists [WTick; WTimeout], ws'. split; [now left|]. split; [|exact R].
    assert (T : wstep g ws WTick = Some (mkW (w_p ws) (w_blk ws) true)).
    { cbn [wstep]. rewrite Ew, Hb, He. destruct (N.eqb (p_st (w_p ws)) 0) eqn:E0; [|reflexivity].
      apply N.eqb_eq in E0. rewrite (Hst E0). reflexivity. }
    cbn [wrun]. rewrite T, K. reflexivity.
Qed.
Print Assumptions C04_watchdog_fails_silent_connection.

(** non-vacuity: a blocking command answered by a null reply (call 1), then a pipelined call without deadline
    (call 2) on a server that has gone silent: blcksig is back at 0, the watchdog ticks, times out, the reader fails,
    the drain hands call 2 the watchdog's error.  With a blocking command abandoned on a context error instead
    (call 3, last example) the counter stays at 1 and the watchdog's tick is disabled - by design: such a wire is aborted. *)
Definition blpop (id : N) : cmd := mkCmd id 3 false false false false false true.
Definition nil_srv : server := mkSrv (fun c => if N.eqb (c_id c) 10 then Msg 95 [] 0 [] else Msg 36 [c_id c] 0 []) (fun c => []) (fun c => pong_msg).
Definition wcfg : config := mkCfg Ring 4 false 7 nil_srv.
Definition stall_sched : list wlabel :=
  map WL [LCall 1 [blpop 10] false CtxBg; LIncr 1; LLoad 1; LSyncW 1; LSrv; LSyncR 1; LDecr 1;
          LCall 2 [plain 20] false CtxCancel; LIncr 2; LLoad 2; LBg 2; LPut 2; LWNext; LWFlush] ++
  [WTick; WTimeout] ++
  map WL [LRFail; LPostPing 9; LPut 9; LWNext; LWExit; LCleanNR; LRecv 2; LFin 2].

Example C04_nonvacuous_watchdog :
  option_map (fun ws => (w_blk ws, k_ret (p_calls (w_p ws) 1), k_ret (p_calls (w_p ws) 2), p_err (w_p ws)))
             (wrun wcfg stall_sched (w_init wcfg)) =
  Some (0%nat, Some [RMsg (Msg 95 [] 0 [])], Some [RErr EWatchdog], Some EWatchdog).
Proof. vm_compute. reflexivity. Qed.

Example C04_nonvacuous_blcksig_up :
  option_map (fun ws => (w_blk ws, wstep wcfg ws WTick))
             (wrun wcfg (map WL [LCall 1 [blpop 10] false CtxBg; LIncr 1; LLoad 1; LSyncW 1]) (w_init wcfg)) =
  Some (1%nat, None).
Proof. vm_compute. reflexivity. Qed.

Example C04_nonvacuous_abandoned :
  option_map (fun ws => (w_blk ws, k_ret (p_calls (w_p ws) 3)))
             (wrun wcfg (map WL [LCall 9 [plain 90] false CtxCancel; LIncr 9; LLoad 9; LBg 9; LPut 9;
                                 LCall 3 [blpop 30] false CtxDeadline; LIncr 3; LLoad 3; LPut 3; LCtxDone 3; LAbort 3]) (w_init wcfg)) =
  Some (1%nat, Some [RErr ECtx]).
Proof. vm_compute. reflexivity. Qed.
