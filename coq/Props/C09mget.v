(** C09, caller side of DoCache on MGET / JSON.MGET (pipe.go doCacheMGet, model RV.Model.CacheBatch):
    "a failed or aborted request wakes all its waiters with the error and is not cached".

    [own_flights] are the flights this call started: the keys of the MGET that the store answered with a
    miss (first occurrence).  When the rewritten request fails (the server rejects one of the commands of the
    transaction, so that EXEC answers EXECABORT), exactly those flights are cancelled, with the error the call
    itself returns - never the flight of a key that was a hit or that another caller is fetching, and none
    of its own is left behind.  The store-level consequences of Cancel (waiters woken with the error,
    nothing cached, the next Flight misses) are Props/C09.v. *)
From Coq Require Import String Ascii.
From Coq Require Import List Arith NArith ZArith Bool.
Require Import RV.Model.Base RV.Model.CacheBatch.
Require Import RV.Proofs.CacheBatchMulti RV.Proofs.CacheBatchMGet RV.Proofs.CacheBatchMGetFail.
Import ListNotations.

Theorem C09_mget_abort_cancels_own_flights :
  forall (lookup : key -> bytes -> lk) (srv : argv -> msg) (qerr : argv -> option msg) (optin : bool)
         (cmd0 : bytes) (ks : list key) (pathopt : list bytes),
    let commands := cmd0 :: ks ++ pathopt in
    (is_json commands = true /\ (exists p, pathopt = [p])) \/ (is_json commands = false /\ pathopt = []) ->
    bytes_eqb cmd0 (bs "MULTI") = false /\ bytes_eqb cmd0 (bs "EXEC") = false ->
    mget_fail_cancels lookup srv qerr optin commands
    = match own_flights lookup cmd0 ks pathopt with
      | [] => None
      | _ => match request_failure lookup srv qerr cmd0 ks pathopt with
             | Some e => Some (own_flights lookup cmd0 ks pathopt, e)
             | None => None
             end
      end.
Proof. exact mget_fail_cancels_spec. Qed.
Print Assumptions C09_mget_abort_cancels_own_flights.

(** [request_failure]: the transaction was aborted (a command rejected at queue time: EXECABORT, reported as the
    rejected command's error or ErrDoCacheAborted), or it went through and the rewritten command's own reply is
    an error *)
Theorem C09_mget_request_failure :
  forall lookup srv qerr cmd0 ks pathopt,
    request_failure lookup srv qerr cmd0 ks pathopt
    = if tx_rejected lookup qerr cmd0 ks pathopt then Some (fail_err lookup qerr cmd0 ks pathopt)
      else msg_error (srv (frewritten lookup cmd0 ks pathopt)).
Proof. reflexivity. Qed.
Print Assumptions C09_mget_request_failure.

(** the call returns the very error its flights were cancelled with *)
Theorem C09_mget_abort_returns_error :
  forall lookup srv qerr optin cmd0 ks pathopt,
    let commands := cmd0 :: ks ++ pathopt in
    (is_json commands = true /\ (exists p, pathopt = [p])) \/ (is_json commands = false /\ pathopt = []) ->
    bytes_eqb cmd0 (bs "MULTI") = false /\ bytes_eqb cmd0 (bs "EXEC") = false ->
    own_flights lookup cmd0 ks pathopt <> [] -> tx_rejected lookup qerr cmd0 ks pathopt = true ->
    do_cache_mget lookup srv qerr optin commands = Ok (new_error (fail_err lookup qerr cmd0 ks pathopt)).
Proof.
  intros lookup srv qerr optin cmd0 ks pathopt commands H1 H2 Hne Hrej.
  refine (eq_trans (mget_failed_result lookup srv qerr optin cmd0 ks pathopt H1 H2 _ Hne _) _);
    unfold request_failure; rewrite Hrej; reflexivity.
Qed.
Print Assumptions C09_mget_abort_returns_error.

(** an error reply to the rewritten command inside a successful EXEC is handed back (and, by the first theorem,
    its flights are cancelled with it) *)
Theorem C09_mget_exec_error_returns_reply :
  forall lookup srv qerr optin cmd0 ks pathopt e,
    let commands := cmd0 :: ks ++ pathopt in
    (is_json commands = true /\ (exists p, pathopt = [p])) \/ (is_json commands = false /\ pathopt = []) ->
    bytes_eqb cmd0 (bs "MULTI") = false /\ bytes_eqb cmd0 (bs "EXEC") = false ->
    own_flights lookup cmd0 ks pathopt <> [] -> tx_rejected lookup qerr cmd0 ks pathopt = false ->
    msg_error (srv (frewritten lookup cmd0 ks pathopt)) = Some e ->
    do_cache_mget lookup srv qerr optin commands = Ok (new_result (srv (frewritten lookup cmd0 ks pathopt))).
Proof.
  intros lookup srv qerr optin cmd0 ks pathopt e commands H1 H2 Hne Hrej Herr.
  refine (eq_trans (mget_failed_result lookup srv qerr optin cmd0 ks pathopt H1 H2 e Hne _) _);
    unfold request_failure; rewrite Hrej; [exact Herr|reflexivity].
Qed.
Print Assumptions C09_mget_exec_error_returns_reply.

(** the cancelled keys are exactly the keys of this MGET that the store reported as misses *)
Theorem C09_mget_own_flights_are_the_misses :
  forall lookup cmd0 ks pathopt k,
    In k (own_flights lookup cmd0 ks pathopt) <-> (In k ks /\ lookup k (fcc cmd0 ks pathopt) = LMiss).
Proof.
  intros. split; [apply own_flights_are_misses|intros [H1 H2]; now apply misses_are_own_flights].
Qed.
Print Assumptions C09_mget_own_flights_are_the_misses.

(** non-vacuity: MGET h a b with h cached, w in another caller's flight: the server rejects the rewritten
    MGET a b; the flights of a and b - and only those - are cancelled, with the server's error *)
Definition nvm_lookup (k c : bytes) : lk :=
  if bytes_eqb k (bs "h") then LHit (Msg tStr (bs "hit") 0%Z []) else
  if bytes_eqb k (bs "w") then LWait (new_result (Msg tStr (bs "waited") 0%Z [])) else LMiss.
Definition nvm_qerr (a : argv) : option msg :=
  if is_cmd "MGET" a then Some (errmsg "ERR injected") else None.

Example C09_mget_nonvacuous :
  mget_fail_cancels nvm_lookup (fun _ => ok_msg) nvm_qerr true [bs "MGET"; bs "h"; bs "a"; bs "w"; bs "b"; bs "a"]
  = Some ([bs "a"; bs "b"], ERedis (bs "injected")).
Proof. vm_compute. reflexivity. Qed.
