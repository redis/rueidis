(** C35 — Bloom filters never report a false negative.

    For every [size > 0] and [k >= 1] (the side condition "every configuration NewBloomFilter accepts
    yields such values" concerns float code that is not modelled; the observer checks it on a grid of
    (n, rate) on every run), every hash function, every starting state of the server keys and every history:
    an item added by Add/AddMulti is reported present by Exists/ExistsMulti as long as no Reset/Delete
    follows the add; ExistsMulti answers per input key, in order; Count never decreases except through
    Reset/Delete.  The scripts the model transcribes are compared byte for byte with the repository's. *)
From Coq Require Import List NArith Bool.
Require Import RV.Model.Base RV.Model.Bloom RV.Proofs.BloomProofs RV.Model.ScriptTexts RV.Gen.Scripts.
Import ListNotations.
Open Scope N_scope.

(** ExistsMulti (hence Exists) = per key, in order, "all k bits of the key are set" — never a panic. *)
Theorem C35_exists_positional : forall (K : Type) (hash : K -> N * N) (size k : N),
  1 <= k -> 0 < size -> forall (f : filter) (qs : list K),
  step K hash size k f (OExists qs) = (f, VBools (Ok (map (member K hash size k f) qs))).
Proof.
  intros K hash size k Hk Hs f qs. destruct qs as [|q qs']; [reflexivity|].
  cbn [step]. rewrite (indexes_ok K hash size k Hk Hs). unfold exists_script.
  rewrite (exists_loop_keys K hash size k Hk Hs), fill_results_map. reflexivity.
Qed.
Print Assumptions C35_exists_positional.

(** No false negative: whatever happened before ([f0], [pre]), after [OAdd keys] with [x] among the
    keys and any later operations other than Reset/Delete, every query list [qs] is answered with
    [true] at every position that holds [x] (and with one answer per position). *)
Theorem C35_no_false_negative : forall (K : Type) (hash : K -> N * N) (size k : N),
  1 <= k -> 0 < size ->
  forall (f0 : filter) (pre : list (op K)) (keys : list K) (post : list (op K)) (x : K) (qs : list K),
  In x keys -> forallb (fun o => negb (destructive K o)) post = true ->
  exists bs, snd (step K hash size k (final K hash size k f0 (pre ++ OAdd keys :: post)) (OExists qs)) = VBools (Ok bs)
    /\ length bs = length qs
    /\ forall i, nth_error qs i = Some x -> nth_error bs i = Some true.
Proof.
  intros K hash size k Hk Hs f0 pre keys post x qs Hin Hnd.
  set (f := final K hash size k f0 (pre ++ OAdd keys :: post)).
  exists (map (member K hash size k f) qs). rewrite (C35_exists_positional K hash size k Hk Hs). cbn [snd].
  split; [reflexivity|]. split; [apply map_length|].
  intros i Hi. rewrite nth_error_map, Hi. cbn [option_map]. f_equal.
  apply (no_false_negative K hash size k Hk Hs). exact Hin. exact Hnd.
Qed.
Print Assumptions C35_no_false_negative.

(** Count (the value of the counter key; 0 when missing) never decreases without Reset/Delete. *)
Theorem C35_count_monotone : forall (K : Type) (hash : K -> N * N) (size k : N),
  1 <= k -> 0 < size -> forall (ops : list (op K)) (f : filter),
  forallb (fun o => negb (destructive K o)) ops = true ->
  count f <= count (final K hash size k f ops).
Proof.
  intros K hash size k Hk Hs. induction ops as [|o r IH]; intros f Hnd; [apply N.le_refl|].
  cbn [forallb] in Hnd. apply andb_prop in Hnd. destruct Hnd as [Ho Hr].
  rewrite final_cons. eapply N.le_trans; [|apply IH; exact Hr].
  apply count_monotone_step; [exact Hk|exact Hs|apply negb_true_iff, Ho].
Qed.
Print Assumptions C35_count_monotone.

(** Every index the client sends is a valid bit offset of a [size]-bit map. *)
Theorem C35_index_in_range : forall (size : N), 0 < size -> forall h1 h2 i, index size h1 h2 i < size.
Proof. intros size Hs. exact (index_lt_size size 1 (N.le_refl 1) Hs). Qed.
Print Assumptions C35_index_in_range.

(** No operation of the model panics when the configuration is sane. *)
Theorem C35_no_panic : forall (K : Type) (hash : K -> N * N) (size k : N),
  1 <= k -> 0 < size -> forall f o, snd (step K hash size k f o) <> VPanic.
Proof.
  intros K hash size k Hk Hs f o.
  destruct o as [[|y ys]|[|y ys]| | |]; cbn [step]; rewrite ?(indexes_ok K hash size k Hk Hs); discriminate.
Qed.
Print Assumptions C35_no_panic.

(** What k = 0 means (the sizing code returned it for some accepted configurations before the fix, DESIGN D9):
    nothing is ever found. *)
Theorem C35_k0_characterised : forall (K : Type) (hash : K -> N * N) (size : N) (f : filter) (q : K) (qs : list K),
  0 < size -> snd (step K hash size 0 f (OExists (q :: qs))) = VBools (Ok (false :: map (fun _ => false) qs)).
Proof.
  intros K hash size f q qs Hs. cbn [step]. unfold indexes.
  assert (size =? 0 = false) as -> by (apply N.eqb_neq; intro E; rewrite E in Hs; discriminate).
  cbn [andb negb N.eqb snd].
  assert (forall l, flat_map (indexes_of K hash size 0) l = []) as ->.
  { induction l as [|y l IH]; [reflexivity|]. cbn [flat_map]. rewrite IH.
    unfold indexes_of. destruct (hash y). reflexivity. }
  unfold exists_script. cbn [exists_loop fill_results length repeat_n]. f_equal. f_equal. f_equal.
  induction qs as [|y l IH]; [reflexivity|]. cbn [length repeat_n map]. f_equal. exact IH.
Qed.
Print Assumptions C35_k0_characterised.

(** The script texts of the repository are the ones the model was written against. *)
Theorem C35_scripts_pinned :
  rueidisprob_bloomFilterAddMultiScript = pin_rueidisprob_bloomFilterAddMultiScript /\
  rueidisprob_bloomFilterExistsMultiScript = pin_rueidisprob_bloomFilterExistsMultiScript /\
  rueidisprob_bloomFilterExistsMultiReadOnlyScript = pin_rueidisprob_bloomFilterExistsMultiReadOnlyScript /\
  rueidisprob_bloomFilterResetScript = pin_rueidisprob_bloomFilterResetScript /\
  rueidisprob_bloomFilterDeleteScript = pin_rueidisprob_bloomFilterDeleteScript.
Proof. repeat split; vm_compute; reflexivity. Qed.
Print Assumptions C35_scripts_pinned.

(** non-vacuity: a 1021-bit filter with k = 3, wrap-around in the index computation, a colliding key *)
Example C35_nonvacuous :
  let hash := fun x : N => (x * 0xfffffffffffffff1 mod 2 ^ 64, x * 7 + 0x8000000000000001) in
  let f := final N hash 1021 3 empty_filter [OAdd [1; 2]; OExists [9]; OCount; OAdd [5]] in
  snd (step N hash 1021 3 f (OExists [2; 77; 1; 5])) = VBools (Ok [true; false; true; true])
  /\ count f = 3.
Proof. vm_compute. split; reflexivity. Qed.
