(** C20 — Cluster batches keep order and transaction integrity.

    Objects: [pick_multi], [doresultfn] ([dstep]), [asking_wire], [rounds] of Model/ClusterBatch.v
    (cluster.go _pickMulti, doresultfn, askingMulti, DoMulti).  The servers are an arbitrary function
    from (command, node, how often that node saw the command) to a reply; the order in which the
    goroutines of one round append to the retry map is an arbitrary permutation ([bc_perm]). *)
From Coq Require Import List Arith NArith ZArith Bool Lia Permutation.
Require Import RV.Model.Base RV.Model.ClusterTopo RV.Model.Retry RV.Model.ClusterDo RV.Model.ClusterBatch.
Require Import RV.Proofs.ClusterBatchProofs RV.Proofs.ClusterTxProofs.
Import ListNotations.
Open Scope Z_scope.

(** The grouping of [_pickMulti] files every pair under its batch index and covers every index:
    scatter through the indices cannot misplace a reply. *)
Theorem C20_order_pairs : forall (multi : list bcmd) t str nsel fc m init,
  pick_multi t str nsel fc multi = PickOk m init ->
  rmap_ok multi m /\ forall j, (j < length multi)%nat -> covered m j.
Proof. intros multi t str nsel fc m init. exact (pick_multi_spec multi t str nsel fc m init). Qed.
Print Assumptions C20_order_pairs.

(** Results are positional: whatever the split across nodes, the redirects, ASKs and retries, and
    however many rounds it takes, position i of the result holds a reply that a node gave to the
    command at position i of the batch (the last one assigned).  No bound on the number of rounds:
    the statement holds for every amount of fuel >= 1, in particular when the loop was cut short. *)
Theorem C20_order : forall (multi : list bcmd) (srv : servers) (c : bcfg) t str nsel fc m init fuel asg sends out,
  (forall k l, Permutation (bc_perm c k l) l) ->
  pick_multi t str nsel fc multi = PickOk m init ->
  cluster_domulti (S fuel) c srv init m = (asg, sends, out) ->
  forall i cmd, nth_error multi i = Some cmd ->
    exists r a k, result_at asg i = Some r /\ r = srv cmd a k.
Proof.
  intros multi srv c t str nsel fc m init fuel asg sends out Hperm Hp H.
  destruct (pick_multi_spec multi _ _ _ _ _ _ Hp) as [Hok Hcov]. exact (rounds_positional multi srv c _ _ _ _ _ _ _ _ _ _ _ Hperm Hok Hcov H).
Qed.
Print Assumptions C20_order.

(** With a no-slot command (MULTI, EXEC …) in the batch the first round is one exchange with one
    node, in batch order. *)
Theorem C20_first_round_whole : forall multi t str nsel fc m,
  pick_multi t str nsel fc multi = PickOk m true ->
  exists d, m = [(d, mkRg (idpairs_from 0 multi) [])] \/ (multi = [] /\ m = []).
Proof. exact pick_multi_init. Qed.
Print Assumptions C20_first_round_whole.

(** Transaction integrity.  For a batch whose MULTI / EXEC commands are properly bracketed ([W1],
    [W2]: every MULTI is closed by an EXEC with only plain commands in between, and vice versa) and
    carry no key, and servers that never answer MULTI with MOVED / ASK (it has no key to redirect):
    every list of commands written to a node in any round — first send, redirect, ASK, retry; in any
    interleaving of the goroutines — is again properly bracketed ([tx_w1], [tx_w2]), every
    MULTI…EXEC stretch on the wire carries consecutive indices of the batch ([tx_idt]: it is a block
    of the batch, whole and in order), and a command from inside a block of the batch never travels
    outside such a stretch ([tx_mem]); all pairs stay in step with the batch ([tx_pairs]). *)
Theorem C20_tx_contiguous : forall (multi : list bcmd) (srv : servers) (c : bcfg) t str nsel fc m init fuel asg sends out,
  (forall k l, Permutation (bc_perm c k l) l) ->
  W1 multi -> W2 multi ->
  (forall cm, In cm multi -> marker cm = true -> b_slot cm = None) ->
  (forall cm a k, is_multi cm = true ->
     b_retryable cm = false /\ (forall x, srv cm a k <> RMoved x) /\ (forall x, srv cm a k <> RAsk x)) ->
  pick_multi t str nsel fc multi = PickOk m init ->
  cluster_domulti fuel c srv init m = (asg, sends, out) ->
  forall k w, In (k, w) sends -> txinv multi (strip (w_wire w)).
Proof.
  intros multi srv c t str nsel fc m init fuel asg sends out Hperm A B Hslot Hmulti Hp H k w Hin.
  destruct (pick_multi_txinv multi t str nsel fc m init A B Hslot Hp) as [Hno Hm].
  pose proof (rounds_tx multi srv init Hno Hmulti c Hperm _ _ _ _ _ _ _ _ _ _ _ Hm (Forall_nil _) H) as Hall.
  rewrite Forall_forall in Hall. exact (Hall (k, w) Hin).
Qed.
Print Assumptions C20_tx_contiguous.

(** ASKING goes once before a plain command and once before a whole block, never inside it. *)
Theorem C20_asking_once : forall m body e r,
  is_multi (snd m) = true -> Forall (fun p => marker (snd p) = false) body -> is_exec (snd e) = true ->
  asking_wire (m :: body ++ e :: r) false = None :: Some m :: map Some body ++ Some e :: asking_wire r false.
Proof. intros m body e r M F E. cbn [asking_wire]. rewrite M. now rewrite asking_wire_body. Qed.
Print Assumptions C20_asking_once.

Theorem C20_asking_plain : forall p r,
  marker (snd p) = false -> asking_wire (p :: r) false = None :: Some p :: asking_wire r false.
Proof. intros p r M. cbn [asking_wire]. unfold marker in M. apply orb_false_iff in M. destruct M as [-> _]. reflexivity. Qed.
Print Assumptions C20_asking_plain.

(** non-vacuity: the scenario of the repaired defect *)
Definition ex_a (n : Z) : addr := ([49%N], n).
Definition ex_batch : list bcmd :=
  [ mkCmd (Some 7) KPlain false false 1; mkCmd None KMulti false false 2; mkCmd (Some 7) KPlain false false 3;
    mkCmd None KExec false false 4; mkCmd (Some 7) KPlain true false 5 ].
(** node 1 queues the commands and answers EXEC with MOVED to node 2; node 2 executes *)
Definition ex_srv : servers := fun c a k =>
  if (snd a =? 1) then
    match b_kind c with
    | KMulti => RVal 1
    | KExec => RMoved (ex_a 2)
    | KPlain => if (b_id c =? 3)%N then RVal 2 else RVal 7
    end
  else RVal 1.
Definition ex_cfg : bcfg := mkBcfg (mkPolicy true (fun _ _ => 0) false) 0 (fun _ => mkRflags false false) (fun _ l => l).
Definition ex_table : table := mkTable (fun _ => Some (ex_a 1)) (fun _ => []) false false.

Example C20_nonvacuous :
  match pick_multi ex_table false (fun _ => 0) None ex_batch with
  | PickOk m init =>
    let '(asg, sends, out) := cluster_domulti 8 ex_cfg ex_srv init m in
    map (fun kw => (fst kw, snd (w_to (snd kw)), map (fun p => b_id (snd p)) (strip (w_wire (snd kw))))) sends
      = [(0%nat, 1, [1; 2; 3; 4; 5]%N); (1%nat, 2, [2; 3; 4]%N)]
    /\ map (result_at asg) (seq 0 5) = [Some (RVal 7); Some (RVal 1); Some (RVal 1); Some (RVal 1); Some (RVal 7)]
    /\ out = BDone
  | _ => False
  end.
Proof. vm_compute. repeat split; reflexivity. Qed.

Example C20_nonvacuous_hyps : mu ex_batch 1 = true /\ ex ex_batch 3 = true /\ nomark ex_batch 1 3.
Proof. split; [reflexivity|]. split; [reflexivity|]. intros j Hj. assert (j = 2)%nat as -> by lia. reflexivity. Qed.
