(** C16 — Typed accessors return exactly what the reply encodes.

    Spec side: data-level encoders of the reply shapes the server uses ([blob], [int], [arr], [mapm], [flat],
    [enc_zscore], [enc_entry], [enc_search3], [enc_doc2], [enc_agg2/3], [enc_loc] … in Proofs/AccFaithful.v).
    Each theorem: accessor (encoding of data) = Ok data, for ALL data (unbounded lists, any strings).

    Float and base-0 integer parsing are library functions: the theorems hold for EVERY environment [e] and
    every float formatting [fmt] such that the library parser reads the server's formatting back
    ([fmt_parse], [fmt_nonempty] — Section hypotheses, discharged by nothing here and listed in
    the SPEC as assumptions; the correspondence run exercises them with Go's FormatFloat / ParseFloat).
    Integers in strings are concrete: every integer-reading accessor reads base ten ([parse_int10], the
    model of strconv.ParseInt(s, 10, 64)); the round trip with the canonical printing, the value of EVERY
    decimal spelling (sign, leading zeros) and the rejection of everything else are proved outright.
    (AsIntMap used base 0 before its repair: [C16_int_map_before_fix_refuted].) *)
From Coq Require Import String List NArith ZArith Bool.
Require Import RV.Model.Base RV.Model.AccBase RV.Model.Accessors RV.Proofs.DecimalProofs RV.Proofs.AccFaithful.
Import ListNotations.
Open Scope N_scope.

Theorem C16_decimal_roundtrip : forall z n,
  ((int64_min <= z <= int64_max)%Z -> parse_int10 (print_Z z) = Some z) /\
  (n <= uint64_max -> parse_uint10 (print_N n) = Some n).
Proof. intros z n. split; [apply parse_print_int|apply parse_print_uint]. Qed.

Theorem C16_int_faithful : forall z,
  to_int64 (int z) = ROk z /\ as_int64 (int z) = ROk z /\ as_bool (int z) = ROk (negb (z =? 0)%Z) /\
  as_uint64 (int z) = ROk (Z.to_N (z mod two64)).
Proof. intro z. repeat split; reflexivity. Qed.

Theorem C16_int_string_faithful : forall z n t, (t = tBlobString \/ t = tSimpleString) ->
  ((int64_min <= z <= int64_max)%Z -> as_int64 (MStr t (print_Z z) None) = ROk z) /\
  (n <= uint64_max -> as_uint64 (MStr t (print_N n) None) = ROk n).
Proof. intros z n t Ht. split; intro H; [now apply int_string_faithful|now apply uint_string_faithful]. Qed.

Theorem C16_string_faithful : forall s t, (t = tBlobString \/ t = tSimpleString) ->
  to_string (MStr t s None) = ROk s /\ as_bytes (MStr t s None) = ROk s /\ as_reader (MStr t s None) = ROk s /\
  as_bool (MStr t s None) = ROk (bytes_eqb s (b "OK")).
Proof. intros s t [-> | ->]; repeat split; reflexivity. Qed.

Theorem C16_bool_faithful : forall x, to_bool (boolean x) = ROk x /\ as_bool (boolean x) = ROk x.
Proof. intros []; split; reflexivity. Qed.

(** every decimal spelling is read as its decimal value: optional sign, then digits — leading zeros are zeros
    (no octal), and out-of-range values are rejected *)
Theorem C16_decimal_spellings : forall sg ds, ds <> [] -> Forall (fun c => is_digit c = true) ds ->
  parse_int10 (sign_bytes sg ++ ds) = if in_int64 (signed sg (dec_value ds)) then Some (signed sg (dec_value ds)) else None.
Proof.
  intros sg ds Hne Hd. destruct ds as [|c r]; [contradiction|].
  rewrite parse_int10_sign, digits_val_all; [reflexivity|exact Hd|]. intros _. inversion Hd. now apply digit_not_sign.
Qed.

(** … and nothing else is an integer: no digits after the sign, or any byte that is not a digit
    (so no 0x / 0b / 0o prefix, no '_' separator, no blank, no exponent) *)
Theorem C16_non_decimal_rejected : forall sg body,
  (body = [] \/ exists c, In c body /\ is_digit c = false) ->
  (sg = None -> match body with c :: _ => (c =? 45) = false /\ (c =? 43) = false | [] => True end) ->
  parse_int10 (sign_bytes sg ++ body) = None.
Proof.
  intros sg body Hb Hs. rewrite parse_int10_sign by exact Hs. destruct Hb as [->|(c & Hin & Hc)]; [reflexivity|].
  destruct body; [contradiction|]. now rewrite (digits_val_bad _ 0 c Hin Hc).
Qed.

(** the integer-reading accessors return the decimal reading of every element, whatever its spelling … *)
Theorem C16_int_spelled_faithful : forall s z t (xs : list (bytes * Z)) (ps : list (bytes * (bytes * Z))) tm,
  (t = tBlobString \/ t = tSimpleString) -> (tm = tArray \/ tm = tSet \/ tm = tMap) ->
  (parse_int10 s = Some z -> as_int64 (MStr t s None) = ROk z) /\
  (Forall (fun sz => fst sz <> [] /\ parse_int10 (fst sz) = Some (snd sz)) xs ->
     as_int_slice (arr (map (fun sz => blob (fst sz)) xs)) = ROk (map snd xs)) /\
  (Forall (fun kv => fst (snd kv) <> [] /\ parse_int10 (fst (snd kv)) = Some (snd (snd kv))) ps ->
     as_int_map (MArr tm (flat blob (fun sz => blob (fst sz)) ps) None) = ROk (set_all (map (fun kv => (fst kv, snd (snd kv))) ps) [])).
Proof.
  intros s z t xs ps tm Ht Htm. split; [intro H; rewrite as_int64_str by exact Ht; now rewrite H|].
  split; intro H.
  - apply int_slice_reads. intros sz Hin. destruct (proj1 (Forall_forall _ _) H sz Hin). now apply reads_int_blob.
  - apply (int_map_reads _ snd); [exact Htm|]. intros kv Hin. destruct (proj1 (Forall_forall _ _) H kv Hin). now apply reads_int_blob.
Qed.

(** … and report a number error for an element that is not a decimal integer *)
Theorem C16_int_non_decimal_error : forall s k t, s <> [] -> parse_int10 s = None -> (t = tArray \/ t = tSet \/ t = tMap) ->
  as_int64 (blob s) = RErr ENum /\ as_int_slice (arr [blob s]) = RErr ENum /\
  as_int_map (MArr t [blob k; blob s] None) = RErr ENum.
Proof.
  intros s k t Hne Hp Ht. repeat split.
  - unfold blob. rewrite as_int64_str by now left. now rewrite Hp.
  - unfold as_int_slice. cbn. destruct s; [contradiction|]. now rewrite Hp.
  - destruct Ht as [-> |[-> | ->]]; unfold as_int_map, as_int_map_with; cbn; destruct s; try contradiction; now rewrite Hp.
Qed.

(** the original AsIntMap used strconv.ParseInt(s, 0, 64): a value "0100" came back as 64 *)
Theorem C16_int_map_before_fix_refuted : forall pi0 : bytes -> option Z, pi0 (b "0100") = Some 64%Z ->
  as_int_map_before_fix pi0 (arr [blob (b "mode"); blob (b "0100")]) = ROk [(b "mode", 64%Z)] /\
  as_int_map (arr [blob (b "mode"); blob (b "0100")]) = ROk [(b "mode", 100%Z)].
Proof.
  intros pi0 H. split; [|reflexivity]. unfold as_int_map_before_fix, as_int_map_with.
  cbn [arr msg_error mtyp N.eqb Pos.eqb tArray tNull tSimpleErr tBlobErr orb mvals pair_loop blob mstr].
  remember (b "0100") as v eqn:Ev. destruct v as [|c r]; [discriminate Ev|]. rewrite H. reflexivity.
Qed.

(** arrays keep every element in order *)
Theorem C16_array_faithful : forall l t, (t = tArray \/ t = tSet) -> to_array (MArr t l None) = ROk l.
Proof. intros l t [-> | ->]; reflexivity. Qed.

Theorem C16_str_slice_faithful : forall ss t, (t = tArray \/ t = tSet) -> as_str_slice (MArr t (map blob ss) None) = ROk ss.
Proof. intros ss t [-> | ->]; unfold as_str_slice; cbn; now rewrite map_mstr_blob. Qed.

Theorem C16_int_slice_faithful : forall zs : list (bool * Z),
  Forall (fun bz => (int64_min <= snd bz <= int64_max)%Z) zs ->
  as_int_slice (arr (map (fun bz => enc_int (fst bz) (snd bz)) zs)) = ROk (map snd zs).
Proof.
  intros zs H. apply int_slice_reads. intros bz Hin. apply reads_int_enc. exact (proj1 (Forall_forall _ _) H bz Hin).
Qed.

Theorem C16_bool_slice_faithful : forall xs, as_bool_slice (arr (map boolean xs)) = ROk xs.
Proof.
  intro xs. unfold as_bool_slice. cbn. f_equal. rewrite map_map. rewrite <- (map_id xs) at 2. apply map_ext. now intros [|].
Qed.

(** maps keep every pair; a repeated field keeps its last value *)
Theorem C16_str_map_faithful : forall (ps : list (bytes * bytes)) t, (t = tArray \/ t = tSet \/ t = tMap) ->
  as_str_map (MArr t (flat blob blob ps) None) = ROk (set_all ps []).
Proof. intros ps t Ht. now rewrite as_str_map_flat. Qed.

Theorem C16_strmap_last_wins : forall (ps : list (bytes * bytes)) k, mget k (set_all ps []) = assoc_last k ps.
Proof. intros ps k. rewrite mget_set_all. now destruct (assoc_last k ps). Qed.

Theorem C16_map_faithful : forall (ps : list (bytes * msg)),
  (forall t, (t = tArray \/ t = tSet \/ t = tMap) -> as_map (MArr t (flat blob (fun v => v) ps) None) = ROk (set_all ps [])) /\
  to_map (mapm (flat blob (fun v => v) ps)) = ROk (set_all ps []) /\
  (forall k, mget k (set_all ps []) = assoc_last k ps).
Proof.
  intro ps. split; [|split; [|intro k; rewrite mget_set_all; now destruct (assoc_last k ps)]].
  - intros t Ht. unfold as_map. destruct (map_shape t (flat blob (fun v => v) ps) Ht) as [-> ->].
    cbn [mvals]. rewrite even_len_flat. apply to_map_vals_flat.
  - unfold to_map, mapm. cbn [is_map mtyp mvals]. cbn. rewrite even_len_flat. apply to_map_vals_flat.
Qed.

Theorem C16_decode_slice_of_json_faithful : forall e (docs : list bytes),
  Forall (fun d => json_ok e d = true) docs -> decode_slice_of_json e (arr (map blob docs)) = ROk (length docs).
Proof.
  intros e docs H. unfold decode_slice_of_json. rewrite to_array_arr. cbn [rbind].
  rewrite (mapM_map _ blob (fun _ => tt) docs).
  - cbn [rbind]. now rewrite map_length.
  - intros d Hin. rewrite Forall_forall in H. unfold decode_json. rewrite to_string_blob. cbn [rbind].
    now rewrite (H d Hin).
Qed.

Theorem C16_xrange_entry_faithful : forall x : entry,
  as_xrange_entry (enc_entry x) = ROk (mkXEntry (fst x) (option_map (fun fv => set_all fv []) (snd x))) /\
  as_xrange_slice (enc_entry x) = ROk (mkXSlice (fst x) (snd x)).
Proof.
  intros [id [fv|]]; unfold enc_entry; cbn [fst snd]; rewrite as_xrange_entry_arr, as_xrange_slice_arr; [|now split].
  unfold arr at 1. rewrite C16_str_map_faithful, to_array_arr, slice_pairs_flat by now left. now split.
Qed.

Theorem C16_xrange_faithful : forall xs : list entry,
  as_xrange (arr (map enc_entry xs)) = ROk (map (fun x => mkXEntry (fst x) (option_map (fun fv => set_all fv []) (snd x))) xs) /\
  as_xrange_slices (arr (map enc_entry xs)) = ROk (map (fun x => mkXSlice (fst x) (snd x)) xs).
Proof.
  intro xs. split; apply arr_mapM; intros; apply C16_xrange_entry_faithful.
Qed.

(** XREAD / XREADGROUP in the RESP3 (map) and RESP2 (array of pairs) shapes *)
Theorem C16_xread_faithful : forall streams : list (bytes * list entry),
  let dec := map (fun kd => (fst kd, map (fun x => mkXEntry (fst x) (option_map (fun fv => set_all fv []) (snd x))) (snd kd))) streams in
  as_xread (mapm (flat blob (fun es => arr (map enc_entry es)) streams)) = ROk (set_all dec []) /\
  as_xread (arr (map (fun kd => arr [blob (fst kd); arr (map enc_entry (snd kd))]) streams)) = ROk (set_all dec []).
Proof.
  intros streams dec. subst dec.
  exact (xread_generic_faithful as_xrange (fun es => arr (map enc_entry es)) _ streams (fun xs => proj1 (C16_xrange_faithful xs))).
Qed.

Theorem C16_xread_slices_faithful : forall streams : list (bytes * list entry),
  let dec := map (fun kd => (fst kd, map (fun x => mkXSlice (fst x) (snd x)) (snd kd))) streams in
  as_xread_slices (mapm (flat blob (fun es => arr (map enc_entry es)) streams)) = ROk (set_all dec []) /\
  as_xread_slices (arr (map (fun kd => arr [blob (fst kd); arr (map enc_entry (snd kd))]) streams)) = ROk (set_all dec []).
Proof.
  intros streams dec. subst dec.
  exact (xread_generic_faithful as_xrange_slices (fun es => arr (map enc_entry es)) _ streams (fun xs => proj2 (C16_xrange_faithful xs))).
Qed.

Theorem C16_scan_lmpop_faithful : forall c els k vs,
  (c <= uint64_max -> as_scan_entry (arr [blob (print_N c); arr (map blob els)]) = ROk (c, els)) /\
  as_lmpop (arr [blob k; arr (map blob vs)]) = ROk (k, vs).
Proof.
  intros c els k vs. rewrite as_scan_entry_arr, as_lmpop_arr. unfold arr. rewrite !C16_str_slice_faithful by now left.
  split; [intro H; unfold blob; now rewrite uint_string_faithful by auto|reflexivity].
Qed.

Theorem C16_ft_aggregate_faithful : forall total (rows : list row),
  as_ft_aggregate (enc_agg2 total rows) = ROk (total, map (fun r => Some (set_all r [])) rows) /\
  as_ft_aggregate (enc_agg3 total rows) = ROk (total, map (fun r => Some (set_all r [])) rows) /\
  (forall cur, as_ft_aggregate_cursor (arr [enc_agg2 total rows; int cur]) = ROk (cur, total, map (fun r => Some (set_all r [])) rows)) /\
  (forall cur, as_ft_aggregate_cursor (arr [enc_agg3 total rows; int cur]) = ROk (cur, total, map (fun r => Some (set_all r [])) rows)).
Proof.
  intros total rows.
  assert (H2 : as_ft_aggregate (enc_agg2 total rows) = ROk (total, map (fun r => Some (set_all r [])) rows)).
  { unfold as_ft_aggregate, enc_agg2. change (msg_error (arr _)) with (@None aerr). change (is_map (arr _)) with false.
    cbn iota. cbn [mvals arr mintlen int]. do 2 f_equal. rewrite map_map. apply map_ext. intro r. now apply str_map_opt_flat; left. }
  assert (H3 : as_ft_aggregate (enc_agg3 total rows) = ROk (total, map (fun r => Some (set_all r [])) rows)).
  { lazy -[mapM fta_record map rec_agg3 set_all row smap bytes].
    now rewrite (mapM_map fta_record rec_agg3 (fun r => Some (set_all r [])) rows) by (intros; apply fta_record_rec). }
  repeat split; trivial; intro cur; now apply ft_aggregate_cursor_faithful.
Qed.

(** everything with floats: for every environment that reads the server's doubles back *)
Section Floats.
Variable e : env.
Variable fmt : N -> bytes.
Hypothesis fmt_parse : forall f, pf e (fmt f) = (f, true).
Hypothesis fmt_nonempty : forall f, fmt f <> [].

Theorem C16_float_faithful : forall f,
  to_float64 e (dbl fmt f) = ROk f /\ as_float64 e (dbl fmt f) = ROk f /\
  as_float64 e (blob (fmt f)) = ROk f /\ as_float64 e (simple (fmt f)) = ROk f.
Proof.
  intro f. unfold to_float64, as_float64, as_float64_raw. cbn. rewrite !(to_float64_s_fmt e fmt fmt_parse). repeat split; reflexivity.
Qed.

Theorem C16_float_slice_faithful : forall fs : list (bool * N),
  as_float_slice e (arr (map (fun rf => num fmt (fst rf) (snd rf)) fs)) = ROk (map snd fs).
Proof.
  intro fs. apply arr_mapM. intros [r f] _. cbn [fst snd]. rewrite mstr_num.
  destruct (fmt f) eqn:F; [now apply fmt_nonempty in F|]. rewrite <- F. now rewrite (to_float64_s_fmt e fmt fmt_parse).
Qed.

Theorem C16_int_map_faithful : forall (ps : list (bytes * (bool * Z))) t, (t = tArray \/ t = tSet \/ t = tMap) ->
  Forall (fun kv => (int64_min <= snd (snd kv) <= int64_max)%Z) ps ->
  as_int_map (MArr t (flat blob (fun bz => enc_int (fst bz) (snd bz)) ps) None) =
  ROk (set_all (map (fun kv => (fst kv, snd (snd kv))) ps) []).
Proof.
  intros ps t Ht H. apply (int_map_reads _ snd); [exact Ht|]. intros kv Hin.
  apply reads_int_enc. exact (proj1 (Forall_forall _ _) H kv Hin).
Qed.

(** ZSCORE / ZRANGE WITHSCORES / ZPOP*: RESP2 flat array, RESP3 array of pairs; scores as strings or doubles *)
Theorem C16_zscores_faithful : forall r z (zs : list (bytes * N)),
  as_zscore e (arr (enc_zscore fmt r z)) = ROk z /\
  as_zscores e (arr (flat_map (enc_zscore fmt false) zs)) = ROk zs /\
  as_zscores e (arr (map (fun z => arr (enc_zscore fmt r z)) zs)) = ROk zs.
Proof.
  intros r z zs. split; [unfold as_zscore; rewrite to_array_arr; now apply to_zscore_enc|].
  split; [now apply as_zscores_flat|]. rewrite (as_zscores_arrays e _ (fun z => z)), map_id; [reflexivity|].
  intros; now apply to_zscore_enc.
Qed.

Theorem C16_zmpop_faithful : forall r k (zs : list (bytes * N)),
  as_zmpop e (arr [blob k; arr (map (fun z => arr (enc_zscore fmt r z)) zs)]) = ROk (k, zs).
Proof.
  intros r k zs. rewrite as_zmpop_arr. now destruct (C16_zscores_faithful r (k, 0) zs) as (_ & _ & ->).
Qed.

(** FT.SEARCH: RESP3 records with optional attributes / score; RESP2 flat reply with or without scores and
    attributes — the RESP2 reply does not say which parts are present, the accessor guesses right when the
    keys are non-empty and do not parse as floats ([key_ok], the explicit validity condition) *)
Theorem C16_ft_search3_faithful : forall total (docs : list doc3),
  as_ft_search e (enc_search3 fmt total docs) = ROk (total, map dec_doc3 docs).
Proof.
  intros total docs. lazy -[mapM fts_record map rec_search3 dec_doc3 doc3 row smap bytes].
  now rewrite (mapM_map (fts_record e) (rec_search3 fmt) dec_doc3 docs) by (intros; now apply fts_record_rec).
Qed.

Theorem C16_ft_search2_faithful : forall ws wa total (docs : list doc2),
  Forall (fun d => key_ok e (fst (fst d))) docs ->
  as_ft_search e (arr (int total :: flat_map (enc_doc2 fmt ws wa) docs)) = ROk (total, map (dec_doc2 ws wa) docs).
Proof.
  intros ws wa total docs Hk. rewrite as_ft_search_resp2. destruct docs as [|d rest]; [reflexivity|].
  destruct (guesses_right e fmt fmt_parse fmt_nonempty ws wa total d rest Hk) as [-> ->]. now rewrite fts_docs_spec.
Qed.

(** GEOSEARCH with every combination of WITHDIST / WITHHASH / WITHCOORD, in both protocols *)
Theorem C16_geosearch_faithful : forall r (ls : list loc),
  as_geosearch e (arr (map (enc_loc fmt r) ls)) = ROk (map dec_loc ls).
Proof.
  intros r ls. apply arr_mapM. intros; now apply geo_one_enc.
Qed.

End Floats.

Print Assumptions C16_decimal_roundtrip.
Print Assumptions C16_int_faithful.
Print Assumptions C16_decimal_spellings.
Print Assumptions C16_non_decimal_rejected.
Print Assumptions C16_int_spelled_faithful.
Print Assumptions C16_int_non_decimal_error.
Print Assumptions C16_int_map_before_fix_refuted.
Print Assumptions C16_int_string_faithful.
Print Assumptions C16_string_faithful.
Print Assumptions C16_bool_faithful.
Print Assumptions C16_array_faithful.
Print Assumptions C16_str_slice_faithful.
Print Assumptions C16_int_slice_faithful.
Print Assumptions C16_bool_slice_faithful.
Print Assumptions C16_str_map_faithful.
Print Assumptions C16_strmap_last_wins.
Print Assumptions C16_map_faithful.
Print Assumptions C16_decode_slice_of_json_faithful.
Print Assumptions C16_xrange_faithful.
Print Assumptions C16_xrange_entry_faithful.
Print Assumptions C16_xread_faithful.
Print Assumptions C16_xread_slices_faithful.
Print Assumptions C16_scan_lmpop_faithful.
Print Assumptions C16_ft_aggregate_faithful.
Print Assumptions C16_float_faithful.
Print Assumptions C16_float_slice_faithful.
Print Assumptions C16_int_map_faithful.
Print Assumptions C16_zscores_faithful.
Print Assumptions C16_zmpop_faithful.
Print Assumptions C16_ft_search3_faithful.
Print Assumptions C16_ft_search2_faithful.
Print Assumptions C16_geosearch_faithful.

(** non-vacuity: concrete data through concrete encoders, with an environment that satisfies the hypotheses
    on the strings used ([fmt] prints a float given by its bit pattern as a tagged decimal of the bits) *)
Definition ex_fmt (f : N) : bytes := 102 :: print_N f.                 (* "f<bits>" *)
Definition ex_env : env :=
  mkEnv (fun s => match s with 102 :: r => match parse_uint10 r with Some n => (n, true) | None => (0, false) end | _ => (0, false) end)
        (fun _ => 0) (fun _ => true).

Example C16_nonvacuous_zscores :
  as_zscores ex_env (arr (flat_map (enc_zscore ex_fmt false) [(b "a", 7); (b "b", 9)])) = ROk [(b "a", 7); (b "b", 9)] /\
  as_zscores ex_env (arr (map (fun z => arr (enc_zscore ex_fmt true z)) [(b "a", 7); (b "b", 9)])) = ROk [(b "a", 7); (b "b", 9)].
Proof. vm_compute. split; reflexivity. Qed.

Example C16_nonvacuous_search :
  as_ft_search ex_env (arr (int 5 :: flat_map (enc_doc2 ex_fmt true true) [(b "doc:1", 3, [(b "t", b "x")]); (b "doc:2", 4, [])])) =
    ROk (5%Z, [mkDoc (b "doc:1") (Some [(b "t", b "x")]) 3; mkDoc (b "doc:2") (Some []) 4]) /\
  as_ft_search ex_env (enc_search3 ex_fmt 5 [(b "doc:1", Some [(b "t", b "x")], Some 3); (b "doc:2", None, None)]) =
    ROk (5%Z, [mkDoc (b "doc:1") (Some [(b "t", b "x")]) 3; mkDoc (b "doc:2") None 0]).
Proof. vm_compute. split; reflexivity. Qed.

Example C16_nonvacuous_xread_geo_map :
  as_xread (mapm (flat blob (fun es => arr (map enc_entry es)) [(b "s1", [(b "1-0", Some [(b "f", b "v"); (b "f", b "w")]); (b "2-0", None)])])) =
    ROk [(b "s1", [mkXEntry (b "1-0") (Some [(b "f", b "w")]); mkXEntry (b "2-0") None])] /\
  as_geosearch ex_env (arr (map (enc_loc ex_fmt false) [(b "p", Some 11, Some 5%Z, Some (21, 22)); (b "q", None, None, None)])) =
    ROk [mkGeo (b "p") 21 22 11 5; mkGeo (b "q") 0 0 0 0] /\
  as_int64 (blob (print_Z (-9223372036854775808))) = ROk (-9223372036854775808)%Z.
Proof. vm_compute. repeat split; reflexivity. Qed.

Example C16_nonvacuous_spellings :
  as_int64 (blob (b "0100")) = ROk 100%Z /\ as_int64 (blob (b "-0755")) = ROk (-755)%Z /\ as_int64 (blob (b "+09")) = ROk 9%Z /\
  as_int64 (blob (b "0x1F")) = RErr ENum /\ as_int64 (blob (b "1_000")) = RErr ENum /\ as_int64 (blob (b "0b11")) = RErr ENum /\
  as_int64 (blob (b "9223372036854775808")) = RErr ENum /\
  as_int_slice (arr [blob (b "010"); blob (b "-0")]) = ROk [10%Z; 0%Z] /\
  as_int_map (mapm [blob (b "k"); blob (b "0017")]) = ROk [(b "k", 17%Z)] /\
  as_int_map (mapm [blob (b "k"); blob (b "0o17")]) = RErr ENum.
Proof. vm_compute. repeat split; reflexivity. Qed.
