(** C31 - Multi-key helpers map every key to its own reply.

    MGet, MGetCache, JsonMGet, JsonMGetCache, MSet, MSetNX, MDel and JsonMSet return a map whose keys are
    exactly the input keys and whose entry for each key is that key's reply or error, for any key set,
    duplicates and slot distribution, on single, standalone, sentinel ([cluster = false]) and cluster
    ([cluster = true]) clients.

    Model: RV.Model.Helpers (helper.go; internal/cmds slot-grouping builders).  The server [srv] and the
    slot function [slot_of] are universally quantified.  Helpers that range over a Go map take the pairs as
    a list in iteration order; the theorems hold for every list with distinct keys, i.e. every order.
    A Go map result is an association list; [maps_exactly m ks f]: [m] binds exactly the keys [ks], each
    [k] to [f k].  MGetCache / JsonMGetCache are [C31_cache_helpers] on top of C11 (positional DoMultiCache).
    Assumption on the server, explicit below: MGET / JSON.MGET are answered with one element per key in
    order ([get k] is the element for [k]). *)
From Coq Require Import String Ascii.
From Coq Require Import List Arith NArith ZArith Bool Lia.
Require Import RV.Model.Base RV.Model.CacheBatch RV.Model.Helpers.
Require Import RV.Proofs.CacheBatchHelper RV.Proofs.HelpersProofs RV.Proofs.HelpersTop RV.Proofs.CacheBatchTop.
Import ListNotations.
Open Scope nat_scope.

(** MGet: keys exact, every key bound to its own element - single and cluster clients, any duplicates,
    any slot distribution *)
Theorem C31_mget :
  forall (srv : argv -> msg) (slot_of : key -> N) (get : key -> msg) (cluster : bool) (keys : list key),
    (forall ks, srv (bs "MGET" :: ks) = arr (map get ks)) ->
    exists m, mget srv cluster slot_of keys = Ok (inl m) /\ maps_exactly m keys get.
Proof.
  intros srv slot_of get cluster keys Hs. unfold mget, cluster_mget. destruct keys as [|k0 ks0]; [exists []; now split|].
  rewrite group_by_slot_spec, <- (map_app_nil (map snd (slot_mcmds slot_of (bs "MGET") (k0 :: ks0)))).
  apply (multi_get_spec srv slot_of get (bs "MGET") [] cluster (k0 :: ks0)); [intro ks; rewrite app_nil_r|]; apply Hs.
Qed.
Print Assumptions C31_mget.

Theorem C31_keys :
  forall srv slot_of get cluster keys,
    (forall ks, srv (bs "MGET" :: ks) = arr (map get ks)) ->
    exists m, mget srv cluster slot_of keys = Ok (inl m) /\ forall k, kv_get k m <> None <-> In k keys.
Proof.
  intros srv slot_of get cluster keys H. destruct (C31_mget srv slot_of get cluster keys H) as (m & Hm & H1 & H2).
  exists m. split; [assumption|]. intro k. split.
  - intro Hn. destruct (in_dec key_dec k keys); [assumption|]. now rewrite H2 in Hn.
  - intros Hi. now rewrite H1.
Qed.
Print Assumptions C31_keys.

Theorem C31_values :
  forall srv slot_of get cluster keys,
    (forall ks, srv (bs "MGET" :: ks) = arr (map get ks)) ->
    exists m, mget srv cluster slot_of keys = Ok (inl m) /\ forall k, In k keys -> kv_get k m = Some (get k).
Proof.
  intros srv slot_of get cluster keys H. destruct (C31_mget srv slot_of get cluster keys H) as (m & Hm & H1 & H2). eauto.
Qed.
Print Assumptions C31_values.

(** JsonMGet: the path is the last word of every command *)
Theorem C31_json_mget :
  forall (srv : argv -> msg) (slot_of : key -> N) (get : key -> msg) (cluster : bool) (keys : list key) (path : bytes),
    (forall ks, srv ((bs "JSON.MGET" :: ks) ++ [path]) = arr (map get ks)) ->
    exists m, json_mget srv cluster slot_of keys path = Ok (inl m) /\ maps_exactly m keys get.
Proof.
  intros srv slot_of get cluster keys path Hs. unfold json_mget, cluster_json_mget.
  destruct keys as [|k0 ks0]; [exists []; now split|]. rewrite group_by_slot_spec.
  exact (multi_get_spec srv slot_of get (bs "JSON.MGET") [path] cluster (k0 :: ks0) _ Hs (Hs _)).
Qed.
Print Assumptions C31_json_mget.

(** a failing MGET on a single client: the error, no map *)
Theorem C31_mget_error :
  forall srv slot_of keys e,
    keys <> [] -> msg_error (srv (bs "MGET" :: keys)) = Some e ->
    m_typ (srv (bs "MGET" :: keys)) <> tArr -> m_typ (srv (bs "MGET" :: keys)) <> tSet ->
    mget srv false slot_of keys = Ok (inr e).
Proof.
  intros srv slot_of keys e Hne He Ht1 Ht2. unfold mget. rewrite CacheBatchBase.match_nonempty by assumption.
  unfold client_mget, mget_cmd, do_cmd, to_array. cbn [r_err new_result r_val].
  destruct (N.eqb_spec (m_typ (srv (bs "MGET" :: keys))) tArr); [contradiction|].
  destruct (N.eqb_spec (m_typ (srv (bs "MGET" :: keys))) tSet); [contradiction|].
  cbn [orb]. now rewrite He.
Qed.
Print Assumptions C31_mget_error.

(** MSet / MSetNX: for every iteration order of the Go map (any list with distinct keys) *)
Theorem C31_mset :
  forall (srv : argv -> msg) (cluster nx : bool) (kvs : list (key * bytes)),
    NoDup (map fst kvs) ->
    exists m, mset srv cluster nx kvs = Ok m /\
      (forall kv, In kv kvs ->
         kv_get (fst kv) m = Some (if cluster then msg_error (srv (set_cmd nx kv)) else mset_err srv nx kvs)) /\
      (forall k, ~ In k (map fst kvs) -> kv_get k m = None).
Proof.
  intros srv cluster nx kvs Hnd.
  exact (multi_set_spec srv kvs (set_cmd nx) fst (map fst kvs) (mset_err srv nx kvs) cluster eq_refl (fun _ => eq_refl)
           (fun x y Hx Hy E => f_equal (set_cmd nx) (NoDup_fst_eq kvs x y Hnd Hx Hy E))).
Qed.
Print Assumptions C31_mset.

(** MDel, duplicates allowed *)
Theorem C31_mdel :
  forall (srv : argv -> msg) (cluster : bool) (keys : list key),
    exists m, mdel srv cluster keys = Ok m /\
      (forall k, In k keys ->
         kv_get k m = Some (msg_error (srv (if cluster then [bs "DEL"; k] else bs "DEL" :: keys)))) /\
      (forall k, ~ In k keys -> kv_get k m = None).
Proof.
  intros srv cluster keys.
  pose proof (fun e c => multi_set_spec srv keys (fun k => [bs "DEL"; k]) (fun k => k) keys e c (map_id keys)
                           (fun _ => eq_refl) (fun x y _ _ E => f_equal (fun k => [bs "DEL"; k]) E)) as H.
  destruct cluster; [exact (H None true)|exact (H (msg_error (srv (bs "DEL" :: keys))) false)].
Qed.
Print Assumptions C31_mdel.

Theorem C31_json_mset :
  forall (srv : argv -> msg) (cluster : bool) (kvs : list (key * bytes)) (path : bytes),
    NoDup (map fst kvs) ->
    exists m, json_mset srv cluster kvs path = Ok m /\
      (forall kv, In kv kvs ->
         kv_get (fst kv) m = Some (msg_error (srv (if cluster then [bs "JSON.SET"; fst kv; path; snd kv]
                                                   else bs "JSON.MSET" :: flat_map (fun kv => [fst kv; path; snd kv]) kvs)))) /\
      (forall k, ~ In k (map fst kvs) -> kv_get k m = None).
Proof.
  intros srv cluster kvs path Hnd.
  pose proof (fun e c => multi_set_spec srv kvs (fun kv => [bs "JSON.SET"; fst kv; path; snd kv]) fst (map fst kvs) e c eq_refl
                           (fun _ => eq_refl) (fun x y Hx Hy E => f_equal _ (NoDup_fst_eq kvs x y Hnd Hx Hy E))) as H.
  destruct cluster; [exact (H None true)|].
  exact (H (msg_error (srv (bs "JSON.MSET" :: flat_map (fun kv => [fst kv; path; snd kv]) kvs))) false).
Qed.
Print Assumptions C31_json_mset.

(** MGetCache / JsonMGetCache: the map built from positional DoMultiCache results (C11) *)
Theorem C31_cache_helpers :
  forall (f : key -> msg) (keys : list key) (resps : list rres),
    Forall2 (fun k r => r_err r = None /\ r_val r = f k) keys resps ->
    exists m, helper_do_multi_cache keys resps [] = Ok (inl m) /\ maps_exactly m keys f.
Proof.
  intros f keys resps H. exact (helper_do_multi_cache_spec f keys resps [] H).
Qed.
Print Assumptions C31_cache_helpers.

(** arrayToKV *)
Theorem C31_array_to_kv :
  forall (f : key -> msg) (keys : list key), exists m, array_to_kv [] (map f keys) keys = Ok m /\ maps_exactly m keys f.
Proof.
  intros f keys. eexists. split; [apply array_to_kv_spec|apply maps_exactly_set_keys].
Qed.
Print Assumptions C31_array_to_kv.

(** slot grouping: the command of slot s holds exactly the keys (pairs) of slot s, in input order, with
    their multiplicities; all keys of a command built by clusterMGet share one slot *)
Theorem C31_slot_groups :
  forall (slot_of : key -> N) (head : bytes) (keys : list key),
    NoDup (map fst (slot_mcmds slot_of head keys)) /\
    forall s, assoc_N s (slot_mcmds slot_of head keys)
              = if existsb (in_slot slot_of s) keys then Some (head :: filter (in_slot slot_of s) keys) else None.
Proof.
  intros slot_of head keys. split; [apply slot_mcmds_nodup|intro; apply slot_mcmds_spec].
Qed.
Print Assumptions C31_slot_groups.

Theorem C31_slot_groups_pairs :
  forall slot_of head kvs s,
    assoc_N s (slot_msets slot_of head kvs)
    = if existsb (pair_in_slot slot_of s) kvs
      then Some (head :: flat_map (fun kv => [fst kv; snd kv]) (filter (pair_in_slot slot_of s) kvs)) else None.
Proof.
  intros slot_of head kvs s. unfold slot_msets. now rewrite (slot_fold_gen head (fun kv => slot_of (fst kv)) (fun kv => [fst kv; snd kv])).
Qed.
Print Assumptions C31_slot_groups_pairs.

Theorem C31_slot_groups_json :
  forall slot_of keys kvs path s,
    assoc_N s (json_mgets slot_of keys path)
    = (if existsb (in_slot slot_of s) keys then Some ((bs "JSON.MGET" :: filter (in_slot slot_of s) keys) ++ [path]) else None) /\
    assoc_N s (json_msets slot_of kvs path)
    = (if existsb (pair_in_slot slot_of s) kvs
       then Some (bs "JSON.MSET" :: flat_map (fun kv => [fst kv; path; snd kv]) (filter (pair_in_slot slot_of s) kvs)) else None).
Proof.
  intros slot_of keys kvs path s. split.
  - unfold json_mgets. rewrite (assoc_N_map_snd (fun c => c ++ [path])), slot_mcmds_spec. now destruct (existsb _ _).
  - unfold json_msets. now rewrite (slot_fold_gen (bs "JSON.MSET") (fun kv => slot_of (fst kv)) (fun kv => [fst kv; path; snd kv])).
Qed.
Print Assumptions C31_slot_groups_json.

Theorem C31_group_same_slot :
  forall slot_of head keys cmds,
    group_by_slot slot_of head keys = Ok cmds ->
    forall c, In c cmds -> exists s, forall k, In k (tl c) -> slot_of k = s.
Proof.
  intros slot_of head keys cmds E c Hc. rewrite group_by_slot_spec in E. injection E as <-.
  eapply groups_same_slot; eauto.
Qed.
Print Assumptions C31_group_same_slot.

(** DecodeSliceOfJSON: element i of the destination is the decoding of element i (zero value for nil) *)
Theorem C31_decode_positional :
  forall (T : Type) (zero : T) (dec : msg -> T + err) (vs : list msg) (ts : list T),
    decode_elems T zero dec vs = inl ts -> Forall2 (elem_ok T zero dec) vs ts.
Proof. exact decode_elems_positional. Qed.
Print Assumptions C31_decode_positional.

(** ** non-vacuity *)
Definition nv_get (k : key) : msg := Msg tStr (bs "v:" ++ k) 0%Z [].
Definition nv_srv (a : argv) : msg :=
  match a with
  | c :: ks => if bytes_eqb c (bs "MGET") then arr (map nv_get ks) else simple "OK"
  | [] => simple "OK"
  end.
Definition nv_slot (k : key) : N := match k with c :: _ => N.modulo c 3 | [] => 0%N end.

Example C31_nonvacuous_hyp : forall ks, nv_srv (bs "MGET" :: ks) = arr (map nv_get ks).
Proof. intro ks. reflexivity. Qed.

Example C31_nonvacuous :
  cluster_mget nv_srv nv_slot [bs "a"; bs "b"; bs "c"; bs "a"; bs "d"; bs "e"]
  = Ok (inl [(bs "a", nv_get (bs "a")); (bs "d", nv_get (bs "d")); (bs "b", nv_get (bs "b")); (bs "e", nv_get (bs "e"));
             (bs "c", nv_get (bs "c"))]).
Proof. vm_compute. reflexivity. Qed.

Example C31_nonvacuous_mset :
  mset nv_srv true true [(bs "k1", bs "x"); (bs "k2", bs "y")] = Ok [(bs "k1", None); (bs "k2", None)].
Proof. vm_compute. reflexivity. Qed.
