(** C05 (pool half) - a caller waiting for a blocking-pool connection whose context is done wakes up.

    [C05_pool_wakeup]: in every reachable state of the repaired pool LTS (all schedules, any
    capacity, any number of callers) a parked caller whose context is done has the broadcast of its
    cancellation goroutine pending (the wake-up cannot be lost), and a continuation of at most
    three steps (the mutex holder's cond.Wait, that broadcast, the caller's re-lock) makes the
    caller leave Acquire with the dead pipe carrying the context error, without further waiting.
    [C05_pool_wakeup_refuted_orig]: on the code as found (broadcast without the mutex) the
    schedule "check; cancel; Broadcast; Wait" parks the caller for good (defect D8).
    Real-time "shortly after" is measured by the observer, not a model notion. *)
From Coq Require Import List NArith ZArith Bool Arith.
Require Import RV.Model.Base RV.Model.Pool.
Require Import RV.Proofs.PoolProofs RV.Proofs.PoolProofs4 RV.Proofs.PoolTheorems.
Import ListNotations.
Open Scope Z_scope.

Theorem C05_pool_wakeup : forall cfg s t, repaired cfg -> reachable cfg s ->
  In t (parked s) -> In t (ctxdone s) ->
  In t (bpend s) /\
  exists sch s', (length sch <= 3)%nat /\ forallb (wake_label t) sch = true /\ run cfg sch s = Some s' /\
                 In t (exiting s') /\ hd_error (held s') = Some CtxDead.
Proof.
  intros cfg s t Hrep Hr. apply pool_ctx_waiter_wakes; [exact (inv_t _ _ (inv_reachable _ _ Hrep Hr))|apply Hrep].
Qed.
Print Assumptions C05_pool_wakeup.

(** a caller whose context is already done when it evaluates the wait condition never parks *)
Theorem C05_pool_done_ctx_never_parks : forall cfg t s, memb t (ctxdone s) = true ->
  held (acquire_eval cfg t s) = CtxDead :: held s /\ In t (exiting (acquire_eval cfg t s)).
Proof. exact acquire_eval_ctxdone. Qed.
Print Assumptions C05_pool_done_ctx_never_parks.

Theorem C05_pool_wakeup_refuted_orig :
  exists sch s, run (orig_cfg 1 0 false) sch init = Some s /\
    In 2%nat (parked s) /\ In 2%nat (ctxdone s) /\ ~ In 2%nat (bpend s) /\
    (forall l, wake_label 2 l = true -> lstep (orig_cfg 1 0 false) s l = None) /\
    (forall o, lstep (orig_cfg 1 0 false) s (Signal o) = None) /\ lstep (orig_cfg 1 0 false) s CloseBcast = None.
Proof. exact d8_waiter_never_woken. Qed.
Print Assumptions C05_pool_wakeup_refuted_orig.

Example C05_pool_nonvacuous :
  exists s, run (fixed_cfg 1 0 false)
              [AcqEnter 1 false; MakeOk 1 (Some 1%nat) false; AcqReturn 1; AcqEnter 2 true; CtxCancel 2; AcqPark 2] init = Some s /\
            In 2%nat (parked s) /\ In 2%nat (ctxdone s) /\ bpend s = [2%nat].
Proof. eexists. split; [vm_compute; reflexivity|]. cbn. tauto. Qed.
