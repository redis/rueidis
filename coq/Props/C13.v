(** C13 — RESP decoding rejects malformed input without crashing.

    [decode B input] runs the model of readNextMessage (Model/Resp.v, transcribed from resp.go after the
    repair of this property's defect) on an ARBITRARY byte string.  In the model every Go operation that
    can panic is a partial primitive -- make([]T, n) ([alloc_make]: panics for n < 0 or n*sizeof(T) > 2^48,
    runtime.makeslice), strings.Builder.Grow ([grow]: panics for n < 0), msgs[n] (index check in the loop
    of readA) -- and every allocation the decoder asks for is metered ([OAlloc]: make, Grow, the line
    returned by ReadBytes, the bytes appended to the Builder, 40 bytes per append).

    On the unchanged code the property was violated ($-2, *-2, %-1, %4611686018427387904 panic in
    makeslice; $99999999999 allocates 100 GB before any payload byte): see known_findings.d/resp.json and
    docs/resp.md.  The theorems are about the repaired code.

    [input_bound] = 2^40 bytes: beyond a terabyte of input the doubling buffers could reach Go's 2^48-byte
    allocation limit, which is a panic in the model (in reality memory is exhausted long before). *)
From Coq Require Import List Arith NArith ZArith Bool.
From Coq Require Import String.
Require Import RV.Model.Base RV.Model.RespWrite RV.Model.Resp.
Require Import RV.Model.RespStream.
Require Import RV.Proofs.RespSafetyBase RV.Proofs.RespSafety RV.Proofs.RespStreamTrunc.
Import ListNotations.
Open Scope N_scope.

(** no byte string makes the decoder panic, whatever the buffer size *)
Theorem C13_no_panic : forall (B : nat) (input : bytes),
  blen input < input_bound -> fst (fst (decode B input)) <> Panic.
Proof.
  intros B input Hb. destruct (decode B input) as [[r rest] al] eqn:E.
  now apply (decode_bounds B input r rest al Hb).
Qed.
Print Assumptions C13_no_panic.

(** every byte string is answered by a value or by an error *)
Theorem C13_error_or_value : forall (B : nat) (input : bytes),
  blen input < input_bound ->
  (exists m, fst (fst (decode B input)) = Ok m) \/ (exists e, fst (fst (decode B input)) = Err e).
Proof.
  intros B input Hb. pose proof (C13_no_panic B input Hb) as Hp.
  destruct (fst (fst (decode B input))) as [m|e|]; [left; eauto|right; eauto|congruence].
Qed.
Print Assumptions C13_error_or_value.

(** the memory requested while decoding is at most 200 bytes per byte CONSUMED from the connection plus
    384 KiB, for every byte string -- in particular whatever lengths it declares *)
Theorem C13_alloc_bounded : forall (B : nat) (input : bytes),
  blen input < input_bound ->
  let '(r, rest, al) := decode B input in
  blen rest <= blen input /\ al <= 200 * (blen input - blen rest) + 393216.
Proof.
  intros B input Hb. destruct (decode B input) as [[r rest] al] eqn:E.
  destruct (decode_bounds B input r rest al Hb E) as (_ & H1 & H2 & _). now split.
Qed.
Print Assumptions C13_alloc_bounded.

(** a reply that decodes successfully costs at most 200 bytes per byte of the reply (no additive term) *)
Theorem C13_alloc_success : forall (B : nat) (input : bytes) (m : msg) (rest : bytes) (al : N),
  blen input < input_bound -> decode B input = (Ok m, rest, al) ->
  blen rest + 1 <= blen input /\ al + 160 <= 200 * (blen input - blen rest).
Proof. intros B input m rest al Hb E. exact (proj2 (proj2 (proj2 (decode_bounds B input (Ok m) rest al Hb E))) m eq_refl). Qed.
Print Assumptions C13_alloc_success.

(** the same for every nested call, every amount of fuel, and the loops of readA / readE
    (this is the statement the induction proves; [invG] is the amortisation invariant of the doubling buffer) *)
Theorem C13_all_readers : forall (B fuel : nat),
  rn_ok B (read_next fuel) /\ ral_ok B (read_a_loop fuel) /\ rel_ok B (read_e_loop fuel).
Proof. exact safety_all. Qed.
Print Assumptions C13_all_readers.

(** the streaming reader (streamTo) does not panic either: every byte string, every writer failure point *)
Theorem C13_stream_no_panic : forall (B : nat) (budget : option N) (input : bytes),
  blen input < input_bound -> snd (fst (fst (fst (stream B budget input)))) <> SPanic.
Proof.
  intros B budget input Hb. unfold stream.
  destruct (stream_no_panic B (fuel_for (List.length input))) as [H _].
  specialize (H input (w_init budget) Hb). unfold no_spanic in H.
  destruct (runw B (stream_to (fuel_for (List.length input))) input (w_init budget)) as [[o rest] w]. exact H.
Qed.
Print Assumptions C13_stream_no_panic.

(** non-vacuity: the inputs that crashed or exhausted memory before the repair are now errors, and
    what they make the decoder allocate is small *)
Example C13_nonvacuous :
  fst (decode 32 (h "242d320d0a")) = (Err eBadLength, [])                         (* $-2\r\n *)
  /\ fst (decode 32 (h "2a2d320d0a")) = (Err eBadLength, [])                      (* *-2\r\n *)
  /\ fst (decode 32 (h "252d310d0a")) = (Err eBadLength, [])                      (* %-1\r\n *)
  /\ fst (decode 32 (h "25343631313638363031383432373338373930340d0a")) = (Err eBadLength, [])   (* %4611686018427387904\r\n *)
  /\ decode 32 (h "2439393939393939393939390d0a") = (Err eEOF, [], 65536)         (* $99999999999\r\n *)
  /\ decode 32 (h "2a39393939393939393939390d0a") = (Err eEOF, [], 640)           (* *99999999999\r\n *)
  /\ decode 32 (h "243f0d0a3b39393939393939393939390d0a61") = (Err eEOF, [], 65536).  (* $?\r\n;99999999999\r\na *)
Proof. vm_compute. repeat split. Qed.

(** non-vacuity of the allocation bound on the doubling schedule: a reply that declares 2^63-1 bytes and delivers
    200 000: the buffer was allocated as 64 KiB, 128 KiB, 256 KiB (448 KiB for 200 022 bytes consumed), then EOF *)
Example C13_nonvacuous_doubling :
  decode 4096 (h "24393232333337323033363835343737353830370d0a" ++ rep_bytes [97] 200000)%list
  = (Err eUnexpectedEOF, [], 458752).
Proof.
  (* only the length of the payload matters *)
  pose proof (RespScalarProofs.blen_rep_bytes [97] 200000) as Hlen. revert Hlen.
  generalize (rep_bytes [97] 200000). intros data Hlen.
  change (h "24393232333337323033363835343737353830370d0a" ++ data)%list
    with (tBlobString :: RespWrite.dec 9223372036854775807 ++ crlf ++ data)%list.
  apply RespRoundtrip.decode_blob_read_n_fails; [now apply Nat.leb_le|reflexivity..|].
  apply (RespScalarProofs.run_read_n_third_round 4096 _ data 0); [reflexivity|now rewrite Hlen].
Qed.
