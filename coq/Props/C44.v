(** C44 — Redis URLs map to the documented options.

    [parse_url e u] models ParseURL on the URL [u] as parsed by net/url, for ANY behaviour [e] of the
    library functions net.SplitHostPort, time.ParseDuration and strings.TrimSpace (Section-style
    parameters packed in the record [env]; the correspondence run instantiates them with the values the
    Go library returned).  All statements quantify over every environment and every parsed URL (any
    scheme, credentials, host, path and query multimap, repeated keys included).

    The statements are about the repaired code (fix: write_timeout went into Dialer.Timeout);
    [C44_write_timeout_before_fix_refuted] records what the original code did. *)
From Coq Require Import String List NArith ZArith Bool.
Require Import RV.Model.Base RV.Model.AccBase RV.Model.Url RV.Proofs.UrlProofs.
Import ListNotations.
Open Scope N_scope.

(** ParseURL never panics, rejects exactly under the condition [rejected], and otherwise returns exactly
    the record [expected] (one closed form per option, each mentioning only its own part of the URL) *)
Theorem C44_mapping : forall e u,
  (rejected e u = false -> parse_url e u = Ok (expected e u)) /\
  (rejected e u = true -> exists k, parse_url e u = Err k) /\
  parse_url e u <> Panic.
Proof. intros e u. rewrite parse_url_eq. case (rejected e u); repeat split; try discriminate; eauto. Qed.
Print Assumptions C44_mapping.

(** the same mapping spelled out part by part against the library functions: credentials, scheme
    (TLS / unix dialer), address or socket path + addr list, database (db parameter, else path),
    dial_timeout -> Dialer.Timeout, write_timeout -> ConnWriteTimeout, protocol, client_cache,
    max_retries, client_name, master_set, skip_verify *)
Theorem C44_mapping_parts : forall e u o, parse_url e u = Ok o ->
  username o = match user u with Some (n, _) => n | None => [] end /\
  password o = match user u with Some (_, Some p) => p | _ => [] end /\
  (tls o <> None <-> is_tls_scheme (scheme u) = true) /\
  unix_dial o = is_unix_scheme (scheme u) /\
  init_address o =
    (if is_unix_scheme (scheme u) then [trim_space e (path u)] else [snd (parse_addr e (hostname u) (host u))])
    ++ map (fun a => snd (parse_addr e (hostname u) a)) (q_all (query u) (b "addr")) /\
  (forall t, tls o = Some t -> server_name t = fst (parse_addr e (hostname u) (host u))) /\
  (q_has (query u) (b "db") = true -> parse_int10 (q_get (query u) (b "db")) = Some (select_db o)) /\
  (q_has (query u) (b "db") = false -> is_unix_scheme (scheme u) = false ->
     forall x d, split_byte 47 (path u) = [x; d] -> parse_int10 d = Some (select_db o)) /\
  (q_has (query u) (b "db") = false -> (is_unix_scheme (scheme u) = true \/ split_byte 47 (path u) = [path u]) -> select_db o = 0%Z) /\
  (q_has (query u) (b "dial_timeout") = true -> parse_duration e (q_get (query u) (b "dial_timeout")) = Some (dial_timeout o)) /\
  (q_has (query u) (b "dial_timeout") = false -> dial_timeout o = 0%Z) /\
  (q_has (query u) (b "write_timeout") = true -> parse_duration e (q_get (query u) (b "write_timeout")) = Some (conn_write_timeout o)) /\
  (q_has (query u) (b "write_timeout") = false -> conn_write_timeout o = 0%Z) /\
  always_resp2 o = bytes_eqb (q_get (query u) (b "protocol")) (b "2") /\
  disable_cache o = bytes_eqb (q_get (query u) (b "client_cache")) (b "0") /\
  disable_retry o = bytes_eqb (q_get (query u) (b "max_retries")) (b "0") /\
  client_name o = q_get (query u) (b "client_name") /\
  master_set o = q_get (query u) (b "master_set") /\
  (forall t, tls o = Some t ->
     (q_has (query u) (b "skip_verify") = false -> skip_verify t = false) /\
     (q_has (query u) (b "skip_verify") = true -> q_get (query u) (b "skip_verify") = [] -> skip_verify t = true) /\
     (q_has (query u) (b "skip_verify") = true -> q_get (query u) (b "skip_verify") <> [] ->
        parse_bool (q_get (query u) (b "skip_verify")) = Some (skip_verify t))).
Proof.
  intros e u o H. apply parse_url_ok_inv in H as [R ->]. apply rejected_false in R.
  repeat apply conj; try reflexivity; try (apply (db_of_spec u); apply R); try (apply (dur_of_spec e u); apply R);
    try (intros t Ht; apply tls_of_inv in Ht as [Et ->]; apply (skip_of_spec u Et), R); clear R.
  - unfold expected, tls_of; cbn [tls]. case (is_tls_scheme (scheme u)); [reflexivity|]. intro Ht. now elim Ht.
  - unfold expected, tls_of; cbn [tls]. intros ->. discriminate.
  - intros t Ht. now apply tls_of_inv in Ht as [_ ->].
Qed.
Print Assumptions C44_mapping_parts.

(** no parameter overwrites another's option: each option of an accepted URL is determined by its own
    part of the URL alone (the values of its own query key; credentials; scheme/host/path where the
    documented mapping uses them) *)
Theorem C44_noninterference : forall e u u' o o',
  parse_url e u = Ok o -> parse_url e u' = Ok o' ->
  (q_all (query u) (b "dial_timeout") = q_all (query u') (b "dial_timeout") -> dial_timeout o = dial_timeout o') /\
  (q_all (query u) (b "write_timeout") = q_all (query u') (b "write_timeout") -> conn_write_timeout o = conn_write_timeout o') /\
  (q_all (query u) (b "protocol") = q_all (query u') (b "protocol") -> always_resp2 o = always_resp2 o') /\
  (q_all (query u) (b "client_cache") = q_all (query u') (b "client_cache") -> disable_cache o = disable_cache o') /\
  (q_all (query u) (b "max_retries") = q_all (query u') (b "max_retries") -> disable_retry o = disable_retry o') /\
  (q_all (query u) (b "client_name") = q_all (query u') (b "client_name") -> client_name o = client_name o') /\
  (q_all (query u) (b "master_set") = q_all (query u') (b "master_set") -> master_set o = master_set o') /\
  (user u = user u' -> username o = username o' /\ password o = password o') /\
  (scheme u = scheme u' -> host u = host u' -> hostname u = hostname u' ->
   q_all (query u) (b "skip_verify") = q_all (query u') (b "skip_verify") -> tls o = tls o') /\
  (scheme u = scheme u' -> host u = host u' -> hostname u = hostname u' -> path u = path u' ->
   q_all (query u) (b "addr") = q_all (query u') (b "addr") -> init_address o = init_address o') /\
  (scheme u = scheme u' -> path u = path u' ->
   q_all (query u) (b "db") = q_all (query u') (b "db") -> select_db o = select_db o').
Proof.
  intros e u u' o o' H H'. apply parse_url_ok_inv in H as [_ ->]. apply parse_url_ok_inv in H' as [_ ->].
  repeat apply conj; try apply dur_of_own; try apply q_get_own; try apply user_own; try apply tls_of_own;
    try apply addrs_of_own; try apply db_of_own; intro E; apply (f_equal (fun v => bytes_eqb v _)), q_get_own, E.
Qed.
Print Assumptions C44_noninterference.

(** the addr list: entry i of the addr parameters is InitAddress[i+1], mapped on its own with the URL's host as the
    only context (a fold over the list with the URL host fixed: no entry influences another); an entry with host and
    port is taken as it is; an entry without host takes the URL's host (localhost if none) and a missing port 6379 *)
Theorem C44_addr_list : forall e u o, parse_url e u = Ok o ->
  forall i a, nth_error (q_all (query u) (b "addr")) i = Some a ->
  nth_error (init_address o) (S i) = Some (snd (parse_addr e (hostname u) a)) /\
  List.length (init_address o) = S (List.length (q_all (query u) (b "addr"))).
Proof. exact addr_entries. Qed.
Print Assumptions C44_addr_list.

Theorem C44_addr_entry : forall e uhost a h p, split_host_port e a = (h, p) ->
  (h <> [] -> p <> [] -> snd (parse_addr e uhost a) = join_host_port h p) /\
  (h = [] -> snd (parse_addr e uhost a) =
     join_host_port (match uhost with [] => b "localhost" | _ => uhost end) (match p with [] => b "6379" | _ => p end)).
Proof.
  intros e uhost a h p H. split.
  - intros Hh Hp. now apply (addr_entry_hosted e uhost a h p).
  - intros ->. now apply addr_entry_hostless.
Qed.
Print Assumptions C44_addr_entry.

(** the documented rule, in full: an addr entry [host:port] is taken as it is, an entry [:port] takes the URL's host
    NAME (u.Hostname(): no port, no brackets; localhost if the URL has none); IPv6 hosts are bracketed when joined.
    (Entries without a port are not documented — addr=<host>:<port> — and outside this statement.) *)
Theorem C44_addr_rule : forall e u o, parse_url e u = Ok o ->
  forall i a h p, nth_error (q_all (query u) (b "addr")) i = Some a -> split_host_port e a = (h, p) -> p <> [] ->
  nth_error (init_address o) (S i) =
  Some (join_host_port (match h with [] => match hostname u with [] => b "localhost" | n => n end | _ => h end) p).
Proof.
  intros e u o H i a h p Hi Hs Hp. destruct (addr_entries e u o H i a Hi) as [-> _]. now rewrite (addr_rule e u a h p Hs Hp).
Qed.
Print Assumptions C44_addr_rule.

(** the original code took u.Host verbatim as the default host: redis://h1:7000?addr=:7001 gave [h1:7000]:7001 and
    redis://[::1] gave [[::1]]:6379 *)
Theorem C44_addr_rule_before_fix_refuted :
  let e := mkEnv (fun s => if bytes_eqb s (b ":7001") then ([], b "7001") else ([], [])) (fun _ => None) (fun s => s) in
  snd (parse_addr e (b "h1:7000") (b ":7001")) = b "[h1:7000]:7001" /\
  snd (parse_addr e (b "h1") (b ":7001")) = b "h1:7001" /\
  snd (parse_addr e (b "[::1]") (b "[::1]")) = b "[[::1]]:6379" /\
  snd (parse_addr e (b "::1") (b "[::1]")) = b "[::1]:6379".
Proof. exact addr_before_fix_malformed. Qed.
Print Assumptions C44_addr_rule_before_fix_refuted.

(** adding or changing a pair with another key does not change the values of a key *)
Theorem C44_other_keys_invisible : forall q k k' v, bytes_eqb k' k = false -> q_all ((k', v) :: q) k = q_all q k.
Proof. exact q_all_other. Qed.
Print Assumptions C44_other_keys_invisible.

(** invalid values are rejected: unsupported scheme; db / path database that is not an int; unparsable
    dial_timeout / write_timeout; non-boolean non-empty skip_verify on a TLS scheme; a path with more than
    one segment (non-unix schemes) *)
Theorem C44_invalid_rejected : forall e u,
  (is_unix_scheme (scheme u) || is_tls_scheme (scheme u) || is_plain_scheme (scheme u) = false -> parse_url e u = Err EScheme) /\
  ((q_has (query u) (b "db") = true /\ parse_int10 (q_get (query u) (b "db")) = None) \/
   (q_has (query u) (b "dial_timeout") = true /\ parse_duration e (q_get (query u) (b "dial_timeout")) = None) \/
   (q_has (query u) (b "write_timeout") = true /\ parse_duration e (q_get (query u) (b "write_timeout")) = None) \/
   (is_tls_scheme (scheme u) = true /\ q_has (query u) (b "skip_verify") = true /\
    q_get (query u) (b "skip_verify") <> [] /\ parse_bool (q_get (query u) (b "skip_verify")) = None) \/
   (is_unix_scheme (scheme u) = false /\ exists x d, split_byte 47 (path u) = [x; d] /\ parse_int10 d = None) \/
   (is_unix_scheme (scheme u) = false /\ exists x y z r, split_byte 47 (path u) = x :: y :: z :: r)
   -> exists k, parse_url e u = Err k).
Proof.
  intros e u. split; [intro H; unfold parse_url; now rewrite H|].
  intro H. rewrite parse_url_eq, rejected_by; [eauto|].
  destruct H as [[H1 H2]|[[H1 H2]|[[H1 H2]|[(H1 & H2 & H3 & H4)|[(H1 & x & d & H2 & H3)|(H1 & x & y & z & r & H2)]]]]].
  - right; left. unfold bad_db. now rewrite H1, H2.
  - do 2 right; left. unfold bad_dur. now rewrite H1, H2.
  - do 3 right; left. unfold bad_dur. now rewrite H1, H2.
  - do 4 right. unfold bad_skip. rewrite H1, H2. destruct (q_get (query u) (b "skip_verify")); [contradiction|]. now rewrite H4.
  - left. unfold bad_path. now rewrite H1, H2, H3.
  - left. unfold bad_path. now rewrite H1, H2.
Qed.
Print Assumptions C44_invalid_rejected.

(** the original code: dial_timeout=5s&write_timeout=1s gave Dialer.Timeout = 1s and ConnWriteTimeout = 0 *)
Theorem C44_write_timeout_before_fix_refuted :
  let e := mkEnv (fun _ => ([], [])) (fun s => if bytes_eqb s (b "5s") then Some 5000000000%Z else if bytes_eqb s (b "1s") then Some 1000000000%Z else None) (fun s => s) in
  timeouts_before_fix e [(b "dial_timeout", b "5s"); (b "write_timeout", b "1s")] = Ok (1000000000%Z, 0%Z).
Proof. exact before_fix_overwrites. Qed.
Print Assumptions C44_write_timeout_before_fix_refuted.

(** non-vacuity: a TLS URL with credentials, database in the path, both timeouts, two addr parameters
    and skip_verify; and a rejected one *)
Definition ex_env : env :=
  mkEnv (fun s => if bytes_eqb s (b "h:1") then (b "h", b "1") else if bytes_eqb s (b "a:2") then (b "a", b "2") else ([], []))
        (fun s => if bytes_eqb s (b "5s") then Some 5000000000%Z else if bytes_eqb s (b "1s") then Some 1000000000%Z else None)
        (fun s => s).

Example C44_nonvacuous_accept :
  parse_url ex_env (mkUrl (b "rediss") (Some (b "u", Some (b "p"))) (b "h:1") (b "h") (b "/3")
     [(b "addr", b "a:2"); (b "dial_timeout", b "5s"); (b "write_timeout", b "1s"); (b "skip_verify", []); (b "protocol", b "2")]) =
  Ok (mkOpts [b "h:1"; b "a:2"] (Some (mkTls (b "h") true)) false (b "u") (b "p") 3%Z 5000000000%Z 1000000000%Z true false false [] []).
Proof. vm_compute. reflexivity. Qed.

Example C44_nonvacuous_reject :
  parse_url ex_env (mkUrl (b "redis") None (b "h:1") (b "h") [] [(b "write_timeout", b "x")]) = Err EWrite /\
  parse_url ex_env (mkUrl (b "http") None (b "h:1") (b "h") [] []) = Err EScheme /\
  parse_url ex_env (mkUrl (b "redis") None (b "h:1") (b "h") (b "/1/2") []) = Err EPath.
Proof. vm_compute. repeat split; reflexivity. Qed.
