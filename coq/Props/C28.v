(** C28 — Retries happen only when safe and within policy.

    Objects: the decision functions of Model/Retry.v (retry.go WaitOrSkipRetry, singleClient.Do /
    DoMulti, sentinelClient.Do / DoMulti — same code after pick —, standalone.Do), of
    Model/ClusterDo.v (clusterClient.do) and of Model/ClusterBatch.v (doresultfn), over every
    sequence of replies, context / client states and RetryDelay functions.  A "retry" is a send whose
    reason is [WRetry]; the transparent re-send after an expired connection and the re-sends after
    MOVED / ASK / REDIRECT are separate reasons and the subject of C03 / C19. *)
From Coq Require Import List Arith NArith ZArith Bool Lia.
Require Import RV.Model.Base RV.Model.ClusterTopo RV.Model.Retry RV.Model.ClusterDo RV.Model.ClusterBatch.
Require Import RV.Proofs.RetryProofs RV.Proofs.ClusterDoProofs RV.Proofs.ClusterBatchProofs.
Require RV.Props.C19.
Import ListNotations.
Open Scope Z_scope.

(** retry.go: the delay gates the retry — negative never, zero at once, positive only if it fits
    before the deadline *)
Theorem C28_wait_or_skip : forall d left,
  wait_or_skip d left = true <-> (d = 0 \/ (0 < d /\ (left = None \/ exists x, left = Some x /\ d < x))).
Proof.
  intros d left. unfold wait_or_skip. destruct (Z.eqb_spec d 0) as [->|N].
  - split; [intros _; now left|reflexivity].
  - destruct (Z.ltb_spec 0 d) as [P|P].
    + destruct left as [x|].
      * rewrite Z.ltb_lt. split; [intro H; right; split; [lia|right; eauto]|intros [E|[_ [E|[y [E L]]]]]; [lia|discriminate|inversion E; subst; exact L]].
      * split; [intros _; right; split; [lia|now left]|reflexivity].
    + split; [discriminate|intros [E|[Q _]]; lia].
Qed.
Print Assumptions C28_wait_or_skip.

(** single / sentinel / standalone clients: a retry is decided only for a read-only or retryable
    command, with retries enabled, after LOADING or a transport failure, with a live context, an
    open client and a non-negative delay that fits before the deadline *)
Theorem C28_retry_implies : forall p retryable attempts t,
  single_decision p retryable attempts t = DRetry ->
  p_retry p = true /\ retryable = true /\ retry_class_single (k_reply t) = true /\
  k_ctx_cls t = false /\ k_closed t = false /\
  0 <= p_delay p attempts (k_reply t) /\
  (p_delay p attempts (k_reply t) = 0 \/ k_left t = None \/ exists x, k_left t = Some x /\ p_delay p attempts (k_reply t) < x).
Proof.
  intros p retryable attempts t. unfold single_decision. destruct (is_expired (k_reply t)) eqn:E; [discriminate|].
  destruct (p_retry p && retryable && single_retryable_err (k_reply t) (k_ctx_cls t) (k_closed t)
            && wait_or_skip (p_delay p attempts (k_reply t)) (k_left t)) eqn:C; [intros _|discriminate].
  apply andb_true_iff in C. destruct C as [C W]. apply andb_true_iff in C. destruct C as [C S].
  apply andb_true_iff in C. destruct C as [R1 R2]. apply C28_wait_or_skip in W.
  assert (X : retry_class_single (k_reply t) = true /\ k_ctx_cls t = false /\ k_closed t = false).
  { unfold single_retryable_err in S. destruct (k_reply t); try discriminate;
      apply negb_true_iff, orb_false_iff in S; destruct S; auto. }
  repeat split; try tauto; destruct W as [->|[? ?]]; auto; lia.
Qed.
Print Assumptions C28_retry_implies.

(** … and in the trace of a call every send is justified by the decision on the one before it:
    a [WRetry] send follows a [DRetry] decision (attempt counter included), a [WExpired] send an
    expired connection, and nothing follows a final reply; nothing is written on a done context *)
Theorem C28_trace : forall f p retryable env tr o,
  single_do f p retryable 1 WFirst env = (tr, o) ->
  ev_chain p retryable 1 tr /\ (forall e, In e tr -> k_ctx_call (e_tick e) = false).
Proof.
  intros f p retryable env tr o H. apply single_do_runs in H. split; [exact (sruns_chain _ _ H)|].
  intros e Hin. exact (proj2 (sruns_events _ _ H e Hin)).
Qed.
Print Assumptions C28_trace.

(** ordinary replies — values, nil, error replies — and every failure the policy does not cover
    are handed to the caller as they are *)
Theorem C28_passthrough : forall f p retryable attempts w t0 env,
  single_decision p retryable attempts (effective t0) = DReturn ->
  snd (single_do (S f) p retryable attempts w (t0 :: env)) = Done (k_reply (effective t0)).
Proof. intros f p retryable attempts w t0 env H. cbn [single_do]. rewrite H. reflexivity. Qed.
Print Assumptions C28_passthrough.

Theorem C28_passthrough_values : forall p retryable attempts t,
  (match k_reply t with RVal _ | RNil | RErr _ | RMoved _ | RAsk _ | RRedirect _ | RTryAgain | RClusterDown => True | _ => False end) ->
  single_decision p retryable attempts t = DReturn.
Proof.
  intros p retryable attempts t H. unfold single_decision.
  destruct (k_reply t); try contradiction; cbn; rewrite ?andb_false_r; reflexivity.
Qed.
Print Assumptions C28_passthrough_values.

Theorem C28_disable_retry : forall p retryable attempts t,
  p_retry p = false -> single_decision p retryable attempts t <> DRetry.
Proof. intros p retryable attempts t H D. apply C28_retry_implies in D. destruct D as [D _]. congruence. Qed.
Print Assumptions C28_disable_retry.

(** batches on one connection: a batch with a member that is neither read-only nor retryable is
    never retried (it is sent exactly once unless a connection expires) *)
Theorem C28_batch_not_all_retryable : forall f p cs attempts w x env,
  all_retryable cs = false ->
  (forall t, In t x -> is_expired (k_reply (effective t)) = false) ->
  single_domulti (S f) p cs attempts w (x :: env) = ([mkBsend w 0 x], Some (map (fun t => k_reply (effective t)) x)).
Proof.
  intros f p cs attempts w x env Hn Hx. cbn [single_domulti]. rewrite recover_loop_none.
  - destruct (p_lftm p); rewrite Hn, andb_false_r; reflexivity.
  - intros r Hin. apply in_map_iff in Hin. destruct Hin as [t [<- Ht]]. now apply Hx.
Qed.
Print Assumptions C28_batch_not_all_retryable.

(** cluster client, single command: in every trace a [WRetry] send follows a reply classified
    ModeRetry (TRYAGAIN / CLUSTERDOWN / LOADING, or a transport failure with a live context; never
    with a closed client) of a retryable command with retries enabled and a delay the policy accepts *)
Theorem C28_cluster_retry_implies : forall c slot retryable to_replica st env tr out st',
  cluster_do c slot retryable to_replica st env = (tr, out, st') ->
  chain_ok c retryable tr.
Proof.
  intros c slot retryable to_replica st env tr out st' H. exact (proj1 (RV.Props.C19.C19_moved_ask _ _ _ _ _ _ _ _ _ H)).
Qed.
Print Assumptions C28_cluster_retry_implies.

Theorem C28_cluster_retry_class : forall r ctx_done closed,
  classify r ctx_done closed = ModeRetry ->
  closed = false /\
  match r with
  | RTryAgain | RClusterDown | RLoading => True
  | RTransport | RCtx | RExpired => ctx_done = false
  | _ => False
  end.
Proof.
  intros r ctx_done closed H. destruct r; cbn in H; destruct closed; try discriminate; try (split; [reflexivity|exact I]);
    destruct ctx_done; try discriminate; split; reflexivity.
Qed.
Print Assumptions C28_cluster_retry_class.

(** cluster batches (repaired doresultfn, fix a512c0c): a member that failed with a retry-class reply
    is queued for another round only if retries are enabled, it is retryable and RetryDelay returned
    a non-negative delay for it — also when other members of the batch were redirected *)
Theorem C28_batch_member : forall pol cc hasinit attempts fl ps resps d i ii cm r,
  nth_error ps i = Some (ii, cm) -> nth_error resps i = Some r ->
  classify r (rf_ctx fl) (rf_closed fl) = ModeRetry ->
  d_acts (dstep pol cc hasinit attempts fl ps resps d i) <> d_acts d ->
  p_retry pol = true /\ b_retryable cm = true /\ 0 <= p_delay pol attempts r.
Proof.
  intros pol cc hasinit attempts fl ps resps d i ii cm r Ep Er CL Hne.
  destruct (dstep_cases pol cc hasinit attempts fl ps resps d i ii cm r Ep Er) as [mi [ei [acts [rd [dl [E [_ [_ M]]]]]]]].
  rewrite CL in M. apply M. intros ->. apply Hne. rewrite E. cbn [d_acts]. apply app_nil_r.
Qed.
Print Assumptions C28_batch_member.

Theorem C28_batch_passthrough : forall pol cc hasinit attempts fl ps resps d i ii cm r,
  nth_error ps i = Some (ii, cm) -> nth_error resps i = Some r ->
  classify r (rf_ctx fl) (rf_closed fl) = ModeNone ->
  d_acts (dstep pol cc hasinit attempts fl ps resps d i) = d_acts d.
Proof.
  intros pol cc hasinit attempts fl ps resps d i ii cm r Ep Er CL.
  destruct (dstep_cases pol cc hasinit attempts fl ps resps d i ii cm r Ep Er) as [mi [ei [acts [rd [dl [E [_ [_ M]]]]]]]].
  rewrite CL in M. rewrite E, M. cbn [d_acts]. apply app_nil_r.
Qed.
Print Assumptions C28_batch_passthrough.

(** The policy's bound is a bound on the rounds of a cluster batch.
    clusterClient.DoMulti keeps ONE attempt counter and one redirect counter per call.  Every round starts with
    its own redirect count at 0 and its delay at -1 (the [retries.Redirects = 0] / [retries.RetryDelay = -1] of the
    code): a round in which some member was redirected is a redirect round (no wait, [attempts] unchanged, the
    redirect counter of the call goes up); a round without redirect that queued a retry waits and increments
    [attempts]. *)
Theorem C28_batch_round_reset : forall f c srv hasinit k m attempts redirects asg cn sends,
  rounds (S f) c srv hasinit k m attempts redirects asg cn sends =
  let st := fold_left (do_group (bc_policy c) srv hasinit attempts (bc_flags c k)) m (mkRstate [] 0 (-1) asg cn []) in
  let sends' := sends ++ map (fun w => (k, w)) (r_sends st) in
  match apply_actions (bc_perm c k (r_acts st)) with
  | [] => (r_results st, sends', BDone)
  | m' =>
    if (0 <? r_redirects st)%nat then
      if (0 <? bc_max c) && (bc_max c <? redirects + 1) then (r_results st, sends', BDone)
      else rounds f c srv hasinit (S k) m' attempts (redirects + 1) (r_results st) (r_cnt st) sends'
    else if 0 <=? r_delay st then rounds f c srv hasinit (S k) m' (S attempts) redirects (r_results st) (r_cnt st) sends'
    else (r_results st, sends', BDone)
  end.
Proof. intros. cbn [rounds]. destruct (apply_actions _); reflexivity. Qed.
Print Assumptions C28_batch_round_reset.

(** a round run at an attempt number at which the policy declines (for every error) never waits for a retry:
    unless one of its members was redirected, the call ends with it — whatever the servers answered, whatever
    happened in earlier rounds (redirect rounds included) *)
Theorem C28_batch_declined_round_ends : forall c srv hasinit f k m attempts redirects asg cn sends,
  (forall r, p_delay (bc_policy c) attempts r < 0) ->
  let st := fold_left (do_group (bc_policy c) srv hasinit attempts (bc_flags c k)) m (mkRstate [] 0 (-1) asg cn []) in
  r_delay st = -1 /\
  (r_redirects st = 0%nat ->
   rounds (S f) c srv hasinit k m attempts redirects asg cn sends
   = (r_results st, sends ++ map (fun w => (k, w)) (r_sends st), BDone)).
Proof.
  intros c srv hasinit f k m attempts redirects asg cn sends Hd st.
  assert (E : r_delay st = -1) by exact (round_delay_declined c srv hasinit k m attempts asg cn Hd).
  split; [exact E|]. intro R0. cbn [rounds]. fold st. rewrite R0, E. cbn. destruct (apply_actions _); reflexivity.
Qed.
Print Assumptions C28_batch_declined_round_ends.

(** a retry round (wait, attempts + 1) is entered only at an attempt number below the policy's bound *)
Theorem C28_batch_retry_round_below_bound : forall c srv hasinit B k m attempts asg cn,
  (forall a r, (B <= a)%nat -> p_delay (bc_policy c) a r < 0) ->
  let st := fold_left (do_group (bc_policy c) srv hasinit attempts (bc_flags c k)) m (mkRstate [] 0 (-1) asg cn []) in
  0 <= r_delay st -> (attempts < B)%nat.
Proof.
  intros c srv hasinit B k m attempts asg cn Hd st G. destruct (le_lt_dec B attempts) as [Hge|Hlt]; [exfalso|exact Hlt].
  assert (E : r_delay st = -1) by exact (round_delay_declined c srv hasinit k m attempts asg cn (fun r => Hd attempts r Hge)). lia.
Qed.
Print Assumptions C28_batch_retry_round_below_bound.

(** the number of rounds of one call — hence the number of times any member is sent — is bounded by the policy's
    bound plus the redirect limit: every write of the call happens in a round with index <= (B - 1) + MaxMovedRedirections *)
Theorem C28_batch_rounds_bounded : forall c srv hasinit m fuel B asg sends out,
  (1 <= B)%nat -> (forall a r, (B <= a)%nat -> p_delay (bc_policy c) a r < 0) -> 0 < bc_max c ->
  cluster_domulti fuel c srv hasinit m = (asg, sends, out) ->
  forall k w, In (k, w) sends -> Z.of_nat k <= Z.of_nat B - 1 + bc_max c.
Proof.
  intros c srv hasinit m fuel B asg sends out HB Hd Hmax H.
  eapply (rounds_index_bound c srv hasinit B Hd Hmax); [exact H|exact HB|lia|reflexivity|]. intros k' w [].
Qed.
Print Assumptions C28_batch_rounds_bounded.

Example C28_nonvacuous :
  let p := mkPolicy true (fun a _ => if (a <? 3)%nat then 0 else -1) false in
  let t r := mkTick r false false false false None in
  let '(tr, o) := single_do 9 p true 1 WFirst [t RLoading; t RTransport; t RLoading; t (RVal 1)] in
  map e_why tr = [WFirst; WRetry; WRetry] /\ o = Done RLoading.
Proof. vm_compute. split; reflexivity. Qed.
