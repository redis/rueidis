(** C43 — Hooks intercept every request path.

    "A client wrapped with rueidishook.WithHook routes every Do, DoMulti, DoCache, DoMultiCache, Receive,
    DoStream and DoMultiStream call, including calls made through Dedicated, Dedicate and the clients
    returned by Nodes, through the hook exactly once, and returns the hook's result unchanged."

    [hook_table] is regenerated from rueidishook/hook.go on every run (Gen/HookDeleg.v): for each method of
    hookclient / dedicated / extended, the callee, the receiver handed over, how parameters are forwarded
    and whether derived clients are wrapped again.  [C43_table] is the finite obligation re-proved by the
    kernel each run; the other theorems hold for every wrapper value, i.e. for clients derived through any
    sequence of Dedicated / Dedicate / Nodes, of any length, over any underlying client topology [en]. *)
From Coq Require Import List Arith NArith Bool Lia.
Require Import RV.Model.Base RV.Model.Hook RV.Gen.HookDeleg RV.Model.HookGen.
Require Import RV.Proofs.HookProofs.
Import ListNotations.
Open Scope N_scope.

Theorem C43_table : table_ok hook_table = true.
Proof. vm_compute. reflexivity. Qed.
Print Assumptions C43_table.

(** every request entry point of a hooked client (HC) or of a hooked dedicated client (HD): exactly one event,
    an invocation of the hook method of the same name, handed the underlying un-hooked client (so that the hook's
    own use of that client does not come back to the hook); no derived values; the caller gets the callee's result *)
Theorem C43_once : forall en v m, In m (requests_of v) ->
  call hook_table en v m = Some ([EvHook m (inner_of v)], [], true).
Proof. intros en v m. exact (request_once hook_table C43_table en v m). Qed.
Print Assumptions C43_once.

(** Dedicated(fn) hands fn a hooked dedicated client, Dedicate() returns one, Nodes() returns a hooked client for
    every node — each holding the same hook *)
Theorem C43_derived_are_wrapped : forall en i,
  derive1 hook_table en (HC i) DDedicated = Some (HD (env_dedicate en i)) /\
  derive1 hook_table en (HC i) DDedicate = Some (HD (env_dedicate en i)) /\
  forall k, derive1 hook_table en (HC i) (DNode k) = nth_error (map HC (env_nodes en i)) k.
Proof. intros en i. exact (derive_defined hook_table C43_table en i). Qed.
Print Assumptions C43_derived_are_wrapped.

(** [C43_once] holds for every wrapper value, so in particular for one reached by [derive]: every request through a
    client obtained by any chain of Dedicated / Dedicate / Nodes from WithHook(c0) passes through the hook exactly once
    (that such chains are defined and give wrapper values is [C43_derived_are_wrapped] and [C43_derive_total]) *)
Theorem C43_all_derived : forall en c0 p v m,
  derive hook_table en (HC c0) p = Some v -> In m (requests_of v) ->
  call hook_table en v m = Some ([EvHook m (inner_of v)], [], true).
Proof. intros en c0 p v m _. exact (request_once hook_table C43_table en v m). Qed.
Print Assumptions C43_all_derived.

(** a chain of derivations from a hooked client is always defined as long as the underlying topology has the node *)
Theorem C43_derive_total : forall en p c0,
  (forall v k, In (DNode k) p -> (k < length (env_nodes en (inner_of v)))%nat) ->
  Forall (fun d => match d with DNode _ => True | _ => False end) p ->
  exists v, derive hook_table en (HC c0) p = Some v /\ exists i, v = HC i.
Proof.
  intros en p. induction p as [|d p IH]; intros c0 Hk Hn.
  - exists (HC c0). split; [reflexivity|eauto].
  - inversion Hn as [|? ? Hd Hr]; subst. destruct d as [| |k]; try contradiction.
    cbn [derive]. destruct (C43_derived_are_wrapped en c0) as (_ & _ & N). rewrite N.
    assert (Hlt : (k < length (env_nodes en c0))%nat) by (apply (Hk (HC c0) k); now left).
    destruct (nth_error (map HC (env_nodes en c0)) k) as [v|] eqn:E.
    + apply nth_error_In in E. apply in_map_iff in E. destruct E as (j & <- & _).
      apply IH; [intros v' k' H'; apply Hk; now right|exact Hr].
    + apply nth_error_None in E. rewrite map_length in E. lia.
Qed.
Print Assumptions C43_derive_total.

(** Stacked hooks WithHook(…WithHook(WithHook(c0, h_1), h_2)…, h_n): every hook of the stack sees each request exactly
    once, outermost first, then the underlying client — by induction over the stack depth.  (Each hook is assumed to
    pass the request on once to the client it is handed.) *)
Theorem C43_stack_once : forall ls c0 m, In m client_requests ->
  scall hook_table (stack ls c0) m = Some (map (fun l => SHook l m) ls ++ [SInner m c0]).
Proof. exact (stack_once hook_table C43_table). Qed.
Print Assumptions C43_stack_once.

(** … also on every client derived from the stack through any chain of Nodes / Dedicate / Dedicated: the derived
    client is again a stack of all the hooks, over the derived underlying client *)
Theorem C43_stack_all_derived : forall en p ls c0 x,
  sderive hook_table en (stack ls c0) p = Some x ->
  (exists j, x = inl (stack ls j) /\
     forall m, In m client_requests -> scall hook_table (stack ls j) m = Some (map (fun l => SHook l m) ls ++ [SInner m j])) \/
  (exists j, x = inr (dstack ls j) /\
     forall m, In m dedicated_requests -> sdcall hook_table (dstack ls j) m = Some (map (fun l => SHook l m) ls ++ [SInner m j])).
Proof.
  intros en p ls c0 x H.
  destruct (stack_derive hook_table C43_table en p ls c0 x H) as [[j ->]|[j ->]].
  - left. exists j. split; [reflexivity|]. intros m Hm. now apply (stack_once hook_table C43_table).
  - right. exists j. split; [reflexivity|]. intros m Hm. now apply (dstack_once hook_table C43_table).
Qed.
Print Assumptions C43_stack_all_derived.

Theorem C43_stack_derivations : forall en ls c0,
  sdedicate hook_table en mDedicate (stack ls c0) = Some (dstack ls (env_dedicate en c0)) /\
  sdedicate hook_table en mDedicated (stack ls c0) = Some (dstack ls (env_dedicate en c0)) /\
  snodes hook_table en (stack ls c0) = Some (map (stack ls) (env_nodes en c0)).
Proof.
  intros en ls c0. destruct (stack_dedicate hook_table C43_table en ls c0) as [A B].
  repeat split; try assumption. apply (stack_nodes hook_table C43_table).
Qed.
Print Assumptions C43_stack_derivations.

Example C43_nonvacuous_stack :
  match sderive hook_table test_env (stack [3; 2; 1] 7) [DNode 0; DDedicated] with
  | Some (inr d) => sdcall hook_table d mDo
  | _ => None
  end = Some [SHook 3 mDo; SHook 2 mDo; SHook 1 mDo; SInner mDo 721].
Proof. vm_compute. reflexivity. Qed.

(** non-vacuity: Do on a node's dedicated client of a hooked client *)
Example C43_nonvacuous :
  match derive hook_table test_env (HC 7) [DNode 1; DDedicate] with
  | Some v => call hook_table test_env v mDoMulti
  | None => None
  end = Some ([EvHook mDoMulti 731], [], true).
Proof. vm_compute. reflexivity. Qed.
