(** C09 — Concurrent cache misses on one connection share one request (store level: lru.go).

    A history is any list of store operations, including the separate critical sections of
    Flight / Flights, so the theorems cover every lock-granular interleaving of concurrent callers.
    [answers k c o x] are the answers operation [o] (with output [x]) gave to lookups of command
    (k, c): [AHit v] (served from the cache), [AWait id] (wait on the in-flight entry [id]) or
    [AMiss] (the caller must send the request).  [resolves k c o] = [o] is Update / Cancel of (k, c)
    or Close.  [released x] = the entries whose waiters operation output [x] wakes.
    The caller side (which Cancel follows which failure in DoCache / DoMultiCache) belongs to the
    pipe-level model of another builder. *)
From Coq Require Import List NArith ZArith Bool.
Require Import RV.Model.Base RV.Model.Lru RV.Model.Adapter RV.Proofs.LruBase RV.Proofs.LruSteps RV.Proofs.LruAnswers
               RV.Proofs.LruHist RV.Proofs.LruC09 RV.Proofs.AdapterProofs.
Import ListNotations.
Open Scope Z_scope.

(** Between the Flight that returns Miss for (k, c) on an open store and the next Update / Cancel of
    (k, c) or Close, every lookup of (k, c) — by Flight, by a batch of Flights, by any of their critical
    sections, whatever else happens to other commands in between — is answered "wait on that very
    flight"; in particular no second Miss, hence no second request. *)
Theorem C09_single_miss : forall g pre k c ttl now v mid o a,
  Forall wf_op (pre ++ Flight k c ttl now :: mid) ->
  closed (run g pre init) = false ->
  snd (step g (run g pre init) (Flight k c ttl now)) = OFlight v None ->
  Forall (fun o' => ~ resolves k c o') mid ->
  In a (answers k c o (snd (step g (run g (pre ++ Flight k c ttl now :: mid) init) o))) ->
  a = AWait (next_id (run g pre init)).
Proof.
  intros g pre k c ttl now v mid o a Hw Hc Hm Hr Ha.
  apply Forall_app in Hw. destruct Hw as [Hwp Hwm]. inversion Hwm as [|? ? _ Hwmid]; subst.
  rewrite run_app, run_cons in Ha.
  exact (miss_then_wait g _ k c ttl now v mid o a (inv_run g pre init Hwp inv_init) Hc Hwmid Hm Hr Ha).
Qed.
Print Assumptions C09_single_miss.

(** Every Wait or Miss answer (on an open store) names an entry that is in flight in the resulting
    store: a waiter is never parked on an entry that nobody can resolve, and every Miss starts a flight. *)
Theorem C09_answers_are_in_flight : forall g ops o k c a,
  Forall wf_op ops -> closed (run g ops init) = false ->
  In a (answers k c o (snd (step g (run g ops init) o))) -> (forall v, a <> AHit v) ->
  exists e, In e (order (fst (step g (run g ops init) o))) /\ kc e = (k, c) /\ pending e = true /\
            (forall id, a = AWait id -> eid e = id).
Proof.
  intros g ops o k c a Hw Hc Ha Hn. apply step_flying; try assumption. apply inv_run; [exact Hw|apply inv_init].
Qed.
Print Assumptions C09_answers_are_in_flight.

(** An in-flight entry stays in the store until its own Update / Cancel or Close ... *)
Theorem C09_flight_persists : forall g ops o e,
  Forall wf_op ops -> In e (order (run g ops init)) -> pending e = true ->
  ~ resolves (ekey e) (ecmd e) o -> In e (order (fst (step g (run g ops init) o))).
Proof.
  intros g ops o e Hw He Hp Hr. apply pending_survives; try assumption. apply inv_run; [exact Hw|apply inv_init].
Qed.
Print Assumptions C09_flight_persists.

(** ... and each of the three delivers to its waiters: Update the committed value (with the expiry it
    reports), Cancel and Close the error (the [err] argument; Wait returns the entry's placeholder
    message together with it). *)
Theorem C09_waiters_get_result : forall g ops e,
  Forall wf_op ops -> In e (order (run g ops init)) -> pending e = true ->
  let s := run g ops init in
  (forall v, let px := min_xat (m_xat (eval e)) (m_xat v) in
             snd (step g s (Update (ekey e) (ecmd e) v)) = OUpdate px (Some (Rel (eid e) (set_xat v px)))) /\
  (forall err, snd (step g s (Cancel (ekey e) (ecmd e) err)) = OCancel (Some (Rel (eid e) (eval e)))) /\
  (forall err, In (eid e) (released (snd (step g s (Close err))))).
Proof.
  intros g ops e Hw He Hp s. pose proof (inv_run g ops init Hw inv_init) as Hi. fold s in Hi, He.
  pose proof (inv_lookup s e Hi He) as Hl.
  split; [|split].
  - intros v px. cbn [step]. apply update_reports; assumption.
  - intro err. cbn [step]. apply (cancel_releases s _ _ e Hi He eq_refl Hp).
  - intro err. cbn [step]. apply close_releases; assumption.
Qed.
Print Assumptions C09_waiters_get_result.

(** No entry is released twice in any history (the Go code closes each entry's channel exactly once). *)
Theorem C09_released_once : forall g ops,
  Forall wf_op ops -> NoDup (flat_map released (trace g ops init)).
Proof.
  intros g ops Hw.
  assert (H0 : rel_inv [] init) by (split; [constructor|split; [intros ? []|intros ? ? ? []]]).
  exact (proj1 (rel_inv_run g ops init [] Hw inv_init H0)).
Qed.
Print Assumptions C09_released_once.

(** A cancelled flight is not cached: right after the Cancel that released it, the command is absent
    and the next Flight is a Miss again (later lookups can only hit a reply committed by a later Update:
    C06_no_stale_hit). *)
Theorem C09_not_cached_after_cancel : forall g ops e err ttl now,
  Forall wf_op ops -> In e (order (run g ops init)) -> pending e = true ->
  let s' := fst (step g (run g ops init) (Cancel (ekey e) (ecmd e) err)) in
  lookup (ekey e) (ecmd e) (order s') = None /\
  snd (step g s' (Flight (ekey e) (ecmd e) ttl now)) = OFlight (pending_msg ttl now) None.
Proof.
  intros g ops e err ttl now Hw He Hp. exact (not_cached_after_cancel _ e ttl now (inv_run g ops init Hw inv_init) He Hp).
Qed.
Print Assumptions C09_not_cached_after_cancel.

(** ** NewSimpleCacheAdapter (cache.go), any history incl. its two critical sections and arbitrary
    evictions of the underlying SimpleCache *)

(** a Miss on an open adapter starts a flight ... *)
Theorem C09_adapter_miss_starts_flight : forall ops k c ttl now,
  let s := arun ops ainit in
  aflights s <> None -> snd (astep s (AFlight k c ttl now)) = AOFlight empty_msg None ->
  a_pending (fst (astep s (AFlight k c ttl now))) k c (mkAE (anext s) (unix_milli (now + ttl))).
Proof. intros ops k c ttl now s. apply a_miss_starts_flight. Qed.
Print Assumptions C09_adapter_miss_starts_flight.

(** ... which stays until its own Update / Cancel or Close; meanwhile no lookup of the command is told to
    send a request: it waits on that flight (or is served a live value of the SimpleCache) ... *)
Theorem C09_adapter_single_flight : forall ops mid o k c ae a,
  a_pending (arun ops ainit) k c ae ->
  Forall (fun o' => ~ a_resolves k c o') mid ->
  In a (a_answers k c o (snd (astep (arun (ops ++ mid) ainit) o))) ->
  a = AWait (aid ae) \/ exists v, a = AHit v.
Proof.
  intros ops mid o k c ae a Hp Hr. apply a_single_flight. apply a_flight_persists_run; assumption.
Qed.
Print Assumptions C09_adapter_single_flight.

(** ... and Update / Cancel / Close deliver the value resp. the error to its waiters; Cancel leaves the
    SimpleCache untouched (nothing is cached for the failed request). *)
Theorem C09_adapter_waiters_get_result : forall ops k c ae,
  let s := arun ops ainit in
  a_pending s k c ae ->
  (forall v, exists px v', snd (astep s (AUpdate k c v)) = AOUpdate px (Some (Rel (aid ae) v')) /\
                           (v' = v \/ v' = set_xat v (trunc56 (axat ae)))) /\
  (forall err, snd (astep s (ACancel k c err)) = AOCancel (Some (aid ae)) /\
               astore (fst (astep s (ACancel k c err))) = astore s) /\
  (forall err, In (aid ae) (a_released (snd (astep s (AClose err))))).
Proof. intros ops k c ae s. apply a_waiters_get_result. Qed.
Print Assumptions C09_adapter_waiters_get_result.

(** non-vacuity: a miss, two waiters (one through Flights), an unrelated update, then Update / Cancel *)
Definition ex_g := mkCfg 3760 336 40.
Definition kA : bytes := [97%N]. Definition kB : bytes := [98%N]. Definition cG : bytes := [71%N].
Definition ex_pre : list op := [Flight kB cG 1000000 0; Update kB cG (Msg 36 0 [1%N] [] 0 true)].
Definition ex_mid : list op := [Flight kB cG 5 5; Delete (Some [kA]); Delete None; Flights 7 [FI kA cG 9; FI kB cG 9]].

Example C09_nonvacuous :
  closed (run ex_g ex_pre init) = false /\
  snd (step ex_g (run ex_g ex_pre init) (Flight kA cG 1000000 0)) = OFlight (pending_msg 1000000 0) None /\
  Forall (fun o' => ~ resolves kA cG o') ex_mid /\
  answers kA cG (Flights 9 [FI kA cG 1; FI kA cG 2])
          (snd (step ex_g (run ex_g (ex_pre ++ Flight kA cG 1000000 0 :: ex_mid) init) (Flights 9 [FI kA cG 1; FI kA cG 2])))
    = [AWait 1%N; AWait 1%N] /\
  next_id (run ex_g ex_pre init) = 1%N /\
  snd (step ex_g (run ex_g (ex_pre ++ Flight kA cG 1000000 0 :: ex_mid) init) (Cancel kA cG 7))
    = OCancel (Some (Rel 1%N (pending_msg 1000000 0))).
Proof.
  split; [reflexivity|]. split; [vm_compute; reflexivity|].
  split; [repeat constructor; cbn; try tauto; intros [H _]; discriminate|].
  split; [vm_compute; reflexivity|]. split; vm_compute; reflexivity.
Qed.
