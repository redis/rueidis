(** C39 — Cache-aside reads never leak locks and load once.

    Model: Model/Aside.v — a store on one server clock (cached keys: loader value or the placeholder = id of the
    loading client; liveness keys of the clients), any number of clients with explicit client-side caches,
    tracking and in-flight invalidations, any number of Gets, each a state machine with one atomic step per
    round trip / loader call / wake-up.  The theorems quantify over all schedules ([list alabel]).
    [Forall label_ok ls] states the assumptions on the environment: loaders and other applications never
    produce a value with the placeholder prefix "rueidisid:", cached keys are not placeholder-shaped, client
    ids are (keepalive builds them so).  Not modelled (partial): real time (ClientTTL refresh, the Get's
    context timeout and expiry are steps that may happen), a SET NX whose reply is lost, OverrideCacheTTL.

    keepalive is three steps ([AKeepReuse]: c.id was set; [AKeep]: the SET of a fresh marker; [AInstall]: the
    second critical section), so several Gets of one client that all saw c.id == "" race in the model as they do
    in the code; C39_lock_id_is_installed_id states what the code's [else { id = c.id }] is there for. *)
From Coq Require Import List Arith NArith ZArith Bool.
Require Import RV.Model.Base RV.Model.ListUpd RV.Proofs.ListUpdProofs RV.Model.Aside RV.Proofs.AsideProofs.
Import ListNotations.
Open Scope nat_scope.

(** A Get never returns the lock placeholder — neither as a value nor next to an error. *)
Theorem C39_no_placeholder_returned :
  forall (cttl now : Z) (ls : list alabel) (s : astate) (gi : nat) (g : get) (r : gres),
    Forall label_ok ls -> arun cttl (ainit now) ls = Some s ->
    nth_error (a_gets s) gi = Some g -> g_st g = GSDone r ->
    match r with ROk v | RErr v _ => is_ph v = false end.
Proof.
  intros cttl now ls s gi g r HL HR Hg Hs.
  destruct (vinv_get s gi g (vinv_run cttl ls _ _ (vinv_init now) HL HR) Hg) as [_ H]. rewrite Hs in H. destruct r; apply H.
Qed.
Print Assumptions C39_no_placeholder_returned.

(** A value returned without error was produced by a loader for that key (or written for that key by another
    application): [a_loaded] / [a_ext] record every such production. *)
Theorem C39_value_origin :
  forall (cttl now : Z) (ls : list alabel) (s : astate) (gi : nat) (g : get) (v : bytes),
    Forall label_ok ls -> arun cttl (ainit now) ls = Some s ->
    nth_error (a_gets s) gi = Some g -> g_st g = GSDone (ROk v) ->
    In (g_key g, v) (a_loaded s) \/ In (g_key g, v) (a_ext s).
Proof.
  intros cttl now ls s gi g v HL HR Hg Hs.
  destruct (vinv_get s gi g (vinv_run cttl ls _ _ (vinv_init now) HL HR) Hg) as [_ H]. rewrite Hs in H. apply H.
Qed.
Print Assumptions C39_value_origin.

(** Single loader while alive.  [a_lock s] lists, per key, the Get whose loader was started (its SET NX
    succeeded) and whose lock nothing has removed since.  (a) there is at most one such Get per key; (b) it is
    between its loader call and its setkey / delkey script and the key carries its client's id, so no other
    loader can start (c: a loader starts only on an absent key, and registers); (d) the registration is removed
    only by the Get's own setkey / delkey, by a script that changes the key (which for a foreign delkey means
    the holder was found dead, see C39_release_needs_dead_holder), by DEL / a foreign write, or by a clock
    advance (expiry). *)
Theorem C39_single_loader_while_alive :
  forall (cttl now : Z) (ls : list alabel) (s : astate) (k : bytes) (g1 g2 : nat),
    Forall label_ok ls -> arun cttl (ainit now) ls = Some s ->
    In (k, g1) (a_lock s) -> In (k, g2) (a_lock s) -> g1 = g2.
Proof.
  intros cttl now ls s k g1 g2 HL HR H1 H2.
  destruct (both_run cttl ls _ _ (conj (vinv_init now) (linv_init now)) HL HR) as [_ HI].
  exact (NoDup_map_fst_inj _ _ _ _ (l_nodup _ HI) H1 H2).
Qed.
Print Assumptions C39_single_loader_while_alive.

Theorem C39_registered_loader_holds_lock :
  forall (cttl now : Z) (ls : list alabel) (s : astate) (k : bytes) (gi : nat),
    Forall label_ok ls -> arun cttl (ainit now) ls = Some s -> In (k, gi) (a_lock s) ->
    exists g id, nth_error (a_gets s) gi = Some g /\ g_key g = k /\ holding (g_st g) id /\ sget (a_store s) k = Some id.
Proof.
  intros cttl now ls s k gi HL HR H.
  destruct (both_run cttl ls _ _ (conj (vinv_init now) (linv_init now)) HL HR) as [_ HI].
  destruct (l_entries _ HI k gi H) as (g & id & Hg & Hk & Hh & Hs). apply holding_holder in Hh. eauto 6.
Qed.
Print Assumptions C39_registered_loader_holds_lock.

Theorem C39_loader_starts_on_absent_key :
  forall (cttl : Z) (s s' : astate) (gi : nat) (g : get) (id : bytes),
    nth_error (a_gets s) gi = Some g -> g_st g = GSLock id ->
    astep_r cttl s (ALock gi false) = Some (s', OVal None) ->
    sget (a_store s) (g_key g) = None /\ In (g_key g, gi) (a_lock s') /\
    exists g', nth_error (a_gets s') gi = Some g' /\ g_st g' = GSLoad id.
Proof.
  intros cttl s s' gi g id Hg Hs HR. cbn [astep_r] in HR. rewrite Hg, Hs in HR. unfold srv_lock in HR.
  destruct (sget (a_store s) (g_key g)) as [x|] eqn:E; [inversion HR|].
  injection HR as <-. split; [reflexivity|]. cbn [with_get a_lock a_gets]. split; [left; reflexivity|].
  exists (set_st g (GSLoad id)). split; [|reflexivity].
  apply nth_error_upd_same. eapply nth_error_lt; eauto.
Qed.
Print Assumptions C39_loader_starts_on_absent_key.

Theorem C39_registration_persists :
  forall (cttl : Z) (s s' : astate) (l : alabel) (k : bytes) (gi : nat),
    astep cttl s l = Some s' -> ~ disturbs s l k gi -> In (k, gi) (a_lock s) -> In (k, gi) (a_lock s').
Proof.
  intros cttl s s' l k gi HS HD Hin. apply astep_shape in HS.
  (* only [put], [unlock_get] and a clock advance remove lock entries *)
  destruct HS; cbn [disturbs] in HD; try exact Hin;
    try (rewrite <- (proj1 (proj2 (cached_read_frame Ecr))) in Hin; exact Hin);
    try (assert (Nk : g_key g <> k) by (intros E; apply HD; unfold key_of; rewrite Hg, E; auto));
    try (apply In_lock_put; assumption).
  - (* sh_lock_free *) right. exact Hin.
  - (* sh_store *) apply In_lock_get. split; [apply In_lock_put; assumption|]. intros ->. tauto.
  - (* sh_unlock *) apply In_lock_get. split; [apply In_lock_put; assumption|]. intros ->. tauto.
  - (* sh_tick *) destruct (HD I).
Qed.
Print Assumptions C39_registration_persists.

(** a Get deletes somebody's placeholder only after a read of that client's liveness key that found nothing:
    a real read sees the server as it is (the only other way into GSRelease is a cached nil) *)
Theorem C39_release_needs_dead_holder :
  forall (cttl : Z) (s s' : astate) (gi : nat) (g g' : get) (ph : bytes) (o : aobs),
    nth_error (a_gets s) gi = Some g -> g_st g = GSProbe ph ->
    astep_r cttl s (AProbe gi false false) = Some (s', o) ->
    nth_error (a_gets s') gi = Some g' -> g_st g' = GSRelease ph -> sget (a_store s) ph = None.
Proof.
  intros cttl s s' gi g g' ph o Hg Hs HR Hg' Hs'. cbn [astep_r] in HR. rewrite Hg, Hs in HR.
  destruct (nth_error (a_cls s) (g_cl g)) as [cl|] eqn:Hc; [|discriminate]. cbn [cached_read] in HR.
  injection HR as <- _. cbn [with_get a_gets] in Hg'.
  rewrite nth_error_upd_same in Hg' by (eapply nth_error_lt; eauto).
  injection Hg' as <-. cbn [set_st g_st] in Hs'. destruct (sget (a_store s) ph); [discriminate|reflexivity].
Qed.
Print Assumptions C39_release_needs_dead_holder.

(** Dead lock released.  From any state in which the key carries the placeholder of a client whose liveness key
    is gone, a Get of another client that is about to read (with a loader, nothing cached for the two keys)
    gets through on its own seven steps and starts its loader. *)
Theorem C39_dead_lock_released :
  forall (cttl : Z) (s : astate) (gi : nat) (g : get) (cl : client) (ph newid : bytes),
    focus s gi g cl -> g_st g = GSRead -> g_fn g = true ->
    sget (a_store s) (g_key g) = Some ph -> is_ph ph = true -> sget (a_store s) ph = None ->
    is_ph (g_key g) = false -> is_ph newid = true ->
    exists s' g' id,
      arun cttl s [ARead gi false false; AProbe gi false false; ARelease gi true; ARead gi false false;
                   AKeep gi newid false; AInstall gi; ALock gi false] = Some s' /\
      nth_error (a_gets s') gi = Some g' /\ g_st g' = GSLoad id /\
      sget (a_store s') (g_key g) = Some id /\ In (g_key g, gi) (a_lock s').
Proof.
  intros cttl s gi g cl ph newid F0 Hs Hfn Hk Hph Hdead Hkey Hnew.
  destruct (run_release_dead cttl s gi g cl ph F0 Hs Hk Hph Hdead) as (s3 & g3 & cl3 & R3 & F3 & (K3 & _ & Fn3 & _) & S3 & St3).
  destruct (run_load_absent cttl s3 gi g3 cl3 newid F3 St3) as (s' & g' & id & R & H).
  { congruence. }
  { rewrite K3, S3. apply sget_sdel_same. }
  { rewrite K3. apply is_ph_neq; assumption. }
  exists s', g', id. rewrite K3 in H. split; [exact (arun_trans _ _ _ _ _ _ R3 R)|exact H].
Qed.
Print Assumptions C39_dead_lock_released.

(** The lock id is the installed id.  Whatever races in keepalive (several Gets of one client, each with a fresh
    marker of its own), a Get that is about to lock, whose loader runs, or that stores / unlocks, does it under
    the id installed in its client at that moment — as long as the client did not lose its connection.  That id
    is the one the refresh goroutine extends, so the holder stays alive for the other clients while it loads
    (the markers of the losers of the race are abandoned: they expire, nothing points to them). *)
Theorem C39_lock_id_is_installed_id :
  forall (cttl now : Z) (ls : list alabel) (s : astate) (gi : nat) (g : get) (id : bytes),
    arun cttl (ainit now) ls = Some s -> ~ In (ALost (g_cl g)) ls ->
    nth_error (a_gets s) gi = Some g -> (g_st g = GSLock id \/ holding (g_st g) id) ->
    exists cl, nth_error (a_cls s) (g_cl g) = Some cl /\ cl_id cl = Some id.
Proof.
  intros cttl now ls s gi g id HR HN Hg Hu.
  exact (idinv_run cttl (g_cl g) ls _ _ (idinv_init _ now) HN HR gi g id Hg eq_refl (uses_user _ _ Hu)).
Qed.
Print Assumptions C39_lock_id_is_installed_id.

Theorem C39_refresh_extends_lock_id :
  forall (cttl now : Z) (ls : list alabel) (s : astate) (gi : nat) (g : get) (id : bytes),
    arun cttl (ainit now) ls = Some s -> ~ In (ALost (g_cl g)) ls ->
    nth_error (a_gets s) gi = Some g -> (g_st g = GSLock id \/ holding (g_st g) id) ->
    exists s', astep cttl s (ARefresh (g_cl g)) = Some s' /\ In (id, ([], a_now s + cttl)%Z) (a_store s').
Proof.
  intros cttl now ls s gi g id HR HN Hg Hu.
  destruct (C39_lock_id_is_installed_id cttl now ls s gi g id HR HN Hg Hu) as (cl & Hc & Hid).
  unfold astep. cbn [astep_r]. rewrite Hc, Hid. eexists. split; [reflexivity|]. left. reflexivity.
Qed.
Print Assumptions C39_refresh_extends_lock_id.

(** Waiting for the result (partial: delivery of invalidations is the environment's).  A Get that waits with
    both channels open is registered at the server for the key and for the holder's liveness key (tracked, or
    the invalidation is on its way); a write to a tracked key queues the invalidation; its delivery wakes the
    Get, which reads again. *)
Theorem C39_waiter_not_forgotten_partial :
  forall (cttl now : Z) (ls : list alabel) (s : astate) (gi : nat) (g : get) (ph : bytes),
    arun cttl (ainit now) ls = Some s -> nth_error (a_gets s) gi = Some g -> g_st g = GSWait ph ->
    g_wait_closed g = false -> g_ph_closed g = false ->
    pending s (g_cl g) (g_key g) /\ pending s (g_cl g) ph.
Proof.
  intros cttl now ls s gi g ph HR Hg Hs Hw Hp. pose proof (winv_run cttl ls _ _ (winv_init now) HR) as HW. split.
  - destruct (w_key _ HW gi g Hg) as [H|H]; [rewrite Hs; reflexivity|congruence|exact H].
  - destruct (w_ph _ HW gi g ph Hg) as [H|H]; [rewrite Hs; reflexivity|congruence|exact H].
Qed.
Print Assumptions C39_waiter_not_forgotten_partial.

Theorem C39_write_notifies_partial :
  forall (s : astate) (st' : store) (k : bytes) (u : bool) (c : nat),
    In (c, k) (a_track s) -> In (c, k) (a_infl (write s st' k u)).
Proof.
  intros s st' k u c H. unfold write, touch. cbn [a_infl]. apply in_or_app. right. apply filter_In. split; [exact H|].
  cbn [snd]. apply BytesProofs.bytes_eqb_refl.
Qed.
Print Assumptions C39_write_notifies_partial.

Theorem C39_invalidation_wakes_partial :
  forall (cttl : Z) (s : astate) (gi : nat) (g : get) (cl : client) (ph k : bytes),
    nth_error (a_gets s) gi = Some g -> g_st g = GSWait ph -> nth_error (a_cls s) (g_cl g) = Some cl ->
    In (g_cl g, k) (a_infl s) -> k = g_key g \/ k = ph ->
    exists s1 s2 g2, astep cttl s (AInval (g_cl g) [k]) = Some s1 /\ astep cttl s1 (AWake gi) = Some s2 /\
                     nth_error (a_gets s2) gi = Some g2 /\ g_st g2 = GSRead.
Proof.
  intros cttl s gi g cl ph k Hg Hs Hc Hin Hk.
  assert (Hm : mem_pair (g_cl g, k) (a_infl s) = true) by (apply mem_pair_In, Hin).
  unfold astep. cbn [astep_r]. rewrite Hc. cbn [forallb]. rewrite Hm. cbn [andb].
  eexists; eexists; eexists. split; [reflexivity|]. cbn [a_gets]. rewrite nth_error_map, Hg. cbn [option_map].
  rewrite (proj1 (proj2 (close_waits_fields (g_cl g) [k] g))), Hs, (close_waits_wakes g ph k Hs Hk). split; [reflexivity|].
  cbn [with_get a_gets]. split; [|apply enter_st].
  apply nth_error_upd_same. rewrite map_length. eapply nth_error_lt; eauto.
Qed.
Print Assumptions C39_invalidation_wakes_partial.

(** non-vacuity: two clients, one key; client 0 loads while client 1 waits and is woken by the result *)

Definition kk : bytes := [107%N].
Definition id0 : bytes := ph_prefix ++ [48%N].
Definition vv : bytes := [118%N; 49%N].

Definition demo : list alabel :=
  [ANewClient; ANewClient;
   AStartGet 0 kk 4000%Z true; ARead 0 false false; AKeep 0 id0 false; AInstall 0; ALock 0 false;
   AStartGet 1 kk 4000%Z true; ARead 1 false false; AProbe 1 false false;
   ALoad 0 (Some vv); AStore 0 true true;
   AInval 1 [kk]; AWake 1; ARead 1 false false].

Example C39_nonvacuous :
  exists s, arun 4000%Z (ainit 0%Z) demo = Some s /\
            map gdone (a_gets s) = [Some (ROk vv); Some (ROk vv)] /\
            a_loaded s = [(kk, vv)] /\ a_lock s = [] /\ sget (a_store s) kk = Some vv.
Proof. eexists. vm_compute. repeat split; reflexivity. Qed.

Example C39_nonvacuous_labels : Forall label_ok demo.
Proof. unfold demo. repeat constructor. Qed.

(** while client 0 loads, it is the registered loader and client 1 waits with open channels, pending at the server *)
Example C39_nonvacuous_midway :
  exists s g, arun 4000%Z (ainit 0%Z) (firstn 10 demo) = Some s /\ a_lock s = [(kk, 0)] /\
              nth_error (a_gets s) 1 = Some g /\ g_st g = GSWait id0 /\ g_wait_closed g = false /\ g_ph_closed g = false.
Proof. eexists; eexists. vm_compute. repeat split; reflexivity. Qed.

(** non-vacuity of the keepalive race: two Gets of ONE fresh client (keys kk, k2) both miss, both SET a marker
    of their own (id0, id1); Get 1 is first through the second critical section, so id1 is installed and BOTH
    lock with id1; after ClientTTL without a refresh of id0 (id1 is refreshed half way) the abandoned marker id0
    is gone, id1 is alive, and a Get of a second client that finds kk locked waits instead of releasing *)
Definition k2 : bytes := [107%N; 50%N].
Definition id1 : bytes := ph_prefix ++ [49%N].
Definition id2 : bytes := ph_prefix ++ [50%N].

Definition race : list alabel :=
  [ANewClient; ANewClient;
   AStartGet 0 kk 60000%Z true; AStartGet 0 k2 60000%Z true;
   ARead 0 false false; ARead 1 false false;
   AKeep 0 id0 false; AKeep 1 id1 false; AInstall 1; AInstall 0;
   ALock 0 false; ALock 1 false;
   ATick 2000%Z; ARefresh 0; ATick 2500%Z;
   AStartGet 1 kk 60000%Z true; ARead 2 false false; AProbe 2 false false].

Example C39_race_nonvacuous :
  exists s g, arun 4000%Z (ainit 0%Z) race = Some s /\
            sget (a_store s) kk = Some id1 /\ sget (a_store s) k2 = Some id1 /\
            sget (a_store s) id0 = None /\ sget (a_store s) id1 = Some [] /\
            a_lock s = [(k2, 1); (kk, 0)] /\
            nth_error (a_gets s) 2 = Some g /\ g_st g = GSWait id1.
Proof. eexists; eexists. vm_compute. repeat split; reflexivity. Qed.

Example C39_race_labels : Forall label_ok race.
Proof. unfold race. repeat constructor. Qed.
