(** NewSimpleCacheAdapter (Model/Adapter.v): the SimpleCache and the flights table as finite maps, the
    invariant, every answer as Flight's result on the state it ran on, and what one step does to a row of
    the table and to the values stored. *)
From Coq Require Import List NArith ZArith Bool Lia.
Require Import RV.Model.Base RV.Model.Lru RV.Model.Adapter RV.Proofs.BytesProofs RV.Proofs.LruBase.
Import ListNotations.
Open Scope Z_scope.

Lemma sdel_in sk l r : In r (sdel sk l) <-> In r l /\ sr_key r <> sk.
Proof.
  unfold sdel. rewrite filter_In, negb_true_iff, bytes_eqb_neq. split; intros [A B]; split; auto.
Qed.

Lemma sget_in sk l v : is_pending_msg v = false -> sget sk l = v -> In (SR sk v) l.
Proof.
  intros Hv. induction l as [|[k w] r IH]; cbn [sget]; intro H.
  - subst v. discriminate.
  - destruct (bytes_eqb sk k) eqn:E.
    + apply bytes_eqb_eq in E. subst. left. reflexivity.
    + right. apply IH. exact H.
Qed.

Lemma sget_unique sk l v : NoDup (map sr_key l) -> In (SR sk v) l -> sget sk l = v.
Proof.
  intros Hnd Hin. induction l as [|[k w] r IH]; [contradiction|].
  cbn [map sr_key] in Hnd. inversion Hnd as [|? ? Hk Hr]; subst. cbn [sget].
  destruct Hin as [Hin|Hin].
  - injection Hin as -> ->. rewrite bytes_eqb_refl. reflexivity.
  - destruct (bytes_eqb sk k) eqn:E; [|apply IH; assumption].
    apply bytes_eqb_eq in E. subst. exfalso. apply Hk. change k with (sr_key (SR k v)). apply in_map. exact Hin.
Qed.

Lemma sdel_nodup sk l : NoDup (map sr_key l) -> NoDup (map sr_key (sdel sk l)).
Proof. apply NoDup_map_filter. Qed.

Lemma sset_nodup sk v l : NoDup (map sr_key l) -> NoDup (map sr_key (sset sk v l)).
Proof.
  intro H. unfold sset. cbn [map sr_key]. constructor; [|apply sdel_nodup; exact H].
  intro Hin. apply in_map_iff in Hin. destruct Hin as [r [Hr Hin]]. apply sdel_in in Hin. tauto.
Qed.

Lemma sget_sset sk v l : sget sk (sset sk v l) = v.
Proof. unfold sset. cbn [sget]. rewrite bytes_eqb_refl. reflexivity. Qed.

Lemma fold_sdel_in (gone : list flrow) : forall st r,
  In r (fold_left (fun st x => sdel (fr_key x ++ fr_cmd x) st) gone st) <->
  In r st /\ forall x, In x gone -> sr_key r <> fr_key x ++ fr_cmd x.
Proof.
  induction gone as [|g gone IH]; intros st r; cbn [fold_left].
  - split; [intro H; split; [exact H|intros ? []]|tauto].
  - rewrite IH, sdel_in. split.
    + intros [[A B] C]. split; [exact A|]. intros x [<-|Hx]; [exact B|apply C; exact Hx].
    + intros [A B]. split; [split; [exact A|apply B; left; reflexivity]|]. intros x Hx. apply B. right. exact Hx.
Qed.

Lemma fold_sdel_nodup (gone : list flrow) : forall st,
  NoDup (map sr_key st) -> NoDup (map sr_key (fold_left (fun st x => sdel (fr_key x ++ fr_cmd x) st) gone st)).
Proof.
  induction gone as [|g gone IH]; intros st H; cbn [fold_left]; [exact H|]. apply IH. apply sdel_nodup. exact H.
Qed.

Definition frkc (r : flrow) : bytes * bytes := (fr_key r, fr_cmd r).

Lemma fmatch_iff k c r : fmatch k c r = true <-> frkc r = (k, c).
Proof. apply kc_eqb_iff. Qed.

Lemma fmatch_false k c r : fmatch k c r = false <-> frkc r <> (k, c).
Proof. rewrite <- fmatch_iff. symmetry. apply not_true_iff_false. Qed.

Lemma flookup_fset_same k c x l : flookup k c (fset k c x l) = Some x.
Proof.
  unfold flookup, fset. cbn [find]. assert (E : fmatch k c (FR k c x) = true) by (apply fmatch_iff; reflexivity).
  rewrite E. reflexivity.
Qed.

Lemma find_filter_other {A : Type} (p q : A -> bool) l :
  (forall x, p x = true -> q x = true) -> find p (filter q l) = find p l.
Proof.
  intro H. induction l as [|x r IH]; [reflexivity|]. cbn [filter find].
  destruct (q x) eqn:Eq; cbn [find].
  - destruct (p x); [reflexivity|exact IH].
  - destruct (p x) eqn:Ep; [rewrite (H x Ep) in Eq; discriminate|exact IH].
Qed.

Lemma flookup_fset_other k c k1 c1 x l : (k1, c1) <> (k, c) -> flookup k c (fset k1 c1 x l) = flookup k c l.
Proof.
  intro Hne. unfold flookup, fset, fdel. cbn [find].
  assert (E : fmatch k c (FR k1 c1 x) = false) by (apply fmatch_false; exact Hne). rewrite E.
  f_equal. apply find_filter_other. intros r Hr. apply negb_true_iff. apply fmatch_false.
  apply fmatch_iff in Hr. congruence.
Qed.

Lemma flookup_some k c l x : flookup k c l = Some x -> In (FR k c x) l.
Proof.
  unfold flookup. destruct (find (fmatch k c) l) as [r|] eqn:E; [|discriminate].
  cbn. intros [= <-]. apply find_some in E. destruct E as [A B]. apply fmatch_iff in B.
  destruct r as [k' c' e]. unfold frkc in B. cbn in B. injection B as -> ->. exact A.
Qed.

Lemma flookup_unique k c l x : NoDup (map frkc l) -> In (FR k c x) l -> flookup k c l = Some x.
Proof.
  intros Hnd Hin. destruct (flookup k c l) as [y|] eqn:E.
  - apply flookup_some in E. pose proof (NoDup_map_inj frkc l _ _ Hnd E Hin eq_refl) as [= ->]. reflexivity.
  - unfold flookup in E. destruct (find (fmatch k c) l) eqn:Ef; [discriminate|].
    pose proof (find_none _ _ Ef _ Hin) as H. apply fmatch_false in H. elim H. reflexivity.
Qed.

Lemma fset_nodup k c x l : NoDup (map frkc l) -> NoDup (map frkc (fset k c x l)).
Proof.
  intro H. unfold fset. cbn [map]. constructor; [|apply NoDup_map_filter; exact H].
  intro Hin. apply in_map_iff in Hin. destruct Hin as [r [Hr Hin]]. unfold fdel in Hin.
  apply filter_In in Hin. destruct Hin as [_ Hin]. apply negb_true_iff, fmatch_false in Hin. exact (Hin Hr).
Qed.

Record ainv (s : astate) : Prop := mkAInv {
  ai_store : NoDup (map sr_key (astore s));
  ai_fl : forall fl, aflights s = Some fl -> NoDup (map frkc fl);
  ai_closed : aflights s = None -> astore s = []
}.

Lemma ainv_init : ainv ainit.
Proof. constructor; cbn; [constructor|intros fl [= <-]; constructor|discriminate]. Qed.

Lemma ainv_fset s fl k c x st n :
  ainv s -> aflights s = Some fl -> NoDup (map sr_key st) -> ainv (mkA (Some (fset k c x fl)) st n).
Proof.
  intros Hi Ef Hst. constructor; cbn [astore aflights]; [exact Hst|intros ? [= <-]; apply fset_nodup, (ai_fl s Hi), Ef|discriminate].
Qed.

Lemma ainv_aslow s k c ttl now : ainv s -> ainv (fst (aslow s k c ttl now)).
Proof.
  intros Hi. unfold aslow. destruct (a_live _ now); [exact Hi|].
  destruct (aflights s) as [fl|] eqn:Ef; [|exact Hi].
  destruct (flookup k c fl) as [[ae|]|]; [exact Hi| |]; exact (ainv_fset s fl _ _ _ _ _ Hi Ef (ai_store s Hi)).
Qed.

Lemma ainv_step s o : ainv s -> ainv (fst (astep s o)).
Proof.
  intros Hi. destruct o; cbn [astep fst].
  - (* AFlight *) unfold aflight. destruct (afast s k c now); try exact Hi; apply ainv_aslow; exact Hi.
  - (* AUpdate *) unfold aupdate. destruct (aflights s) as [fl|] eqn:Ef; [|exact Hi].
    destruct (flookup k c fl) as [[ae|]|]; try exact Hi. exact (ainv_fset s fl _ _ _ _ _ Hi Ef (sset_nodup _ _ _ (ai_store s Hi))).
  - (* ACancel *) unfold acancel. destruct (aflights s) as [fl|] eqn:Ef; [|exact Hi].
    destruct (flookup k c fl) as [[ae|]|]; try exact Hi. exact (ainv_fset s fl _ _ _ _ _ Hi Ef (ai_store s Hi)).
  - (* ADelete *) assert (H : forall p, ainv (adel_if p s)); [|unfold adelete; destruct keys; apply H].
    intro p. unfold adel_if. destruct (aflights s) as [fl|] eqn:Ef; [|exact Hi].
    constructor; cbn [astore aflights]; [apply fold_sdel_nodup, (ai_store s Hi)|intros ? [= <-]; apply NoDup_map_filter, (ai_fl s Hi), Ef|discriminate].
  - (* AClose *) constructor; cbn; [constructor|discriminate|reflexivity].
  - (* AStoreDrop *) constructor; cbn [astore aflights]; [apply sdel_nodup, (ai_store s Hi)|apply (ai_fl s Hi)|].
    intro H. rewrite (ai_closed s Hi H). reflexivity.
  - (* AFlightFast *) exact Hi.
  - (* AFlightSlow *) apply ainv_aslow; exact Hi.
Qed.

Lemma arun_snoc ops o s : arun (ops ++ [o]) s = fst (astep (arun ops s) o).
Proof. unfold arun. rewrite fold_left_app. reflexivity. Qed.

Lemma ainv_run ops : ainv (arun ops ainit).
Proof. induction ops as [|o ops IH] using rev_ind; [apply ainv_init|]. rewrite arun_snoc. apply ainv_step. exact IH. Qed.

(** the flight a lookup of (k, c) would wait on *)
Definition await (s : astate) (k c : bytes) : option N :=
  match aflights s with
  | Some fl => match flookup k c fl with Some (Some ae) => Some (aid ae) | _ => None end
  | None => None
  end.

(** the message and entry Flight returns: a live value of the SimpleCache wins over a flight *)
Definition aflight_result (s : astate) (k c : bytes) (now : Z) : msg * option N :=
  let v := sget (k ++ c) (astore s) in if a_live v now then (v, None) else (empty_msg, await s k c).

Lemma aslow_out s k c ttl now : snd (aslow s k c ttl now) = AOFlight (fst (aflight_result s k c now)) (snd (aflight_result s k c now)).
Proof.
  unfold aslow, aflight_result, await. cbv zeta. destruct (a_live _ now); [reflexivity|].
  destruct (aflights s) as [fl|]; [|reflexivity]. destruct (flookup k c fl) as [[ae|]|]; reflexivity.
Qed.

Lemma afast_out s k c now :
  afast s k c now =
  if a_live (sget (k ++ c) (astore s)) now then AOFastHit (sget (k ++ c) (astore s))
  else match await s k c with Some id => AOFastWait id | None => AOFastNone end.
Proof.
  unfold afast, await. cbv zeta. destruct (a_live _ now); [reflexivity|].
  destruct (aflights s) as [fl|]; [|reflexivity]. destruct (flookup k c fl) as [[ae|]|]; reflexivity.
Qed.

Lemma aflight_out s k c ttl now : snd (aflight s k c ttl now) = AOFlight (fst (aflight_result s k c now)) (snd (aflight_result s k c now)).
Proof.
  unfold aflight. rewrite afast_out. pose proof (aslow_out s k c ttl now) as Hs. unfold aflight_result in *. cbv zeta in *.
  destruct (a_live (sget (k ++ c) (astore s)) now); [reflexivity|]. destruct (await s k c); [reflexivity|exact Hs].
Qed.

Lemma a_live_spec v now : a_live v now = true <-> is_pending_msg v = false /\ unix_milli now < m_xat v.
Proof.
  unfold a_live, rel_pttl. rewrite andb_true_iff, negb_true_iff, Z.ltb_lt. split; intros [A B]; split; auto; lia.
Qed.

(** every answer of every operation is the answer of Flight's result on the state it ran on (the read-locked
    section alone answers only when that is not a miss) *)
Lemma a_answers_result s o k c a :
  In a (a_answers k c o (snd (astep s o))) ->
  a = ans_of_flight (fst (aflight_result s k c (a_now_of o))) (snd (aflight_result s k c (a_now_of o))).
Proof.
  assert (Hk : forall k0 c0 l, In a (if bytes_eqb k k0 && bytes_eqb c c0 then l else []) -> (k0, c0) = (k, c) /\ In a l).
  { intros k0 c0 l Hl. destruct (bytes_eqb k k0 && bytes_eqb c c0) eqn:Ek; [|contradiction]. apply kc_eqb_iff in Ek. tauto. }
  intro H. destruct o as [k0 c0 ttl now|k0 c0 v0|k0 c0 err|keys|err|sk|k0 c0 now|k0 c0 ttl now];
    cbn [astep snd a_answers a_now_of] in *; try contradiction.
  - (* AFlight *) rewrite aflight_out in H. apply Hk in H. destruct H as [[= -> ->] [<-|[]]]. reflexivity.
  - (* AFlightFast *) rewrite afast_out in H. unfold aflight_result. cbv zeta.
    destruct (a_live (sget (k0 ++ c0) (astore s)) now) eqn:El.
    + apply Hk in H. destruct H as [[= -> ->] [<-|[]]]. rewrite El. apply a_live_spec in El.
      unfold ans_of_flight. cbn [fst snd]. rewrite (proj1 El). reflexivity.
    + destruct (await s k0 c0) eqn:Ew; [|contradiction].
      apply Hk in H. destruct H as [[= -> ->] [<-|[]]]. rewrite El, Ew. reflexivity.
  - (* AFlightSlow *) rewrite aslow_out in H. apply Hk in H. destruct H as [[= -> ->] [<-|[]]]. reflexivity.
Qed.

Definition a_hit_from (s : astate) (k c : bytes) (now : Z) (v : msg) : Prop :=
  In (SR (k ++ c) v) (astore s) /\ is_pending_msg v = false /\ unix_milli now < m_xat v.

Theorem astep_hit s o k c v :
  In (AHit v) (a_answers k c o (snd (astep s o))) -> a_hit_from s k c (a_now_of o) v.
Proof.
  intro H. apply a_answers_result in H. unfold aflight_result in H. cbv zeta in H.
  destruct (a_live (sget (k ++ c) (astore s)) (a_now_of o)) eqn:El.
  - apply a_live_spec in El. unfold ans_of_flight in H. cbn [fst snd] in H. rewrite (proj1 El) in H. injection H as ->.
    split; [apply sget_in; [apply El|reflexivity]|exact El].
  - cbn in H. destruct (await s k c); discriminate.
Qed.

Theorem a_hit_iff s k c ttl now v :
  ainv s -> In (SR (k ++ c) v) (astore s) -> is_pending_msg v = false ->
  (unix_milli now < m_xat v -> snd (aflight s k c ttl now) = AOFlight v None) /\
  (m_xat v <= unix_milli now -> forall w ce, snd (aflight s k c ttl now) = AOFlight w ce -> is_pending_msg w = true).
Proof.
  intros Hi Hin Hv. rewrite aflight_out. unfold aflight_result. cbv zeta.
  rewrite (sget_unique _ _ v (ai_store s Hi) Hin). pose proof (a_live_spec v now) as Hl.
  destruct (a_live v now); split; intro H; try reflexivity.
  - destruct (proj1 Hl eq_refl). lia.
  - discriminate (proj2 Hl (conj Hv H)).
  - intros w ce [= <- <-]. reflexivity.
Qed.

Definition a_pending (s : astate) (k c : bytes) (ae : aentry) : Prop :=
  exists fl, aflights s = Some fl /\ flookup k c fl = Some (Some ae).

(** while a flight for (k, c) is pending no lookup of (k, c) is told to send a request: it waits on
    that flight (or is served a live value of the SimpleCache) *)
Theorem a_single_flight s o k c ae a :
  a_pending s k c ae -> In a (a_answers k c o (snd (astep s o))) -> a = AWait (aid ae) \/ exists v, a = AHit v.
Proof.
  intros [fl [Hf Hl]] H. apply a_answers_result in H. subst a. unfold aflight_result, await. cbv zeta. rewrite Hf, Hl.
  destruct (a_live (sget (k ++ c) (astore s)) (a_now_of o)) eqn:E; [right|left; reflexivity].
  apply a_live_spec in E. unfold ans_of_flight. cbn [fst snd]. rewrite (proj1 E). eexists. reflexivity.
Qed.

(** row (k, c) of the table holds [x]: a pending entry, or the nil marker *)
Definition a_row (s : astate) (k c : bytes) (x : option aentry) : Prop :=
  exists fl, aflights s = Some fl /\ flookup k c fl = Some x.

Lemma kc_dec (k1 c1 k c : bytes) : {(k1, c1) = (k, c)} + {(k1, c1) <> (k, c)}.
Proof.
  destruct (list_eq_dec N.eq_dec k1 k) as [->|]; [destruct (list_eq_dec N.eq_dec c1 c) as [->|]|];
    [left; reflexivity|right; congruence..].
Qed.

Lemma a_row_fset s fl k1 c1 y st n k c x :
  aflights s = Some fl -> flookup k c fl = Some x -> (k1, c1) <> (k, c) ->
  a_row (mkA (Some (fset k1 c1 y fl)) st n) k c x.
Proof. intros Hf Hl Hne. eexists. split; [reflexivity|]. rewrite flookup_fset_other; assumption. Qed.

(** the write-locked section of a lookup of (k1, c1) leaves row (k, c) alone, unless it is that row, holds
    the marker, and no live value is stored: then it starts a flight *)
Lemma a_row_aslow s k1 c1 ttl now k c x :
  a_row s k c x ->
  a_row (fst (aslow s k1 c1 ttl now)) k c x \/
  (x = None /\ (k1, c1) = (k, c) /\ a_live (sget (k ++ c) (astore s)) now = false).
Proof.
  intros [fl [Hf Hl]]. assert (Hself : a_row s k c x) by (exists fl; split; assumption).
  unfold aslow. destruct (a_live _ now) eqn:El; [left; exact Hself|]. rewrite Hf.
  destruct (kc_dec k1 c1 k c) as [E|Hne].
  - injection E as -> ->. rewrite Hl. destruct x as [ae|]; [left; exact Hself|right]. repeat split. exact El.
  - left. destruct (flookup k1 c1 fl) as [[ae'|]|]; [exact Hself| |]; apply (a_row_fset s fl); assumption.
Qed.

(** adapter.del: the markers of the selected keys go, together with the values stored for them *)
Lemma a_row_adel_if p s k c x :
  ainv s -> a_row s k c x ->
  (a_row (adel_if p s) k c x /\ (x = None -> p k = false)) \/
  (x = None /\ p k = true /\ forall v, ~ In (SR (k ++ c) v) (astore (adel_if p s))).
Proof.
  intros Hi [fl [Hf Hl]]. unfold adel_if. rewrite Hf. pose proof (flookup_some _ _ _ _ Hl) as Hrow.
  destruct (p k && is_marker (FR k c x)) eqn:Eg.
  - right. apply andb_true_iff in Eg. destruct Eg as [Epk Em]. destruct x; [discriminate|].
    split; [reflexivity|]. split; [exact Epk|]. cbn [astore]. intros v Hv. apply fold_sdel_in in Hv.
    apply (proj2 Hv (FR k c None)); [|reflexivity]. apply filter_In. split; [exact Hrow|]. cbn. rewrite Epk. reflexivity.
  - left. split.
    + eexists. split; [reflexivity|]. apply flookup_unique; [apply NoDup_map_filter; apply (ai_fl s Hi); exact Hf|].
      apply filter_In. split; [exact Hrow|]. cbn [fr_key]. rewrite Eg. reflexivity.
    + intros ->. cbn in Eg. rewrite andb_true_r in Eg. exact Eg.
Qed.

(** What a step does to row (k, c) holding [x].  It stays as it is (a marker that stays was not invalidated),
    unless: a lookup of the command finds the marker and no live value and starts a flight; Update / Cancel /
    Close resolves the pending entry; an invalidation removes the marker together with the value stored for
    the command. *)
Inductive row_fate (s : astate) (o : aop) (s' : astate) (k c : bytes) (x : option aentry) : Prop :=
| rf_kept : a_row s' k c x -> (x = None -> ~ a_invalidates k o) -> row_fate s o s' k c x
| rf_started ttl now : x = None -> o = AFlight k c ttl now \/ o = AFlightSlow k c ttl now ->
    a_live (sget (k ++ c) (astore s)) now = false -> row_fate s o s' k c x
| rf_resolved : x <> None -> a_resolves k c o -> row_fate s o s' k c x
| rf_deleted : x = None -> a_invalidates k o -> (forall v, ~ In (SR (k ++ c) v) (astore s')) -> row_fate s o s' k c x.

Lemma row_fate_resolved s o fl k0 c0 ae' st n k c x :
  aflights s = Some fl -> flookup k c fl = Some x -> flookup k0 c0 fl = Some (Some ae') ->
  (forall k', ~ a_invalidates k' o) -> ((k0, c0) = (k, c) -> a_resolves k c o) ->
  row_fate s o (mkA (Some (fset k0 c0 None fl)) st n) k c x.
Proof.
  intros Hf Hl E1 Hno Hres. destruct (kc_dec k0 c0 k c) as [E|Hne].
  - apply rf_resolved; [injection E as -> ->; congruence|exact (Hres E)].
  - apply rf_kept; [apply (a_row_fset s fl); assumption|intros _; apply Hno].
Qed.

Lemma a_row_step s o k c x : ainv s -> a_row s k c x -> row_fate s o (fst (astep s o)) k c x.
Proof.
  intros Hi Hself. pose proof Hself as [fl [Hf Hl]].
  assert (Hsame : (forall k', ~ a_invalidates k' o) -> row_fate s o s k c x).
  { intros Hno. apply rf_kept; [exact Hself|intros _; apply Hno]. }
  destruct o as [k0 c0 ttl now|k0 c0 v0|k0 c0 err|keys|err|sk|k0 c0 now|k0 c0 ttl now]; cbn [astep fst].
  - (* AFlight *) unfold aflight. destruct (afast s k0 c0 now); try (apply Hsame; intros ? []);
      (destruct (a_row_aslow s k0 c0 ttl now k c x Hself) as [H|[Hx [[= -> ->] H]]];
       [apply rf_kept; [exact H|intros _ []]|exact (rf_started _ _ _ _ _ _ ttl now Hx (or_introl eq_refl) H)]).
  - (* AUpdate *) unfold aupdate. rewrite Hf. destruct (flookup k0 c0 fl) as [[ae'|]|] eqn:E1; try (apply Hsame; intros ? []).
    apply (row_fate_resolved s _ fl k0 c0 ae'); try assumption; [intros ? []|intros [= -> ->]; split; reflexivity].
  - (* ACancel *) unfold acancel. rewrite Hf. destruct (flookup k0 c0 fl) as [[ae'|]|] eqn:E1; try (apply Hsame; intros ? []).
    apply (row_fate_resolved s _ fl k0 c0 ae'); try assumption; [intros ? []|intros [= -> ->]; split; reflexivity].
  - (* ADelete *) clear Hsame. unfold adelete. destruct keys as [ks|].
    + destruct (a_row_adel_if (fun k' => existsb (bytes_eqb k') ks) s k c x Hi Hself) as [[H1 H2]|[H1 [H2 H3]]].
      * apply rf_kept; [exact H1|]. intros Hx Hin. assert (existsb (bytes_eqb k) ks = true); [|rewrite (H2 Hx) in *; discriminate].
        apply existsb_exists. exists k. split; [exact Hin|apply bytes_eqb_refl].
      * apply rf_deleted; [exact H1| |exact H3].
        apply existsb_exists in H2. destruct H2 as [y [Hy E]]. apply bytes_eqb_eq in E. subst. exact Hy.
    + destruct (a_row_adel_if (fun _ => true) s k c x Hi Hself) as [[H1 H2]|[H1 [_ H3]]].
      * apply rf_kept; [exact H1|]. intros Hx. discriminate (H2 Hx).
      * apply rf_deleted; [exact H1|exact I|exact H3].
  - (* AClose *) destruct x; [apply rf_resolved; [discriminate|exact I]|apply rf_deleted; [reflexivity|exact I|intros v []]].
  - (* AStoreDrop *) apply rf_kept; [exists fl; split; assumption|intros _ []].
  - (* AFlightFast *) apply Hsame; intros ? [].
  - (* AFlightSlow *) destruct (a_row_aslow s k0 c0 ttl now k c x Hself) as [H|[Hx [[= -> ->] H]]];
      [apply rf_kept; [exact H|intros _ []]|exact (rf_started _ _ _ _ _ _ ttl now Hx (or_intror eq_refl) H)].
Qed.

(** this step is the Update that commits [v] under [sk], leaving the marker behind *)
Definition commits (s : astate) (o : aop) (sk : bytes) (v : msg) : Prop :=
  exists k c v0, o = AUpdate k c v0 /\ sk = k ++ c /\ (exists x, v = set_xat v0 x) /\ a_row (fst (astep s o)) k c None.

Lemma a_store_step s o sk v :
  In (SR sk v) (astore (fst (astep s o))) -> In (SR sk v) (astore s) \/ commits s o sk v.
Proof.
  assert (Hslow : forall k c ttl now, astore (fst (aslow s k c ttl now)) = astore s).
  { intros. unfold aslow. destruct (a_live _ now); [reflexivity|]. destruct (aflights s) as [fl|]; [|reflexivity].
    destruct (flookup k c fl) as [[ae|]|]; reflexivity. }
  destruct o as [k0 c0 ttl now|k0 c0 v0|k0 c0 err|keys|err|sk0|k0 c0 now|k0 c0 ttl now]; cbn [astep fst].
  - (* AFlight *) unfold aflight. destruct (afast s k0 c0 now); rewrite ?Hslow; intro H; left; exact H.
  - (* AUpdate *) unfold aupdate. destruct (aflights s) as [fl|] eqn:Ef; [|intro H; left; exact H].
    destruct (flookup k0 c0 fl) as [[ae|]|] eqn:El; try (intro H; left; exact H).
    cbn [fst astore sset]. intros [H|H]; [right|left; apply sdel_in in H; apply H].
    injection H as <- <-. exists k0, c0, v0. split; [reflexivity|]. split; [reflexivity|]. split.
    + destruct ((axat ae <? m_xat v0) || (m_xat v0 =? 0)); [eexists; reflexivity|exists (m_xat v0); apply set_xat_self].
    + cbn [astep]. unfold aupdate. rewrite Ef, El. eexists. split; [reflexivity|apply flookup_fset_same].
  - (* ACancel *) unfold acancel. destruct (aflights s) as [fl|]; [|intro H; left; exact H].
    destruct (flookup k0 c0 fl) as [[ae|]|]; intro H; left; exact H.
  - (* ADelete *) unfold adelete, adel_if. destruct keys; (destruct (aflights s); [|intro H; left; exact H]); cbn [astore];
      intro H; apply fold_sdel_in in H; left; apply H.
  - (* AClose *) intros [].
  - (* AStoreDrop *) cbn [astore]. intro H. apply sdel_in in H. left. apply H.
  - (* AFlightFast *) intro H. left. exact H.
  - (* AFlightSlow *) rewrite Hslow. intro H. left. exact H.
Qed.

Theorem a_flight_persists s o k c ae :
  ainv s -> a_pending s k c ae -> ~ a_resolves k c o -> a_pending (fst (astep s o)) k c ae.
Proof.
  intros Hi Hp Hr. destruct (a_row_step s o k c (Some ae) Hi Hp) as [H _|? ? H|_ H|H]; [exact H|discriminate|contradiction|discriminate].
Qed.

Lemma a_flight_persists_run ops mid k c ae :
  a_pending (arun ops ainit) k c ae -> Forall (fun o => ~ a_resolves k c o) mid -> a_pending (arun (ops ++ mid) ainit) k c ae.
Proof.
  intros Hp Hr. revert ops Hp. induction Hr as [|m mid Hm _ IH]; intros ops Hp; [rewrite app_nil_r; exact Hp|].
  replace (ops ++ m :: mid) with ((ops ++ [m]) ++ mid) by (rewrite <- app_assoc; reflexivity).
  apply IH. rewrite arun_snoc. apply a_flight_persists; [apply ainv_run|exact Hp|exact Hm].
Qed.

(** Update / Cancel / Close deliver to the waiters of a pending flight *)
Theorem a_waiters_get_result s k c ae :
  a_pending s k c ae ->
  (forall v, exists px v', snd (astep s (AUpdate k c v)) = AOUpdate px (Some (Rel (aid ae) v')) /\
                           (v' = v \/ v' = set_xat v (trunc56 (axat ae)))) /\
  (forall err, snd (astep s (ACancel k c err)) = AOCancel (Some (aid ae)) /\
               astore (fst (astep s (ACancel k c err))) = astore s) /\
  (forall err, In (aid ae) (a_released (snd (astep s (AClose err))))).
Proof.
  intros [fl [Hf Hl]]. split; [|split].
  - intro v. cbn [astep]. unfold aupdate. rewrite Hf, Hl. cbn [snd]. eexists _, _. split; [reflexivity|].
    destruct ((axat ae <? m_xat v) || (m_xat v =? 0)); [right|left]; reflexivity.
  - intro err. cbn [astep]. unfold acancel. rewrite Hf, Hl. split; reflexivity.
  - intro err. cbn [astep aclose snd a_released]. rewrite Hf. unfold pending_ids. apply in_flat_map.
    exists (FR k c (Some ae)). split; [apply flookup_some; exact Hl|left; reflexivity].
Qed.

Theorem a_miss_starts_flight s k c ttl now :
  aflights s <> None -> snd (aflight s k c ttl now) = AOFlight empty_msg None ->
  a_pending (fst (aflight s k c ttl now)) k c (mkAE (anext s) (unix_milli (now + ttl))).
Proof.
  intros Hopen Ho. destruct (aflights s) as [fl|] eqn:Hf; [|contradiction].
  unfold aflight, afast in *. cbv zeta in *.
  destruct (a_live (sget (k ++ c) (astore s)) now) eqn:El.
  - cbn in Ho. apply a_live_spec in El. injection Ho as Ho. rewrite Ho in El. destruct El; discriminate.
  - rewrite Hf in *. destruct (flookup k c fl) as [[ae|]|] eqn:E; [discriminate| |];
      unfold aslow in *; rewrite El, Hf, E in *; cbn [fst]; (eexists; split; [reflexivity|apply flookup_fset_same]).
Qed.
