(** C12: decoding the specification's encoding of any well-formed value tree, for every per-node
    encoding choice, yields exactly [abs v] and leaves the rest of the stream untouched.
    Induction over value trees (nested lists), no bound on size, depth or payload. *)
From Coq Require Import List Arith NArith ZArith Bool Lia ZifyN ZifyNat ZifyBool.
Require Import RV.Model.Base RV.Model.RespWrite RV.Model.Resp.
Require Import RV.Proofs.BinaryProofs RV.Proofs.RespWriteProofs RV.Proofs.RespIOProofs RV.Proofs.RespBaseProofs
               RV.Proofs.RespScalarProofs.
Import ListNotations.
Open Scope N_scope.

Section RvInd.
  Variable P : rv -> Prop.
  Hypothesis HBlob : forall t s, P (VBlob t s).
  Hypothesis HBlobStream : forall t cs, P (VBlobStream t cs).
  Hypothesis HLine : forall t s, P (VLine t s).
  Hypothesis HInt : forall i, P (VInt i).
  Hypothesis HBool : forall b, P (VBool b).
  Hypothesis HNull : forall t, P (VNull t).
  Hypothesis HAgg : forall t st l, Forall P l -> P (VAgg t st l).
  Hypothesis HAttr : forall kvs st v, Forall P kvs -> P v -> P (VAttr kvs st v).
  Fixpoint rv_ind' (v : rv) : P v :=
    let fix go (l : list rv) : Forall P l :=
      match l with
      | [] => Forall_nil P
      | x :: r => Forall_cons x (rv_ind' x) (go r)
      end in
    match v with
    | VBlob t s => HBlob t s
    | VBlobStream t cs => HBlobStream t cs
    | VLine t s => HLine t s
    | VInt i => HInt i
    | VBool b => HBool b
    | VNull t => HNull t
    | VAgg t st l => HAgg t st l (go l)
    | VAttr kvs st v => HAttr kvs st v (go kvs) (rv_ind' v)
    end.
End RvInd.

(** what readNextMessage returns when attributes were seen before the value *)
Definition abs_with (v : rv) (a : option msg) : msg :=
  match v with
  | VAttr _ _ _ => abs v
  | VNull t => if t =? tNull then with_attrs (abs v) a else abs v
  | _ => with_attrs (abs v) a
  end.

Lemma abs_with_none v : abs_with v None = abs v.
Proof. destruct v; cbn [abs_with abs with_attrs]; try reflexivity. destruct (t =? tNull); reflexivity. Qed.

Lemma abs_with_decorable v a : decorable v = true -> abs_with v a = with_attrs (abs v) a.
Proof. destruct v; cbn [decorable abs_with]; try reflexivity; [intros ->; reflexivity|discriminate]. Qed.

(** fuel that suffices for read_next on [enc v]: one per node, per list cell and per chunk
    (Proofs/CacheCodecProofs.v has its own [cost] for [um]) *)
Fixpoint cost (v : rv) : nat :=
  let fix cl (l : list rv) : nat := match l with [] => 2%nat | x :: r => S (cost x + cl r) end in
  match v with
  | VBlobStream _ cs => (length cs + 2)%nat
  | VAgg _ _ l => S (cl l)
  | VAttr kvs _ v => S (cl kvs + cost v)
  | _ => 1%nat
  end.

Fixpoint cost_l (l : list rv) : nat := match l with [] => 2%nat | x :: r => S (cost x + cost_l r) end.

Lemma cost_agg t st l : cost (VAgg t st l) = S (cost_l l).
Proof. cbn [cost]. apply f_equal. induction l as [|x r IH]; [reflexivity|]. cbn [cost_l]. now rewrite <- IH. Qed.

Lemma cost_attr kvs st v : cost (VAttr kvs st v) = S (cost_l kvs + cost v).
Proof. cbn [cost]. apply f_equal. apply (f_equal (fun a => (a + cost v)%nat)). induction kvs as [|x r IH]; [reflexivity|]. cbn [cost_l]. now rewrite <- IH. Qed.

Lemma cost_pos v : (1 <= cost v)%nat.
Proof. destruct v; cbn [cost]; lia. Qed.

Lemma run_body_cons B rn ral rel cf attrs t s al :
  run B (read_next_body rn ral rel cf attrs) (t :: s) al = run B (dispatch t rn ral rel cf attrs) s al.
Proof. unfold read_next_body. erewrite run_bindr_ok by (rewrite run_do_op; reflexivity). reflexivity. Qed.

Ltac split_type H :=
  repeat (apply orb_true_iff in H; destruct H as [H|H]); apply N.eqb_eq in H; subst.

Lemma dispatch_blob t rn ral rel cf attrs : is_blob_type t = true ->
  dispatch t rn ral rel cf attrs = bind (read_blob_string cf) (fun r => fin_msg t rn attrs (str_msg t r)).
Proof. intros H. unfold is_blob_type in H. split_type H; reflexivity. Qed.

Lemma dispatch_line t rn ral rel cf attrs : is_line_type t = true ->
  dispatch t rn ral rel cf attrs = bind read_s (fun r => fin_msg t rn attrs (str_msg t r)).
Proof. intros H. unfold is_line_type in H. split_type H; reflexivity. Qed.

Lemma dispatch_int rn ral rel cf attrs :
  dispatch tInteger rn ral rel cf attrs = bind read_i (fun r => fin_msg tInteger rn attrs (map_res (fun v => Msg tInteger [] v [] None) r)).
Proof. reflexivity. Qed.

Lemma dispatch_bool rn ral rel cf attrs :
  dispatch tBool rn ral rel cf attrs = bind read_boolean (fun r => fin_msg tBool rn attrs (map_res (fun v => Msg tBool [] v [] None) r)).
Proof. reflexivity. Qed.

Lemma dispatch_null t rn ral rel cf attrs : k_null t = true ->
  dispatch t rn ral rel cf attrs = bind read_null (fun r => fin_msg t rn attrs (map_res (fun _ => Msg t [] 0%Z [] None) r)).
Proof. intros H. unfold k_null in H. split_type H; reflexivity. Qed.

Lemma dispatch_array t rn ral rel cf attrs : k_array t = true ->
  dispatch t rn ral rel cf attrs =
  bind read_i (fun r =>
      match r with
      | Ok length => if (length =? -1)%Z then fin_msg t rn attrs (Err eOldNull)
                     else bind (read_a ral length) (fun r => fin_msg t rn attrs (agg_msg t r))
      | Err e => if e =? eChunked then bind (read_e rel) (fun r => fin_msg t rn attrs (agg_msg t r)) else fin_msg t rn attrs (Err e)
      | Panic => Ret Panic
      end).
Proof. intros H. unfold k_array in H. split_type H; reflexivity. Qed.

Lemma dispatch_map t rn ral rel cf attrs : k_map t = true ->
  dispatch t rn ral rel cf attrs =
  bind read_i (fun r =>
      match r with
      | Ok length => bind (read_a ral (wrap64 (length * 2))) (fun r => fin_msg t rn attrs (agg_msg t r))
      | Err e => if e =? eChunked then bind (read_e rel) (fun r => fin_msg t rn attrs (agg_msg t r)) else fin_msg t rn attrs (Err e)
      | Panic => Ret Panic
      end).
Proof. intros H. unfold k_map in H. split_type H; reflexivity. Qed.

Lemma fin_ok t rn attrs m : (t =? tAttribute) = false ->
  fin_msg t rn attrs (Ok m) = Ret (Ok (with_attrs m attrs)).
Proof. intros H. cbn [fin_msg]. now rewrite H. Qed.

Lemma blob_not_attr t : is_blob_type t = true -> (t =? tAttribute) = false.
Proof. intros H. unfold is_blob_type in H. split_type H; reflexivity. Qed.
Lemma line_not_attr t : is_line_type t = true -> (t =? tAttribute) = false.
Proof. intros H. unfold is_line_type in H. split_type H; reflexivity. Qed.

(** small run lemmas (each proved on its own, so that no conversion problem over a big program is
    ever left to the kernel) *)
Lemma run_ret {A} B (a : A) s al : run B (Ret a) s al = (a, s, al).
Proof. reflexivity. Qed.

Lemma run_bind_eq {A C} B (p : prog A) (f : A -> prog C) s al a s' al' :
  run B p s al = (a, s', al') -> run B (bind p f) s al = run B (f a) s' al'.
Proof. intros H. rewrite run_bind, H. reflexivity. Qed.

Lemma run_bind_fin_ok {A} B (p : prog (result A)) (mk : A -> msg) t rn attrs s al x s' al' :
  run B p s al = (Ok x, s', al') -> (t =? tAttribute) = false ->
  run B (bind p (fun r => fin_msg t rn attrs (map_res mk r))) s al = (Ok (with_attrs (mk x) attrs), s', al').
Proof. intros H Ht. rewrite (run_bind_eq _ _ _ _ _ _ _ _ H). cbn [map_res]. now rewrite fin_ok. Qed.

Lemma run_bind_fin_oldnull {A} B (p : prog (result A)) (mk : A -> msg) t rn attrs s al s' al' :
  run B p s al = (Err eOldNull, s', al') ->
  run B (bind p (fun r => fin_msg t rn attrs (map_res mk r))) s al = (Ok (Msg tNull [] 0%Z [] None), s', al').
Proof. intros H. rewrite (run_bind_eq _ _ _ _ _ _ _ _ H). reflexivity. Qed.

Lemma rbs_ok B cf s al x s' al' :
  run B read_b s al = (Ok x, s', al') -> run B (read_blob_string cf) s al = (Ok x, s', al').
Proof. intros H. unfold read_blob_string. rewrite (run_bind_eq _ _ _ _ _ _ _ _ H). reflexivity. Qed.

Lemma rbs_oldnull B cf s al s' al' :
  run B read_b s al = (Err eOldNull, s', al') -> run B (read_blob_string cf) s al = (Err eOldNull, s', al').
Proof. intros H. unfold read_blob_string. rewrite (run_bind_eq _ _ _ _ _ _ _ _ H). reflexivity. Qed.

Lemma rbs_chunked B cf s al s' al' :
  run B read_b s al = (Err eChunked, s', al') -> run B (read_blob_string cf) s al = run B (chunk_loop cf []) s' al'.
Proof. intros H. unfold read_blob_string. rewrite (run_bind_eq _ _ _ _ _ _ _ _ H). reflexivity. Qed.

Lemma run_read_b_chunked B s al : (32 <= B)%nat -> run B read_b ([63] ++ crlf ++ s) al = (Err eChunked, s, al).
Proof. intros HB. unfold read_b. erewrite run_bindr_err by (apply run_read_i_chunked; assumption). reflexivity. Qed.

Lemma run_read_b_minus1 B s al : (32 <= B)%nat -> run B read_b ([45; 49] ++ crlf ++ s) al = (Err eOldNull, s, al).
Proof. intros HB. unfold read_b. erewrite run_bindr_ok by (apply run_read_i_minus1; assumption). reflexivity. Qed.

Lemma run_read_boolean B b rest al :
  run B read_boolean ([b] ++ crlf ++ rest) al = (Ok (if b =? 116 then 1%Z else 0%Z), rest, al).
Proof.
  unfold read_boolean. cbn [app].
  erewrite run_bindr_ok by apply run_read_byte.
  erewrite run_bindr_ok by (apply (run_discard B 2 crlf); reflexivity).
  reflexivity.
Qed.

Lemma run_read_null B rest al : run B read_null (crlf ++ rest) al = (Ok tt, rest, al).
Proof. unfold read_null. erewrite run_bindr_ok by (apply (run_discard B 2 crlf); reflexivity). reflexivity. Qed.

Lemma fin_attr rn attrs m : fin_msg tAttribute rn attrs (Ok m) = rn (Some m).
Proof. reflexivity. Qed.

Lemma run_array_minus1 B t rn ral rel cf attrs rest al : (32 <= B)%nat -> k_array t = true ->
  run B (dispatch t rn ral rel cf attrs) ([45; 49] ++ crlf ++ rest) al = (Ok (Msg tNull [] 0%Z [] None), rest, al).
Proof.
  intros HB Hk. rewrite dispatch_array by assumption.
  rewrite (run_bind_eq _ _ _ _ _ _ _ _ (run_read_i_minus1 B rest al HB)). reflexivity.
Qed.

Lemma le_max_spec x : le_max x = true -> (x <= max_alloc)%Z.
Proof. unfold le_max. apply Z.leb_le. Qed.

Lemma blob_ok_spec s : blob_ok s = true -> (zlen s <= max_alloc)%Z.
Proof. unfold blob_ok. apply le_max_spec. Qed.

Lemma agg_ok_spec {A} (l : list A) : agg_ok l = true -> (zlen l * 40 <= max_alloc)%Z.
Proof. unfold agg_ok. apply le_max_spec. Qed.

(** one chunk of a streamed string as [enc] writes it *)
Definition enc_chunk (c : bytes) : bytes := tChunk :: dec (blen c) ++ crlf ++ c ++ crlf.

(** the side condition of [wf] on the chunks: none empty, each length + 2 within int64 *)
Definition chunks_ok (cs : list bytes) : Prop := forallb (fun c => nonempty c && len_ok c) cs = true.

Lemma run_chunk_loop B : forall cs fuel acc rest al, (32 <= B)%nat ->
  chunks_ok cs ->
  (length cs + 1 <= fuel)%nat ->
  exists al', run B (chunk_loop fuel acc) (flat_map enc_chunk cs ++ [tChunk; 48] ++ crlf ++ rest) al
              = (Ok (acc ++ concat cs), rest, al').
Proof.
  induction cs as [|c cs IH]; intros fuel acc rest al HB Hwf Hf.
  - destruct fuel as [|f]; [cbn in Hf; lia|]. cbn [flat_map app chunk_loop concat].
    erewrite run_bindr_ok by (apply (run_discard B 1 [tChunk]); reflexivity).
    erewrite run_bindr_ok by (apply (run_read_i_nat B 0); [assumption|reflexivity]).
    cbn [Z.of_N Z.eqb]. rewrite app_nil_r. eexists. reflexivity.
  - destruct fuel as [|f]; [cbn in Hf; lia|]. cbn [length] in Hf.
    cbn [forallb] in Hwf. apply andb_true_iff in Hwf as [Hc Hwf]. apply andb_true_iff in Hc as [Hne Hlen].
    cbn [flat_map concat]. unfold enc_chunk at 1. cbn [app chunk_loop]. rewrite <- !app_assoc.
    erewrite run_bindr_ok by (apply (run_discard B 1 [tChunk]); reflexivity).
    assert (Hlt : (Z.of_N (blen c) < two63)%Z) by (unfold len_ok, zlen, blen in *; lia).
    erewrite run_bindr_ok by (apply (run_read_i_nat B (blen c)); assumption).
    assert (Hpos : (0 < Z.of_N (blen c))%Z) by (destruct c; [discriminate|unfold blen; cbn [length]; lia]).
    destruct (Z.eqb_spec (Z.of_N (blen c)) 0) as [Hx|_]; [lia|].
    destruct (Z.ltb_spec (Z.of_N (blen c)) 0) as [Hx|_]; [lia|].
    assert (Hg : forall s a, run B (grow (Z.min (Z.of_N (blen c)) max_prealloc_bytes)) s a =
                             (Ok tt, s, a + Z.to_N (Z.min (Z.of_N (blen c)) max_prealloc_bytes))).
    { intros s a. unfold grow, max_prealloc_bytes.
      destruct (Z.ltb_spec (Z.min (Z.of_N (blen c)) 65536) 0) as [Hx|_]; [lia|]. reflexivity. }
    erewrite run_bindr_ok by apply Hg.
    rewrite N2Z.id.
    erewrite run_bindr_ok by apply run_copy_n.
    rewrite run_bind, run_alloc.
    erewrite run_bindr_ok by (apply (run_discard B 2 crlf); reflexivity).
    destruct (IH f (acc ++ c) rest (al + Z.to_N (Z.min (Z.of_N (blen c)) max_prealloc_bytes) + blen c) HB Hwf ltac:(lia)) as [al' E].
    exists al'. rewrite <- app_assoc in E. exact E.
Qed.

(** the round-trip statement for v: at every sufficient fuel, with any attribute frame pending *)
Definition rt (B : nat) (v : rv) : Prop :=
  wf v = true -> forall fuel attrs rest al, (cost v <= fuel)%nat ->
  exists al', run B (read_next fuel attrs) (enc v ++ rest) al = (Ok (abs_with v attrs), rest, al').

(** the loop of readA over the remaining elements *)
Lemma run_read_a_loop B : forall todo, Forall (rt B) todo -> forallb wf todo = true ->
  forall (done : list rv) fuel cap rest al,
    (cost_l todo <= fuel)%nat ->
    (zlen (done ++ todo) * 40 <= max_alloc)%Z ->
    (zlen done <= cap)%Z -> (0 < cap)%Z \/ todo = [] ->
    exists al',
      run B (read_a_loop fuel (zlen (done ++ todo)) (zlen done) cap (map abs done)) (flat_map enc todo ++ rest) al
      = (Ok (map abs (done ++ todo)), rest, al').
Proof.
  induction todo as [|x r IH]; intros HP Hwf done fuel cap rest al Hf Hmax Hcap Hcp.
  - cbn [cost_l] in Hf. destruct fuel as [|f]; [lia|]. rewrite read_a_loop_S, app_nil_r. unfold read_a_body. rewrite Z.eqb_refl.
    eexists. reflexivity.
  - cbn [cost_l] in Hf. destruct fuel as [|f]; [lia|]. rewrite read_a_loop_S. unfold read_a_body.
    inversion HP as [|? ? HPx HPr]; subst. cbn [forallb] in Hwf. apply andb_true_iff in Hwf as [Hwx Hwr].
    assert (Hlen : zlen (done ++ x :: r) = (zlen done + 1 + zlen r)%Z).
    { unfold zlen. rewrite app_length. cbn [length]. lia. }
    destruct (Z.eqb_spec (zlen done) (zlen (done ++ x :: r))) as [Hx|_]; [unfold zlen in *; lia|].
    cbn [flat_map]. rewrite <- app_assoc.
    assert (Hnext : forall cap' al0, (zlen done + 1 <= cap')%Z ->
      exists al', run B (read_a_next (read_next f) (read_a_loop f) (zlen (done ++ x :: r)) (zlen done) cap' (map abs done))
                        (enc x ++ flat_map enc r ++ rest) al0 = (Ok (map abs (done ++ x :: r)), rest, al')).
    { intros cap' al0 Hc'. unfold read_a_next.
      destruct (HPx Hwx f None (flat_map enc r ++ rest) al0 ltac:(lia)) as [al1 E1].
      rewrite run_bind, E1. rewrite abs_with_none.
      destruct (Z.ltb_spec (zlen done) cap') as [_|Hx]; [|lia].
      specialize (IH HPr Hwr (done ++ [x]) f cap' rest al1).
      rewrite <- app_assoc in IH. cbn [app] in IH.
      replace (zlen (done ++ [x])) with (zlen done + 1)%Z in IH by (unfold zlen; rewrite app_length; cbn; lia).
      rewrite map_app in IH. cbn [map] in IH.
      apply IH; [lia|assumption|exact Hc'|left; pose proof (Zle_0_nat (length done)); unfold zlen in *; lia]. }
    destruct Hcp as [Hcp|Hcp]; [|discriminate].
    destruct (Z.eqb_spec (zlen done) cap) as [Hc|Hc].
    + erewrite run_bindr_ok.
      2:{ pose proof (Zle_0_nat (length done)) as Hd0. fold (zlen done) in Hd0.
          pose proof (Zle_0_nat (length r)) as Hr0. fold (zlen r) in Hr0.
          apply run_alloc_make; unfold msg_size; lia. }
      apply Hnext.
      pose proof (Zle_0_nat (length r)) as Hr0. fold (zlen r) in Hr0.
      destruct (Z.min_spec (zlen (done ++ x :: r)) (zlen done * 2)) as [[Hm ->]|[Hm ->]]; lia.
    + apply Hnext. lia.
Qed.

Lemma run_read_next_end B f attrs rest al :
  run B (read_next (S f) attrs) ([tEnd] ++ crlf ++ rest) al = (Ok (Msg tEnd [] 0%Z [] attrs), rest, al).
Proof.
  rewrite read_next_S. cbn [app]. rewrite run_body_cons, (dispatch_null tEnd) by reflexivity.
  rewrite run_bind. unfold read_null.
  erewrite run_bindr_ok by (apply (run_discard B 2 crlf); reflexivity).
  reflexivity.
Qed.

Lemma abs_typ_not_end v : wf v = true -> (m_typ (abs v) =? tEnd) = false.
Proof.
  assert (Hb : forall t, is_blob_type t = true -> (t =? tEnd) = false)
    by (intros t H; unfold is_blob_type in H; split_type H; reflexivity).
  assert (Hl : forall t, is_line_type t = true -> (t =? tEnd) = false)
    by (intros t H; unfold is_line_type in H; split_type H; reflexivity).
  assert (Ha : forall t, is_agg_type t = true -> (t =? tEnd) = false)
    by (intros t H; unfold is_agg_type in H; split_type H; reflexivity).
  assert (H1 : forall v, wf v = true -> decorable v = true -> (m_typ (abs v) =? tEnd) = false).
  { intros [t s|t cs|t s|i|b|t|t st l|kvs st x] Hw Hd; cbn [wf abs m_typ] in *; try reflexivity; try discriminate.
    - apply andb_true_iff in Hw as [Hw _]. auto.
    - apply andb_true_iff in Hw as [Hw _]. auto.
    - apply andb_true_iff in Hw as [Hw _]. auto.
    - repeat (apply andb_true_iff in Hw as [Hw ?]). auto. }
  intros Hw. destruct v as [t s|t cs|t s|i|b|t|t st l|kvs st x]; try (apply H1; [assumption|reflexivity]).
  - reflexivity.
  - cbn [wf] in Hw. repeat (apply andb_true_iff in Hw as [Hw ?]).
    cbn [abs]. destruct (abs x) eqn:E. cbn [with_attrs m_typ].
    assert (Hx := H1 x ltac:(assumption) ltac:(assumption)). rewrite E in Hx. exact Hx.
Qed.

Lemma run_read_e_loop B : forall todo, Forall (rt B) todo -> forallb wf todo = true ->
  forall acc fuel rest al, (cost_l todo <= fuel)%nat ->
  exists al', run B (read_e_loop fuel acc) (flat_map enc todo ++ [tEnd] ++ crlf ++ rest) al
              = (Ok (acc ++ map abs todo), rest, al').
Proof.
  induction todo as [|x r IH]; intros HP Hwf acc fuel rest al Hf.
  - cbn [cost_l] in Hf. destruct fuel as [|[|f]]; try lia. rewrite read_e_loop_S. unfold read_e_body. cbn [flat_map app].
    erewrite run_bindr_ok by apply run_read_next_end.
    cbn [m_typ]. rewrite N.eqb_refl, app_nil_r. eexists. reflexivity.
  - cbn [cost_l] in Hf. destruct fuel as [|f]; [lia|]. rewrite read_e_loop_S. unfold read_e_body.
    inversion HP as [|? ? HPx HPr]; subst. cbn [forallb] in Hwf. apply andb_true_iff in Hwf as [Hwx Hwr].
    cbn [flat_map]. rewrite <- app_assoc.
    destruct (HPx Hwx f None (flat_map enc r ++ [tEnd] ++ crlf ++ rest) al ltac:(lia)) as [al1 E1].
    erewrite run_bindr_ok by exact E1. rewrite abs_with_none, abs_typ_not_end by assumption.
    rewrite run_bind, run_alloc.
    destruct (IH HPr Hwr (acc ++ [abs x]) f rest (al1 + Z.to_N msg_size) ltac:(lia)) as [al2 E2].
    exists al2. rewrite E2. cbn [map]. now rewrite <- app_assoc.
Qed.

Definition pair_count_ok (t : N) (l : list rv) : Prop := is_pair_type t = true -> Nat.even (length l) = true.

Lemma div2_even n : Nat.even n = true -> (2 * Nat.div2 n = n)%nat.
Proof.
  intros H. apply Nat.even_spec in H. destruct H as [k ->]. rewrite Nat.div2_double. lia.
Qed.

Lemma run_dispatch_agg B (HB : (32 <= B)%nat) t st l rn cf attrs rest al f :
  (k_array t = true \/ k_map t = true) ->
  (k_map t = true -> Nat.even (length l) = true) ->
  (zlen l * 40 <= max_alloc)%Z ->
  Forall (rt B) l -> forallb wf l = true -> (cost_l l <= f)%nat ->
  exists al',
    run B (dispatch t rn (read_a_loop f) (read_e_loop f) cf attrs)
          (tl (agg_header t st (length l)) ++ flat_map enc l ++ agg_trailer st ++ rest) al
    = run B (fin_msg t rn attrs (Ok (Msg t [] (zlen l) (map abs l) None))) rest al'.
Proof.
  intros Hk Hev Hmax HP Hwf Hf.
  pose proof (Zle_0_nat (length l)) as Hl0. fold (zlen l) in Hl0.
  assert (Hl63 : (zlen l < two63)%Z) by (unfold max_alloc in Hmax; unfold two63; lia).
  (* the streamed form is the same for every type *)
  assert (Hstream : forall al0,
    exists al', run B (bind (read_e (read_e_loop f)) (fun r => fin_msg t rn attrs (agg_msg t r)))
                      (flat_map enc l ++ [tEnd] ++ crlf ++ rest) al0
                = run B (fin_msg t rn attrs (Ok (Msg t [] (zlen l) (map abs l) None))) rest al').
  { intros al0. rewrite run_bind. unfold read_e.
    destruct (run_read_e_loop B l HP Hwf [] f rest al0 Hf) as [al1 E1].
    erewrite run_bindr_ok by exact E1. cbn [app run agg_msg map_res fst snd].
    exists al1. unfold zlen. now rewrite map_length. }
  (* the counted form, once the count has been read *)
  assert (Hcount : forall al0,
    exists al', run B (bind (read_a (read_a_loop f) (zlen l)) (fun r => fin_msg t rn attrs (agg_msg t r)))
                      (flat_map enc l ++ rest) al0
                = run B (fin_msg t rn attrs (Ok (Msg t [] (zlen l) (map abs l) None))) rest al').
  { intros al0. rewrite run_bind. unfold read_a.
    destruct (Z.ltb_spec (zlen l) 0) as [Hx|_]; [lia|].
    erewrite run_bindr_ok.
    2:{ apply run_alloc_make; unfold msg_size, max_prealloc_msgs; lia. }
    destruct (run_read_a_loop B l HP Hwf [] f (Z.min (zlen l) max_prealloc_msgs) rest
                (al0 + Z.to_N (Z.min (zlen l) max_prealloc_msgs * msg_size)) Hf) as [al1 E1].
    - exact Hmax.
    - unfold zlen at 1. cbn [length]. unfold max_prealloc_msgs. lia.
    - unfold max_prealloc_msgs. destruct l; [right; reflexivity|left; unfold zlen; cbn [length]; lia].
    - cbn [app map] in E1. unfold zlen at 2 in E1. cbn [length] in E1.
      erewrite run_bindr_ok by exact E1. cbn [run agg_msg map_res fst snd]. eauto. }
  destruct st.
  - (* streamed: <t>?\r\n … .\r\n *)
    replace (tl (agg_header t true (length l)) ++ flat_map enc l ++ agg_trailer true ++ rest)
      with ([63] ++ crlf ++ flat_map enc l ++ [tEnd] ++ crlf ++ rest)
      by (unfold agg_header, agg_trailer; cbn [tl app]; rewrite <- ?app_assoc; reflexivity).
    destruct (Hstream al) as [al' E].
    exists al'. rewrite <- E.
    destruct Hk as [Hk|Hk].
    + rewrite dispatch_array by assumption. rewrite run_bind.
      rewrite (run_read_i_chunked B _ al HB). reflexivity.
    + rewrite dispatch_map by assumption. rewrite run_bind.
      rewrite (run_read_i_chunked B _ al HB). reflexivity.
  - (* counted *)
    replace (tl (agg_header t false (length l)) ++ flat_map enc l ++ agg_trailer false ++ rest)
      with (dec (N.of_nat (if is_pair_type t then Nat.div2 (length l) else length l)) ++ crlf ++ flat_map enc l ++ rest)
      by (unfold agg_header, agg_trailer; cbn [tl app]; rewrite <- ?app_assoc; reflexivity).
    destruct (Hcount al) as [al' E]. exists al'. rewrite <- E.
    destruct Hk as [Hk|Hk].
    + assert (Hp : is_pair_type t = false).
      { unfold k_array in Hk. split_type Hk; reflexivity. }
      rewrite Hp. rewrite dispatch_array by assumption. rewrite run_bind.
      rewrite (run_read_i_nat B (N.of_nat (length l)) _ al HB) by (clear - Hl63; unfold zlen in Hl63; lia).
      rewrite nat_N_Z. fold (zlen l).
      destruct (Z.eqb_spec (zlen l) (-1)) as [Hx|_]; [clear - Hx Hl0; lia|]. reflexivity.
    + assert (Hp : is_pair_type t = true).
      { unfold k_map in Hk. split_type Hk; reflexivity. }
      rewrite Hp. rewrite dispatch_map by assumption. rewrite run_bind.
      pose proof (div2_even _ (Hev Hk)) as Hd.
      rewrite (run_read_i_nat B (N.of_nat (Nat.div2 (length l))) _ al HB) by (clear - Hl63 Hd; unfold zlen in Hl63; lia).
      replace (wrap64 (Z.of_N (N.of_nat (Nat.div2 (length l))) * 2)) with (zlen l); [reflexivity|].
      clear - Hl63 Hd. unfold zlen in *. rewrite wrap64_small_z; lia.
Qed.

Section Cases.
Variable B : nat.
Hypothesis HB : (32 <= B)%nat.

(** every case: the type byte is read, the rest is up to [dispatch] *)
Lemma rt_intro v t body : enc v = t :: body ->
  (wf v = true -> forall f attrs rest al, (cost v <= S f)%nat ->
     exists al', run B (dispatch t (read_next f) (read_a_loop f) (read_e_loop f) f attrs) (body ++ rest) al
                 = (Ok (abs_with v attrs), rest, al')) ->
  rt B v.
Proof.
  intros E H Hwf fuel attrs rest al Hf. destruct fuel as [|f]; [pose proof (cost_pos v); lia|].
  rewrite E, read_next_S. cbn [app]. rewrite run_body_cons. now apply H.
Qed.

Lemma rt_VBlob : forall t s, rt B (VBlob t s).
Proof.
  intros t s. apply (rt_intro _ t (dec (blen s) ++ crlf ++ s ++ crlf)); [reflexivity|].
  intros Hwf f attrs rest al _. cbn [wf] in Hwf. apply andb_true_iff in Hwf as [Ht Hs]. rewrite <- !app_assoc.
  destruct (run_read_b B s rest al HB (blob_ok_spec s Hs)) as [al' E]. exists al'.
  rewrite dispatch_blob by assumption.
  unfold str_msg. erewrite run_bind_fin_ok; [reflexivity|apply rbs_ok; exact E|now apply blob_not_attr].
Qed.

Lemma rt_VBlobStream : forall t cs, rt B (VBlobStream t cs).
Proof.
  intros t cs. apply (rt_intro _ t ([63] ++ crlf ++ flat_map enc_chunk cs ++ [tChunk; 48] ++ crlf)); [reflexivity|].
  intros Hwf f attrs rest al Hf. cbn [wf] in Hwf. apply andb_true_iff in Hwf as [Ht Hcs]. rewrite <- !app_assoc.
  assert (Hfc : (length cs + 1 <= f)%nat) by (cbn [cost] in Hf; lia).
  destruct (run_chunk_loop B cs f [] rest al HB Hcs Hfc) as [al' E]. exists al'.
  rewrite dispatch_blob by assumption.
  unfold str_msg. erewrite run_bind_fin_ok; [reflexivity| |now apply blob_not_attr].
  rewrite (rbs_chunked B f _ al _ al (run_read_b_chunked B _ al HB)). exact E.
Qed.

Lemma rt_VLine : forall t s, rt B (VLine t s).
Proof.
  intros t s. apply (rt_intro _ t (s ++ crlf)); [reflexivity|].
  intros Hwf f attrs rest al _. cbn [wf] in Hwf. apply andb_true_iff in Hwf as [Ht Hs]. rewrite <- app_assoc.
  destruct (run_read_s B s rest al Hs) as [al' E]. exists al'.
  rewrite dispatch_line by assumption.
  unfold str_msg. erewrite run_bind_fin_ok; [reflexivity|exact E|now apply line_not_attr].
Qed.

Lemma rt_VInt : forall i, rt B (VInt i).
Proof.
  intros i. apply (rt_intro _ tInteger (decZ i ++ crlf)); [reflexivity|].
  intros Hwf f attrs rest al _. cbn [wf] in Hwf. rewrite <- app_assoc.
  assert (Hi : in_i64 i) by (unfold in_i64b, in_i64 in *; lia).
  exists al. rewrite dispatch_int.
  erewrite run_bind_fin_ok; [reflexivity|apply (run_read_i B i rest al HB Hi)|reflexivity].
Qed.

Lemma rt_VBool : forall b, rt B (VBool b).
Proof.
  intros b. apply (rt_intro _ tBool ([if b then 116 else 102] ++ crlf)); [reflexivity|].
  intros _ f attrs rest al _. rewrite <- app_assoc. exists al. rewrite dispatch_bool.
  erewrite run_bind_fin_ok; [|apply run_read_boolean|reflexivity].
  destruct b; reflexivity.
Qed.

Lemma rt_VNull : forall t, rt B (VNull t).
Proof.
  intros t. destruct (N.eqb_spec t tNull) as [->|Hne].
  - (* _\r\n *)
    apply (rt_intro _ tNull crlf); [reflexivity|]. intros _ f attrs rest al _. exists al.
    rewrite (dispatch_null tNull) by reflexivity.
    erewrite run_bind_fin_ok; [reflexivity|apply run_read_null|reflexivity].
  - (* <t>-1\r\n: a string type goes through readB, an array type through the count line *)
    apply N.eqb_neq in Hne. apply (rt_intro _ t ([45; 49] ++ crlf)); [cbn [enc]; now rewrite Hne|].
    intros Hwf f attrs rest al _. cbn [wf abs_with abs] in *. rewrite Hne, <- app_assoc. exists al.
    assert (Hk : is_blob_type t = true \/ k_array t = true).
    { unfold is_null_type in Hwf. rewrite Hne in Hwf. cbn [orb] in Hwf. unfold is_blob_type, k_array.
      repeat (apply orb_true_iff in Hwf as [Hwf|Hwf]); rewrite Hwf, ?orb_true_r; auto. }
    destruct Hk as [Hk|Hk]; [|now rewrite run_array_minus1].
    rewrite dispatch_blob by assumption.
    unfold str_msg. erewrite run_bind_fin_oldnull; [reflexivity|apply rbs_oldnull, run_read_b_minus1; assumption].
Qed.

Lemma agg_header_cons t st n : agg_header t st n = t :: tl (agg_header t st n).
Proof. unfold agg_header. destruct st; reflexivity. Qed.

Lemma rt_VAgg : forall t st l, Forall (rt B) l -> rt B (VAgg t st l).
Proof.
  intros t st l IHl.
  apply (rt_intro _ t (tl (agg_header t st (length l)) ++ flat_map enc l ++ agg_trailer st)).
  { cbn [enc]. now rewrite (agg_header_cons t st (length l)) at 1. }
  intros Hwf f attrs rest al Hf. cbn [wf] in Hwf. repeat (apply andb_true_iff in Hwf as [Hwf ?]).
  rewrite cost_agg in Hf. rewrite <- !app_assoc.
  assert (Hkind : k_array t = true \/ k_map t = true).
  { clear - Hwf. unfold is_agg_type in Hwf. split_type Hwf; [left|left|left|right]; reflexivity. }
  assert (Hev : k_map t = true -> Nat.even (length l) = true).
  { intros Hm. unfold is_agg_type in Hwf. split_type Hwf; try discriminate Hm. assumption. }
  assert (Hna : (t =? tAttribute) = false).
  { clear - Hwf. unfold is_agg_type in Hwf. split_type Hwf; reflexivity. }
  assert (Hfl : (cost_l l <= f)%nat) by (clear - Hf; lia).
  destruct (run_dispatch_agg B HB t st l (read_next f) f attrs rest al f Hkind Hev (agg_ok_spec l ltac:(assumption))
              IHl ltac:(assumption) Hfl) as [al' E].
  exists al'. now rewrite E, fin_ok by assumption.
Qed.

Lemma rt_VAttr : forall kvs st v, Forall (rt B) kvs -> rt B v -> rt B (VAttr kvs st v).
Proof.
  intros kvs st v IHk IHv.
  apply (rt_intro _ tAttribute (tl (agg_header tAttribute st (length kvs)) ++ flat_map enc kvs ++ agg_trailer st ++ enc v)).
  { cbn [enc]. now rewrite (agg_header_cons tAttribute st (length kvs)) at 1. }
  intros Hwf f attrs rest al Hf. cbn [wf] in Hwf. repeat (apply andb_true_iff in Hwf as [Hwf ?]).
  rewrite cost_attr in Hf. rewrite <- !app_assoc.
  assert (Hfl : (cost_l kvs <= f)%nat) by (clear - Hf; lia).
  destruct (run_dispatch_agg B HB tAttribute st kvs (read_next f) f attrs (enc v ++ rest) al f
              (or_intror eq_refl) ltac:(intros _; assumption) (agg_ok_spec kvs ltac:(assumption)) IHk ltac:(assumption) Hfl)
    as [al' E].
  assert (Hfv : (cost v <= f)%nat) by (clear - Hf; lia).
  destruct (IHv ltac:(assumption) f (Some (Msg tAttribute [] (zlen kvs) (map abs kvs) None)) rest al' Hfv) as [al2 E2].
  exists al2. rewrite E, fin_attr, E2. now rewrite abs_with_decorable by assumption.
Qed.

Theorem read_next_roundtrip : forall v, rt B v.
Proof.
  induction v using rv_ind'; auto using rt_VBlob, rt_VBlobStream, rt_VLine, rt_VInt, rt_VBool, rt_VNull, rt_VAgg, rt_VAttr.
Qed.
End Cases.

(** fuel: [fuel_for] of the input length is always enough *)
Lemma enc_length_ge : forall v, (3 <= length (enc v))%nat.
Proof.
  destruct v; cbn [enc length app]; rewrite ?app_length; cbn [length crlf]; try lia.
  - destruct (t =? tNull); cbn; lia.
  - unfold agg_header. destruct streamed; cbn [app length]; rewrite ?app_length; cbn [length crlf]; lia.
  - unfold agg_header. destruct streamed; cbn [app length]; rewrite ?app_length; cbn [length crlf]; lia.
Qed.

Lemma cost_le_enc : forall v, (cost v + 1 <= 2 * length (enc v))%nat.
Proof.
  assert (Hleaf : forall v, cost v = 1%nat -> (cost v + 1 <= 2 * length (enc v))%nat).
  { intros v ->. pose proof (enc_length_ge v). lia. }
  assert (Hl : forall l, Forall (fun v => cost v + 1 <= 2 * length (enc v))%nat l ->
                         (cost_l l <= 2 + 2 * length (flat_map enc l))%nat).
  { induction 1 as [|x r Hx Hr IH]; cbn [cost_l flat_map length]; [lia|]. rewrite app_length. lia. }
  assert (Hh : forall t st n, (2 <= length (agg_header t st n))%nat).
  { intros t st n. unfold agg_header. destruct st; cbn [app length]; rewrite ?app_length; cbn [length crlf]; lia. }
  induction v as [t s|t cs|t s|i|b|t|t st l IHl|kvs st v IHk IHv] using rv_ind'; try (apply Hleaf; reflexivity).
  - cbn [cost enc]. rewrite !app_length. cbn [length crlf].
    assert (length cs <= length (flat_map enc_chunk cs))%nat.
    { induction cs as [|c cs IH]; cbn [flat_map length]; [lia|]. rewrite app_length. unfold enc_chunk at 1. cbn [length]. lia. }
    unfold enc_chunk in *. lia.
  - rewrite cost_agg. cbn [enc]. rewrite !app_length. specialize (Hl l IHl). specialize (Hh t st (length l)). lia.
  - rewrite cost_attr. cbn [enc]. rewrite !app_length. specialize (Hl kvs IHk). specialize (Hh tAttribute st (length kvs)). lia.
Qed.

Theorem decode_roundtrip B v rest : (32 <= B)%nat -> wf v = true ->
  fst (decode B (enc v ++ rest)) = (Ok (abs v), rest).
Proof.
  intros HB Hwf. unfold decode.
  destruct (read_next_roundtrip B HB v Hwf (fuel_for (length (enc v ++ rest))) None rest 0) as [al' E].
  - unfold fuel_for. rewrite app_length. pose proof (cost_le_enc v). lia.
  - rewrite E, abs_with_none. reflexivity.
Qed.

(** a [$<n>] reply whose payload readN fails to read: that failure is what the decoder returns *)
Lemma decode_blob_read_n_fails B n (data : bytes) e s' al : (32 <= B)%nat -> (Z.of_N n < two63)%Z ->
  (e =? eChunked) = false -> (e =? eOldNull) = false ->
  run B (read_n (Z.of_N n)) data 0 = (Err e, s', al) ->
  decode B (tBlobString :: dec n ++ crlf ++ data) = (Err e, s', al).
Proof.
  intros HB Hn Hc Ho E. unfold decode, fuel_for. rewrite Nat.add_comm. cbn [Nat.add].
  rewrite read_next_S, run_body_cons, (dispatch_blob tBlobString) by reflexivity.
  unfold read_blob_string, read_b. rewrite !run_bind.
  erewrite run_bindr_ok by (now apply run_read_i_nat).
  destruct (Z.eqb_spec (Z.of_N n) (-1)); [lia|].
  erewrite run_bindr_err by exact E. rewrite Hc. cbn [run str_msg map_res fin_msg]. now rewrite Ho.
Qed.

(** a command written by writeCmd is the canonical encoding of the array of its arguments *)
Definition argv_value (argv : list bytes) : rv := VAgg tArray false (map (VBlob tBlobString) argv).

Lemma write_b_enc s : write_b 36 s = enc (VBlob tBlobString s).
Proof. unfold write_b, write_n. cbn [enc app]. now rewrite <- app_assoc. Qed.

Lemma flat_write_b argv : flat_map (write_b 36) argv = flat_map enc (map (VBlob tBlobString) argv).
Proof. induction argv as [|a r IH]; cbn [flat_map map]; [reflexivity|]. now rewrite write_b_enc, IH. Qed.

Lemma write_cmd_enc argv : write_cmd argv = enc (argv_value argv).
Proof.
  unfold write_cmd, argv_value, write_n. cbn [enc]. unfold agg_header, agg_trailer.
  change (is_pair_type tArray) with false. cbv iota.
  rewrite map_length, app_nil_r, flat_write_b. cbn [app]. now rewrite <- app_assoc.
Qed.

Lemma forallb_wf_blobs argv : Forall (fun a => blob_ok a = true) argv ->
  forallb wf (map (VBlob tBlobString) argv) = true.
Proof.
  induction 1 as [|a r Hx Hr IH]; cbn [map forallb wf]; [reflexivity|].
  rewrite Hx, IH. reflexivity.
Qed.

Lemma argv_value_wf argv :
  Forall (fun a => blob_ok a = true) argv -> agg_ok argv = true -> wf (argv_value argv) = true.
Proof.
  intros Ha Hn. cbn [wf argv_value].
  assert (E : agg_ok (map (VBlob tBlobString) argv) = true) by (unfold agg_ok, zlen in *; now rewrite map_length).
  rewrite E, (forallb_wf_blobs argv Ha). reflexivity.
Qed.

Theorem decode_write_cmd B argv rest : (32 <= B)%nat ->
  Forall (fun a => blob_ok a = true) argv -> agg_ok argv = true ->
  fst (decode B (write_cmd argv ++ rest)) =
  (Ok (Msg tArray [] (zlen argv) (map (fun a => Msg tBlobString a (zlen a) [] None) argv) None), rest).
Proof.
  intros HB Ha Hn. rewrite write_cmd_enc, decode_roundtrip by (auto using argv_value_wf).
  cbn [abs argv_value]. unfold zlen. rewrite map_length, map_map. reflexivity.
Qed.
