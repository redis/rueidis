(** Structural theorems over paths of any builder graph (used on the regenerated graph in
    Proofs/BuilderGenProofs.v): what a path appends, where the caller's arguments end up ([argv_structure]), how the
    key slot evolves ([path_slot], [path_panic]) and the flags accumulate ([path_cf]).  At the end: the argv of
    builder.go's Arbitrary, and two inversions used by Props/C32.v and C33.v ([has_tag_trans], [base10_inv]). *)
From Coq Require Import List Arith NArith ZArith Bool Lia.
Require Import RV.Model.Base RV.Model.Slot RV.Model.Format RV.Model.BuilderGraph RV.Model.BuilderSem RV.Model.BuilderChecks.
Require Import RV.Proofs.BytesProofs RV.Proofs.SlotProofs.
Import ListNotations.
Open Scope N_scope.

Lemma args_of_app o1 o2 : args_of (o1 ++ o2) = args_of o1 ++ args_of o2.
Proof. unfold args_of. now rewrite filter_app, map_app. Qed.

Lemma toks_of_app o1 o2 : toks_of (o1 ++ o2) = toks_of o1 ++ toks_of o2.
Proof. unfold toks_of. now rewrite filter_app, map_app. Qed.

Lemma args_of_tagged b bs : args_of (map (pair b) bs) = if b then bs else [].
Proof. unfold args_of. destruct b; induction bs as [|x bs IH]; cbn; congruence. Qed.

Lemma toks_of_tagged b bs : toks_of (map (pair b) bs) = if b then [] else bs.
Proof. unfold toks_of. destruct b; induction bs as [|x bs IH]; cbn; congruence. Qed.

Lemma argv_split_length (o : out) : (length (args_of o) + length (toks_of o) = length o)%nat.
Proof.
  unfold args_of, toks_of. rewrite !map_length.
  induction o as [|[b x] o IH]; cbn; [reflexivity|]. destruct b; cbn; lia.
Qed.

Definition render_at (fe : fenv) (args : list arg) (it : item) : option (list bytes) :=
  match get_arg args (item_index it) with
  | Some a => render fe it a
  | None => None
  end.

Lemma all_some_pairs fe c1 f1 c2 f2 : forall ps bss,
  all_some (map (fun p => match fmt_sval fe f1 (comp c1 p), fmt_sval fe f2 (comp c2 p) with
                          | Some x, Some y => Some [(true, x); (true, y)]
                          | _, _ => None
                          end) ps) = Some bss ->
  all_some (map (fun p => match fmt_sval fe f1 (comp c1 p), fmt_sval fe f2 (comp c2 p) with
                          | Some x, Some y => Some [x; y]
                          | _, _ => None
                          end) ps) = Some (map args_of bss)
  /\ args_of (concat bss) = concat (map args_of bss) /\ toks_of (concat bss) = [].
Proof.
  induction ps as [|p ps IH]; intros bss H; cbn [map all_some] in *.
  - inversion H; subst. repeat split.
  - destruct (fmt_sval fe f1 (comp c1 p)) as [x|]; [|discriminate].
    destruct (fmt_sval fe f2 (comp c2 p)) as [y|]; [|discriminate].
    destruct (all_some (map _ ps)) as [r|] eqn:E; [|discriminate].
    inversion H; subst. destruct (IH r eq_refl) as (A & B & C).
    rewrite A. cbn [map concat]. rewrite args_of_app, toks_of_app, B, C. repeat split.
Qed.

Lemma emit_item_arg fe args it o :
  emit_item fe args it = Some o -> is_arg_item it = true ->
  render_at fe args it = Some (args_of o) /\ toks_of o = [].
Proof.
  unfold render_at. destruct it as [t|i f|i f|i c1 f1 c2 f2]; cbn [emit_item is_arg_item item_index render]; intros H Ha; try discriminate.
  - destruct (get_arg args i) as [a|]; [|discriminate].
    destruct (arg_scalar a) as [v|]; [|discriminate].
    destruct (fmt_sval fe f v) as [b|]; [|discriminate].
    inversion H; subst. split; reflexivity.
  - destruct (get_arg args i) as [a|]; [|discriminate].
    destruct (arg_elems a) as [vs|]; [|discriminate].
    destruct (all_some (map (fmt_sval fe f) vs)) as [bs|]; [|discriminate].
    inversion H; subst. now rewrite args_of_tagged, toks_of_tagged.
  - destruct (get_arg args i) as [a|]; [|discriminate].
    destruct (arg_pairs a) as [ps|]; [|discriminate].
    destruct (all_some (map _ ps)) as [bss|] eqn:E; [|discriminate].
    inversion H; subst.
    destruct (all_some_pairs fe c1 f1 c2 f2 ps bss E) as (A & B & C).
    rewrite A, B, C. split; reflexivity.
Qed.

Lemma emit_items_spec fe args : forall its o, emit_items fe args its = Some o ->
  exists rs, all_some (map (render_at fe args) (filter is_arg_item its)) = Some rs /\
             args_of o = concat rs /\ toks_of o = map unpack (tok_items its).
Proof.
  induction its as [|it its IH]; intros o H; cbn [emit_items] in H.
  - inversion H; subst. exists []. repeat split.
  - destruct (emit_item fe args it) as [a|] eqn:Ea; [|discriminate].
    destruct (emit_items fe args its) as [b|] eqn:Eb; [|discriminate].
    inversion H; subst. destruct (IH b eq_refl) as (rs & A & B & C).
    destruct (is_arg_item it) eqn:Ei.
    + destruct (emit_item_arg fe args it a Ea Ei) as [R T].
      exists (args_of a :: rs). cbn [filter]. rewrite Ei. cbn [map all_some]. rewrite R, A.
      rewrite args_of_app, toks_of_app, B, C, T. repeat split.
      destruct it; try discriminate; reflexivity.
    + destruct it as [t| | |]; try discriminate. cbn [emit_item] in Ea. inversion Ea; subst.
      exists rs. cbn [filter is_arg_item]. rewrite A. rewrite args_of_app, toks_of_app, B, C. repeat split.
Qed.

Lemma get_arg_app pre a rest : get_arg (pre ++ a :: rest) (N.of_nat (length pre)) = Some a.
Proof.
  unfold get_arg. rewrite Nat2N.id, nth_error_app2 by lia. now rewrite Nat.sub_diag.
Qed.

Lemma render_at_seq fe : forall ais pre rest rs,
  map item_index ais = map N.of_nat (seq (length pre) (length ais)) ->
  length rest = length ais ->
  all_some (map (render_at fe (pre ++ rest)) ais) = Some rs ->
  render_all fe ais rest = Some (concat rs).
Proof.
  induction ais as [|it ais IH]; intros pre rest rs Hi Hl Hr.
  - destruct rest; [|discriminate]. cbn in Hr. inversion Hr; subst. reflexivity.
  - destruct rest as [|a rest]; [discriminate|].
    cbn [map seq length] in Hi. inversion Hi as [[Hidx Htl]].
    cbn [map all_some] in Hr.
    destruct (render_at fe (pre ++ a :: rest) it) as [x|] eqn:Ex; [|discriminate].
    destruct (all_some (map (render_at fe (pre ++ a :: rest)) ais)) as [r|] eqn:Er; [|discriminate].
    inversion Hr; subst rs.
    unfold render_at in Ex. rewrite Hidx, get_arg_app in Ex.
    cbn [render_all]. rewrite Ex.
    rewrite (IH (pre ++ [a]) rest r).
    + reflexivity.
    + rewrite app_length. cbn [length]. rewrite Nat.add_1_r. exact Htl.
    + cbn [length] in Hl. lia.
    + rewrite <- app_assoc. exact Er.
Qed.

Lemma args_ok_length : forall ps args, args_ok ps args = true -> length args = length ps.
Proof.
  induction ps as [|p ps IH]; intros [|a args] H; cbn in H; try discriminate; [reflexivity|].
  apply andb_prop in H. cbn [length]. f_equal. now apply IH.
Qed.

(** the caller's arguments of one call land in argv in parameter order, each rendered once;
    the rest of what the call appends are the method's literal tokens *)
Lemma edge_args_text fe e args o :
  edge_args_in_order e = true -> args_ok (e_params e) args = true ->
  emit_items fe args (e_items e) = Some o ->
  call_args_text fe e args = Some (args_of o) /\ toks_of o = map unpack (tok_items (e_items e)).
Proof.
  intros Ho Ha He.
  destruct (emit_items_spec fe args _ _ He) as (rs & A & B & C).
  split; [|exact C].
  apply bytes_eqb_eq in Ho. fold (arg_items e) in A.
  assert (Hlen : length (arg_items e) = length (e_params e)).
  { apply (f_equal (@length N)) in Ho. unfold Nseq in Ho. now rewrite !map_length, seq_length in Ho. }
  unfold call_args_text. rewrite B.
  apply (render_at_seq fe _ [] args rs); [|now rewrite (args_ok_length _ _ Ha)|exact A].
  cbn [length]. rewrite Hlen. exact Ho.
Qed.

Definition in_graph (g : graph) (e : edge) : Prop := exists nd, In nd (g_nodes g) /\ In e (n_edges nd).

Lemma find_edge_In name : forall es e, find_edge name es = Some e -> In e es /\ e_name e = name.
Proof.
  induction es as [|x es IH]; intros e H; cbn in H; [discriminate|].
  destruct (N.eqb_spec (e_name x) name) as [E|E].
  - inversion H; subst. split; [now left|reflexivity].
  - destruct (IH e H). split; [now right|assumption].
Qed.

Lemma find_root_In name : forall rs r, find_root name rs = Some r -> In r rs /\ r_name r = name.
Proof.
  induction rs as [|x rs IH]; intros r H; cbn in H; [discriminate|].
  destruct (N.eqb_spec (r_name x) name) as [E|E].
  - inversion H; subst. split; [now left|reflexivity].
  - destruct (IH r H). split; [now right|assumption].
Qed.

Definition call_out (fe : fenv) (c : edge * list arg) : out :=
  opt_list (emit_items fe (snd c) (e_items (fst c))).

Definition call_ok (g : graph) (fe : fenv) (c : edge * list arg) : Prop :=
  in_graph g (fst c) /\ args_ok (e_params (fst c)) (snd c) = true /\
  exists o, emit_items fe (snd c) (e_items (fst c)) = Some o.

Definition call_events (c : edge * list arg) : list key_event := opt_list (edge_key_events (fst c) (snd c)).
Definition path_events (tr : list (edge * list arg)) : list key_event := flat_map call_events tr.

Lemma exec_edge_ok tab fe st e args st' :
  exec_edge tab fe st e args = Ok st' ->
  args_ok (e_params e) args = true /\
  (exists o, emit_items fe args (e_items e) = Some o /\ b_cs st' = b_cs st ++ o) /\
  b_node st' = e_tgt e /\ b_cf st' = N.lor (b_cf st) (e_cf e) /\
  ks_run tab (b_ks st) (call_events (e, args)) = Ok (b_ks st').
Proof.
  unfold exec_edge, call_events. cbn [fst snd].
  destruct (args_ok (e_params e) args); cbn [negb]; [|discriminate].
  destruct (edge_key_events e args) as [evs|]; [|discriminate].
  destruct (ks_run tab (b_ks st) evs) as [ks'|x|] eqn:Ek; try discriminate.
  destruct (emit_items fe args (e_items e)) as [o|]; [|discriminate].
  intros H. inversion H; subst. cbn. repeat split; eauto.
Qed.

(** a call that does not fail with "unknown method" ran the edge that [resolve] finds *)
Lemma exec_step_edge g tab fe st name args x :
  exec_step g tab fe st (Call name args) = x -> x <> Err 2 ->
  exists nd e, get_node g (b_node st) = Some nd /\ find_edge name (n_edges nd) = Some e /\
               exec_edge tab fe st e args = x.
Proof.
  cbn [exec_step]. destruct (get_node g (b_node st)) as [nd|]; [|congruence].
  destruct (find_edge name (n_edges nd)) as [e|] eqn:Ee; [|congruence]. intros E _. now exists nd, e.
Qed.

Lemma exec_steps_spec g tab fe : forall ss st st',
  exec_steps g tab fe st ss = Ok st' ->
  exists tr, resolve g (b_node st) ss = Some tr /\
             Forall (call_ok g fe) tr /\
             b_cs st' = b_cs st ++ flat_map (call_out fe) tr /\
             ks_run tab (b_ks st) (path_events tr) = Ok (b_ks st') /\
             b_cf st' = fold_left (fun cf c => N.lor cf (e_cf (fst c))) tr (b_cf st) /\
             b_node st' = fold_left (fun _ c => e_tgt (fst c)) tr (b_node st).
Proof.
  induction ss as [|[name args] ss IH]; intros st st' H; cbn [exec_steps] in H.
  - inversion H; subst. exists []. cbn. rewrite app_nil_r. repeat split; constructor.
  - destruct (exec_step g tab fe st (Call name args)) as [st1| |] eqn:E1; try discriminate.
    destruct (exec_step_edge _ _ _ _ _ _ _ E1) as (nd & e & En & Ee & E); [discriminate|].
    destruct (exec_edge_ok _ _ _ _ _ _ E) as (Ha & (o & Ho & Hcs) & Hn & Hcf & Hks).
    destruct (IH st1 st' H) as (tr & Hr & Hf & Hc & Hk & Hcf' & Hn').
    exists ((e, args) :: tr). cbn [resolve]. rewrite En, Ee. rewrite Hn in Hr. rewrite Hr.
    repeat split.
    + constructor; [|exact Hf]. repeat split; cbn [fst snd]; eauto.
      exists nd. split; [exact (nth_error_In _ _ En)|]. now apply (find_edge_In name).
    + rewrite Hc, Hcs. cbn [flat_map]. unfold call_out at 2. cbn [fst snd]. rewrite Ho. cbn [opt_list].
      now rewrite app_assoc.
    + unfold path_events. cbn [flat_map]. fold (path_events tr). rewrite ks_run_app, Hks. exact Hk.
    + cbn [fold_left fst]. rewrite <- Hcf. exact Hcf'.
    + cbn [fold_left fst]. rewrite <- Hn. exact Hn'.
Qed.

Lemma flat_map_args_of {A} (f : A -> out) : forall l, args_of (flat_map f l) = flat_map (fun x => args_of (f x)) l.
Proof. induction l as [|x l IH]; cbn [flat_map]; [reflexivity|]. now rewrite args_of_app, IH. Qed.

Lemma flat_map_toks_of {A} (f : A -> out) : forall l, toks_of (flat_map f l) = flat_map (fun x => toks_of (f x)) l.
Proof. induction l as [|x l IH]; cbn [flat_map]; [reflexivity|]. now rewrite toks_of_app, IH. Qed.

Lemma flat_map_ext_Forall {A B} (P : A -> Prop) (f g : A -> list B) : forall l,
  Forall P l -> (forall x, P x -> f x = g x) -> flat_map f l = flat_map g l.
Proof.
  induction l as [|x l IH]; intros HF H; cbn [flat_map]; [reflexivity|].
  inversion HF; subst. rewrite H by assumption. f_equal. now apply IH.
Qed.

Lemma map_flat_map {A B C} (f : B -> C) (h : A -> list B) : forall l,
  map f (flat_map h l) = flat_map (fun x => map f (h x)) l.
Proof. induction l as [|x l IH]; cbn [flat_map]; [reflexivity|]. now rewrite map_app, IH. Qed.

Lemma graph_edges_forall (chk : edge -> bool) g e :
  forallb (fun nd => forallb chk (n_edges nd)) (g_nodes g) = true -> in_graph g e -> chk e = true.
Proof.
  intros H (nd & Hn & He). rewrite forallb_forall in H. specialize (H nd Hn).
  rewrite forallb_forall in H. now apply H.
Qed.

Lemma graph_wf_edge g e : graph_wf g = true -> in_graph g e -> edge_wf e = true.
Proof. intros H. apply andb_prop in H. apply graph_edges_forall, H. Qed.

Lemma graph_fmt_ok_edge g e : graph_fmt_ok g = true -> in_graph g e -> edge_fmt_ok e = true.
Proof. apply graph_edges_forall. Qed.

Lemma graph_keys_ok_edge g e : graph_keys_ok g = true -> in_graph g e -> edge_keys_ok e = true.
Proof. apply graph_edges_forall. Qed.

Lemma call_ok_text g fe c :
  graph_wf g = true -> call_ok g fe c ->
  args_of (call_out fe c) = opt_list (call_args_text fe (fst c) (snd c)) /\
  toks_of (call_out fe c) = map unpack (tok_items (e_items (fst c))).
Proof.
  intros Hwf (Hin & Ha & o & Ho). pose proof (graph_wf_edge g _ Hwf Hin) as Hw. unfold edge_wf in Hw.
  do 3 (apply andb_prop in Hw; destruct Hw as [Hw _]).
  destruct (edge_args_text fe _ _ o Hw Ha Ho) as [T1 T2].
  unfold call_out. rewrite Ho, T1. split; [reflexivity|exact T2].
Qed.

Theorem argv_structure g tab fe init rn ss st r :
  graph_wf g = true ->
  find_root rn (g_roots g) = Some r ->
  run_path g tab fe init rn ss = Ok st ->
  exists tr, resolve g (r_node r) ss = Some tr /\
    (* argv = command tokens, then what each call appends, in call order *)
    map snd (b_cs st) = map unpack (r_toks r) ++ flat_map (fun c => map snd (call_out fe c)) tr /\
    (* the argument-derived elements of argv are the caller's arguments, call by call, parameter by parameter *)
    args_of (b_cs st) = flat_map (fun c => opt_list (call_args_text fe (fst c) (snd c))) tr /\
    (* all other elements are the literal tokens of the command and of the options chosen *)
    toks_of (b_cs st) = map unpack (r_toks r ++ flat_map (fun c => tok_items (e_items (fst c))) tr).
Proof.
  intros Hwf Hr Hrun. unfold run_path in Hrun. rewrite Hr in Hrun.
  destruct (exec_steps_spec _ _ _ _ _ _ Hrun) as (tr & Hres & Hf & Hcs & _).
  exists tr. cbn [root_state b_node b_cs] in *. split; [exact Hres|].
  rewrite <- (map_map unpack (pair false)) in Hcs. rewrite Hcs. repeat split.
  - rewrite map_app, map_map, map_flat_map. cbn [snd]. now rewrite map_id.
  - rewrite args_of_app, args_of_tagged, flat_map_args_of. cbn [app].
    apply (flat_map_ext_Forall (call_ok g fe)); [exact Hf|]. intros c Hc. apply (call_ok_text g fe c Hwf Hc).
  - rewrite toks_of_app, toks_of_tagged, flat_map_toks_of, map_app, map_flat_map. f_equal.
    apply (flat_map_ext_Forall (call_ok g fe)); [exact Hf|]. intros c Hc. apply (call_ok_text g fe c Hwf Hc).
Qed.

Theorem path_slot g tab fe init rn ss st r :
  find_root rn (g_roots g) = Some r ->
  run_path g tab fe init rn ss = Ok st ->
  exists tr, resolve g (r_node r) ss = Some tr /\ ks_run tab init (path_events tr) = Ok (b_ks st).
Proof.
  intros Hr Hrun. unfold run_path in Hrun. rewrite Hr in Hrun.
  destruct (exec_steps_spec _ _ _ _ _ _ Hrun) as (tr & Hres & _ & _ & Hk & _).
  exists tr. split; assumption.
Qed.

Lemma exec_steps_panic g tab fe : forall ss st,
  exec_steps g tab fe st ss = Panic ->
  exists k tr, resolve g (b_node st) (firstn k ss) = Some tr /\ ks_run tab (b_ks st) (path_events tr) = Panic.
Proof.
  induction ss as [|[name args] ss IH]; intros st H; cbn [exec_steps] in H; [discriminate|].
  destruct (exec_step g tab fe st (Call name args)) as [st1| |] eqn:E1; try discriminate;
    destruct (exec_step_edge _ _ _ _ _ _ _ E1) as (nd & e & En & Ee & E); try discriminate.
  - destruct (exec_edge_ok _ _ _ _ _ _ E) as (_ & _ & Hn & _ & Hks).
    destruct (IH st1 H) as (k & tr & Hr & Hp).
    exists (S k), ((e, args) :: tr). cbn [firstn resolve]. rewrite En, Ee. rewrite Hn in Hr. rewrite Hr.
    split; [reflexivity|]. unfold path_events. cbn [flat_map]. fold (path_events tr).
    now rewrite ks_run_app, Hks.
  - (* the call itself panics: that can only be [ks_run] over its key events *)
    exists 1%nat, [(e, args)]. cbn [firstn resolve]. rewrite En, Ee. split; [reflexivity|].
    unfold exec_edge in E.
    destruct (args_ok (e_params e) args); cbn [negb] in E; [|discriminate].
    unfold path_events, call_events. cbn [flat_map fst snd]. rewrite app_nil_r.
    destruct (edge_key_events e args) as [evs|]; [|discriminate]. cbn [opt_list].
    destruct (ks_run tab (b_ks st) evs) as [ks'|x|]; try discriminate; [|reflexivity].
    destruct (emit_items fe args (e_items e)); discriminate.
Qed.

(** a path panics only in check(): two of its keys are in different slots *)
Theorem path_panic g tab fe init rn ss r :
  find_root rn (g_roots g) = Some r ->
  run_path g tab fe init rn ss = Panic ->
  exists k tr, resolve g (r_node r) (firstn k ss) = Some tr /\ ks_run tab init (path_events tr) = Panic.
Proof.
  intros Hr Hrun. unfold run_path in Hrun. rewrite Hr in Hrun.
  exact (exec_steps_panic _ _ _ _ _ Hrun).
Qed.

(** cf only accumulates the masks of the edges *)
Lemma path_cf g tab fe init rn ss st r :
  find_root rn (g_roots g) = Some r ->
  run_path g tab fe init rn ss = Ok st ->
  exists tr, resolve g (r_node r) ss = Some tr /\
             b_cf st = fold_left (fun cf c => N.lor cf (e_cf (fst c))) tr (r_cf r).
Proof.
  intros Hr Hrun. unfold run_path in Hrun. rewrite Hr in Hrun.
  destruct (exec_steps_spec _ _ _ _ _ _ Hrun) as (tr & Hres & _ & _ & _ & Hcf & _).
  exists tr. split; assumption.
Qed.

Lemma arb_steps_argv tab : forall ss st st', arb_steps tab st ss = Ok st' ->
  fst st' = fst st ++ flat_map (fun s => match s with AKeys l | AArgs l => l end) ss.
Proof.
  induction ss as [|s ss IH]; intros st st' H; cbn [arb_steps] in H.
  - inversion H; subst. cbn. now rewrite app_nil_r.
  - destruct (arb_step tab st s) as [st1| |] eqn:E; try discriminate.
    rewrite (IH _ _ H). cbn [flat_map]. rewrite app_assoc. f_equal.
    destruct st as [cs ks]. destruct s as [l|l]; cbn [arb_step] in E.
    + destruct (ks_keys tab ks l); inversion E; subst; reflexivity.
    + inversion E; subst; reflexivity.
Qed.

Lemma arb_build_argv cs cf ks c : arb_build cs cf ks = Ok c -> c_argv c = cs.
Proof.
  unfold arb_build. destruct cs as [|[|x c0] r]; try discriminate.
  destruct (has_suffix _ _); intros H; inversion H; reflexivity.
Qed.

Lemma has_tag_trans cf a b : has_tag cf a = true -> has_tag a b = true -> has_tag cf b = true.
Proof. unfold has_tag. rewrite !N.eqb_eq. intros H1 H2. rewrite <- H2 at 1. now rewrite N.land_assoc, H1. Qed.

(** [fmt_ok] matches every numeric base against the literal 10 *)
Lemma base10_inv (b : N) (P : bool) : match b with 10 => P | _ => false end = true -> b = 10 /\ P = true.
Proof.
  destruct b as [|p]; [discriminate|]. repeat (destruct p as [p|p|]; try discriminate). now split.
Qed.
