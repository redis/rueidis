(** End-to-end statements for CLUSTER SLOTS and CLUSTER SHARDS: a reply that encodes an abstract topology is
    parsed into groups that carry exactly the listed ranges, under their primaries, with only nodes whose
    endpoint is known (and, for shards, that are online); the rebuilt table sends every slot of a listed
    range to that primary.  Both go through [rfold_map]: an invariant over the elements parsed so far. *)
From Coq Require Import List Arith NArith ZArith Bool Lia Permutation.
Require Import RV.Model.Base RV.Model.ClusterTopo RV.Model.ClusterSpec RV.Model.ClusterShardSpec RV.Proofs.ClusterTopoProofs.
Import ListNotations.
Open Scope Z_scope.

Fixpoint kept_nodes (dh : bytes) (ns : list snode) : list addr :=
  match ns with
  | [] => []
  | n :: r => match node_addr dh n with Some a => a :: kept_nodes dh r | None => kept_nodes dh r end
  end.

Lemma slot_nodes_enc dh ns : slot_nodes dh (map enc_node ns) = Ok (kept_nodes dh ns).
Proof.
  induction ns as [|n r IH]; [reflexivity|].
  cbn [map slot_nodes enc_node values length Nat.ltb Nat.leb idx nth_error bind mstring intlen kept_nodes].
  rewrite IH. cbn [bind]. unfold node_addr. destruct (parse_endpoint dh (sn_host n) (sn_port n)); reflexivity.
Qed.

Lemma kept_nodes_In dh ns a : In a (kept_nodes dh ns) -> exists n, In n ns /\ node_addr dh n = Some a.
Proof.
  induction ns as [|n r IH]; cbn [kept_nodes In]; [tauto|].
  destruct (node_addr dh n) as [b|] eqn:E; [intros [<-|H]; [eauto|]|intro H]; destruct (IH H) as [n' [? ?]]; eauto.
Qed.

(** the group an element contributes: appended to the master's group, or a new one *)
Definition entry_group (dh : bytes) (e : sentry) (old : option group) : group :=
  match old with
  | Some g => mkGroup (g_nodes g) (g_slots g ++ [entry_range e])
  | None => mkGroup (kept_nodes dh (se_nodes e)) [entry_range e]
  end.

Lemma parse_slots_entry_enc dh e acc :
  parse_slots_entry dh (enc_entry e) acc =
  Ok (match entry_master dh e with
      | None => acc
      | Some m => assoc_set m (entry_group dh e (assoc_get m acc)) acc
      end).
Proof.
  unfold parse_slots_entry, enc_entry, entry_master, entry_range, entry_group. cbn [values].
  destruct (se_nodes e) as [|n0 ns] eqn:En; [reflexivity|].
  cbn [map length Nat.ltb Nat.leb idx nth_error bind enc_node values mstring intlen].
  unfold node_addr.
  destruct (parse_endpoint dh (sn_host n0) (sn_port n0)) as [m|] eqn:PE; [|reflexivity].
  destruct (assoc_get m acc) as [g|]; [reflexivity|].
  cbn [skipn].
  change (enc_node n0 :: map enc_node ns) with (map enc_node (n0 :: ns)).
  rewrite slot_nodes_enc. cbn [bind kept_nodes]. unfold node_addr. rewrite PE. reflexivity.
Qed.

Record slots_inv (dh : bytes) (done : list sentry) (acc : groups) : Prop := {
  si_has : forall e m, In e done -> entry_master dh e = Some m ->
                       exists g, assoc_get m acc = Some g /\ In (entry_range e) (g_slots g);
  si_only : forall k g r, In (k, g) acc -> In r (g_slots g) ->
                          exists e, In e done /\ entry_master dh e = Some k /\ r = entry_range e;
  si_nodes : forall k g a, In (k, g) acc -> In a (g_nodes g) ->
                           exists e n, In e done /\ In n (se_nodes e) /\ node_addr dh n = Some a;
}.

Lemma slots_inv_step dh done acc e :
  slots_inv dh done acc ->
  exists acc', parse_slots_entry dh (enc_entry e) acc = Ok acc' /\ slots_inv dh (done ++ [e]) acc'.
Proof.
  intros [HAS ONLY NODES]. rewrite parse_slots_entry_enc. eexists. split; [reflexivity|].
  assert (Old : forall e0, In e0 done -> In e0 (done ++ [e])) by (intros; apply in_or_app; auto).
  assert (New : In e (done ++ [e])) by (apply in_or_app; right; now left).
  destruct (entry_master dh e) as [m|] eqn:EM.
  2:{ constructor.
      - intros e0 m0 Hin. apply in_app_or in Hin. destruct Hin as [Hin|[<-|[]]]; [eauto|congruence].
      - intros k g r Hi Hr. destruct (ONLY k g r Hi Hr) as [e0 [? ?]]. eauto.
      - intros k g a Hi Ha. destruct (NODES k g a Hi Ha) as [e0 [n [? ?]]]. eauto. }
  set (g' := entry_group dh e (assoc_get m acc)).
  assert (Hlast : In (entry_range e) (g_slots g')).
  { unfold g', entry_group. destruct (assoc_get m acc); cbn [g_slots]; [apply in_or_app; right|]; now left. }
  constructor.
  - intros e0 m0 Hin EM0. apply in_app_or in Hin. destruct Hin as [Hin|[<-|[]]].
    + destruct (HAS e0 m0 Hin EM0) as [g [G Hr]].
      destruct (addr_eqb m m0) eqn:Em.
      * apply addr_eqb_spec in Em. subst m0. exists g'. split; [apply assoc_get_set_same|].
        unfold g'. rewrite G. cbn [entry_group g_slots]. apply in_or_app. now left.
      * apply addr_eqb_neq in Em. exists g. split; [now rewrite assoc_get_set_other|exact Hr].
    + rewrite EM in EM0. inversion EM0; subst m0. exists g'. split; [apply assoc_get_set_same|exact Hlast].
  - intros k g r Hi Hr. apply In_assoc_set in Hi. destruct Hi as [[-> ->]|Hi].
    + unfold g', entry_group in Hr. destruct (assoc_get m acc) as [g0|] eqn:G; cbn [g_slots] in Hr.
      * apply in_app_or in Hr. destruct Hr as [Hr|[<-|[]]]; [|eauto].
        destruct (ONLY m g0 r (assoc_get_In _ _ _ G) Hr) as [e0 [? ?]]. eauto.
      * destruct Hr as [<-|[]]. eauto.
    + destruct (ONLY k g r Hi Hr) as [e0 [? ?]]. eauto.
  - intros k g a Hi Ha. apply In_assoc_set in Hi. destruct Hi as [[-> ->]|Hi].
    + unfold g', entry_group in Ha. destruct (assoc_get m acc) as [g0|] eqn:G; cbn [g_nodes] in Ha.
      * destruct (NODES m g0 a (assoc_get_In _ _ _ G) Ha) as [e0 [n [? ?]]]. eauto.
      * destruct (kept_nodes_In _ _ _ Ha) as [n [? ?]]. eauto.
    + destruct (NODES k g a Hi Ha) as [e0 [n [? ?]]]. eauto.
Qed.

Theorem parse_slots_spec dh es :
  exists gs, parse_slots dh (enc_slots es) = Ok gs /\ wf gs /\ slots_inv dh es gs.
Proof.
  destruct (parse_slots_wf dh (enc_slots es)) as [gs [E W]]. exists gs. split; [exact E|]. split; [exact W|].
  unfold parse_slots, enc_slots in E. cbn [values] in E. rewrite parse_slots_loop_rfold in E.
  destruct (rfold_map _ enc_entry (slots_inv dh) (slots_inv_step dh) es [] []) as [gs' [E' I]]; [constructor; cbn; tauto|].
  rewrite E' in E. injection E as <-. exact I.
Qed.

Lemma In_permuted (gs : groups) l g : Permutation (map snd gs) l -> In g l <-> exists k, In (k, g) gs.
Proof.
  intro P. split.
  - intro Hg. apply (Permutation_in _ (Permutation_sym P)), in_map_iff in Hg. destruct Hg as [[k g'] [<- Hin]]. eauto.
  - intros [k Hin]. apply (Permutation_in _ P), in_map_iff. exists (k, g). auto.
Qed.

(** parsed groups, iterated in any order: a slot that only the group under key [m] lists goes to [m] *)
Lemma wslot_keyed (gs : groups) c s m g :
  wf gs -> t_kind c <> CfgReplicaOnly -> assoc_get m gs = Some g -> lists g s = true ->
  (forall k g', In (k, g') gs -> lists g' s = true -> k = m) ->
  forall l, Permutation (map snd gs) l -> wslot c l s = Some m.
Proof.
  intros [HD ND] Hk G Hl Hu l P. pose proof (assoc_get_In _ _ _ G) as Gin.
  apply (wslot_default_unique c l s g m Hk); [apply (In_permuted gs l g P); eauto|exact Hl| |].
  - intros g' Hg' Hl'. apply (In_permuted gs l g' P) in Hg'. destruct Hg' as [k Hin'].
    rewrite (Hu k g' Hin' Hl') in Hin'. apply (In_assoc_get _ _ _ ND) in Hin'. congruence.
  - rewrite Forall_forall in HD. exact (HD _ Gin).
Qed.

(** the table built from such a reply, in any iteration order of the groups *)
Theorem slots_table dh es c e m s :
  t_kind c <> CfgReplicaOnly ->
  In e es -> entry_master dh e = Some m -> covers (entry_range e) s = true ->
  (forall e' m', In e' es -> covers (entry_range e') s = true -> entry_master dh e' = Some m' -> m' = m) ->
  exists gs, parse_slots dh (enc_slots es) = Ok gs /\
             forall l, Permutation (map snd gs) l -> wslot c l s = Some m.
Proof.
  intros Hk Hin EM Hc Hu. destruct (parse_slots_spec dh es) as [gs [E [W [HAS ONLY NODES]]]].
  exists gs. split; [exact E|]. destruct (HAS e m Hin EM) as [g [G Hr]].
  apply (wslot_keyed gs c s m g W Hk G); [apply existsb_exists; exists (entry_range e); auto|].
  intros k g' Hin' Hl'. apply existsb_exists in Hl'. destruct Hl' as [r [Hr' Hc']].
  destruct (ONLY k g' r Hin' Hr') as [e' [He' [EM' ->]]]. eauto.
Qed.

(** slots listed by nobody have no connection *)
Theorem slots_table_unlisted dh es c s :
  (forall e, In e es -> covers (entry_range e) s = false) ->
  exists gs, parse_slots dh (enc_slots es) = Ok gs /\
             forall l, Permutation (map snd gs) l -> wslot c l s = None.
Proof.
  intro Hn. destruct (parse_slots_spec dh es) as [gs [E [_ [HAS ONLY NODES]]]].
  exists gs. split; [exact E|]. intros l P. apply wslot_none. intros g Hg.
  apply (In_permuted gs l g P) in Hg. destruct Hg as [k Hin'].
  unfold lists. destruct (existsb (fun r => covers r s) (g_slots g)) eqn:X; [|reflexivity].
  apply existsb_exists in X. destruct X as [r [Hr Hc]].
  destruct (ONLY k g r Hin' Hr) as [e' [He' [_ ->]]]. rewrite (Hn e' He') in Hc. discriminate.
Qed.

Lemma hnode_read dh tls n :
  shard_node_online (enc_hnode n) = hn_online n /\ shard_node_addr dh tls (enc_hnode n) = hnode_addr dh tls n /\
  bytes_eqb (mstring (omap_get k_role (as_map (enc_hnode n)))) s_master = hn_master n.
Proof. destruct n as [h p t [|] [|]]; repeat split; reflexivity. Qed.

Lemma shard_nodes_enc dh tls : forall ns acc m,
  shard_nodes dh tls (map enc_hnode ns) acc m = hkept dh tls ns acc m.
Proof.
  induction ns as [|n r IH]; intros acc m; [reflexivity|].
  cbn [map shard_nodes hkept]. destruct (hnode_read dh tls n) as [F1 [F2 F3]].
  unfold shard_node_online, shard_node_addr in F1, F2. rewrite F1, F2, F3.
  destruct (hn_online n); cbn [negb]; [|apply IH]. destruct (hnode_addr dh tls n); apply IH.
Qed.

Lemma enc_ranges_length rs : length (enc_ranges rs) = (2 * length rs)%nat.
Proof. induction rs as [|r l IH]; cbn [enc_ranges flat_map length app]; [reflexivity|]. fold (enc_ranges l). lia. Qed.

Lemma div2_double n : Nat.div2 (2 * n) = n.
Proof. induction n as [|n IH]; [reflexivity|]. replace (2 * S n)%nat with (S (S (2 * n))) by lia. cbn [Nat.div2]. now rewrite IH. Qed.

Lemma shard_slots_enc rs : shard_slots (length rs) (enc_ranges rs) = Ok rs.
Proof.
  induction rs as [|[lo hi] l IH]; [reflexivity|].
  cbn [length shard_slots enc_ranges flat_map app fst snd]. fold (enc_ranges l). rewrite IH. reflexivity.
Qed.

Lemma swap0_incl l m l' : swap0 l m = Ok l' -> forall a, In a l' -> In a l.
Proof.
  unfold swap0, idx. destruct (nth_error l 0) as [x0|] eqn:N0; [|discriminate]. destruct (nth_error l m) as [xm|] eqn:Nm; [|discriminate].
  cbn [bind]. destruct m as [|k]; intro H; injection H as <-; intros a Ha; [exact Ha|].
  destruct l as [|y t]; [discriminate|]. cbn [tl] in Ha. injection N0 as ->.
  destruct Ha as [<-|Ha]; [exact (nth_error_In _ _ Nm)|].
  apply in_app_or in Ha. destruct Ha as [Ha|[<-|Ha]];
    [right; exact (In_firstn _ _ _ Ha)|now left|right; exact (In_skipn t (S k) a Ha)].
Qed.

Definition kept_of (dh : bytes) (tls : bool) (s : shard) : list addr := fst (hkept dh tls (sd_nodes s) [] None).

(** what parseShards does with one well-formed shard: nothing without a primary, else a group that starts with
    the primary, holds kept nodes only and carries the shard's ranges *)
Lemma parse_shards_entry_enc dh tls s acc :
  match shard_primary dh tls s with
  | None => parse_shards_entry dh tls (enc_shard s) acc = Ok acc
  | Some p => exists nodes', parse_shards_entry dh tls (enc_shard s) acc = Ok (assoc_set p (mkGroup nodes' (sd_ranges s)) acc) /\
                             forall a, In a nodes' -> In a (kept_of dh tls s)
  end.
Proof.
  unfold shard_primary, kept_of, parse_shards_entry. destruct s as [ranges nodes].
  change (values (omap_get k_slots (as_map (enc_shard (mkShard ranges nodes))))) with (enc_ranges ranges).
  change (values (omap_get k_nodes (as_map (enc_shard (mkShard ranges nodes))))) with (map enc_hnode nodes).
  rewrite enc_ranges_length, div2_double, shard_slots_enc. cbn [bind sd_nodes sd_ranges]. rewrite shard_nodes_enc.
  destruct (hkept dh tls nodes [] None) as [kept [m|]] eqn:K; [|reflexivity]. cbn [fst].
  assert (Hb : (m < length kept)%nat) by (rewrite <- shard_nodes_enc in K; eapply shard_nodes_bound; [|exact K]; discriminate).
  destruct (swap0_ok kept m Hb) as [l' [Hs [Hne H0]]]. rewrite Hs. cbn [bind].
  destruct l' as [|f r]; [congruence|]. cbn [nth_error] in H0. rewrite <- H0. cbn [idx nth_error bind].
  exists (f :: r). split; [reflexivity|exact (swap0_incl _ _ _ Hs)].
Qed.

Record shards_inv (dh : bytes) (tls : bool) (done : list shard) (acc : groups) : Prop := {
  hi_from : forall k g, In (k, g) acc ->
              exists s, In s done /\ shard_primary dh tls s = Some k /\ g_slots g = sd_ranges s /\
                        forall a, In a (g_nodes g) -> In a (kept_of dh tls s);
  hi_has : forall s p, In s done -> shard_primary dh tls s = Some p -> assoc_get p acc <> None;
}.

Lemma shards_inv_step dh tls done acc s :
  shards_inv dh tls done acc ->
  exists acc', parse_shards_entry dh tls (enc_shard s) acc = Ok acc' /\ shards_inv dh tls (done ++ [s]) acc'.
Proof.
  intros [FROM HAS]. pose proof (parse_shards_entry_enc dh tls s acc) as E.
  assert (Old : forall s0, In s0 done -> In s0 (done ++ [s])) by (intros; apply in_or_app; auto).
  destruct (shard_primary dh tls s) as [p|] eqn:P; [destruct E as [nodes' [E Hk]]|]; rewrite E; eexists; (split; [reflexivity|]); constructor.
  - intros k g Hin. apply In_assoc_set in Hin. destruct Hin as [[-> ->]|Hin].
    + exists s. split; [apply in_or_app; right; now left|auto].
    + destruct (FROM k g Hin) as [s0 [I0 R0]]. eauto.
  - intros s0 p0 Hin P0. apply in_app_or in Hin. destruct (addr_eqb p p0) eqn:Ep.
    + apply addr_eqb_spec in Ep. subst p0. rewrite assoc_get_set_same. discriminate.
    + apply addr_eqb_neq in Ep. rewrite assoc_get_set_other by exact Ep.
      destruct Hin as [Hin|[<-|[]]]; [eapply HAS; eauto|congruence].
  - intros k g Hin. destruct (FROM k g Hin) as [s0 [I0 R0]]. eauto.
  - intros s0 p0 Hin P0. apply in_app_or in Hin. destruct Hin as [Hin|[<-|[]]]; [eapply HAS; eauto|congruence].
Qed.

Theorem parse_shards_spec dh tls l :
  exists gs, parse_shards dh tls (enc_shards l) = Ok gs /\ wf gs /\ shards_inv dh tls l gs.
Proof.
  destruct (parse_shards_wf dh tls (enc_shards l)) as [gs [E W]]. exists gs. split; [exact E|]. split; [exact W|].
  unfold parse_shards, enc_shards in E. cbn [values] in E. rewrite parse_shards_loop_rfold in E.
  destruct (rfold_map _ enc_shard (shards_inv dh tls) (shards_inv_step dh tls) l [] []) as [gs' [E' I]]; [constructor; cbn; tauto|].
  rewrite E' in E. injection E as <-. exact I.
Qed.

(** the table built from a CLUSTER SHARDS reply, in any iteration order of the groups *)
Theorem shards_table dh tls l c sh m r s :
  t_kind c <> CfgReplicaOnly ->
  In sh l -> shard_primary dh tls sh = Some m -> In r (sd_ranges sh) -> covers r s = true ->
  (forall sh' m', In sh' l -> shard_primary dh tls sh' = Some m' ->
      (m' = m -> sh' = sh) /\ ((exists r', In r' (sd_ranges sh') /\ covers r' s = true) -> m' = m)) ->
  exists gs, parse_shards dh tls (enc_shards l) = Ok gs /\
             forall o, Permutation (map snd gs) o -> wslot c o s = Some m.
Proof.
  intros Hk Hin Pm Hr Hc Hu. destruct (parse_shards_spec dh tls l) as [gs [E [W [FROM HAS]]]].
  exists gs. split; [exact E|].
  destruct (assoc_get m gs) as [g|] eqn:G; [|exfalso; exact (HAS sh m Hin Pm G)].
  destruct (FROM m g (assoc_get_In _ _ _ G)) as [s0 [I0 [P0 [S0 _]]]].
  assert (s0 = sh) by (apply (proj1 (Hu s0 m I0 P0)); reflexivity). subst s0.
  apply (wslot_keyed gs c s m g W Hk G); [apply existsb_exists; exists r; rewrite S0; auto|].
  intros k g' Hin' Hl'. destruct (FROM k g' Hin') as [s1 [I1 [P1 [S1 _]]]].
  apply existsb_exists in Hl'. destruct Hl' as [r' [Hr' Hc']]. rewrite S1 in Hr'. apply (proj2 (Hu s1 k I1 P1)). eauto.
Qed.

(** every kept node is online and has an endpoint: [hkept] is [shard_nodes] on the encoding *)
Lemma kept_of_sound dh tls s a : In a (kept_of dh tls s) ->
  exists n, In n (sd_nodes s) /\ hn_online n = true /\ hnode_addr dh tls n = Some a.
Proof.
  unfold kept_of. destruct (hkept dh tls (sd_nodes s) [] None) as [kept m'] eqn:K. rewrite <- shard_nodes_enc in K. intro Ha.
  destruct (shard_nodes_kept dh tls _ _ _ _ _ K a Ha) as [[]|[x [Hx [On Ad]]]].
  apply in_map_iff in Hx. destruct Hx as [n [<- Hn]]. destruct (hnode_read dh tls n) as [F1 [F2 _]].
  exists n. rewrite <- F1, <- F2. auto.
Qed.
