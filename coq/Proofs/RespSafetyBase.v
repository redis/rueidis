(** C13, part 1: what every reader operation and every scalar reader does to the stream and to the
    allocation meter, on ARBITRARY input.  Potential form: [al + k * |remaining|] never grows by more than
    an additive constant, so allocation is bounded by k * consumed + constant.  The same statements say
    where the decoder's internal error codes come from: errOldNull (the RESP2 null marker) and, up to
    readB, errChunked are only raised before anything has been allocated. *)
From Coq Require Import List Arith NArith ZArith Bool Lia ZifyN ZifyNat ZifyBool.
Require Import RV.Model.Base RV.Model.RespWrite RV.Model.Resp.
Require Import RV.Proofs.RespIOProofs RV.Proofs.RespBaseProofs RV.Proofs.RespMsgProofs RV.Proofs.RespScalarProofs.
Import ListNotations.
Open Scope N_scope.

(** inputs are shorter than 2^40 bytes (a terabyte): beyond that the Go runtime's 2^48-byte allocation
    limit could be hit by the doubling buffers before memory is *)
Definition input_bound : N := 1099511627776.

Lemma blen_firstn_skipn (s : bytes) n : blen (firstn n s) + blen (skipn n s) = blen s.
Proof. unfold blen. rewrite <- (firstn_skipn n s) at 3. rewrite app_length. lia. Qed.

Lemma blen_skipn_le (s : bytes) n : blen (skipn n s) <= blen s.
Proof. pose proof (blen_firstn_skipn s n). lia. Qed.

Lemma blen_nil : blen (@nil N) = 0.
Proof. reflexivity. Qed.

Lemma blen_take (s : bytes) n : n <= blen s ->
  blen (firstn (N.to_nat n) s) = n /\ blen (skipn (N.to_nat n) s) + n = blen s.
Proof.
  intros H. pose proof (blen_firstn_skipn s (N.to_nat n)).
  assert (blen (firstn (N.to_nat n) s) = n) by (unfold blen in *; rewrite firstn_length; lia). lia.
Qed.

Lemma ok_pair_inv {A C} (a c : A) (b d : C) : (@Ok A a, b) = (Ok c, d) -> a = c /\ b = d.
Proof. intros H. inversion H. auto. Qed.

Lemma triple_inv {A C D} (a a' : A) (b b' : C) (c c' : D) : (a, b, c) = (a', b', c') -> a = a' /\ b = b' /\ c = c'.
Proof. intros H. inversion H. auto. Qed.

(** [Heq : (r0, s0, al0) = (r, s', al')], the run that was computed against the one that was given *)
Ltac fin Heq := apply triple_inv in Heq as (<- & <- & <-).

(** a successful operation has taken its answer off the front of the stream *)
Lemma step_ok B o s d s' : flat_step B o s = (Ok d, s') ->
  match o with
  | OReadByte => blen s' + 1 = blen s
  | ODiscard k => (0 <= k)%Z /\ blen s' + Z.to_N k = blen s
  | OReadSlice | OReadBytes => blen s' + blen d = blen s /\ 1 <= blen d
  | OReadFull n | OCopyN n => blen d = n /\ blen s' + n = blen s
  | _ => True
  end.
Proof.
  assert (Hline : forall i, (i < length s)%nat ->
            blen (skipn (S i) s) + blen (firstn (S i) s) = blen s /\ 1 <= blen (firstn (S i) s)).
  { intros i Hi. pose proof (blen_firstn_skipn s (S i)). split; [lia|]. unfold blen. rewrite firstn_length. lia. }
  destruct o; cbn [flat_step]; try exact (fun _ => I).
  - destruct s; intros Heq; inversion Heq. unfold blen. cbn [length]. lia.
  - destruct (Z.ltb_spec n 0); [discriminate|]. destruct (N.leb_spec (Z.to_N n) (blen s)) as [Hle|]; [|discriminate].
    intros Heq; apply ok_pair_inv in Heq as [_ <-]. split; [lia|].
    apply blen_take in Hle. rewrite Z_N_nat in Hle. lia.
  - destruct (find_lf (firstn B s)) as [i|] eqn:E; [|destruct (B <=? length s)%nat; discriminate].
    intros Heq; apply ok_pair_inv in Heq as [<- <-]. apply find_lf_lt in E. rewrite firstn_length in E. apply Hline. lia.
  - destruct (find_lf s) as [i|] eqn:E; [|discriminate].
    intros Heq; apply ok_pair_inv in Heq as [<- <-]. apply find_lf_lt in E. now apply Hline.
  - destruct (N.eqb_spec n 0) as [->|_]; [intros Heq; apply ok_pair_inv in Heq as [<- <-]; rewrite blen_nil; lia|].
    destruct (N.leb_spec n (blen s)) as [Hle|]; [|destruct s; discriminate].
    intros Heq; apply ok_pair_inv in Heq as [<- <-]. now apply blen_take.
  - destruct (N.leb_spec n (blen s)) as [Hle|]; [|discriminate].
    intros Heq; apply ok_pair_inv in Heq as [<- <-]. now apply blen_take.
Qed.

Lemma step_discard_ok B k s d s' : flat_step B (ODiscard k) s = (Ok d, s') -> (0 <= k)%Z /\ blen s' + Z.to_N k = blen s.
Proof. apply (step_ok B (ODiscard k)). Qed.

(** no operation panics or fails with one of the decoder's internal error codes, and the stream only shrinks *)
Lemma step_spec B o s :
  blen (snd (flat_step B o s)) <= blen s /\
  match fst (flat_step B o s) with Ok _ => True | Err e => e <> eOldNull /\ e <> eChunked | Panic => False end.
Proof.
  pose proof (blen_skipn_le s) as Hsk. assert (Hnil : blen (@nil N) <= blen s) by (rewrite blen_nil; lia).
  assert (Hrefl : blen s <= blen s) by lia.
  destruct o; cbn [flat_step];
    [ destruct s | | destruct (n <? 0)%Z; [|destruct (Z.to_N n <=? blen s)]
    | destruct (find_lf (firstn B s)); [|destruct (B <=? length s)%nat] | destruct (find_lf s)
    | destruct (n =? 0); [|destruct (n <=? blen s); [|destruct s]] | destruct (n <=? blen s)
    | | destruct (n <=? blen s) | | ];
    cbn [fst snd]; repeat split; auto; try discriminate.
  unfold blen. cbn [length]. lia.
Qed.

Lemma step_shrink B o s : blen (snd (flat_step B o s)) <= blen s.
Proof. apply step_spec. Qed.

Lemma step_no_panic B o s : fst (flat_step B o s) <> Panic.
Proof. pose proof (proj2 (step_spec B o s)). now destruct (fst (flat_step B o s)). Qed.

Lemma run_op_spec B o s al r s' al' : run B (do_op o) s al = (r, s', al') ->
  al' = meter o al /\ blen s' <= blen s /\
  match r with Ok d => flat_step B o s = (Ok d, s') | Err e => e <> eOldNull /\ e <> eChunked | Panic => False end.
Proof.
  rewrite run_do_op. pose proof (step_spec B o s) as [Hs Hr]. destruct (flat_step B o s) as [r0 s0].
  cbn [fst snd] in *. intros Heq; fin Heq. split; [reflexivity|]. split; [assumption|]. now destruct r0.
Qed.

Lemma grow_spec B n s al r s' al' : run B (grow n) s al = (r, s', al') ->
  s' = s /\ ((r = Panic /\ (n < 0)%Z /\ al' = al) \/ (r = Ok tt /\ (0 <= n)%Z /\ al' = al + Z.to_N n)).
Proof. unfold grow. destruct (Z.ltb_spec n 0); cbn; intros Heq; fin Heq; auto. Qed.

(** readI: no allocation; a success has consumed a line of at least three bytes *)
Lemma digits_loop_err ds : forall v,
  match digits_loop ds v with Ok _ => True | Err e => e = eNumByte | Panic => False end.
Proof. induction ds as [|c r IH]; intros v; cbn [digits_loop]; [exact I|]. destruct (is_dig c); [apply IH|reflexivity]. Qed.

Lemma parse_int_spec bs :
  match parse_int_line bs with Ok v => 3 <= blen bs /\ in_i64 v | Err e => e <> eOldNull | Panic => False end.
Proof.
  unfold parse_int_line. destruct (Nat.ltb_spec (length bs) 3); [discriminate|]. destruct (hd 0 bs =? 63); [discriminate|].
  set (ds := firstn _ _). pose proof (digits_loop_err ds 0%Z) as Hd. destruct (digits_loop ds 0%Z).
  - split; [unfold blen; lia|apply wrap64_range].
  - subst. discriminate.
  - assumption.
Qed.

Lemma read_i_spec B s al r s' al' : run B read_i s al = (r, s', al') ->
  al' = al /\ blen s' <= blen s /\
  match r with Ok v => blen s' + 3 <= blen s /\ in_i64 v | Err e => e <> eOldNull | Panic => False end.
Proof.
  intros H. apply run_bindr_inv in H as (r0 & s0 & al0 & E & H).
  apply run_op_spec in E as (-> & Hs & E). cbn [meter] in *.
  destruct r0 as [bs|e|]; [|fin H; tauto|easy].
  cbn [run] in H. fin H. apply step_ok in E. pose proof (parse_int_spec bs) as Hp.
  split; [reflexivity|]. split; [assumption|]. destruct (parse_int_line bs); [|assumption..]. split; [lia|tauto].
Qed.

(** the scalar readers that readNextMessage dispatches to, in one form: at most 7 bytes are requested per
    byte consumed, plus [2 * K0] when the reader fails -- and nothing at all when it reports errOldNull *)
Definition K0 : N := 196608.   (* 3 * maxPreallocBytes *)

Definition scalar_ok {A} (s : bytes) (al : N) (r : result A) (s' : bytes) (al' : N) : Prop :=
  blen s' <= blen s /\ al' + 7 * blen s' <= al + 7 * blen s + 2 * K0 /\
  match r with Ok _ => al' + 7 * blen s' <= al + 7 * blen s | Err e => e = eOldNull -> al' = al | Panic => False end.

Lemma read_i_scalar B s al r s' al' : run B read_i s al = (r, s', al') -> scalar_ok s al r s' al'.
Proof. intros H. apply read_i_spec in H as (-> & Hs & H). repeat split; try lia. destruct r; [lia|tauto|assumption]. Qed.

(** readS allocates the line it returns *)
Lemma read_s_spec B s al r s' al' : run B read_s s al = (r, s', al') -> scalar_ok s al r s' al'.
Proof.
  unfold read_s.
  assert (Hslow : forall r s' al',
    run B (bindr (do_op OReadBytes) (fun bs => bind (alloc (blen bs)) (fun _ =>
             if (length bs <? 2)%nat then Ret (Err eNoCRLF) else Ret (Ok (firstn (length bs - 2) bs))))) s al = (r, s', al') ->
    scalar_ok s al r s' al').
  { clear. intros r s' al' H. apply run_bindr_inv in H as (r0 & s0 & al0 & E & H).
    apply run_op_spec in E as (-> & Hs & E). cbn [meter] in *.
    destruct r0 as [bs|e|]; [|fin H; repeat split; try lia; tauto|easy].
    apply step_ok in E as [E _]. rewrite run_bind, run_alloc in H.
    destruct (length bs <? 2)%nat; cbn [run] in H; fin H; repeat split; try lia; discriminate. }
  rewrite run_bind, run_do_op. cbn [flat_step fst snd meter is_ok].
  destruct (bytes_eqb OKs (firstn 2 s)); [|apply Hslow].
  rewrite run_bind, run_do_op. cbn [flat_step fst snd meter is_ok].
  destruct (bytes_eqb OKrn (firstn 4 s)); [|apply Hslow].
  (* the fast path returns "OK" whatever Discard answers *)
  rewrite run_bind, run_do_op. cbn [run meter]. intros H; fin H.
  pose proof (step_spec B (ODiscard 4) s) as [Hs _]. repeat split; lia.
Qed.

Definition slackN (n cap : Z) : N := Z.to_N (Z.max 0 (2 * cap - 4 * n)).

Lemma slackN_0 cap : slackN 0 cap = 2 * Z.to_N cap.
Proof. unfold slackN. lia. Qed.

Lemma slackN_full n cap : (cap <= 2 * n)%Z -> slackN n cap = 0.
Proof. unfold slackN. lia. Qed.

Lemma slackN_half n cap : (0 <= 2 * n <= cap)%Z -> Z.of_N (slackN n cap) = (2 * cap - 4 * n)%Z.
Proof. unfold slackN. lia. Qed.

Lemma read_n_loop_spec B : forall fuel L n cap acc s al r s' al',
  (0 <= n <= cap)%Z -> (cap <= L)%Z -> (cap = L \/ 2 * n <= cap)%Z -> blen s < input_bound ->
  run B (read_n_loop fuel L n cap acc) s al = (r, s', al') ->
  blen s' <= blen s /\ al' + 4 * blen s' <= al + 4 * blen s + slackN n cap /\
  match r with
  | Ok _ => (Z.of_N (blen s') + (L - n) = Z.of_N (blen s))%Z
  | Err e => e <> eOldNull /\ e <> eChunked
  | Panic => False
  end.
Proof.
  induction fuel as [|f IH]; intros L n cap acc s al r s' al' Hn Hcap Hinv Hb H.
  - cbn in H. fin H. repeat split; try lia; discriminate.
  - cbn [read_n_loop] in H. apply run_bind_inv in H as (r0 & s0 & al0 & E & H).
    apply run_op_spec in E as (-> & Hs & E). cbn [meter] in *.
    destruct r0 as [d|e|]; [| |easy].
    + apply step_ok in E as [Ed Es0].
      assert (Es0z : (Z.of_N (blen s0) + (cap - n) = Z.of_N (blen s))%Z) by lia. clear Es0.
      destruct (Z.eqb_spec cap L) as [->|Hne].
      * cbn [run] in H. fin H. lia.
      * destruct Hinv as [Hx|Hinv]; [congruence|].
        apply run_bindr_inv in H as (r1 & s1 & al1 & E1 & H).
        assert (Hc : (cap <= Z.min L (cap * 2) <= L /\ Z.min L (cap * 2) <= 2 * cap /\
                      (Z.min L (cap * 2) = L \/ 2 * cap <= Z.min L (cap * 2)))%Z) by lia.
        revert E1 H Hc. generalize (Z.min L (cap * 2)) as cap'. intros cap' E1 H (Hc1 & Hc2 & Hc3).
        (* make cannot fail: the buffer is at most twice what has already been received *)
        rewrite run_alloc_make in E1 by (unfold max_alloc; unfold input_bound in Hb; lia). fin E1.
        apply IH in H; [|lia..]. clear IH.
        rewrite (slackN_full cap cap' Hc2), Z.mul_1_r in H. pose proof (slackN_half n cap ltac:(lia)) as Hsl.
        assert (HcN : Z.of_N (Z.to_N cap') = cap') by lia.
        revert H Hsl HcN. generalize (slackN n cap) (Z.to_N cap'). intros sl cN H Hsl HcN.
        destruct r; lia.
    + cbn [run] in H. fin H. repeat split; try lia; destruct ((e =? eEOF) && (0 <? n)%Z); try discriminate; tauto.
Qed.

Lemma read_n_spec B L s al r s' al' : blen s < input_bound ->
  run B (read_n L) s al = (r, s', al') ->
  blen s' <= blen s /\ al' + 4 * blen s' <= al + 4 * blen s + K0 /\
  match r with
  | Ok _ => (0 <= L)%Z /\ blen s' + Z.to_N L = blen s /\ al' <= al + 7 * Z.to_N L
  | Err e => e <> eOldNull /\ e <> eChunked
  | Panic => False
  end.
Proof.
  intros Hb H. unfold read_n in H. destruct (Z.ltb_spec L 0) as [Hneg|Hpos].
  - cbn in H. fin H. repeat split; try lia; discriminate.
  - apply run_bindr_inv in H as (r1 & s1 & al1 & E1 & H).
    assert (Hc : (0 <= Z.min L max_prealloc_bytes <= L /\ Z.min L max_prealloc_bytes <= 65536)%Z)
      by (unfold max_prealloc_bytes; lia).
    revert E1 H Hc. generalize (Z.min L max_prealloc_bytes) as c. intros c E1 H [Hc1 Hc2].
    rewrite run_alloc_make in E1 by (unfold max_alloc; lia). fin E1.
    apply read_n_loop_spec in H; [|lia..|assumption].
    rewrite slackN_0, Z.mul_1_r, Z.sub_0_r in H.
    assert (HcN : Z.to_N c <= Z.to_N L /\ Z.to_N c <= 65536) by lia. revert H HcN. generalize (Z.to_N c). intros cN H HcN.
    unfold K0. destruct r; lia.
Qed.

(** readB: errOldNull and errChunked are reported right after the length line *)
Lemma read_b_spec B s al r s' al' : blen s < input_bound ->
  run B read_b s al = (r, s', al') ->
  blen s' <= blen s /\ al' + 4 * blen s' <= al + 4 * blen s + K0 /\
  match r with
  | Ok _ => blen s' + 3 <= blen s /\ al' + 7 * blen s' <= al + 7 * blen s
  | Err e => e = eOldNull \/ e = eChunked -> al' = al
  | Panic => False
  end.
Proof.
  intros Hb H. apply run_bindr_inv in H as (r0 & s0 & al0 & E0 & H).
  apply read_i_spec in E0 as (-> & Hs0 & E0).
  destruct r0 as [L|e|]; [|fin H; repeat split; try lia; auto|easy].
  destruct E0 as [Hc _].
  destruct (L =? -1)%Z; [cbn [run] in H; fin H; repeat split; try lia; auto|].
  apply run_bindr_inv in H as (r1 & s1 & al1 & E1 & H).
  apply read_n_spec in E1; [|lia]. destruct E1 as (Hs1 & Ha1 & E1).
  destruct r1 as [bs|e|]; [|fin H; repeat split; try lia; tauto|easy].
  apply run_bindr_inv in H as (r2 & s2 & al2 & E2 & H).
  apply run_op_spec in E2 as (-> & Hs2 & E2). cbn [meter] in *.
  destruct r2 as [d|e|]; [cbn [run] in H|..]; fin H; repeat split; try lia; tauto.
Qed.

Lemma chunk_loop_spec B : forall fuel acc s al r s' al', blen s < input_bound ->
  run B (chunk_loop fuel acc) s al = (r, s', al') ->
  blen s' <= blen s /\ al' + 4 * blen s' <= al + 4 * blen s + K0 /\
  match r with Ok _ => al' + 4 * blen s' <= al + 4 * blen s | Err e => e <> eOldNull | Panic => False end.
Proof.
  induction fuel as [|f IH]; intros acc s al r s' al' Hb H.
  - cbn in H. fin H. repeat split; try lia; discriminate.
  - cbn [chunk_loop] in H. apply run_bindr_inv in H as (r0 & s0 & al0 & E0 & H).
    apply run_op_spec in E0 as (-> & Hs0 & E0). cbn [meter] in *.
    destruct r0 as [d0|e|]; [|fin H; repeat split; try lia; tauto|easy].
    apply run_bindr_inv in H as (r1 & s1 & al1 & E1 & H).
    apply read_i_spec in E1 as (-> & Hs1 & E1).
    destruct r1 as [L|e|]; [|fin H; repeat split; try lia; tauto|easy].
    destruct (Z.eqb_spec L 0); [cbn [run] in H; fin H; repeat split; lia|].
    destruct (Z.ltb_spec L 0); [cbn [run] in H; fin H; repeat split; try lia; discriminate|].
    apply run_bindr_inv in H as (r2 & s2 & al2 & E2 & H).
    apply grow_spec in E2 as [-> [(-> & Hg & ->)|(-> & Hg & ->)]]; [unfold max_prealloc_bytes in Hg; lia|].
    apply run_bindr_inv in H as (r3 & s3 & al3 & E3 & H).
    apply run_op_spec in E3 as (-> & Hs3 & E3). cbn [meter] in *.
    (* Grow asks for at most the chunk length, and for at most K0 *)
    assert (Hg' : Z.to_N (Z.min L max_prealloc_bytes) <= Z.to_N L /\ Z.to_N (Z.min L max_prealloc_bytes) <= K0 /\ 1 <= Z.to_N L)
      by (unfold max_prealloc_bytes, K0; lia).
    revert H E3 Hg'. generalize (Z.to_N (Z.min L max_prealloc_bytes)) (Z.to_N L). intros gN lN H E3 Hg'.
    destruct r3 as [d|e|]; [|fin H; repeat split; try lia; tauto|easy].
    apply step_ok in E3 as [Ed Es3]. rewrite run_bind, run_alloc in H.
    apply run_bindr_inv in H as (r4 & s4 & al4 & E4 & H).
    apply run_op_spec in E4 as (-> & Hs4 & E4). cbn [meter] in *.
    destruct r4 as [d4|e|]; [|fin H; repeat split; try lia; tauto|easy].
    apply IH in H; [|lia]. destruct r; lia.
Qed.

Lemma read_blob_string_spec B cf s al r s' al' : blen s < input_bound ->
  run B (read_blob_string cf) s al = (r, s', al') -> scalar_ok s al r s' al'.
Proof.
  intros Hb H. apply run_bind_inv in H as (r0 & s0 & al0 & E0 & H).
  apply read_b_spec in E0; [|assumption]. destruct E0 as (Hs0 & Ha0 & E0).
  destruct r0 as [x|e|]; [cbn [run] in H; fin H; repeat split; lia| |easy].
  destruct (N.eqb_spec e eChunked) as [->|Hne].
  - rewrite (E0 (or_intror eq_refl)) in *. apply chunk_loop_spec in H; [|lia].
    destruct H as (H1 & H2 & H3). repeat split; try lia. destruct r; [lia|congruence|assumption].
  - cbn [run] in H. fin H. repeat split; lia.
Qed.

Lemma read_boolean_spec B s al r s' al' : run B read_boolean s al = (r, s', al') -> scalar_ok s al r s' al'.
Proof.
  intros H. apply run_bindr_inv in H as (r0 & s0 & al0 & E0 & H).
  apply run_op_spec in E0 as (-> & Hs0 & E0). cbn [meter] in *.
  destruct r0 as [d0|e|]; [|fin H; repeat split; try lia; tauto|easy].
  apply run_bindr_inv in H as (r1 & s1 & al1 & E1 & H).
  apply run_op_spec in E1 as (-> & Hs1 & E1). cbn [meter] in *.
  destruct r1 as [d1|e|]; [cbn [run] in H|..]; fin H; repeat split; try lia; tauto.
Qed.

Lemma read_null_spec B s al r s' al' : run B read_null s al = (r, s', al') -> scalar_ok s al r s' al'.
Proof.
  intros H. apply run_bindr_inv in H as (r1 & s1 & al1 & E1 & H).
  apply run_op_spec in E1 as (-> & Hs1 & E1). cbn [meter] in *.
  destruct r1 as [d1|e|]; [cbn [run] in H|..]; fin H; repeat split; try lia; tauto.
Qed.
