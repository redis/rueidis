(** int64 wrap-around and list-splitting lemmas shared by the RESP family proofs. *)
From Coq Require Import List NArith ZArith Bool Lia.
Require Import RV.Model.Base RV.Model.RespBase.
Open Scope Z_scope.

Lemma wrap64_id x : in_i64 x -> wrap64 x = x.
Proof.
  unfold in_i64, wrap64, two63, two64. intros H.
  destruct (Z.ltb_spec x 0) as [Hn|Hp].
  - assert (E : x mod 18446744073709551616 = x + 18446744073709551616).
    { symmetry. apply (Z.mod_unique x _ (-1)); lia. }
    rewrite E. destruct (Z.ltb_spec (x + 18446744073709551616) 9223372036854775808); lia.
  - rewrite Z.mod_small by lia. destruct (Z.ltb_spec x 9223372036854775808); lia.
Qed.

Lemma wrap64_small_z x : 0 <= x < two63 -> wrap64 x = x.
Proof. intros H. apply wrap64_id. unfold in_i64, two63 in *. lia. Qed.

Lemma wrap64_range x : in_i64 (wrap64 x).
Proof.
  unfold in_i64, wrap64, two63, two64.
  pose proof (Z.mod_pos_bound x 18446744073709551616 ltac:(lia)).
  destruct (Z.ltb_spec (x mod 18446744073709551616) 9223372036854775808); lia.
Qed.

Lemma zlen_app_b {A} (a b : list A) : zlen (a ++ b) = zlen a + zlen b.
Proof. unfold zlen. rewrite app_length. lia. Qed.

Lemma firstn_app_short {A} n (a b : list A) : (n <= length a)%nat -> firstn n (a ++ b) = firstn n a.
Proof. intros H. rewrite firstn_app. replace (n - length a)%nat with O by lia. cbn. apply app_nil_r. Qed.

Lemma skipn_app_short {A} n (a b : list A) : (n <= length a)%nat -> skipn n (a ++ b) = skipn n a ++ b.
Proof. intros H. rewrite skipn_app. replace (n - length a)%nat with O by lia. reflexivity. Qed.

Lemma skipn_skipn {A} (a b : nat) (l : list A) : skipn a (skipn b l) = skipn (b + a) l.
Proof.
  revert l; induction b as [|b IH]; intros l; [reflexivity|].
  destruct l as [|x l]; cbn [skipn plus]; [now rewrite skipn_nil|apply IH].
Qed.
