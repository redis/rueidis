(** C46: the Scanner iteration of Model/Scanner.v.  Vocabulary of the property ([live], [final_err], [take], [stopped]);
    [scan_yielded], [scan_err], [scan_cursors] describe [scan_loop] for any per-page view (Iter: identity, Iter2:
    [pairs_of]) by induction on the script, through the one-page unfolding [scan_loop_step]. *)
From Coq Require Import List NArith Bool Lia Arith.
Require Import RV.Model.Base RV.Model.Scanner RV.Proofs.BinaryProofs.
Import ListNotations.
Open Scope N_scope.

Definition elems (p : page) : list bytes := match p with POk vs _ => vs | PErr _ => [] end.
Definition cursor_of (p : page) : N := match p with POk _ c => c | PErr _ => 0 end.

(** a page that lets the scan continue: a successful page with a non-zero cursor *)
Definition passes (p : page) : Prop := exists vs c, p = POk vs c /\ c <> 0.

(** the pages a consumer that never stops gets to see: everything up to and including the first
    page that is an error or carries cursor 0 *)
Fixpoint live (script : list page) : list page :=
  match script with
  | [] => []
  | PErr e :: _ => [PErr e]
  | POk vs c :: r => if c =? 0 then [POk vs c] else POk vs c :: live r
  end.

(** Err() for a consumer that never stops *)
Fixpoint final_err (script : list page) : option N :=
  match script with
  | [] => Some exhausted
  | PErr e :: _ => Some e
  | POk _ c :: r => if c =? 0 then None else final_err r
  end.

Definition page_items {A} (view : list bytes -> list A) (p : page) : list A :=
  match p with POk vs _ => view vs | PErr _ => [] end.
Definition items {A} (view : list bytes -> list A) (ps : list page) : list A :=
  flat_map (page_items view) ps.

(** what a consumer with stop point [b] receives from the stream [l] *)
Definition take {A} (b : budget) (l : list A) : list A :=
  match b with None => l | Some k => firstn (S k) l end.

(** the consumer said "stop" while being fed [l] *)
Definition stopped {A} (b : budget) (l : list A) : bool :=
  match b with None => false | Some k => (k <? length l)%nat end.

Lemma feed_none {A} (vs : list A) : feed vs None = (vs, None, true).
Proof. induction vs as [|v r IH]; cbn [feed]; [reflexivity|now rewrite IH]. Qed.

Lemma feed_some {A} (vs : list A) : forall k,
  feed vs (Some k) =
  if (k <? length vs)%nat then (firstn (S k) vs, Some O, false)
  else (vs, Some (k - length vs)%nat, true).
Proof.
  induction vs as [|v r IH]; intros k.
  - cbn. now rewrite Nat.sub_0_r.
  - destruct k as [|k].
    + cbn. now destruct r.
    + cbn [feed]. rewrite IH. cbn [length].
      change (S k <? S (length r))%nat with (k <? length r)%nat.
      destruct (k <? length r)%nat; reflexivity.
Qed.

Lemma feed_spec {A} (vs : list A) (b : budget) :
  feed vs b = (take b vs,
               match b with None => None | Some k => if (k <? length vs)%nat then Some O else Some (k - length vs)%nat end,
               negb (stopped b vs)).
Proof.
  destruct b as [k|].
  - rewrite feed_some. cbn [take stopped]. destruct (k <? length vs)%nat eqn:E; cbn [negb]; [reflexivity|].
    apply Nat.ltb_ge in E. rewrite firstn_all2 by lia. reflexivity.
  - rewrite feed_none. reflexivity.
Qed.

Lemma take_nil {A} (b : budget) : take b (@nil A) = [].
Proof. now destruct b. Qed.

Lemma take_all {A} (b : budget) (l : list A) : stopped b l = false -> take b l = l.
Proof. destruct b as [k|]; cbn [stopped take]; [|reflexivity]. intro H. apply Nat.ltb_ge in H. apply firstn_all2. lia. Qed.

Lemma take_app {A} (b : budget) (l1 l2 : list A) :
  take b (l1 ++ l2) =
  if stopped b l1 then take b l1
  else l1 ++ take (match b with None => None | Some k => Some (k - length l1)%nat end) l2.
Proof.
  destruct b as [k|]; cbn [take stopped]; [|reflexivity].
  destruct (k <? length l1)%nat eqn:E.
  - apply Nat.ltb_lt in E. rewrite firstn_app. replace (S k - length l1)%nat with O by lia.
    cbn [firstn]. now rewrite app_nil_r.
  - apply Nat.ltb_ge in E. rewrite firstn_app. rewrite (firstn_all2 l1) by lia.
    replace (S k - length l1)%nat with (S (k - length l1)) by lia. reflexivity.
Qed.

Lemma stopped_app {A} (b : budget) (l1 l2 : list A) :
  stopped b (l1 ++ l2) =
  stopped b l1 || stopped (match b with None => None | Some k => Some (k - length l1)%nat end) l2.
Proof.
  destruct b as [k|]; cbn [stopped]; [|reflexivity].
  rewrite app_length.
  destruct (Nat.ltb_spec k (length l1)); destruct (Nat.ltb_spec (k - length l1) (length l2));
    destruct (Nat.ltb_spec k (length l1 + length l2)); cbn [orb]; try reflexivity; lia.
Qed.

Definition sub_budget {A} (b : budget) (l : list A) : budget :=
  match b with None => None | Some k => Some (k - length l)%nat end.

Lemma scan_loop_step {A} (view : list bytes -> list A) vs c rest cur b :
  scan_loop view (POk vs c :: rest) cur b =
  if negb (stopped b (view vs)) && negb (c =? 0) then
    let o := scan_loop view rest c (sub_budget b (view vs)) in
    mkOut (view vs ++ yielded o) (cur :: cursors o) (err o)
  else mkOut (take b (view vs)) [cur] None.
Proof.
  cbn [scan_loop]. rewrite feed_spec. cbv beta iota zeta.
  destruct (stopped b (view vs)) eqn:HS; cbn [negb andb].
  - reflexivity.
  - destruct (c =? 0); cbn [negb]; [reflexivity|].
    destruct b as [k|]; cbn [stopped] in HS; cbn [sub_budget take].
    + rewrite HS. apply Nat.ltb_ge in HS. rewrite firstn_all2 by lia. reflexivity.
    + reflexivity.
Qed.

Lemma items_live_cons {A} (view : list bytes -> list A) vs c r :
  items view (live (POk vs c :: r)) = view vs ++ (if c =? 0 then [] else items view (live r)).
Proof. cbn [live]. destruct (c =? 0); cbn [items flat_map page_items]; [now rewrite app_nil_r|reflexivity]. Qed.

Theorem scan_yielded {A} (view : list bytes -> list A) : forall script cur b,
  yielded (scan_loop view script cur b) = take b (items view (live script)).
Proof.
  induction script as [|p rest IH]; intros cur b.
  - cbn. now destruct b.
  - destruct p as [e|vs c].
    + cbn. now destruct b.
    + rewrite scan_loop_step, items_live_cons, take_app.
      destruct (stopped b (view vs)) eqn:HS; cbn [negb andb]; [reflexivity|].
      destruct (c =? 0); cbn [negb yielded].
      * rewrite take_nil, app_nil_r. now apply take_all.
      * rewrite IH. reflexivity.
Qed.

Theorem scan_err {A} (view : list bytes -> list A) : forall script cur b,
  err (scan_loop view script cur b) =
  if stopped b (items view (live script)) then None else final_err script.
Proof.
  induction script as [|p rest IH]; intros cur b.
  - cbn. now destruct b.
  - destruct p as [e|vs c].
    + cbn. now destruct b.
    + rewrite scan_loop_step, items_live_cons, stopped_app.
      destruct (stopped b (view vs)) eqn:HS; cbn [negb andb orb]; [reflexivity|].
      cbn [final_err].
      destruct (c =? 0); cbn [negb err].
      * destruct b as [k|]; cbn; reflexivity.
      * rewrite IH. reflexivity.
Qed.

(** [n] counts the pages that were passed completely (the loop went on after them) *)
Theorem scan_cursors {A} (view : list bytes -> list A) : forall script cur b,
  exists n : nat,
    cursors (scan_loop view script cur b) = firstn (S n) (cur :: map cursor_of script) /\
    (n <= length script)%nat /\
    Forall passes (firstn n script) /\
    stopped b (items view (firstn n script)) = false /\
    (* the call after those n pages is the last one: it fails, ends the scan, or the consumer stops in it *)
    match nth_error script n with
    | None => True
    | Some (PErr _) => True
    | Some (POk vs c) => c = 0 \/ stopped b (items view (firstn (S n) script)) = true
    end.
Proof.
  induction script as [|p rest IH]; intros cur b.
  - exists O. cbn. repeat split; auto. now destruct b.
  - destruct p as [e|vs c].
    + exists O. cbn. repeat split; auto; try lia. now destruct b.
    + rewrite scan_loop_step.
      destruct (stopped b (view vs)) eqn:HS; cbn [negb andb].
      * exists O. cbn [firstn map cursors nth_error items flat_map page_items length]. rewrite app_nil_r.
        repeat split; auto; try lia. now destruct b.
      * destruct (c =? 0) eqn:C; cbn [negb].
        -- exists O. cbn [firstn map cursors nth_error items flat_map length].
           repeat split; auto; try lia. now destruct b. left. now apply N.eqb_eq.
        -- destruct (IH c (sub_budget b (view vs))) as (n & Hc & Hn & Hp & Hs & Hl).
           exists (S n). cbn [cursors]. rewrite Hc.
           repeat split.
           ++ cbn [length]. lia.
           ++ cbn [firstn]. constructor; [|exact Hp]. exists vs, c. split; [reflexivity|]. now apply N.eqb_neq.
           ++ cbn [firstn items flat_map page_items]. fold (items view (firstn n rest)).
              rewrite stopped_app, HS. cbn [orb]. exact Hs.
           ++ cbn [nth_error]. destruct (nth_error rest n) as [[e|vs' c']|]; auto.
              destruct Hl as [Hl|Hl]; [now left|right].
              change (firstn (S (S n)) (POk vs c :: rest)) with (POk vs c :: firstn (S n) rest).
              cbn [items flat_map page_items]. fold (items view (firstn (S n) rest)).
              rewrite stopped_app, HS. cbn [orb]. exact Hl.
Qed.

Lemma pairs_of_length {A} (l : list A) : length (pairs_of l) = Nat.div2 (length l).
Proof.
  induction l as [|a|a b r IH] using list_pairs_ind; cbn [pairs_of length Nat.div2]; try reflexivity.
  now rewrite IH.
Qed.

Lemma pairs_of_nth {A} (d : A) (l : list A) : forall i, (i < Nat.div2 (length l))%nat ->
  nth_error (pairs_of l) i = Some (nth (2 * i) l d, nth (2 * i + 1) l d).
Proof.
  induction l as [|a|a b r IH] using list_pairs_ind; intros i Hi; cbn [length Nat.div2] in Hi; try lia.
  destruct i as [|i]; [reflexivity|].
  cbn [pairs_of nth_error]. rewrite IH by lia.
  replace (2 * S i)%nat with (S (S (2 * i))) by lia.
  replace (S (S (2 * i)) + 1)%nat with (S (S (2 * i + 1))) by lia. reflexivity.
Qed.

Lemma items_id ps : items (fun vs => vs) ps = concat (map elems ps).
Proof.
  unfold items. induction ps as [|p r IH]; cbn [flat_map map concat]; [reflexivity|].
  rewrite IH. now destruct p.
Qed.

Lemma items_pairs ps : items pairs_of ps = concat (map (fun p => pairs_of (elems p)) ps).
Proof.
  unfold items. induction ps as [|p r IH]; cbn [flat_map map concat]; [reflexivity|].
  rewrite IH. now destruct p.
Qed.

(** a scan that is allowed to run into its last page [p] (a failing page, or one with cursor 0): everything up to and
    including that page, its error if any, the cursors of the pages before it; nothing after it is requested *)
Theorem scan_terminal {A} (view : list bytes -> list A) pre p post : Forall passes pre ->
  match p with POk _ c => c = 0 | PErr _ => True end -> forall cur,
  let o := scan_loop view (pre ++ p :: post) cur None in
  yielded o = items view (pre ++ [p]) /\ err o = match p with PErr e => Some e | POk _ _ => None end /\
  cursors o = cur :: map cursor_of pre.
Proof.
  intros Hp Hl. induction Hp as [|q r (vs & c & -> & Hc) _ IH]; intro cur; cbn [app].
  - destruct p as [e|vs c]; [repeat split; reflexivity|]. subst c. rewrite scan_loop_step. cbn.
    now rewrite app_nil_r.
  - rewrite scan_loop_step. cbn [stopped negb andb sub_budget]. apply N.eqb_neq in Hc. rewrite Hc. cbn [negb].
    destruct (IH c) as (Y & E & C). cbn [yielded err cursors]. rewrite Y, E, C. repeat split.
Qed.

