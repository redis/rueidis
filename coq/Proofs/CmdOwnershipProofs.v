(** C33, ownership: the life of one command (Model/CmdOwnership.v).  Main lemma [life_shape]: a complete life is
    attempts, the last attempt, then the PutCompleted decision; the theorems of Props/C33.v are computed from it. *)
From Coq Require Import List Arith Bool Lia.
Require Import RV.Model.CmdOwnership.
Import ListNotations.

Lemma goes_again_not_in_flight k e : goes_again k e = true -> leaves_in_flight (outcome_of e) = false.
Proof. destruct k; destruct e as [o|o]; destruct o; cbn; intros H; try reflexivity; try discriminate. Qed.

Lemma recycles_not_in_flight k o : recycles k o = true -> recyclable_result o = true /\ leaves_in_flight o = false.
Proof. destruct k, o; cbn; intros H; try discriminate; split; reflexivity. Qed.

(** A complete life is: attempts that go round again (none of which leaves the command in flight), the last
    attempt, then the PutCompleted decision on its outcome. *)
Lemma life_shape k pinned : forall evs tr, run_life k pinned evs = Some tr ->
  exists os, existsb leaves_in_flight os = false /\
    tr = map LAttempt os ++
         let o := outcome_of (last evs (EvAttempt OutAbandoned)) in
         LAttempt o :: if recycles k o && negb pinned then [LRecycle; LReturn] else [LReturn].
Proof.
  unfold run_life. induction evs as [|e evs IH]; intros tr H; cbn [run_life_aux] in H; [discriminate|].
  destruct (goes_again k e) eqn:Eg.
  - destruct (run_life_aux k pinned evs) as [tr'|] eqn:Er; [|discriminate]. inversion H; subst.
    destruct (IH tr' eq_refl) as (os & Hf & ->). exists (outcome_of e :: os). cbn [existsb map app].
    rewrite (goes_again_not_in_flight _ _ Eg), Hf. split; [reflexivity|]. now destruct evs.
  - destruct evs; [|discriminate]. exists []. split; [reflexivity|]. cbn [last map app].
    destruct (recycles k (outcome_of e) && negb pinned); now inversion H.
Qed.

Lemma recycled_attempts os tr : recycled (map LAttempt os ++ tr) = recycled tr.
Proof. induction os as [|o os IH]; [reflexivity|exact IH]. Qed.

Lemma count_recycles_attempts os tr : count_recycles (map LAttempt os ++ tr) = count_recycles tr.
Proof. induction os as [|o os IH]; [reflexivity|exact IH]. Qed.

Lemma no_early_attempts os : forall fl last o tr,
  no_early_recycle_aux fl last (map LAttempt os ++ LAttempt o :: tr) =
  no_early_recycle_aux (fl || existsb leaves_in_flight os || leaves_in_flight o) (Some o) tr.
Proof.
  induction os as [|x os IH]; intros fl last o tr; cbn [map app no_early_recycle_aux existsb].
  - now rewrite orb_false_r.
  - now rewrite IH, !orb_assoc.
Qed.

(** recycled exactly when the final attempt produced a recyclable result and the command is not pinned *)
Theorem recycled_iff k pinned : forall evs tr,
  run_life k pinned evs = Some tr ->
  recycled tr = match last evs (EvAttempt OutAbandoned) with e => recycles k (outcome_of e) && negb pinned end.
Proof.
  intros evs tr H. destruct (life_shape _ _ _ _ H) as (os & _ & ->). rewrite recycled_attempts. cbv zeta.
  now destruct (_ && _).
Qed.

Lemma member_replied_not_in_flight o : member_replied o = true -> leaves_in_flight o = false.
Proof. destruct o; cbn; intros H; try reflexivity; discriminate. Qed.

Lemma batch_aux_attempts : forall members fl ar rest,
  batch_no_early_aux fl ar (map LAttempt members ++ rest) =
  batch_no_early_aux (fl || existsb leaves_in_flight members) (ar && forallb member_replied members) rest.
Proof.
  induction members as [|o ms IH]; intros fl ar rest; cbn [map app batch_no_early_aux existsb forallb].
  - now rewrite orb_false_r, andb_true_r.
  - rewrite IH. now rewrite orb_assoc, andb_assoc.
Qed.

Lemma clean_not_in_flight : forall members, batch_clean members = true -> existsb leaves_in_flight members = false.
Proof.
  unfold batch_clean. induction members as [|o ms IH]; intros H; cbn in *; [reflexivity|].
  apply andb_prop in H. destruct H as [Ho Hm]. now rewrite (member_replied_not_in_flight _ Ho), IH.
Qed.

Theorem batch_no_early members : batch_no_early_recycle (run_batch members) = true.
Proof.
  unfold batch_no_early_recycle, run_batch. rewrite batch_aux_attempts. cbn [orb andb].
  destruct (batch_clean members) eqn:E.
  - rewrite (clean_not_in_flight _ E). unfold batch_clean in E. rewrite E. reflexivity.
  - reflexivity.
Qed.

Theorem batch_recycled_iff members : recycled (run_batch members) = batch_clean members.
Proof. unfold run_batch. rewrite recycled_attempts. now destruct (batch_clean members). Qed.
