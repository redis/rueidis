(** C15 for Model/Accessors.v: what every accessor returns on a nil or error reply ([error_reply_propagates]) and on a
    reply of a type it is not meant for ([wrong_shape_guards], by the first test each accessor makes). *)
From Coq Require Import String List NArith ZArith Bool Lia Arith.
Require Import RV.Model.Base RV.Model.AccBase RV.Model.Accessors.
Import ListNotations.
Open Scope N_scope.

(** the trees the decoder (readNextMessage), the cache codec and the mock builders produce:
    payload kind follows the type byte: string types carry a string (the empty string may show up as the
    integer payload 0, the two are indistinguishable), integer / boolean / null types an integer,
    aggregate types children — of ANY length, streamed maps may have an odd number of elements. *)
Definition str_typ (t : N) : bool :=
  (t =? tBlobString) || (t =? tSimpleString) || (t =? tSimpleErr) || (t =? tFloat) || (t =? tBlobErr) || (t =? tVerbatim) || (t =? tBigNumber).
Definition int_typ (t : N) : bool := (t =? tInteger) || (t =? tBool) || (t =? tNull) || (t =? tEnd).
Definition agg_typ (t : N) : bool := (t =? tArray) || (t =? tMap) || (t =? tSet) || (t =? tPush).

Fixpoint decodable (m : msg) : bool :=
  let attrs_ok a := match a with
                    | None => true
                    | Some x => (mtyp x =? tAttribute) && has_arr x && decodable x
                    end in
  match m with
  | MInt t i a => (int_typ t || (str_typ t && (i =? 0)%Z)) && attrs_ok a
  | MStr t _ a => str_typ t && attrs_ok a
  | MArr t l a => (agg_typ t || (t =? tAttribute)) && forallb decodable l && attrs_ok a
  end.

Lemma decodable_not_aggregate m : decodable m = true ->
  agg_typ (mtyp m) || (mtyp m =? tAttribute) = false -> has_arr m = false.
Proof.
  destruct m as [t i a|t s a|t l a]; try reflexivity. cbn [decodable mtyp]. intros Hd H. rewrite H in Hd. discriminate.
Qed.

Theorem error_reply_propagates e a m er : msg_error m = Some er -> has_arr m = false -> run e a m = RErr er.
Proof.
  intros He Ha. transitivity (@error_or_parse val m); [|unfold error_or_parse; rewrite He; reflexivity].
  unfold msg_error in He. destruct m as [t i x|t s x|t l x]; [| |discriminate]; cbn [mtyp] in He.
  all: destruct (N.eqb_spec t tNull) as [E|_]; [subst t; destruct a; reflexivity|].
  all: destruct (N.eqb_spec t tSimpleErr) as [E|_]; [subst t; destruct a; reflexivity|].
  all: destruct (N.eqb_spec t tBlobErr) as [E|_]; [subst t; destruct a; reflexivity|discriminate].
Qed.

Theorem result_error_propagates e a k m : run_result e a (Some k) m = RErr (EOther k).
Proof. reflexivity. Qed.

Theorem result_delegates e a m : run_result e a None m = run e a m.
Proof. reflexivity. Qed.

(** the reply types each accessor is meant for *)
Definition string_bodied (t : N) : bool :=
  (t =? tBlobString) || (t =? tSimpleString) || (t =? tFloat) || (t =? tBigNumber) || (t =? tVerbatim).
Definition arr_typ (t : N) : bool := (t =? tArray) || (t =? tSet).

Definition accepts (a : accessor) (t : N) : bool :=
  match a with
  | AError => true
  | AToInt64 => t =? tInteger
  | AToBool => t =? tBool
  | AToFloat64 => t =? tFloat
  | AToString | AAsReader | AAsBytes | ADecodeJSON | AAsFloat64 => string_bodied t
  | AAsInt64 | AAsUint64 => (t =? tInteger) || string_bodied t
  | AAsBool => (t =? tBlobString) || (t =? tSimpleString) || (t =? tInteger) || (t =? tBool)
  | AToArray | AAsStrSlice | AAsIntSlice | AAsFloatSlice | AAsBoolSlice | AAsXRangeEntry | AAsXRange
  | AAsXRangeSlice | AAsXRangeSlices | AAsZScore | AAsZScores | AAsScanEntry | AAsGeosearch | ADecodeSliceOfJSON => arr_typ t
  | AToMap => t =? tMap
  | AAsMap | AAsStrMap | AAsIntMap | AAsXRead | AAsXReadSlices => (t =? tMap) || arr_typ t
  | AAsLMPop | AAsZMPop | AAsFtSearch | AAsFtAggregate | AAsFtAggregateCursor => agg_typ t || (t =? tAttribute)   (* no type test at all: any aggregate *)
  | AToAny => string_bodied t || (t =? tBool) || (t =? tInteger) || (t =? tMap) || arr_typ t
  end.

(** the accessors built on ToString *)
Definition via_to_string (a : accessor) : bool :=
  match a with
  | AToString | AAsReader | AAsBytes | ADecodeJSON | AAsInt64 | AAsUint64 | AAsFloat64 => true
  | _ => false
  end.

(** the class that escapes: ToString treats every scalar that is neither an integer nor nil / error as a
    string, so a boolean ('#') or end-marker ('.') reply is read as the empty string *)
Definition scalar_as_string (a : accessor) (m : msg) : bool :=
  via_to_string a && negb (has_arr m) && ((mtyp m =? tBool) || (mtyp m =? tEnd)).

Lemma error_or_parse_none {A} m : msg_error m = None -> @error_or_parse A m = RErr EParse.
Proof. unfold error_or_parse. now intros ->. Qed.

Lemma to_array_wrong m : arr_typ (mtyp m) = false -> msg_error m = None -> to_array m = RErr EParse.
Proof. intros Ht He. unfold to_array, is_array. fold (arr_typ (mtyp m)). rewrite Ht. now apply error_or_parse_none. Qed.

Lemma scalar_typ_integer t : int_typ t || str_typ t = true -> string_bodied t = false ->
  (t =? tNull) = false -> (t =? tSimpleErr) || (t =? tBlobErr) = false -> (t =? tBool) || (t =? tEnd) = false ->
  (t =? tInteger) = true.
Proof.
  unfold int_typ, str_typ, string_bodied. intros H Hs Hn He Hb.
  destruct (N.eqb_spec t tInteger) as [E|_]; [subst t; reflexivity|].
  destruct (N.eqb_spec t tBool) as [E|_]; [subst t; discriminate|]. destruct (N.eqb_spec t tEnd) as [E|_]; [subst t; discriminate|].
  destruct (N.eqb_spec t tNull) as [E|_]; [subst t; discriminate|].
  destruct (N.eqb_spec t tSimpleErr) as [E|_]; [subst t; discriminate|]. destruct (N.eqb_spec t tBlobErr) as [E|_]; [subst t; discriminate|].
  destruct (N.eqb_spec t tBlobString) as [E|_]; [subst t; discriminate|]. destruct (N.eqb_spec t tSimpleString) as [E|_]; [subst t; discriminate|].
  destruct (N.eqb_spec t tFloat) as [E|_]; [subst t; discriminate|]. destruct (N.eqb_spec t tBigNumber) as [E|_]; [subst t; discriminate|].
  destruct (N.eqb_spec t tVerbatim) as [E|_]; [subst t|]; discriminate.
Qed.

(** ToString is the one accessor whose fall-through case is not an error: a scalar that is neither a string
    nor an integer nor nil / error is handed over as a string.  Among decodable replies that is '#' and '.' *)
Lemma to_string_wrong m : decodable m = true -> msg_error m = None -> string_bodied (mtyp m) = false ->
  negb (has_arr m) && ((mtyp m =? tBool) || (mtyp m =? tEnd)) = false -> to_string m = RErr EParse.
Proof.
  intros Hd He Hs Hb.
  assert (Hstr : is_string m = false).
  { unfold string_bodied in Hs. apply orb_false_iff in Hs as [Hs _]. apply orb_false_iff in Hs as [Hs _].
    apply orb_false_iff in Hs as [Hs _]. exact Hs. }
  unfold to_string. rewrite Hstr.
  replace (is_int64 m || has_arr m) with true; [reflexivity|]. symmetry.
  unfold msg_error in He. destruct (mtyp m =? tNull) eqn:Hn; [discriminate|].
  destruct ((mtyp m =? tSimpleErr) || (mtyp m =? tBlobErr)) eqn:Hr; [discriminate|].
  unfold is_int64.
  destruct m as [t i x|t s x|t l x]; cbn [decodable mtyp has_arr negb andb] in *; [| |apply orb_true_r].
  - apply andb_true_iff in Hd as [Hd _]. rewrite (scalar_typ_integer t); trivial.
    apply orb_true_iff in Hd as [->|Hd]; [reflexivity|]. apply andb_true_iff in Hd as [-> _]. apply orb_true_r.
  - apply andb_true_iff in Hd as [Hd _]. rewrite (scalar_typ_integer t); trivial. rewrite Hd. apply orb_true_r.
Qed.

Lemma to_any_tests t : accepts AToAny t = false ->
  (t =? tFloat) = false /\ (t =? tBlobString) || (t =? tSimpleString) || (t =? tVerbatim) || (t =? tBigNumber) = false /\
  (t =? tBool) = false /\ (t =? tInteger) = false /\ (t =? tMap) = false /\ (t =? tSet) || (t =? tArray) = false.
Proof.
  cbn [accepts]. unfold string_bodied, arr_typ. intro Ha.
  destruct (N.eqb_spec t tFloat) as [E|_]; [subst t; discriminate|].
  destruct (N.eqb_spec t tBlobString) as [E|_]; [subst t; discriminate|].
  destruct (N.eqb_spec t tSimpleString) as [E|_]; [subst t; discriminate|].
  destruct (N.eqb_spec t tVerbatim) as [E|_]; [subst t; discriminate|].
  destruct (N.eqb_spec t tBigNumber) as [E|_]; [subst t; discriminate|].
  destruct (N.eqb_spec t tBool) as [E|_]; [subst t; discriminate|].
  destruct (N.eqb_spec t tInteger) as [E|_]; [subst t; discriminate|].
  destruct (N.eqb_spec t tMap) as [E|_]; [subst t; discriminate|].
  destruct (N.eqb_spec t tSet) as [E|_]; [subst t; discriminate|].
  destruct (N.eqb_spec t tArray) as [E|_]; [subst t; discriminate|]. repeat split.
Qed.

Lemma to_any_wrong e m : msg_error m = None -> accepts AToAny (mtyp m) = false -> to_any e m = RErr EParse.
Proof.
  intros He Ha. destruct (to_any_tests _ Ha) as (H1 & H2 & H3 & H4 & H5 & H6).
  destruct m as [t i x|t s x|t l x]; cbn [to_any]; rewrite He; cbv zeta; cbn [mtyp] in *;
    rewrite H1, H2, H3, H4, H5, H6; reflexivity.
Qed.

Lemma not_aggregate m : decodable m = true -> agg_typ (mtyp m) || (mtyp m =? tAttribute) = false ->
  is_map m = false /\ is_array m = false /\ mvals m = [].
Proof.
  intros Hd H. pose proof (decodable_not_aggregate m Hd H) as Hn. unfold agg_typ in H.
  apply orb_false_iff in H as [H _]. apply orb_false_iff in H as [H _]. apply orb_false_iff in H as [H Hset].
  apply orb_false_iff in H as [Harr Hmap]. unfold is_map, is_array. rewrite Hmap, Harr, Hset.
  repeat split. destruct m; [reflexivity|reflexivity|discriminate Hn].
Qed.

(** applying an accessor to a reply of a type it is not meant for yields a parse error, nil and error replies
    aside, on every tree on which ToString (for the accessors built on it) rejects and a type byte that is not an
    aggregate one means no children (for the accessors without a type test) -- both hold of decodable replies
    outside the [scalar_as_string] class.  By the first test each accessor makes; [accepts] groups the accessors
    the same way. *)
Theorem wrong_shape_guards e a m :
  msg_error m = None -> accepts a (mtyp m) = false ->
  (via_to_string a = true -> string_bodied (mtyp m) = false -> to_string m = RErr EParse) ->
  (agg_typ (mtyp m) || (mtyp m =? tAttribute) = false -> is_map m = false /\ is_array m = false /\ mvals m = []) ->
  run e a m = RErr EParse.
Proof.
  intros He Ha Hts Hna. destruct a; cbn [run accepts] in Ha |- *; cbn [via_to_string] in Hts.
  (* Error *)
  1: discriminate.
  (* ToInt64, ToBool, ToFloat64, ToMap: a type test, then m.Error() *)
  all: try (unfold to_int64, to_bool, to_float64, to_map, is_int64, is_bool, is_float64, is_map;
            rewrite Ha, (error_or_parse_none m He); reflexivity).
  (* ToArray and everything that starts with it *)
  all: try (unfold as_str_slice, as_int_slice, as_float_slice, as_bool_slice, as_xrange_entry, as_xrange, as_xrange_slice,
              as_xrange_slices, as_zscore, as_zscores, as_scan_entry, as_geosearch, decode_slice_of_json;
            rewrite (to_array_wrong m Ha He); reflexivity).
  (* ToString, AsReader, AsBytes, DecodeJSON *)
  all: try (unfold as_reader, as_bytes, decode_json; rewrite (Hts eq_refl Ha); reflexivity).
  (* AsInt64, AsUint64: the integer test, then ToString *)
  1-2: apply orb_false_iff in Ha as [Hi Ha]; unfold as_int64, as_uint64, is_int64;
       rewrite Hi, (Hts eq_refl Ha); reflexivity.
  (* AsBool *)
  1: unfold as_bool, is_string, is_int64, is_bool; apply orb_false_iff in Ha as [Ha Hb]; apply orb_false_iff in Ha as [Ha Hi];
     rewrite He, Ha, Hi, Hb; reflexivity.
  (* AsFloat64: the double test, then ToString *)
  1: unfold as_float64, as_float64_raw, is_float64; rewrite (Hts eq_refl Ha);
     unfold string_bodied in Ha; apply orb_false_iff in Ha as [Ha _]; apply orb_false_iff in Ha as [Ha _];
     apply orb_false_iff in Ha as [_ ->]; reflexivity.
  (* AsXRead, AsXReadSlices, AsMap, AsStrMap, AsIntMap: map or array *)
  1-5: apply orb_false_iff in Ha as [Hm Hr]; unfold arr_typ in Hr;
       unfold as_xread, as_xread_slices, xread_generic, as_map, as_str_map, as_int_map, as_int_map_with, map_or_array, is_map, is_array;
       rewrite He, Hm, Hr; reflexivity.
  (* AsLMPop, AsZMPop, AsFtSearch, AsFtAggregate, AsFtAggregateCursor: no type test, but no children either *)
  1-5: destruct (Hna Ha) as (Hm & Hr & Hv);
       unfold as_ft_aggregate_cursor, as_lmpop, as_zmpop, as_ft_search, as_ft_aggregate; rewrite ?Hr, He, ?Hm, Hv; reflexivity.
  (* ToAny *)
  rewrite (to_any_wrong e m He Ha). reflexivity.
Qed.

