(** streamTo (C29, byte level; last clause of C12) on string replies.  Programs run with a writer ([runw]);
    a program without writer operations runs as under [run] ([reader_only]), which is how the facts about
    the readers of resp.go are reused; the writer model; counted strings with a writer that may fail at
    any byte; streamed strings ($?\r\n ;n\r\n…\r\n … ;0\r\n), every chunk copied to the writer. *)
From Coq Require Import List Arith NArith ZArith Bool Lia ZifyN ZifyNat ZifyBool.
Require Import RV.Model.Base RV.Model.RespWrite RV.Model.RespStream.
Require Import RV.Proofs.BinaryProofs RV.Proofs.RespWriteProofs RV.Proofs.RespIOProofs RV.Proofs.RespBaseProofs
               RV.Proofs.RespScalarProofs RV.Proofs.RespRoundtrip.
Import ListNotations.
Open Scope N_scope.

(** programs with a writer compose; programs without writer operations leave the writer alone *)
Lemma runw_bind {A C} B (p : prog A) (f : A -> prog C) : forall s w,
  runw B (bind p f) s w = let '(a, s', w') := runw B p s w in runw B (f a) s' w'.
Proof.
  induction p as [a|o k IH]; intros s w; cbn [bind runw]; [reflexivity|].
  destruct (flatw_step B o s w) as [[r s'] w']. apply IH.
Qed.

Lemma runw_bind_eq {A C} B (p : prog A) (f : A -> prog C) s w a s' w' :
  runw B p s w = (a, s', w') -> runw B (bind p f) s w = runw B (f a) s' w'.
Proof. intros H. rewrite runw_bind, H. reflexivity. Qed.

Definition reader_op (o : op) : bool :=
  match o with OCopyOut _ | OWrite _ | OWriterErr => false | _ => true end.

Inductive reader_only {A} : prog A -> Prop :=
| ro_ret a : reader_only (Ret a)
| ro_op o k : reader_op o = true -> (forall r, reader_only (k r)) -> reader_only (Op o k).

Lemma runw_reader {A} B (p : prog A) : reader_only p -> forall s w al,
  runw B p s w = (fst (fst (run B p s al)), snd (fst (run B p s al)), w).
Proof.
  induction 1 as [a|o k Ho Hk IH]; intros s w al; cbn [runw run]; [reflexivity|].
  assert (E : flatw_step B o s w = (fst (flat_step B o s), snd (flat_step B o s), w)).
  { destruct o; try discriminate Ho; cbn [flatw_step]; destruct (flat_step B _ s); reflexivity. }
  rewrite E. destruct (flat_step B o s) as [r s']. cbn [fst snd]. apply IH.
Qed.

Lemma runw_reader_eq {A} B (p : prog A) s w al a s' al' : reader_only p ->
  run B p s al = (a, s', al') -> runw B p s w = (a, s', w).
Proof. intros Hp H. rewrite (runw_reader B p Hp s w al), H. reflexivity. Qed.

Lemma ro_bind {A C} (p : prog A) (f : A -> prog C) :
  reader_only p -> (forall a, reader_only (f a)) -> reader_only (bind p f).
Proof.
  induction 1 as [a|o k Ho Hk IH]; intros Hf; cbn [bind]; [apply Hf|].
  constructor; [assumption|]. intros r. now apply IH.
Qed.

Lemma ro_bindr {A C} (p : prog (result A)) (f : A -> prog (result C)) :
  reader_only p -> (forall a, reader_only (f a)) -> reader_only (bindr p f).
Proof. intros Hp Hf. apply ro_bind; [assumption|]. intros [a|e|]; [apply Hf|constructor|constructor]. Qed.

Lemma ro_do_op o : reader_op o = true -> reader_only (do_op o).
Proof. intros H. constructor; [assumption|]. intros r. constructor. Qed.

Lemma ro_alloc n : reader_only (alloc n).
Proof. constructor; [reflexivity|]. intros r. constructor. Qed.

Ltac ro :=
  repeat first
    [ apply ro_ret
    | apply ro_alloc
    | apply ro_do_op; reflexivity
    | apply ro_bindr; [|intros ?]
    | apply ro_bind; [|intros ?]
    | match goal with |- reader_only (if ?b then _ else _) => destruct b end
    | match goal with |- reader_only (match ?r with Ok _ => _ | Err _ => _ | Panic => _ end) => destruct r end ].

Lemma ro_alloc_make sz n : reader_only (alloc_make sz n).
Proof. unfold alloc_make. ro. Qed.

Lemma ro_grow n : reader_only (grow n).
Proof. unfold grow. ro. Qed.

Lemma ro_read_i : reader_only read_i.
Proof. unfold read_i. ro. Qed.

Lemma ro_read_s : reader_only read_s.
Proof. unfold read_s. ro. Qed.

Lemma ro_read_n_loop : forall fuel length n cap acc, reader_only (read_n_loop fuel length n cap acc).
Proof.
  induction fuel as [|f IH]; intros; cbn [read_n_loop]; [constructor|].
  apply ro_bind; [apply ro_do_op; reflexivity|]. intros [d|e|]; try constructor.
  destruct (cap =? length)%Z; [constructor|]. apply ro_bindr; [apply ro_alloc_make|]. intros _. apply IH.
Qed.

Lemma ro_read_n length : reader_only (read_n length).
Proof. unfold read_n. destruct (length <? 0)%Z; [constructor|]. apply ro_bindr; [apply ro_alloc_make|]. intros _. apply ro_read_n_loop. Qed.

Lemma ro_read_b : reader_only read_b.
Proof.
  unfold read_b. apply ro_bindr; [apply ro_read_i|]. intros length.
  destruct (length =? -1)%Z; [constructor|]. apply ro_bindr; [apply ro_read_n|]. intros bs. ro.
Qed.

Lemma ro_chunk_loop : forall fuel acc, reader_only (chunk_loop fuel acc).
Proof.
  induction fuel as [|f IH]; intros acc; cbn [chunk_loop]; [constructor|].
  apply ro_bindr; [apply ro_do_op; reflexivity|]. intros _.
  apply ro_bindr; [apply ro_read_i|]. intros length.
  destruct (length =? 0)%Z; [constructor|]. destruct (length <? 0)%Z; [constructor|].
  apply ro_bindr; [apply ro_grow|]. intros _.
  apply ro_bindr; [apply ro_do_op; reflexivity|]. intros d.
  apply ro_bind; [apply ro_alloc|]. intros _.
  apply ro_bindr; [apply ro_do_op; reflexivity|]. intros _. apply IH.
Qed.

Lemma ro_read_blob_string cf : reader_only (read_blob_string cf).
Proof.
  unfold read_blob_string. apply ro_bind; [apply ro_read_b|]. intros [bs|e|]; try constructor.
  destruct (e =? eChunked); [apply ro_chunk_loop|constructor].
Qed.

Lemma ro_read_boolean : reader_only read_boolean.
Proof. unfold read_boolean. ro. Qed.

Lemma ro_read_null : reader_only read_null.
Proof. unfold read_null. ro. Qed.

Lemma ro_fin_msg typ rn attrs r : (forall a, reader_only (rn a)) -> reader_only (fin_msg typ rn attrs r).
Proof.
  intros Hrn. unfold fin_msg. destruct r as [m|e|]; [|destruct (e =? eOldNull); constructor|constructor].
  destruct (typ =? tAttribute); [apply Hrn|constructor].
Qed.

Lemma ro_dispatch typ rn ral rel cf attrs :
  (forall a, reader_only (rn a)) -> (forall l n c acc, reader_only (ral l n c acc)) -> (forall acc, reader_only (rel acc)) ->
  reader_only (dispatch typ rn ral rel cf attrs).
Proof.
  intros Hrn Hral Hrel. unfold dispatch.
  assert (Hfin : forall r, reader_only (fin_msg typ rn attrs r)) by (intros r; now apply ro_fin_msg).
  assert (Hra : forall length, reader_only (read_a ral length)).
  { intros length. unfold read_a. destruct (length <? 0)%Z; [constructor|].
    apply ro_bindr; [apply ro_alloc_make|]. intros _. apply ro_bindr; [apply Hral|]. intros l. constructor. }
  assert (Hre : reader_only (read_e rel)).
  { unfold read_e. apply ro_bindr; [apply Hrel|]. intros l. constructor. }
  destruct (k_blob typ); [apply ro_bind; [apply ro_read_blob_string|intros r; apply Hfin]|].
  destruct (k_line typ); [apply ro_bind; [apply ro_read_s|intros r; apply Hfin]|].
  destruct (typ =? tInteger); [apply ro_bind; [apply ro_read_i|intros r; apply Hfin]|].
  destruct (k_null typ); [apply ro_bind; [apply ro_read_null|intros r; apply Hfin]|].
  destruct (typ =? tBool); [apply ro_bind; [apply ro_read_boolean|intros r; apply Hfin]|].
  destruct (k_array typ).
  { apply ro_bind; [apply ro_read_i|]. intros [length|e|]; [|destruct (e =? eChunked)|constructor].
    - destruct (length =? -1)%Z; [apply Hfin|]. apply ro_bind; [apply Hra|intros r; apply Hfin].
    - apply ro_bind; [apply Hre|intros r; apply Hfin].
    - apply Hfin. }
  destruct (k_map typ); [|constructor].
  apply ro_bind; [apply ro_read_i|]. intros [length|e|]; [|destruct (e =? eChunked)|constructor].
  - apply ro_bind; [apply Hra|intros r; apply Hfin].
  - apply ro_bind; [apply Hre|intros r; apply Hfin].
  - apply Hfin.
Qed.

Lemma ro_read_next : forall fuel,
  (forall a, reader_only (read_next fuel a)) /\
  (forall l n c acc, reader_only (read_a_loop fuel l n c acc)) /\
  (forall acc, reader_only (read_e_loop fuel acc)).
Proof.
  induction fuel as [|f (IH1 & IH2 & IH3)]; [repeat split; intros; constructor|].
  repeat split.
  - intros a. rewrite read_next_S. unfold read_next_body.
    apply ro_bindr; [apply ro_do_op; reflexivity|]. intros tb. now apply ro_dispatch.
  - intros l n c acc. rewrite read_a_loop_S. unfold read_a_body.
    assert (Hn : forall c', reader_only (read_a_next (read_next f) (read_a_loop f) l n c' acc)).
    { intros c'. apply ro_bind; [apply IH1|]. intros r. destruct (n <? c')%Z; [|constructor].
      destruct r; [apply IH2|constructor|constructor]. }
    destruct (n =? l)%Z; [constructor|].
    destruct (n =? c)%Z; [|apply Hn]. apply ro_bindr; [apply ro_alloc_make|]. intros _. apply Hn.
  - intros acc. rewrite read_e_loop_S. apply ro_bindr; [apply IH1|]. intros m.
    destruct (m_typ m =? tEnd); [constructor|]. apply ro_bind; [apply ro_alloc|]. intros _. apply IH3.
Qed.

Lemma ro_dispatch_f typ f attrs :
  reader_only (dispatch typ (read_next f) (read_a_loop f) (read_e_loop f) f attrs).
Proof. destruct (ro_read_next f) as (H1 & H2 & H3). now apply ro_dispatch. Qed.

Lemma stream_to_S f : stream_to (S f) =
    bind (do_op OReadByte) (fun tb =>
      match tb with
      | Err e => Ret (0%Z, SErr e, false)
      | Panic => Ret (0%Z, SPanic, false)
      | Ok tb =>
        let typ := hd 0 tb in
        if k_stream_blob typ then
          bind read_i (fun r =>
            match r with
            | Ok n => stream_blob typ n
            | Err e =>
              if e =? eChunked then
                bind (stream_to f) (fun o => let '(nn, err, clean) := o in stream_chunks f 0%Z nn err clean)
              else Ret (0%Z, SErr e, false)
            | Panic => Ret (0%Z, SPanic, false)
            end)
        else
          bind (dispatch typ (read_next f) (read_a_loop f) (read_e_loop f) f None) (stream_msg (stream_to f))
      end).
Proof. reflexivity. Qed.

Lemma stream_chunks_S f n nn err clean : stream_chunks (S f) n nn err clean =
    let n := (n + nn)%Z in
    if negb (nn =? 0)%Z && clean && match err with SNone => true | _ => false end then
      bind (stream_to f) (fun o => let '(nn', err', clean') := o in stream_chunks f n nn' err' clean')
    else Ret (n, err, clean && match err with SNone => true | _ => false end).
Proof. reflexivity. Qed.

Lemma runw_stream_cons_blob B f t s w : k_stream_blob t = true ->
  runw B (stream_to (S f)) (t :: s) w =
  runw B (bind read_i (fun r =>
            match r with
            | Ok n => stream_blob t n
            | Err e =>
              if e =? eChunked then
                bind (stream_to f) (fun o => let '(nn, err, clean) := o in stream_chunks f 0%Z nn err clean)
              else Ret (0%Z, SErr e, false)
            | Panic => Ret (0%Z, SPanic, false)
            end)) s w.
Proof. intros H. rewrite stream_to_S. cbn [bind do_op runw flatw_step flat_step hd]. rewrite H. reflexivity. Qed.

Lemma runw_stream_cons_msg B f t s w : k_stream_blob t = false ->
  runw B (stream_to (S f)) (t :: s) w =
  runw B (bind (dispatch t (read_next f) (read_a_loop f) (read_e_loop f) f None) (stream_msg (stream_to f))) s w.
Proof. intros H. rewrite stream_to_S. cbn [bind do_op runw flatw_step flat_step hd]. rewrite H. reflexivity. Qed.

Definition accepted (w : wstate) (d : bytes) : bytes := fst (w_write w d).

(** what streamTo returns when it offered [d] to the writer and the reply was consumed *)
Definition wres (w : wstate) (d : bytes) : sout :=
  (zlen (accepted w d), (if w_failed (snd (w_write w d)) then SErr eWriter else SNone), true).

Lemma runw_write_out B d s w : runw B (write_out d) s w = (wres w d, s, snd (w_write w d)).
Proof.
  unfold write_out, wres, accepted. cbn [bind do_op runw flatw_step].
  destruct (w_write w d) as [d' w']. cbn [fst snd runw flatw_step werr].
  destruct (w_failed w'); reflexivity.
Qed.

(** a writer with budget b on d: accepts min(b, |d|) bytes *)
Lemma w_write_spec b out fl d :
  let w := {| w_budget := b; w_out := out; w_failed := fl |} in
  let k := match b with None => length d | Some k => Nat.min (N.to_nat k) (length d) end in
  fst (w_write w d) = firstn k d /\
  w_out (snd (w_write w d)) = out ++ firstn k d /\
  w_failed (snd (w_write w d)) = match b with None => false | Some kk => (kk <? blen d) end.
Proof.
  cbv zeta. unfold w_write. cbn [w_budget w_out]. destruct b as [k|].
  - destruct (N.leb_spec (blen d) k) as [H|H]; cbn [fst snd w_out w_failed].
    + unfold blen in H. rewrite Nat.min_r by lia. rewrite firstn_all. repeat split.
      destruct (N.ltb_spec k (blen d)); [unfold blen in *; lia|reflexivity].
    + unfold blen in H. rewrite Nat.min_l by lia. repeat split.
      destruct (N.ltb_spec k (blen d)); [reflexivity|unfold blen in *; lia].
  - cbn [fst snd w_out w_failed]. rewrite firstn_all. repeat split.
Qed.

Lemma runw_read_i_nat B n rest w : (32 <= B)%nat -> (Z.of_N n < two63)%Z ->
  runw B read_i (dec n ++ crlf ++ rest) w = (Ok (Z.of_N n), rest, w).
Proof. intros HB Hn. apply (runw_reader_eq B read_i _ w 0 _ _ 0 ro_read_i). now apply run_read_i_nat. Qed.

Lemma runw_read_i_chunked B rest w : (32 <= B)%nat ->
  runw B read_i ([63] ++ crlf ++ rest) w = (Err eChunked, rest, w).
Proof. intros HB. apply (runw_reader_eq B read_i _ w 0 _ _ 0 ro_read_i). now apply run_read_i_chunked. Qed.

Lemma runw_read_i_minus1 B rest w : (32 <= B)%nat ->
  runw B read_i ([45; 49] ++ crlf ++ rest) w = (Ok (-1)%Z, rest, w).
Proof. intros HB. apply (runw_reader_eq B read_i _ w 0 _ _ 0 ro_read_i). now apply run_read_i_minus1. Qed.

Lemma runw_discard B k (pre rest : bytes) w : Z.of_nat (length pre) = k ->
  runw B (do_op (ODiscard k)) (pre ++ rest) w = (Ok [], rest, w).
Proof.
  intros H. apply (runw_reader_eq B _ _ w 0 _ _ 0); [apply ro_do_op; reflexivity|]. now apply run_discard.
Qed.

Lemma enc_cons v : exists t s, enc v = t :: s.
Proof.
  destruct v; cbn [enc app]; eauto.
  - destruct (t =? tNull); cbn [app]; eauto.
  - unfold agg_header. destruct streamed; cbn [app]; eauto.
  - unfold agg_header. destruct streamed; cbn [app]; eauto.
Qed.

(** the default branch: readNextMessage decodes the reply, then [stream_msg] *)
Lemma runw_stream_default B (HB : (32 <= B)%nat) f v t s rest w :
  wf v = true -> (cost v <= S f)%nat -> enc v = t :: s -> k_stream_blob t = false ->
  runw B (stream_to (S f)) (enc v ++ rest) w = runw B (stream_msg (stream_to f) (Ok (abs v))) rest w.
Proof.
  intros Hwf Hf He Hk.
  destruct (read_next_roundtrip B HB v Hwf (S f) None rest 0 Hf) as [al' E].
  rewrite read_next_S, He in E. cbn [app] in E. rewrite run_body_cons in E. rewrite abs_with_none in E.
  rewrite He. cbn [app]. rewrite runw_stream_cons_msg by assumption.
  rewrite (runw_bind_eq B _ _ _ _ _ _ _ (runw_reader_eq B _ _ w 0 _ _ _ (ro_dispatch_f t f None) E)).
  reflexivity.
Qed.

Lemma accepted_nil w : accepted w [] = [].
Proof. unfold accepted, w_write. destruct (w_budget w) as [k|]; [|reflexivity]. cbn [blen length N.of_nat]. destruct (0 <=? k); cbn [fst]; [reflexivity|apply firstn_nil]. Qed.

Lemma failed_nil w : w_failed (snd (w_write w [])) = false.
Proof.
  unfold w_write. destruct (w_budget w) as [k|]; [|reflexivity]. cbn [blen length N.of_nat].
  destruct (N.leb_spec 0 k); [reflexivity|lia].
Qed.

Lemma accepted_len w d : (length (accepted w d) <= length d)%nat.
Proof.
  unfold accepted. destruct w as [bud out fl]. pose proof (w_write_spec bud out fl d) as (H1 & _).
  cbv zeta in H1. rewrite H1, firstn_length. lia.
Qed.

Lemma out_after_write w d : w_out (snd (w_write w d)) = w_out w ++ accepted w d.
Proof.
  unfold accepted. destruct w as [bud out fl]. pose proof (w_write_spec bud out fl d) as (H1 & H2 & _).
  cbv zeta in *. cbn [w_out]. now rewrite H2, H1.
Qed.

(** io.Copy of a non-empty payload that is completely available *)
Lemma flatw_copy_out B (s rest : bytes) w : s <> [] ->
  flatw_step B (OCopyOut (blen s)) (s ++ rest) w =
  (Ok (accepted w s), skipn (length (accepted w s)) s ++ rest, snd (w_write w s)).
Proof.
  intros Hne. cbn [flatw_step].
  destruct (N.leb_spec (blen s) (blen (s ++ rest))) as [_|Hx]; [|unfold blen in Hx; rewrite app_length in Hx; lia].
  assert (Ea : firstn (N.to_nat (blen s)) (s ++ rest) = s) by (unfold blen; rewrite Nat2N.id; apply firstn_app_exact).
  rewrite Ea.
  pose proof (accepted_len w s) as Hd. unfold accepted in *.
  destruct s as [|b0 s0]; [congruence|].
  destruct (w_write w (b0 :: s0)) as [d w'] eqn:Ew. cbn [fst snd] in *.
  now rewrite skipn_app_short by assumption.
Qed.

Lemma runw_copy_out B (s rest : bytes) w : s <> [] ->
  runw B (do_op (OCopyOut (blen s))) (s ++ rest) w =
  (Ok (accepted w s), skipn (length (accepted w s)) s ++ rest, snd (w_write w s)).
Proof. intros Hne. cbn [do_op runw]. rewrite flatw_copy_out by assumption. reflexivity. Qed.

Lemma runw_writer_err B s w :
  runw B (do_op OWriterErr) s w = ((if w_failed w then Err eWriter else Ok []), s, w).
Proof. reflexivity. Qed.

Section Chunks.
Variable B : nat.
Hypothesis HB : (32 <= B)%nat.

(** a writer that never fails *)
Definition unlimited (w : wstate) : Prop := w_budget w = None.

Lemma unlimited_write w d : unlimited w ->
  accepted w d = d /\ w_failed (snd (w_write w d)) = false /\ unlimited (snd (w_write w d)) /\
  w_out (snd (w_write w d)) = w_out w ++ d.
Proof. unfold unlimited, accepted, w_write. intros ->. cbn. auto. Qed.

Lemma wres_unlimited w d : unlimited w -> wres w d = (zlen d, SNone, true).
Proof. intros Hw. destruct (unlimited_write w d Hw) as (Ea & Ef & _). unfold wres. now rewrite Ea, Ef. Qed.

(** a non-empty counted payload after any of the type bytes $ = ; *)
Lemma runw_stream_payload f t s rest w : k_stream_blob t = true -> s <> [] -> (zlen s + 2 < two63)%Z ->
  runw B (stream_to (S f)) (t :: dec (blen s) ++ crlf ++ s ++ crlf ++ rest) w = (wres w s, rest, snd (w_write w s)).
Proof.
  intros Hk Hne Hlen.
  rewrite runw_stream_cons_blob by assumption.
  assert (Hb : (Z.of_N (blen s) < two63)%Z) by (unfold blen, zlen in *; lia).
  rewrite (runw_bind_eq B _ _ _ _ _ _ _ (runw_read_i_nat B (blen s) _ w HB Hb)).
  replace (Z.of_N (blen s)) with (zlen s) by (unfold blen, zlen; lia).
  unfold stream_blob.
  destruct (Z.eqb_spec (zlen s) (-1)) as [Hx|_]; [unfold zlen in Hx; lia|].
  destruct (Z.eqb_spec (zlen s) 0) as [Hx|_]; [destruct s; [congruence|unfold zlen in Hx; cbn [length] in Hx; lia]|].
  cbn [negb].
  replace (Z.to_N (zlen s)) with (blen s) by (unfold blen, zlen; lia).
  rewrite (runw_bind_eq B _ _ _ _ _ _ _ (runw_copy_out B s (crlf ++ rest) w Hne)).
  set (w' := snd (w_write w s)). set (d := accepted w s).
  rewrite (runw_bind_eq B _ _ _ _ _ _ _ (runw_writer_err B _ w')).
  pose proof (accepted_len w s) as Hd. fold d in Hd.
  rewrite (wrap64_small_z (zlen s - zlen d + 2)) by (unfold zlen, two63 in *; lia).
  assert (Edis : runw B (do_op (ODiscard (zlen s - zlen d + 2))) (skipn (length d) s ++ crlf ++ rest) w' = (Ok [], rest, w')).
  { rewrite app_assoc. apply runw_discard. rewrite app_length, skipn_length. cbn [crlf length]. unfold zlen. lia. }
  rewrite (runw_bind_eq B _ _ _ _ _ _ _ Edis).
  unfold wres. fold w'. destruct (w_failed w'); reflexivity.
Qed.

(** a counted string, possibly empty (then nothing is offered to the writer, whose state is left as it was) *)
Theorem runw_stream_counted f t s rest w :
  (t = tBlobString \/ t = tVerbatim) -> (zlen s + 2 < two63)%Z ->
  exists w', runw B (stream_to (S f)) (enc (VBlob t s) ++ rest) w = (wres w s, rest, w') /\
             w_out w' = w_out w ++ accepted w s.
Proof.
  intros Ht Hlen.
  assert (Hk : k_stream_blob t = true) by (destruct Ht; subst; reflexivity).
  assert (Es : enc (VBlob t s) ++ rest = t :: dec (blen s) ++ crlf ++ s ++ crlf ++ rest).
  { cbn [enc app]. rewrite <- ?app_assoc. reflexivity. }
  rewrite Es. destruct s as [|b s].
  - exists w. unfold wres. rewrite accepted_nil, failed_nil, app_nil_r. split; [|reflexivity].
    rewrite runw_stream_cons_blob by assumption.
    rewrite (runw_bind_eq B _ _ _ _ _ _ _ (runw_read_i_nat B 0 _ w HB eq_refl)).
    unfold stream_blob. replace (t =? tChunk) with false by (destruct Ht; subst; reflexivity). cbn [Z.of_N Z.eqb negb].
    rewrite (runw_bind_eq B _ _ _ _ _ _ _ (runw_discard B 2 crlf rest w eq_refl)). reflexivity.
  - exists (snd (w_write w (b :: s))). split; [|apply out_after_write].
    apply runw_stream_payload; [assumption|discriminate|assumption].
Qed.

(** the end marker ;0\r\n *)
Lemma runw_stream_end f rest w :
  runw B (stream_to (S f)) ([tChunk; 48] ++ crlf ++ rest) w = ((0%Z, SNone, true), rest, w).
Proof.
  change ([tChunk; 48] ++ crlf ++ rest) with (tChunk :: dec 0 ++ crlf ++ rest).
  rewrite runw_stream_cons_blob by reflexivity.
  rewrite (runw_bind_eq B _ _ _ _ _ _ _ (runw_read_i_nat B 0 _ w HB eq_refl)).
  reflexivity.
Qed.

(** the loop of streamTo over the chunks still to come, entered with [n] bytes written so far *)
Lemma runw_stream_chunks : forall cs g n rest w,
  chunks_ok cs -> unlimited w -> (length cs <= g)%nat ->
  exists w',
    runw B (bind (stream_to (S g)) (fun o => let '(nn, err, clean) := o in stream_chunks (S g) n nn err clean))
           (flat_map enc_chunk cs ++ [tChunk; 48] ++ crlf ++ rest) w =
      (((n + zlen (concat cs))%Z, SNone, true), rest, w') /\
    unlimited w' /\ w_out w' = w_out w ++ concat cs.
Proof.
  induction cs as [|c cs IH]; intros g n rest w Hcs Hw Hg.
  - cbn [flat_map app]. rewrite (runw_bind_eq B _ _ _ _ _ _ _ (runw_stream_end g rest w)).
    rewrite stream_chunks_S. cbn [Z.eqb negb andb runw concat]. exists w.
    change (zlen (@nil N)) with 0%Z. rewrite app_nil_r, !Z.add_0_r. auto.
  - destruct g as [|g]; [cbn in Hg; lia|]. cbn [length] in Hg.
    unfold chunks_ok in Hcs. cbn [forallb] in Hcs. apply andb_true_iff in Hcs as [Hc Hcs].
    apply andb_true_iff in Hc as [Hne Hlen].
    assert (Hcne : c <> []) by (destruct c; [discriminate|congruence]).
    assert (Hcl : (zlen c + 2 < two63)%Z) by (unfold len_ok in Hlen; lia).
    cbn [flat_map]. unfold enc_chunk at 1. rewrite <- !app_assoc. cbn [app]. rewrite <- !app_assoc.
    rewrite (runw_bind_eq B _ _ _ _ _ _ _ (runw_stream_payload (S g) tChunk c _ w eq_refl Hcne Hcl)).
    rewrite (wres_unlimited w c Hw). cbv beta iota. rewrite stream_chunks_S. cbv zeta.
    destruct (Z.eqb_spec (zlen c) 0) as [Hx|_]; [destruct c; [congruence|unfold zlen in Hx; cbn [length] in Hx; lia]|].
    cbn [negb andb].
    destruct (unlimited_write w c Hw) as (_ & _ & Hw' & Eo).
    destruct (IH g (n + zlen c)%Z rest (snd (w_write w c)) Hcs Hw' ltac:(lia)) as (w2 & E2 & Hw2 & Eo2).
    exists w2. change (tChunk :: 48 :: crlf ++ rest) with ([tChunk; 48] ++ crlf ++ rest). rewrite E2.
    cbn [concat]. rewrite zlen_app_b, Eo2, Eo, app_assoc, Z.add_assoc. auto.
Qed.

Theorem runw_stream_streamed f t cs rest w :
  (t = tBlobString \/ t = tVerbatim) -> chunks_ok cs -> unlimited w -> (length cs + 1 <= f)%nat ->
  exists w',
    runw B (stream_to (S f)) (enc (VBlobStream t cs) ++ rest) w = ((zlen (concat cs), SNone, true), rest, w') /\
    w_out w' = w_out w ++ concat cs.
Proof.
  intros Ht Hcs Hw Hf.
  assert (Hk : k_stream_blob t = true) by (destruct Ht; subst; reflexivity).
  assert (Es : enc (VBlobStream t cs) ++ rest =
               t :: [63] ++ crlf ++ flat_map enc_chunk cs ++ [tChunk; 48] ++ crlf ++ rest).
  { cbn [enc]. unfold enc_chunk. cbn [app]. rewrite <- ?app_assoc. cbn [app]. rewrite <- ?app_assoc. reflexivity. }
  rewrite Es, runw_stream_cons_blob by assumption.
  rewrite (runw_bind_eq B _ _ _ _ _ _ _ (runw_read_i_chunked B _ w HB)).
  change (eChunked =? eChunked) with true. cbv iota.
  destruct f as [|g]; [lia|].
  destruct (runw_stream_chunks cs g 0%Z rest w Hcs Hw ltac:(lia)) as (w' & E & _ & Eo). eauto.
Qed.

End Chunks.
