(** The step function, characterised once.  Every lookup (Flight, Flights, their critical sections, Touch,
    GetTTL) is a path of frame changes and slow-path lookups of the commands it asks for ([step_cases]);
    what holds for those two moves and composes holds for every lookup ([lookup_path_rel]).  Update, Cancel
    and Delete are described entry by entry.  Everything else (C06, C07, C09, C10) is a history induction
    on top of these lemmas. *)
From Coq Require Import List NArith ZArith Bool Lia Permutation.
Require Import RV.Model.Base RV.Model.Lru RV.Proofs.LruBase.
Import ListNotations.
Open Scope Z_scope.

(** a fresh in-flight entry created for (k, c) by a Flight / Flights at [now] with [ttl] *)
Definition new_pending (s : state) (k c : bytes) (ttl now : Z) (e' : entry) : Prop :=
  kc e' = (k, c) /\ eval e' = pending_msg ttl now /\ esize e' = 0 /\ (next_id s <= eid e')%N.

(** the completed form of a pending entry [e] after [Update (ekey e) (ecmd e) v] *)
Definition completed (g : cfg) (e : entry) (v : msg) : entry :=
  let v' := set_xat v (min_xat (m_xat (eval e)) (m_xat v)) in
  mkE (eid e) (ekey e) (ecmd e) v' (entry_size g (ekey e) (ecmd e) v').

Lemma pending_msg_pending ttl now : is_pending_msg (pending_msg ttl now) = true.
Proof. reflexivity. Qed.

Lemma new_pending_pending s k c ttl now e : new_pending s k c ttl now e -> pending e = true.
Proof. intros [_ [H _]]. unfold pending. rewrite H. reflexivity. Qed.

Lemma new_pending_mono s s1 k c ttl now e : (next_id s <= next_id s1)%N -> new_pending s1 k c ttl now e -> new_pending s k c ttl now e.
Proof. intros H [A [B [C D]]]. repeat split; try assumption. lia. Qed.

Lemma live_pending e now : pending e = true -> live (eval e) now = true.
Proof. unfold pending, live. intros ->. reflexivity. Qed.

Lemma live_done e now : pending e = false -> live (eval e) now = true -> unix_milli now < m_xat (eval e).
Proof. unfold pending, live, rel_pttl. intros -> H. cbn [orb] in H. apply Z.ltb_lt in H. lia. Qed.

Lemma move_to_back_in id l x : NoDup (map eid l) -> In x (move_to_back id l) <-> In x l.
Proof.
  intro H. pose proof (move_to_back_perm id l H) as Hp.
  split; apply Permutation_in; [exact Hp|apply Permutation_sym; exact Hp].
Qed.

Lemma slow_one_next s k c ttl now : (next_id s <= next_id (fst (slow_one s k c ttl now)))%N.
Proof.
  unfold slow_one. destruct (lookup k c (order s)) as [e|]; [destruct (live (eval e) now)|]; cbn; lia.
Qed.

Lemma slow_one_closed s k c ttl now : closed (fst (slow_one s k c ttl now)) = closed s.
Proof.
  unfold slow_one. destruct (lookup k c (order s)) as [e|]; [destruct (live (eval e) now)|]; reflexivity.
Qed.

Lemma slow_one_prov s k c ttl now e' :
  inv s -> In e' (order (fst (slow_one s k c ttl now))) ->
  In e' (order s) \/ new_pending s k c ttl now e'.
Proof.
  intros Hi. unfold slow_one. destruct (lookup k c (order s)) as [e|] eqn:El.
  - destruct (live (eval e) now).
    + cbn [bump fst set_order set_hit order]. intro H. left.
      apply (move_to_back_in (eid e) (order s) e' (inv_idnd s Hi)). exact H.
    + cbn [push_pending fst order size closed next_id]. intro H. apply in_app_or in H.
      destruct H as [H|[<-|[]]].
      * left. apply remove_kc_in in H. apply H.
      * right. unfold new_pending, kc. cbn. repeat split; lia.
  - cbn [push_pending fst order]. intro H. apply in_app_or in H.
    destruct H as [H|[<-|[]]]; [left; exact H|right]. unfold new_pending, kc. cbn. repeat split; lia.
Qed.

(** what a slow-path miss removes: only the expired completed entry of that very command *)
Lemma slow_one_surv s k c ttl now e :
  inv s -> In e (order s) ->
  In e (order (fst (slow_one s k c ttl now))) \/ (kc e = (k, c) /\ live (eval e) now = false).
Proof.
  intros Hi He. unfold slow_one. destruct (lookup k c (order s)) as [e0|] eqn:El.
  - destruct (live (eval e0) now) eqn:Elive.
    + left. cbn [bump fst set_order set_hit order].
      apply (move_to_back_in (eid e0) (order s) e (inv_idnd s Hi)). exact He.
    + cbn [push_pending fst order].
      destruct (ematch k c e) eqn:Em.
      * right. apply ematch_iff in Em. split; [exact Em|].
        rewrite (lookup_unique k c (order s) e (inv_kc s Hi) He Em) in El. injection El as <-. exact Elive.
      * left. apply in_or_app. left. apply remove_kc_in. split; [exact He|apply ematch_false; exact Em].
  - left. cbn [push_pending fst order]. apply in_or_app. left. exact He.
Qed.

Lemma slow_one_res s k c ttl now :
  inv s ->
  match snd (slow_one s k c ttl now) with
  | SHit v id => exists e, In e (order s) /\ kc e = (k, c) /\ eval e = v /\ eid e = id /\ pending e = false /\ 0 < rel_pttl v now
  | SWait v id => exists e, In e (order s) /\ kc e = (k, c) /\ eval e = v /\ eid e = id /\ pending e = true
  | SMiss v => v = pending_msg ttl now /\
               (forall e, In e (order s) -> kc e = (k, c) -> live (eval e) now = false) /\
               exists e', In e' (order (fst (slow_one s k c ttl now))) /\ new_pending s k c ttl now e' /\ eid e' = next_id s
  | SClosed => False
  end.
Proof.
  intro Hi. unfold slow_one. destruct (lookup k c (order s)) as [e|] eqn:El.
  - destruct (live (eval e) now) eqn:Elive.
    + cbn [bump snd]. pose proof (lookup_some _ _ _ _ El) as [Hin Hkc].
      destruct (pending e) eqn:Ep; exists e; repeat split; try assumption.
      unfold live in Elive. unfold pending in Ep. rewrite Ep in Elive. cbn in Elive. apply Z.ltb_lt. exact Elive.
    + cbn [push_pending snd fst order]. split; [reflexivity|]. split.
      * intros x Hx Hk. rewrite (lookup_unique k c (order s) x (inv_kc s Hi) Hx Hk) in El. injection El as <-. exact Elive.
      * eexists. split; [apply in_or_app; right; left; reflexivity|]. unfold new_pending, kc. cbn. repeat split; lia.
  - cbn [push_pending snd fst order]. split; [reflexivity|]. split.
    + intros x Hx Hk. exfalso. exact (lookup_none k c _ El x Hx Hk).
    + eexists. split; [apply in_or_app; right; left; reflexivity|]. unfold new_pending, kc. cbn. repeat split; lia.
Qed.

(** the states a lookup at [now] asking for [items] goes through: frame changes (read-locked passes,
    MoveToBack) and slow-path lookups of its items on an open store *)
Inductive lookup_path (now : Z) (items : list fitem) : state -> state -> Prop :=
| lp_frame s s' : same_frame s s' -> lookup_path now items s s'
| lp_slow s it : closed s = false -> In it items ->
    lookup_path now items s (fst (slow_one s (fi_key it) (fi_cmd it) (fi_ttl it) now))
| lp_trans s1 s2 s3 : lookup_path now items s1 s2 -> lookup_path now items s2 s3 -> lookup_path now items s1 s3.

Lemma lookup_path_rel now items (R : state -> state -> Prop) :
  (forall s s', inv s -> same_frame s s' -> R s s') ->
  (forall s it, inv s -> closed s = false -> In it items ->
     R s (fst (slow_one s (fi_key it) (fi_cmd it) (fi_ttl it) now))) ->
  (forall s1 s2 s3, R s1 s2 -> R s2 s3 -> R s1 s3) ->
  forall s s', lookup_path now items s s' -> inv s -> inv s' /\ R s s'.
Proof.
  intros Hf Hs Ht. induction 1 as [s s' F|s it Hc Hit|s1 s2 s3 _ IH1 _ IH2]; intro Hi.
  - split; [exact (inv_frame s s' F Hi)|apply Hf; assumption].
  - split; [apply inv_slow_one; assumption|apply Hs; assumption].
  - destruct (IH1 Hi) as [Hi2 R1]. destruct (IH2 Hi2) as [Hi3 R2]. split; [exact Hi3|exact (Ht _ _ _ R1 R2)].
Qed.

(** along a path no completed entry appears, no in-flight entry goes, the store stays open or closed *)
Record quiet (s s' : state) : Prop := mkQuiet {
  q_closed : closed s' = closed s;
  q_done : forall e, In e (order s') -> pending e = false -> In e (order s);
  q_pend : forall e, In e (order s) -> pending e = true -> In e (order s')
}.

Lemma path_quiet now items s s' : lookup_path now items s s' -> inv s -> inv s' /\ quiet s s'.
Proof.
  apply (lookup_path_rel now items quiet).
  - intros s0 s1 _ [Hp [_ [Hc _]]].
    split; [exact Hc| |]; intros e He _; eapply Permutation_in; try exact He; [exact Hp|apply Permutation_sym; exact Hp].
  - intros s0 it Hi Hc _. split.
    + apply slow_one_closed.
    + intros e He Hp. destruct (slow_one_prov _ _ _ _ _ e Hi He) as [H|H]; [exact H|].
      apply new_pending_pending in H. congruence.
    + intros e He Hp. destruct (slow_one_surv _ (fi_key it) (fi_cmd it) (fi_ttl it) now e Hi He) as [H|[_ H]]; [exact H|].
      rewrite (live_pending e now Hp) in H. discriminate.
  - intros s1 s2 s3 [A1 B1 C1] [A2 B2 C2]. split; [congruence| |]; auto.
Qed.

Lemma path_prov now items s s' : lookup_path now items s s' -> inv s ->
  inv s' /\
  ((next_id s <= next_id s')%N /\
   forall e', In e' (order s') ->
     In e' (order s) \/ exists it, In it items /\ new_pending s (fi_key it) (fi_cmd it) (fi_ttl it) now e').
Proof.
  apply (lookup_path_rel now items (fun s s' => (next_id s <= next_id s')%N /\ forall e', In e' (order s') ->
     In e' (order s) \/ exists it, In it items /\ new_pending s (fi_key it) (fi_cmd it) (fi_ttl it) now e')).
  - intros s0 s1 _ [Hp [_ [_ Hn]]]. split; [lia|]. intros e' He'. left. eapply Permutation_in; eassumption.
  - intros s0 it Hi _ Hit. split; [apply slow_one_next|]. intros e' He'.
    destruct (slow_one_prov _ _ _ _ _ e' Hi He') as [H|H]; [left; exact H|right; exists it; split; assumption].
  - intros s1 s2 s3 [N1 P1] [N2 P2]. split; [lia|]. intros e' He'. destruct (P2 e' He') as [H|[it [Hit H]]].
    + apply P1, H.
    + right. exists it. split; [exact Hit|]. eapply new_pending_mono; eassumption.
Qed.

Lemma flight_slow_path s k c ttl now : lookup_path now [FI k c ttl] s (fst (flight_slow s k c ttl now)).
Proof.
  unfold flight_slow. destruct (closed s) eqn:Hc; [apply lp_frame, same_frame_refl|].
  pose proof (lp_slow now [FI k c ttl] s (FI k c ttl) Hc (or_introl eq_refl)) as H. cbn [fi_key fi_cmd fi_ttl] in H.
  destruct (slow_one s k c ttl now) as [s1 r]. exact H.
Qed.

Lemma flights_slow_open_path now all : forall items s,
  incl items all -> closed s = false -> lookup_path now all s (fst (flights_slow_open s now items)).
Proof.
  induction items as [|[k c t] r IH]; intros s Hincl Hc; [apply lp_frame, same_frame_refl|].
  cbn [flights_slow_open].
  pose proof (lp_slow now all s (FI k c t) Hc (Hincl _ (or_introl eq_refl))) as H. cbn [fi_key fi_cmd fi_ttl] in H.
  pose proof (slow_one_closed s k c t now) as Hc1.
  destruct (slow_one s k c t now) as [s1 x]. cbn [fst] in *.
  specialize (IH s1 (fun it Hit => Hincl it (or_intror Hit))). rewrite Hc1 in IH. specialize (IH Hc).
  destruct (flights_slow_open s1 now r) as [s2 rs]. exact (lp_trans _ _ _ _ _ H IH).
Qed.

Lemma flights_slow_path now all items s : incl items all -> lookup_path now all s (fst (flights_slow s now items)).
Proof.
  intro Hincl. unfold flights_slow. destruct (closed s) eqn:Hc; [apply lp_frame, same_frame_refl|].
  apply flights_slow_open_path; assumption.
Qed.

Lemma flights_slow_open_length now items : forall s, length (snd (flights_slow_open s now items)) = length items.
Proof.
  induction items as [|[k c t] r IH]; intro s; [reflexivity|].
  cbn [flights_slow_open]. destruct (slow_one s k c t now) as [s1 x].
  specialize (IH s1). destruct (flights_slow_open s1 now r) as [s2 rs]. cbn [snd length] in *. lia.
Qed.

Lemma missed_items_sub items : forall rs it, In it (missed_items items rs) -> In it items.
Proof.
  induction items as [|x r IH]; intros [|y rr] it H; cbn [missed_items] in H; try contradiction.
  destruct y; try (right; eapply IH; exact H).
  destruct H as [-> |H]; [left; reflexivity|right; eapply IH; exact H].
Qed.

(** the state of a composite Flights just before its second pass *)
Definition flights_mid (s : state) (now : Z) (items : list fitem) : state :=
  let '(s1, rs, mv) := flights_fast s now items in
  match mv with [] => s1 | _ => touch s1 mv end.

Lemma flights_mid_frame s now items : inv s -> same_frame s (flights_mid s now items).
Proof.
  intro Hi. unfold flights_mid. pose proof (flights_fast_frame now items s) as F.
  destruct (flights_fast s now items) as [[s1 rs] mv]. cbn [fst] in F.
  destruct mv; [exact F|]. exact (same_frame_trans _ _ _ F (touch_frame s1 _ (inv_frame _ _ F Hi))).
Qed.

Lemma merge_res_nil rs : merge_res rs [] = rs.
Proof. induction rs as [|[v|id|] r IH]; cbn [merge_res]; rewrite ?IH; reflexivity. Qed.

(** the second pass may be taken to run always: over no items it does nothing *)
Lemma flights_eq s now items :
  flights s now items =
  let rs := snd (fst (flights_fast s now items)) in
  let r2 := flights_slow (flights_mid s now items) now (missed_items items rs) in
  (fst r2, OFlights (merge_res rs (snd r2))).
Proof.
  unfold flights, flights_mid. destruct (flights_fast s now items) as [[s1 rs] mv]. cbv zeta. cbn [fst snd].
  destruct (missed_items items rs) as [|m mi].
  - unfold flights_slow. destruct (closed _); cbn [flights_slow_open map fst snd]; rewrite merge_res_nil; reflexivity.
  - destruct (flights_slow _ now (m :: mi)) as [s3 rs2]. reflexivity.
Qed.

(** the commands an operation looks up under the write lock *)
Definition items_of (o : op) : list fitem :=
  match o with
  | Flight k c ttl _ | FlightSlow k c ttl _ => [FI k c ttl]
  | Flights _ items | FlightsSlow _ items => items
  | _ => []
  end.

Lemma step_cases g s o : inv s ->
  lookup_path (now_of o) (items_of o) s (fst (step g s o)) \/
  match o with Update _ _ _ | Cancel _ _ _ | Delete _ | Close _ => True | _ => False end.
Proof.
  intro Hi. destruct o; cbn [step now_of items_of fst]; try (right; exact I); left.
  - (* Flight *) unfold flight. pose proof (flight_fast_frame s k c now) as F.
    destruct (flight_fast s k c now) as [s1 x]. cbn [fst] in F.
    destruct x as [| [[id v]|] mv | | | | | | |];
      try exact (lp_trans _ _ _ _ _ (lp_frame _ _ _ _ F) (flight_slow_path s1 k c ttl now)).
    apply lp_frame. destruct mv; cbn [fst]; [|exact F].
    exact (same_frame_trans _ _ _ F (touch_frame s1 _ (inv_frame _ _ F Hi))).
  - (* Flights *) rewrite flights_eq. cbv zeta. cbn [fst].
    refine (lp_trans _ _ _ _ _ (lp_frame _ _ _ _ (flights_mid_frame s now items Hi)) _).
    apply flights_slow_path. intro it. apply missed_items_sub.
  - (* GetTTL *) apply lp_frame, same_frame_refl.
  - (* FlightFast *) apply lp_frame, flight_fast_frame.
  - (* Touch *) apply lp_frame, touch_frame, Hi.
  - (* FlightSlow *) apply flight_slow_path.
  - (* FlightsFast *) pose proof (flights_fast_frame now items s) as F. destruct (flights_fast s now items) as [[s1 rs] mv]. apply lp_frame, F.
  - (* FlightsSlow *) pose proof (flights_slow_path now items items s (incl_refl _)) as H. destruct (flights_slow s now items) as [s1 rs]. exact H.
Qed.

Definition commit (g : cfg) (s : state) (k c : bytes) (v : msg) (e : entry) : state :=
  let v' := set_xat v (min_xat (m_xat (eval e)) (m_xat v)) in
  let sz := entry_size g k c v' in
  mkS (size s + sz) (upd_kc k c (fun x => mkE (eid x) (ekey x) (ecmd x) v' sz) (order s)) (hits s) (closed s) (next_id s).

Lemma update_spec g s k c v :
  update g s k c v =
  match lookup k c (order s) with
  | Some e =>
      if pending e
      then (after_evict g (commit g s k c v e),
            OUpdate (min_xat (m_xat (eval e)) (m_xat v)) (Some (Rel (eid e) (set_xat v (min_xat (m_xat (eval e)) (m_xat v))))))
      else (after_evict g s, OUpdate 0 None)
  | None => (s, OUpdate 0 None)
  end.
Proof.
  unfold update, after_evict, commit. destruct (lookup k c (order s)) as [e|]; [|reflexivity]. destruct (pending e).
  - cbn [size order hits closed next_id]. destruct (evict (cmax g) _ _) as [[z keep] ev]. reflexivity.
  - destruct (evict (cmax g) (size s) (order s)) as [[z keep] ev]. reflexivity.
Qed.

Lemma update_state_eq g s k c v :
  fst (update g s k c v) =
  match lookup k c (order s) with
  | Some e => after_evict g (if pending e then commit g s k c v e else s)
  | None => s
  end.
Proof. rewrite update_spec. destruct (lookup k c (order s)) as [e|]; [destruct (pending e)|]; reflexivity. Qed.

Lemma after_evict_frame g s1 : closed (after_evict g s1) = closed s1 /\ next_id (after_evict g s1) = next_id s1.
Proof. unfold after_evict. destruct (evict _ _ _) as [[z keep] ev]. split; reflexivity. Qed.

(** [commit] rewrites the matching entry; with unique (key, cmd) that is [e], and its new form is [completed g e v] *)
Lemma commit_in g s k c v e x :
  inv s -> lookup k c (order s) = Some e ->
  In x (order (commit g s k c v e)) <-> (In x (order s) /\ kc x <> (k, c)) \/ x = completed g e v.
Proof.
  intros Hi El. pose proof (lookup_some _ _ _ _ El) as [Hin Hkc].
  unfold commit. cbn [order]. rewrite upd_kc_in. unfold completed. pose proof Hkc as Hkc'. unfold kc in Hkc'. injection Hkc' as <- <-.
  split.
  - intros [y [Hy [[Hk ->]|[Hk ->]]]]; [right; rewrite (unique_entry s e y Hi Hin Hy Hk); reflexivity|left; split; assumption].
  - intros [[H1 H2]| ->]; [exists x|exists e]; (split; [assumption|]); [right|left]; split; auto.
Qed.

Lemma inv_commit g s k c v e :
  wf_msg v -> inv s -> lookup k c (order s) = Some e -> pending e = true -> inv (commit g s k c v e).
Proof.
  intros Hv Hi El Ep. destruct Hi as [I1 I2 I3 I4 I5 I6]. unfold commit. constructor; cbn [order size closed next_id].
  - rewrite upd_kc_map; [exact I1|reflexivity].
  - intros x Hx. apply upd_kc_in in Hx. destruct Hx as [y [Hy [[_ ->]|[_ ->]]]]; cbn; apply I2; exact Hy.
  - rewrite upd_kc_map; [exact I3|reflexivity].
  - intros x Hx Hp. apply upd_kc_in in Hx. destruct Hx as [y [Hy [[_ ->]|[_ ->]]]]; [|apply I4; assumption].
    unfold pending in Hp. cbn [eval] in Hp. rewrite wf_msg_done in Hp by exact Hv. discriminate.
  - intro H. rewrite (upd_kc_sum k c _ _ e I1 El). cbn [esize]. rewrite (I5 H).
    apply lookup_some in El. rewrite (I4 e (proj1 El) Ep). lia.
  - intro H. rewrite (I6 H) in El. discriminate.
Qed.

Lemma inv_update g s k c v : wf_msg v -> inv s -> inv (fst (update g s k c v)).
Proof.
  intros Hv Hi. rewrite update_state_eq. destruct (lookup k c (order s)) as [e|] eqn:El; [|exact Hi].
  apply (after_evict_spec g). destruct (pending e) eqn:Ep; [apply inv_commit; assumption|exact Hi].
Qed.

Lemma update_prov g s k c v e' :
  inv s -> In e' (order (fst (update g s k c v))) ->
  In e' (order s) \/ exists e, In e (order s) /\ kc e = (k, c) /\ pending e = true /\ e' = completed g e v.
Proof.
  intros Hi H. rewrite update_state_eq in H. destruct (lookup k c (order s)) as [e|] eqn:El; [|left; exact H].
  apply (proj1 (after_evict_spec g _)) in H. destruct (pending e) eqn:Ep; [|left; exact H].
  apply (commit_in g s k c v e e' Hi El) in H. destruct H as [[H _]| ->]; [left; exact H|right].
  exists e. pose proof (lookup_some _ _ _ _ El) as [A B]. repeat split; assumption.
Qed.

Lemma update_surv g s k c v e :
  inv s -> In e (order s) ->
  In e (order (fst (update g s k c v))) \/ pending e = false \/ kc e = (k, c).
Proof.
  intros Hi He. rewrite update_state_eq. destruct (lookup k c (order s)) as [e0|] eqn:El; [|left; exact He].
  assert (H : In e (order (if pending e0 then commit g s k c v e0 else s)) \/ kc e = (k, c)).
  { destruct (pending e0); [|left; exact He]. destruct (ematch k c e) eqn:Em; [right; apply ematch_iff; exact Em|left].
    apply (commit_in g s k c v e0 e Hi El). left. split; [exact He|apply ematch_false; exact Em]. }
  destruct H as [H|H]; [|right; right; exact H].
  destruct (proj1 (proj2 (after_evict_spec g _)) e H) as [H1|H1]; [left; exact H1|right; left; exact H1].
Qed.

Lemma cancel_spec s k c :
  cancel s k c =
  match lookup k c (order s) with
  | Some e => if pending e
              then (mkS (size s) (remove_kc k c (order s)) (gc_hits (remove_kc k c (order s)) (hits s)) (closed s) (next_id s),
                    OCancel (Some (Rel (eid e) (eval e))))
              else (s, OCancel None)
  | None => (s, OCancel None)
  end.
Proof. reflexivity. Qed.

Lemma cancel_in s k c x : In x (order (fst (cancel s k c))) -> In x (order s).
Proof.
  rewrite cancel_spec. destruct (lookup k c (order s)) as [e|]; [|tauto].
  destruct (pending e); cbn [fst order]; [|tauto]. intro H. apply remove_kc_in in H. apply H.
Qed.

Lemma cancel_surv s k c e :
  inv s -> In e (order s) -> In e (order (fst (cancel s k c))) \/ (kc e = (k, c) /\ pending e = true).
Proof.
  intros Hi He. rewrite cancel_spec. destruct (lookup k c (order s)) as [e0|] eqn:El; [|left; exact He].
  destruct (pending e0) eqn:Ep; cbn [fst order]; [|left; exact He].
  destruct (ematch k c e) eqn:Em.
  - right. apply ematch_iff in Em. split; [exact Em|].
    rewrite (lookup_unique k c _ e (inv_kc s Hi) He Em) in El. injection El as <-. exact Ep.
  - left. apply remove_kc_in. split; [exact He|apply ematch_false; exact Em].
Qed.

Lemma purge_if_in p s x :
  In x (order (purge_if p s)) <-> In x (order s) /\ (p x = false \/ pending x = true).
Proof.
  unfold purge_if. cbn [order]. rewrite filter_In. split; intros [A B]; (split; [exact A|]).
  - destruct (p x); [|left; reflexivity]. destruct (pending x); [right; reflexivity|discriminate].
  - destruct B as [-> | ->]; [reflexivity|]. rewrite andb_false_r. reflexivity.
Qed.

Definition key_in (ks : list bytes) (e : entry) : bool := existsb (fun k => bytes_eqb k (ekey e)) ks.

Lemma key_in_iff ks e : key_in ks e = true <-> In (ekey e) ks.
Proof.
  unfold key_in. rewrite existsb_exists. split.
  - intros [k [Hk Hb]]. apply BytesProofs.bytes_eqb_eq in Hb. subst. exact Hk.
  - intro H. exists (ekey e). split; [exact H|apply BytesProofs.bytes_eqb_refl].
Qed.

Lemma delete_in s keys x :
  In x (order (delete s keys)) <->
  In x (order s) /\ (pending x = true \/ match keys with None => False | Some ks => ~ In (ekey x) ks end).
Proof.
  unfold delete. destruct keys as [ks|]; rewrite purge_if_in.
  - fold (key_in ks x). rewrite <- key_in_iff. destruct (key_in ks x); intuition congruence.
  - intuition congruence.
Qed.

Lemma inv_step g s o : wf_op o -> inv s -> inv (fst (step g s o)).
Proof.
  intros Hw Hi. destruct (step_cases g s o Hi) as [Hp|Hm]; [exact (proj1 (path_quiet _ _ _ _ Hp Hi))|].
  destruct o; try contradiction; cbn [step fst].
  - apply inv_update; assumption.
  - apply inv_cancel; exact Hi.
  - apply inv_delete; exact Hi.
  - apply inv_close.
Qed.

Lemma inv_run g ops : forall s, Forall wf_op ops -> inv s -> inv (run g ops s).
Proof.
  induction ops as [|o r IH]; intros s Hw Hi; [exact Hi|].
  inversion Hw; subst. rewrite run_cons. apply IH; [assumption|]. apply inv_step; assumption.
Qed.

Definition creates (s : state) (o : op) (e' : entry) : Prop :=
  exists it, In it (items_of o) /\ new_pending s (fi_key it) (fi_cmd it) (fi_ttl it) (now_of o) e'.

(** an entry of the next state is old, freshly created by this lookup, or the completion of a pending one
    by this Update *)
Lemma step_prov g s o e' :
  inv s -> In e' (order (fst (step g s o))) ->
  In e' (order s) \/ creates s o e' \/
  (exists e v, o = Update (ekey e) (ecmd e) v /\ In e (order s) /\ pending e = true /\ e' = completed g e v).
Proof.
  intros Hi H. destruct (step_cases g s o Hi) as [Hp|Hm].
  - destruct (path_prov _ _ _ _ Hp Hi) as [_ [_ P]]. destruct (P e' H) as [H1|H1]; [left|right; left]; exact H1.
  - destruct o; try contradiction; cbn [step fst] in H.
    + destruct (update_prov g s k c v e' Hi H) as [H1|[e [A [B [C D]]]]]; [left; exact H1|right; right].
      exists e, v. unfold kc in B. injection B as <- <-. repeat split; assumption.
    + left. eapply cancel_in; exact H.
    + left. apply delete_in in H. apply H.
Qed.

Lemma next_id_mono g s o : inv s -> (next_id s <= next_id (fst (step g s o)))%N.
Proof.
  intro Hi. destruct (step_cases g s o Hi) as [Hp|Hm]; [apply (path_prov _ _ _ _ Hp Hi)|].
  destruct o; try contradiction; cbn [step fst].
  - rewrite update_state_eq. destruct (lookup k c (order s)) as [e|]; [|lia].
    rewrite (proj2 (after_evict_frame g _)). destruct (pending e); cbn; lia.
  - rewrite cancel_spec. destruct (lookup k c (order s)) as [e|]; [destruct (pending e)|]; cbn; lia.
  - unfold delete. destruct keys; cbn; lia.
  - cbn. lia.
Qed.

(** an in-flight entry leaves the store only through Update / Cancel of its command, or Close *)
Lemma pending_survives g s o e :
  inv s -> In e (order s) -> pending e = true -> ~ resolves (ekey e) (ecmd e) o -> In e (order (fst (step g s o))).
Proof.
  intros Hi He Hp Hr. destruct (step_cases g s o Hi) as [Hpath|Hm].
  - apply (q_pend _ _ (proj2 (path_quiet _ _ _ _ Hpath Hi))); assumption.
  - assert (Hk : forall k c, kc e = (k, c) -> k = ekey e /\ c = ecmd e) by (intros k c [= <- <-]; split; reflexivity).
    destruct o; try contradiction; cbn [step fst resolves] in *.
    + destruct (update_surv g s k c v e Hi He) as [H|[H|H]]; [exact H|congruence|elim (Hr (Hk _ _ H))].
    + destruct (cancel_surv s k c e Hi He) as [H|[H _]]; [exact H|elim (Hr (Hk _ _ H))].
    + apply delete_in. split; [exact He|left; exact Hp].
Qed.

Lemma pending_survives_run g ops : forall s e,
  Forall wf_op ops -> inv s -> In e (order s) -> pending e = true ->
  Forall (fun o => ~ resolves (ekey e) (ecmd e) o) ops -> In e (order (run g ops s)).
Proof.
  induction ops as [|o r IH]; intros s e Hw Hi He Hp Hr; [exact He|].
  inversion Hw; subst. inversion Hr; subst. rewrite run_cons. apply IH; try assumption.
  - apply inv_step; assumption.
  - apply pending_survives; assumption.
Qed.

Lemma step_invalidated g s o x :
  In x (order (fst (step g s o))) -> pending x = false -> ~ invalidates (ekey x) o.
Proof.
  intros H Hp Hi. destruct o; cbn [invalidates] in Hi; try contradiction.
  - cbn [step fst] in H. apply delete_in in H. destruct H as [_ [H|H]]; [congruence|].
    destruct keys; [contradiction|exact H].
Qed.

Lemma close_order s : order (fst (close s)) = [] /\ closed (fst (close s)) = true.
Proof. split; reflexivity. Qed.

(** after a disconnect nothing is ever served again by this store *)
Lemma closed_step g s o : inv s -> closed s = true -> closed (fst (step g s o)) = true /\ order (fst (step g s o)) = [].
Proof.
  intros Hi Hc. pose proof (inv_closed s Hi Hc) as Ho.
  destruct (step_cases g s o Hi) as [Hp|Hm].
  - destruct (path_quiet _ _ _ _ Hp Hi) as [Hi' [Hc' _ _]]. rewrite Hc in Hc'. split; [exact Hc'|apply (inv_closed _ Hi' Hc')].
  - destruct o; try contradiction; cbn [step fst].
    + rewrite update_state_eq, Ho. cbn [lookup find]. tauto.
    + rewrite cancel_spec, Ho. cbn [lookup find fst]. tauto.
    + unfold delete, purge_if. destruct keys; cbn [closed order]; rewrite Ho; cbn; tauto.
    + cbn. tauto.
Qed.

Lemma closed_run g ops : forall s, inv s -> closed s = true -> closed (run g ops s) = true /\ order (run g ops s) = [].
Proof.
  induction ops as [|o r IH]; intros s Hi Hc; [split; [exact Hc|exact (inv_closed s Hi Hc)]|].
  rewrite run_cons. destruct (closed_step g s o Hi Hc) as [Hc' Ho']. apply IH; [|exact Hc'].
  (* a closed store is empty, so [inv] holds of it whatever the operation was *)
  constructor; rewrite ?Ho'; try constructor; try contradiction; congruence.
Qed.
