(** C13, part 2: readNextMessage on ARBITRARY input never panics and its allocations are bounded by
    K * (bytes consumed) + K0m.  A successful message also leaves 160 units of slack, which is what pays
    for the doubling of its parent's element buffer (amortised analysis with the ghost variable G =
    bytes spent on growth so far).  One lemma per piece of the recursion -- the dispatch on the type byte,
    one iteration of the loop of readA, one of readE -- over the recursive calls; then the induction on
    the fuel and the statements about [decode]. *)
From Coq Require Import List Arith NArith ZArith Bool Lia ZifyN ZifyNat ZifyBool.
Require Import RV.Model.Base RV.Model.RespWrite RV.Model.Resp.
Require Import RV.Proofs.RespIOProofs RV.Proofs.RespBaseProofs RV.Proofs.RespSafetyBase RV.Proofs.RespScalarProofs.
Import ListNotations.
Open Scope N_scope.

Notation K := 200%N (only parsing).
Notation K0m := 393216%N (only parsing).    (* 2 * K0 (Proofs/RespSafetyBase.v) = 6 * maxPreallocBytes *)

(** The postconditions below have four parts: no panic and no errOldNull; [S] the stream has only shrunk;
    [E] the bound that holds in any case; [O] the bound that holds on success.  By cases on the result: *)
Lemma post4_inv {A} (r : result A) (S E O : Prop) :
  (r <> Panic /\ r <> Err eOldNull) /\ S /\ E /\ (forall l, r = Ok l -> O) ->
  match r with Ok _ => S /\ O | Err e => e <> eOldNull /\ S /\ E | Panic => False end.
Proof.
  intros ((Hp & Hn) & HS & HE & HO). destruct r as [x|e|]; [eauto| |congruence].
  repeat split; try assumption. congruence.
Qed.

Lemma post4_ok {A} (x : A) (S E O : Prop) :
  S /\ E /\ O -> (Ok x <> Panic /\ Ok x <> Err eOldNull) /\ S /\ E /\ (forall l, Ok x = Ok l -> O).
Proof. intros (HS & HE & HO). split; [split; discriminate|]. repeat split; auto. Qed.

Lemma post4_err {A} e (S E O : Prop) :
  e <> eOldNull /\ S /\ E -> (@Err A e <> Panic /\ @Err A e <> Err eOldNull) /\ S /\ E /\ (forall l : A, Err e = Ok l -> O).
Proof. intros (Hn & HS & HE). split; [split; [discriminate|congruence]|]. repeat split; auto. discriminate. Qed.

Section Safety.
Variable B : nat.

Definition mspec (s : bytes) (al : N) (r : result msg) (s' : bytes) (al' : N) : Prop :=
  (r <> Panic /\ r <> Err eOldNull) /\ blen s' <= blen s /\ al' + K * blen s' <= al + K * blen s + K0m /\
  (forall m, r = Ok m -> blen s' + 1 <= blen s /\ al' + K * blen s' + 160 <= al + K * blen s).

Definition rn_ok (rn : option msg -> prog (result msg)) : Prop :=
  forall attrs s al r s' al', blen s < input_bound -> run B (rn attrs) s al = (r, s', al') -> mspec s al r s' al'.

(** the element buffer of readA: n elements read, capacity cap, G bytes spent on growth so far *)
Definition invG (L n cap G : Z) : Prop :=
  (0 <= n <= cap /\ cap <= L /\ (n < L -> 1 <= cap) /\ 0 <= G /\
   ((G = 0 /\ cap <= 16) \/ (G <= 80 * cap /\ cap <= 2 * n) \/ (cap = L /\ G <= 160 * n)))%Z.

Definition ral_ok (ral : Z -> Z -> Z -> list msg -> prog (result (list msg))) : Prop :=
  forall L n cap acc s al r s' al' G,
    invG L n cap G -> (Z.of_N (blen s) + n < Z.of_N input_bound)%Z ->
    run B (ral L n cap acc) s al = (r, s', al') ->
    (r <> Panic /\ r <> Err eOldNull) /\ blen s' <= blen s /\
    al' + K * blen s' <= al + K * blen s + Z.to_N (160 * n - G) + K0m /\
    (forall l, r = Ok l -> al' + K * blen s' <= al + K * blen s + Z.to_N (160 * n - G)).

Definition rel_ok (rel : list msg -> prog (result (list msg))) : Prop :=
  forall acc s al r s' al', blen s < input_bound -> run B (rel acc) s al = (r, s', al') ->
    (r <> Panic /\ r <> Err eOldNull) /\ blen s' <= blen s /\ al' + K * blen s' <= al + K * blen s + K0m /\
    (forall l, r = Ok l -> al' + K * blen s' <= al + K * blen s).

(** what is known when a reader has returned r in state (s2, al2), relative to the state (s, al) before the type byte *)
Definition after_reader {A} (s : bytes) (al : N) (r : result A) (s2 : bytes) (al2 : N) : Prop :=
  blen s2 + 1 <= blen s /\
  match r with
  | Ok _ => al2 + K * blen s2 + 160 <= al + K * blen s
  | Err e => if e =? eOldNull then al2 + K * blen s2 + 160 <= al + K * blen s
             else al2 + K * blen s2 <= al + K * blen s + K0m
  | Panic => False
  end.

(** the type byte pays for what a scalar reader does, K being far above 7 *)
Lemma scalar_after {A C} (f : A -> C) s al s1 (r : result A) s2 al2 :
  blen s1 + 1 = blen s -> scalar_ok s1 al r s2 al2 -> after_reader s al (map_res f r) s2 al2.
Proof.
  intros Hs1 (Hs & Ha & Hr). unfold K0 in *. split; [lia|].
  destruct r as [x|e|]; cbn [map_res]; [lia| |assumption].
  destruct (N.eqb_spec e eOldNull) as [->|_]; [specialize (Hr eq_refl)|]; lia.
Qed.

Lemma fin_msg_spec rn typ attrs r s al s2 al2 r' s' al' :
  rn_ok rn -> blen s < input_bound -> after_reader s al r s2 al2 ->
  run B (fin_msg typ rn attrs r) s2 al2 = (r', s', al') -> mspec s al r' s' al'.
Proof.
  intros Hrn Hb [Hlen Hr] H. unfold fin_msg in H. unfold mspec. destruct r as [m|e|]; [| |contradiction].
  - destruct (typ =? tAttribute).
    + apply Hrn in H; [|lia]. apply post4_inv in H.
      destruct r'; [apply post4_ok|apply post4_err|contradiction]; lia.
    + cbn [run] in H. fin H. apply post4_ok. lia.
  - destruct (N.eqb_spec e eOldNull) as [->|Hne]; cbn [run] in H; fin H; [apply post4_ok|apply post4_err]; lia.
Qed.

(** the postcondition of the loops of readA / readE and of readA / readE themselves, by cases: [X] is
    what may have been requested beyond K per byte consumed *)
Definition lpost {A} (X : N) (s : bytes) (al : N) (r : result A) (s' : bytes) (al' : N) : Prop :=
  match r with
  | Ok _ => blen s' <= blen s /\ al' + K * blen s' <= al + K * blen s + X
  | Err e => e <> eOldNull /\ blen s' <= blen s /\ al' + K * blen s' <= al + K * blen s + X + K0m
  | Panic => False
  end.

(** readA: the first buffer has at most 16 elements of 40 bytes *)
Lemma read_a_spec ral L s al r s' al' :
  ral_ok ral -> blen s < input_bound -> run B (read_a ral L) s al = (r, s', al') -> lpost 640 s al r s' al'.
Proof.
  intros Hral Hb H. unfold read_a in H. destruct (Z.ltb_spec L 0).
  - cbn [run] in H. fin H. cbn [lpost]. repeat split; try lia; discriminate.
  - apply run_bindr_inv in H as (r1 & s1 & al1 & E1 & H).
    rewrite run_alloc_make in E1 by (unfold msg_size, max_prealloc_msgs, max_alloc; lia). fin E1.
    apply run_bindr_inv in H as (r2 & s2 & al2 & E2 & H).
    apply (Hral L 0%Z (Z.min L max_prealloc_msgs) [] s _ r2 s2 al2 0%Z) in E2;
      [|unfold invG, max_prealloc_msgs; lia|unfold input_bound in *; lia].
    apply post4_inv in E2. unfold msg_size, max_prealloc_msgs in *.
    destruct r2 as [l|e|]; [cbn [run] in H; fin H; cbn [lpost]; lia|fin H; cbn [lpost]; lia|contradiction].
Qed.

Lemma read_e_spec rel s al r s' al' :
  rel_ok rel -> blen s < input_bound -> run B (read_e rel) s al = (r, s', al') -> lpost 0 s al r s' al'.
Proof.
  intros Hrel Hb H. apply run_bindr_inv in H as (r2 & s2 & al2 & E2 & H).
  apply Hrel in E2; [|assumption]. apply post4_inv in E2.
  destruct r2 as [l|e|]; [cbn [run] in H; fin H; cbn [lpost]; lia|fin H; cbn [lpost]; lia|contradiction].
Qed.

(** the dispatch on the type byte: [s] is the stream before the type byte, [s1] after it *)
Lemma dispatch_spec typ rn ral rel cf attrs s al s1 r s' al' :
  rn_ok rn -> ral_ok ral -> rel_ok rel -> blen s < input_bound -> blen s1 + 1 = blen s ->
  run B (dispatch typ rn ral rel cf attrs) s1 al = (r, s', al') -> mspec s al r s' al'.
Proof.
  intros Hrn Hral Hrel Hb Hs1 H. unfold dispatch, str_msg, agg_msg in H. cbv zeta in H.
  assert (Hb1 : blen s1 < input_bound) by lia.
  (* a reader [p], started in (s0, al), whose outcome satisfies [after_reader]; then [fin_msg] *)
  assert (Hfin : forall A (p : prog (result A)) (mk : A -> msg) s0,
     (forall r0 s2 al2, run B p s0 al = (r0, s2, al2) -> after_reader s al (map_res mk r0) s2 al2) ->
     run B (bind p (fun r0 => fin_msg typ rn attrs (map_res mk r0))) s0 al = (r, s', al') -> mspec s al r s' al').
  { intros A p mk s0 Hp H0. apply run_bind_inv in H0 as (r0 & s2 & al2 & E0 & H0).
    eapply fin_msg_spec; eauto. }
  assert (Hscalar : forall A (p : prog (result A)) (mk : A -> msg),
     (forall r0 s2 al2, run B p s1 al = (r0, s2, al2) -> scalar_ok s1 al r0 s2 al2) ->
     run B (bind p (fun r0 => fin_msg typ rn attrs (map_res mk r0))) s1 al = (r, s', al') -> mspec s al r s' al').
  { intros A p mk Hp. apply Hfin. intros r0 s2 al2 E. apply (scalar_after mk s al s1); auto. }
  (* a failure [e] of the header line, or nothing read yet (errOldNull) *)
  assert (Herr : forall e s0, blen s0 <= blen s1 ->
     run B (fin_msg typ rn attrs (Err e)) s0 al = (r, s', al') -> mspec s al r s' al').
  { intros e s0 H0 H1. eapply fin_msg_spec; [exact Hrn|exact Hb| |exact H1].
    split; [lia|]. destruct (e =? eOldNull); lia. }
  (* an aggregate reader [p], started in (s0, al) after the header line, allowed [extra] bytes of up-front allocation *)
  assert (Hagg : forall (p : prog (result (list msg * Z))) s0 (extra : N),
     K * blen s0 + extra + 160 <= K * blen s ->
     (forall r3 s3 al3, run B p s0 al = (r3, s3, al3) -> lpost extra s0 al r3 s3 al3) ->
     run B (bind p (fun r0 => fin_msg typ rn attrs (map_res (fun p => Msg typ [] (snd p) (fst p) None) r0))) s0 al = (r, s', al') ->
     mspec s al r s' al').
  { intros p s0 extra Hex Hp. apply Hfin. intros r3 s3 al3 E3. apply Hp in E3.
    destruct r3 as [x|e|]; cbn [lpost map_res] in *; [split; lia| |contradiction].
    split; [lia|]. destruct (N.eqb_spec e eOldNull); lia. }
  (* the streamed form [<t>?\r\n], or a failed header line *)
  assert (Hhdr : forall e s0, blen s0 <= blen s1 ->
     run B (if e =? eChunked
            then bind (read_e rel) (fun r0 => fin_msg typ rn attrs (map_res (fun p => Msg typ [] (snd p) (fst p) None) r0))
            else fin_msg typ rn attrs (Err e)) s0 al = (r, s', al') -> mspec s al r s' al').
  { intros e s0 H0. destruct (e =? eChunked); [|now apply Herr].
    apply (Hagg _ s0 0); [lia|]. intros r3 s3 al3 E3. apply read_e_spec in E3; [exact E3|assumption|lia]. }
  assert (Hcount : forall L s0, blen s0 + 3 <= blen s1 ->
     run B (bind (read_a ral L) (fun r0 => fin_msg typ rn attrs (map_res (fun p => Msg typ [] (snd p) (fst p) None) r0))) s0 al = (r, s', al') ->
     mspec s al r s' al').
  { intros L s0 H0. apply (Hagg _ s0 640); [lia|]. intros r3 s3 al3 E3. apply read_a_spec in E3; [exact E3|assumption|lia]. }
  destruct (k_blob typ); [revert H; apply Hscalar; intros r0 s2 al2; now apply read_blob_string_spec|].
  destruct (k_line typ); [revert H; apply Hscalar; intros r0 s2 al2; apply read_s_spec|].
  destruct (typ =? tInteger); [revert H; apply Hscalar; intros r0 s2 al2; apply read_i_scalar|].
  destruct (k_null typ); [revert H; apply Hscalar; intros r0 s2 al2; apply read_null_spec|].
  destruct (typ =? tBool); [revert H; apply Hscalar; intros r0 s2 al2; apply read_boolean_spec|].
  destruct (k_array typ).
  { apply run_bind_inv in H as (r0 & s0 & al0 & E0 & H). apply read_i_spec in E0 as (-> & P3 & P4).
    destruct r0 as [L|e|]; [|now apply (Hhdr e s0)|contradiction].
    destruct (L =? -1)%Z; [now apply (Herr eOldNull s0)|]. apply (Hcount L s0); [lia|assumption]. }
  destruct (k_map typ); [|cbn [run] in H; fin H; unfold mspec; apply post4_err; repeat split; try lia; discriminate].
  apply run_bind_inv in H as (r0 & s0 & al0 & E0 & H). apply read_i_spec in E0 as (-> & P3 & P4).
  destruct r0 as [L|e|]; [|now apply (Hhdr e s0)|contradiction].
  apply (Hcount (wrap64 (L * 2)) s0); [lia|assumption].
Qed.

Lemma read_next_body_ok rn ral rel cf : rn_ok rn -> ral_ok ral -> rel_ok rel -> rn_ok (read_next_body rn ral rel cf).
Proof.
  intros Hrn Hral Hrel attrs s al r s' al' Hb H. unfold read_next_body in H.
  apply run_bindr_inv in H as (r0 & s0 & al0 & E0 & H).
  apply run_op_spec in E0 as (-> & Hs0 & E0). cbn [meter] in *.
  destruct r0 as [tb|e|]; [|fin H; unfold mspec; apply post4_err; lia|contradiction].
  apply step_ok in E0. eapply dispatch_spec; eauto.
Qed.

Lemma read_e_body_ok rn rel : rn_ok rn -> rel_ok rel -> rel_ok (read_e_body rn rel).
Proof.
  intros Hrn Hrel acc s al r s' al' Hb H. apply run_bindr_inv in H as (rm & sm & alm & Em & H).
  apply Hrn in Em; [|assumption]. apply post4_inv in Em.
  destruct rm as [m|e|]; [|fin H; apply post4_err; lia|contradiction].
  destruct (m_typ m =? tEnd).
  - cbn [run] in H. fin H. apply post4_ok. lia.
  - rewrite run_bind, run_alloc in H. apply Hrel in H; [|lia]. apply post4_inv in H. unfold msg_size in H.
    destruct r; [apply post4_ok|apply post4_err|contradiction]; lia.
Qed.

(** the loop of readA: [160 * n - G] is what the n elements read so far have left in the bank *)
Lemma invG_bank L n cap G : invG L n cap G -> (0 <= 160 * n - G)%Z.
Proof. unfold invG. lia. Qed.

Lemma invG_next L n cap G : invG L n cap G -> (n < cap)%Z -> invG L (n + 1) cap G.
Proof. unfold invG. lia. Qed.

(** doubling a full buffer is paid for by the elements already in it *)
Lemma invG_grow L n G : invG L n n G -> n <> L ->
  (n < Z.min L (n * 2))%Z /\ invG L n (Z.min L (n * 2)) (G + Z.min L (n * 2) * msg_size).
Proof. unfold invG, msg_size. lia. Qed.

Lemma bank_step n G G' : (0 <= 160 * n - G')%Z -> (G <= G')%Z ->
  Z.to_N (G' - G) + Z.to_N (160 * (n + 1) - G') = 160 + Z.to_N (160 * n - G).
Proof. lia. Qed.

(** one element, read with capacity cap' after G' - G more bytes were spent on growth *)
Lemma read_a_next_ok rn ral L n cap' acc s al r s' al' G G' :
  rn_ok rn -> ral_ok ral -> invG L n cap' G' -> (n < cap')%Z -> (G <= G')%Z ->
  (Z.of_N (blen s) + n < Z.of_N input_bound)%Z ->
  run B (read_a_next rn ral L n cap' acc) s (al + Z.to_N (G' - G)) = (r, s', al') ->
  lpost (Z.to_N (160 * n - G)) s al r s' al'.
Proof.
  intros Hrn Hral HG' Hlt HGG Hbn H. unfold read_a_next in H.
  apply run_bind_inv in H as (rm & sm & alm & Em & H).
  apply Hrn in Em; [|unfold invG, input_bound in *; lia]. apply post4_inv in Em.
  pose proof (invG_bank _ _ _ _ HG') as Hbank. pose proof (bank_step n G G' Hbank HGG) as Hstep.
  destruct (Z.ltb_spec n cap') as [_|Hx]; [|lia].
  destruct rm as [m|e|]; [|cbn [run] in H; fin H; cbn [lpost]; lia|contradiction].
  apply (Hral L (n + 1)%Z cap' (acc ++ [m]) sm alm r s' al' G') in H; [|now apply invG_next|lia].
  apply post4_inv in H. clear Hbn HG' Hlt HGG.
  set (a := Z.to_N (G' - G)) in *. set (b := Z.to_N (160 * (n + 1) - G')) in *. set (c := Z.to_N (160 * n - G)) in *.
  clearbody a b c. destruct r; cbn [lpost]; [lia|lia|assumption].
Qed.

Lemma read_a_body_ok rn ral : rn_ok rn -> ral_ok ral -> ral_ok (read_a_body rn ral).
Proof.
  intros Hrn Hral L n cap acc s al r s' al' G HG Hbn H. unfold read_a_body in H.
  assert (Hlp : lpost (Z.to_N (160 * n - G)) s al r s' al').
  { destruct (Z.eqb_spec n L) as [->|Hne]; [cbn [run] in H; fin H; cbn [lpost]; lia|].
    destruct (Z.eqb_spec n cap) as [<-|Hc].
    - apply run_bindr_inv in H as (r1 & s1 & al1 & E1 & H).
      destruct (invG_grow L n G HG Hne) as [Hlt HG'].
      (* make cannot fail: the buffer is at most twice the elements already read, fewer than the input has bytes *)
      rewrite run_alloc_make in E1 by (unfold invG in HG; unfold msg_size, max_alloc; unfold input_bound in Hbn; lia). fin E1.
      eapply (read_a_next_ok rn ral L n _ acc s al r s' al' G); [exact Hrn|exact Hral|exact HG'|exact Hlt| |exact Hbn|].
      + unfold invG in HG. unfold msg_size. lia.
      + replace (G + Z.min L (n * 2) * msg_size - G)%Z with (Z.min L (n * 2) * msg_size)%Z by lia. exact H.
    - apply (read_a_next_ok rn ral L n cap acc s al r s' al' G G Hrn Hral HG); [unfold invG in HG; lia|lia|exact Hbn|].
      rewrite Z.sub_diag, N.add_0_r. exact H. }
  pose proof (invG_bank _ _ _ _ HG) as Hbank.
  destruct r; cbn [lpost] in Hlp; [apply post4_ok|apply post4_err|contradiction]; lia.
Qed.

Theorem safety_all : forall fuel,
  rn_ok (read_next fuel) /\ ral_ok (read_a_loop fuel) /\ rel_ok (read_e_loop fuel).
Proof.
  induction fuel as [|f (IHn & IHa & IHe)].
  - split; [|split].
    + intros attrs s al r s' al' _ H. cbn in H. fin H. unfold mspec. apply post4_err. repeat split; try lia; discriminate.
    + intros L n cap acc s al r s' al' G HG _ H. cbn in H. fin H.
      pose proof (invG_bank _ _ _ _ HG). apply post4_err. repeat split; try lia; discriminate.
    + intros acc s al r s' al' _ H. cbn in H. fin H. apply post4_err. repeat split; try lia; discriminate.
  - split; [|split].
    + intros attrs. rewrite read_next_S. now apply read_next_body_ok.
    + intros L n cap acc. rewrite read_a_loop_S. now apply read_a_body_ok.
    + intros acc. rewrite read_e_loop_S. now apply read_e_body_ok.
Qed.

(** one readNextMessage on a whole input: no panic, the allocation bound, and the slack left by a success *)
Theorem decode_bounds input r rest al : blen input < input_bound -> decode B input = (r, rest, al) ->
  r <> Panic /\ blen rest <= blen input /\ al <= K * (blen input - blen rest) + K0m /\
  (forall m, r = Ok m -> blen rest + 1 <= blen input /\ al + 160 <= K * (blen input - blen rest)).
Proof.
  intros Hb E. apply (proj1 (safety_all _)) in E; [|assumption]. destruct E as ((H1 & _) & H2 & H3 & H4).
  split; [assumption|]. split; [assumption|]. split; [lia|]. intros m Hm. specialize (H4 m Hm). lia.
Qed.

End Safety.
