(** C45: little-endian words and vector strings round-trip (Model/Binary.v); [firstn_app_exact] and [skipn_app_exact]
    and [list_pairs_ind]
    are list facts other files use too. *)
From Coq Require Import List NArith Bool Lia Arith.
Require Import RV.Model.Base RV.Model.Binary.
Import ListNotations.
Open Scope N_scope.

(** induction over a list two elements at a time *)
Lemma list_pairs_ind {A} (P : list A -> Prop) :
  P [] -> (forall a, P [a]) -> (forall a b l, P l -> P (a :: b :: l)) -> forall l, P l.
Proof. intros H0 H1 H2. fix F 1. intros [|a [|b l]]; [exact H0|exact (H1 a)|exact (H2 a b l (F l))]. Qed.

Lemma le_bytes_length k w : length (le_bytes k w) = k.
Proof. revert w; induction k as [|k IH]; intros w; cbn [le_bytes length]; [reflexivity|]. now rewrite IH. Qed.

Lemma of_le_le_bytes k : forall w, w < 256 ^ N.of_nat k -> of_le (le_bytes k w) = w.
Proof.
  induction k as [|k IH]; intros w Hw.
  - cbn in *. lia.
  - cbn [le_bytes of_le].
    rewrite IH.
    + pose proof (N.div_mod w 256 ltac:(lia)). lia.
    + rewrite Nat2N.inj_succ, N.pow_succ_r' in Hw.
      apply N.div_lt_upper_bound; lia.
Qed.

Lemma le_bytes_bytes k : forall w, Forall (fun b => b < 256) (le_bytes k w).
Proof.
  induction k as [|k IH]; intros w; cbn [le_bytes]; constructor.
  - apply N.mod_lt; lia.
  - apply IH.
Qed.

Lemma firstn_app_exact {A} (l1 l2 : list A) : firstn (length l1) (l1 ++ l2) = l1.
Proof. induction l1 as [|x l1 IH]; cbn; [now destruct l2|now rewrite IH]. Qed.

Lemma skipn_app_exact {A} (l1 l2 : list A) : skipn (length l1) (l1 ++ l2) = l2.
Proof. induction l1 as [|x l1 IH]; cbn; [reflexivity|exact IH]. Qed.

Lemma vector_string_length k ws : length (vector_string k ws) = (k * length ws)%nat.
Proof.
  unfold vector_string. induction ws as [|w ws IH]; cbn [flat_map length]; [lia|].
  rewrite app_length, le_bytes_length, IH. lia.
Qed.

Lemma to_vector_roundtrip k (Hk : (0 < k)%nat) :
  forall ws fuel, Forall (fun w => w < 256 ^ N.of_nat k) ws ->
    (length ws < fuel)%nat ->
    to_vector fuel k (vector_string k ws) = Ok ws.
Proof.
  induction ws as [|w ws IH]; intros fuel Hws Hf.
  - destruct fuel; reflexivity.
  - destruct fuel as [|f]; [cbn in Hf; lia|].
    inversion Hws as [|? ? Hw Hr]; subst.
    unfold vector_string. cbn [flat_map]. fold (vector_string k ws).
    remember (le_bytes k w ++ vector_string k ws) as l eqn:El.
    assert (Hlen : (k <= length l)%nat) by (subst l; rewrite app_length, le_bytes_length; lia).
    destruct l as [|b l']; [cbn in Hlen; lia|].
    cbn [to_vector].
    destruct (Nat.ltb_spec (length (b :: l')) k) as [Hlt|_]; [lia|].
    rewrite El.
    assert (Hs : skipn k (le_bytes k w ++ vector_string k ws) = vector_string k ws).
    { rewrite <- (le_bytes_length k w) at 1. apply skipn_app_exact. }
    assert (Hfst : firstn k (le_bytes k w ++ vector_string k ws) = le_bytes k w).
    { rewrite <- (le_bytes_length k w) at 1. apply firstn_app_exact. }
    rewrite Hs, Hfst.
    rewrite IH by (auto; cbn in Hf; lia).
    now rewrite of_le_le_bytes.
Qed.

Lemma to_vector_top_roundtrip k ws :
  (0 < k)%nat -> Forall (fun w => w < 256 ^ N.of_nat k) ws ->
  to_vector_top k (vector_string k ws) = Ok ws.
Proof.
  intros Hk Hws. unfold to_vector_top. apply to_vector_roundtrip; auto.
  rewrite vector_string_length. nia.
Qed.

(** ragged input makes the decoder panic *)
Lemma to_vector_ragged k : forall fuel bs, (0 < k)%nat -> (length bs < fuel)%nat ->
  (length bs mod k <> 0)%nat -> to_vector fuel k bs = Panic.
Proof.
  induction fuel as [|f IH]; intros bs Hk Hf Hm; [lia|].
  destruct bs as [|b l]; [cbn in Hm; rewrite Nat.mod_0_l in Hm; lia|].
  cbn [to_vector].
  destruct (Nat.ltb_spec (length (b :: l)) k) as [Hlt|Hge]; [reflexivity|].
  rewrite IH; auto.
  - rewrite skipn_length. cbn [length] in *. lia.
  - rewrite skipn_length. intro E. apply Hm.
    set (n := length (b :: l)) in *.
    replace n with ((n - k) + 1 * k)%nat by lia.
    rewrite Nat.mod_add by lia. exact E.
Qed.
