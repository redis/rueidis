(** Flow-buffer LTS: token conservation, FIFO order, exactly-once, own results, no blocked send,
    no stuck state - for every number of tokens, every number of putters, every schedule. *)
From Coq Require Import List NArith ZArith Bool Arith Lia Permutation.
Require Import RV.Model.Base RV.Model.Flow RV.Proofs.LtsBase.
Import ListNotations.
Local Open Scope nat_scope.

Definition optl {A} (o : option A) : list A := match o with Some x => [x] | None => [] end.
Definition rh_tok (st : state) : list nat := match rh st with Some (t, _, _) => [t] | None => [] end.
Definition rh_infl (st : state) : list (nat * nat) := match rh st with Some (t, i, false) => [(t, i)] | _ => [] end.
Definition toks (st : state) : list nat :=
  f st ++ map snd (ph st) ++ map fst (w st) ++ map fst (optl (wh st)) ++ map fst (r st) ++ rh_tok st.
(** commands on their way, oldest first *)
Definition inflight (st : state) : list (nat * nat) := rh_infl st ++ r st ++ optl (wh st) ++ w st.
Definition swap (x : nat * nat) : nat * nat := let (a, b) := x in (b, a).

(** The tokens are 0..n-1 and the putters served so far 1..nt, each in exactly one place; the waiters
    queue in the order of their commands. *)
Record InvF (n : nat) (st : state) : Prop := {
  f_toks : Permutation (seq 0 n) (toks st);
  f_ids : Permutation (seq 1 (nt st)) (sent st ++ map fst (ph st));
  f_wt : wt st = map swap (inflight st);
  f_sent : sent st = wseq st ++ map snd (w st);
  f_wseq : wseq st = rseq st ++ map snd (r st) ++ map snd (optl (wh st));
  f_recv : own_results (recv st) = true
}.

Definition reachable (n : nat) (st : state) : Prop := exists sch, run n sch (init n) = Some st.

Lemma reachable_ind : forall n (P : state -> Prop),
  P (init n) -> (forall st l st', P st -> lstep n st l = Some st' -> P st') ->
  forall st, reachable n st -> P st.
Proof.
  intros n P H0 Hs st [sch Hr].
  exact (run_ind _ _ (lstep n) (run n) (fun _ => eq_refl) (fun _ _ _ => eq_refl) P _ H0 Hs sch st Hr).
Qed.

Lemma NoDup_app_l : forall (A : Type) (a b : list A), NoDup (a ++ b) -> NoDup a.
Proof.
  intros A a b. induction b as [|x b IH]; [rewrite app_nil_r; trivial|].
  intro H. exact (IH (NoDup_remove_1 _ _ _ H)).
Qed.

(** looking a putter up is taking it out, up to the order *)
Lemma find_tok_perm : forall p l t, find_tok p l = Some t -> Permutation l ((p, t) :: remove_key p l).
Proof.
  intros p l t. induction l as [|[q u] rest IH]; cbn [find_tok remove_key]; [discriminate|].
  destruct (Nat.eqb_spec p q) as [<-|]; [intros [= <-]; reflexivity|].
  intro H. exact (Permutation_trans (perm_skip _ (IH H)) (perm_swap _ _ _)).
Qed.

(** a token handed from one queue to the end of the next *)
Lemma perm_hand_over : forall (A : Type) (x : A) a b c d,
  Permutation ((a ++ x :: b) ++ c ++ d) ((a ++ b) ++ (c ++ [x]) ++ d).
Proof.
  intros A x a b c d. rewrite <- !app_assoc. apply Permutation_app_head. cbn [app].
  rewrite !app_assoc. apply Permutation_middle.
Qed.

(** ... and from the last place back to the first *)
Lemma perm_give_back : forall (A : Type) (x : A) a b c d e,
  Permutation (a ++ b ++ c ++ d ++ e ++ [x]) ((a ++ [x]) ++ b ++ c ++ d ++ e ++ []).
Proof.
  intros A x a b c d e. rewrite <- app_assoc. apply Permutation_app_head. cbn [app].
  rewrite !app_assoc, app_nil_r. symmetry. apply Permutation_cons_append.
Qed.

Lemma find_tok_swap : forall p t l, find_tok p (map swap l) = Some t -> In t (map fst l).
Proof.
  intros p t l. induction l as [|[u q] l IH]; cbn [map swap find_tok fst]; [discriminate|].
  destruct (Nat.eqb p q); [intros [= ->]; left; reflexivity|right; auto].
Qed.

(** The waiter that takes the reader's result is the oldest one: a younger waiter with the same
    token would mean that the token is in two places. *)
Lemma oldest_waiter : forall n st t i p, InvF n st -> rh st = Some (t, i, false) -> find_tok p (wt st) = Some t ->
  p = i /\ wt st = (p, t) :: map swap (r st ++ optl (wh st) ++ w st).
Proof.
  intros n st t i p I Hrh Hp. pose proof (f_wt _ _ I) as Hwt. unfold inflight, rh_infl in Hwt.
  rewrite Hrh in Hwt. cbn [app map swap] in Hwt. rewrite Hwt in Hp |- *. cbn [find_tok] in Hp.
  destruct (Nat.eqb_spec p i) as [->|_]; [split; reflexivity|]. exfalso.
  apply find_tok_swap in Hp. rewrite !map_app, !in_app_iff in Hp.
  pose proof (Permutation_NoDup (f_toks _ _ I) (seq_NoDup _ _)) as D. unfold toks, rh_tok in D.
  rewrite Hrh, !app_assoc in D. apply NoDup_remove_2 in D. apply D.
  rewrite app_nil_r. destruct Hp as [Hp|[Hp|Hp]].
  - apply in_or_app; right; exact Hp.
  - apply in_or_app; left; apply in_or_app; right; exact Hp.
  - apply in_or_app; left; apply in_or_app; left; apply in_or_app; right; exact Hp.
Qed.

Lemma invf_init : forall n, InvF n (init n).
Proof.
  intro n. constructor; try reflexivity.
  unfold toks, rh_tok. cbn [init f ph w wh r rh optl map app]. rewrite app_nil_r. reflexivity.
Qed.

(* states the goal about the fields of the successor state *)
Ltac fields := unfold toks, rh_tok, inflight, rh_infl; cbn [f w r ph wh rh wt nt sent wseq rseq recv].

(** Every step hands one token, and at most one putter, from one place to the next; the parts of
    the invariant that a step leaves alone hold by computation. *)
Theorem invf_step : forall n st l st', InvF n st -> lstep n st l = Some st' -> InvF n st'.
Proof.
  intros n st l st' I Hl. pose proof I as [It Ii Iw Is Iq Ir].
  unfold toks, rh_tok in It. unfold inflight, rh_infl in Iw.
  destruct l; cbn [lstep] in Hl.
  - (* FTake *)
    destruct (f st) as [|t rest]; [discriminate|]. injection Hl as <-.
    constructor; try assumption; fields.
    + rewrite map_app. exact (Permutation_trans It (perm_hand_over _ t [] _ _ _)).
    + rewrite seq_S, map_app, app_assoc. apply Permutation_app_tail, Ii.
  - (* FPutW *)
    destruct (find_tok p (ph st)) as [t|] eqn:Hp; [|discriminate].
    destruct (length (w st) <? n); [|discriminate]. injection Hl as <-.
    apply find_tok_perm in Hp.
    constructor; try assumption; fields.
    + rewrite map_app. apply (Permutation_trans It), Permutation_app_head.
      apply (Permutation_trans (Permutation_app_tail _ (Permutation_map snd Hp))), (perm_hand_over _ t []).
    + rewrite <- app_assoc. apply (Permutation_trans Ii), Permutation_app_head, (Permutation_map fst Hp).
    + rewrite Iw, !app_assoc. symmetry. apply map_app.
    + rewrite Is, map_app, app_assoc. reflexivity.
  - (* FWTake *)
    destruct (w st) as [|c rest]; [discriminate|]. destruct (wh st); [discriminate|]. injection Hl as <-.
    constructor; try assumption; fields.
    + apply (Permutation_trans It). do 2 apply Permutation_app_head. apply (perm_hand_over _ (fst c) [] _ []).
    + rewrite Is, <- app_assoc. reflexivity.
    + rewrite Iq, <- !app_assoc. reflexivity.
  - (* FPutR *)
    destruct (wh st) as [c|]; [|discriminate]. destruct (length (r st) <? n); [|discriminate]. injection Hl as <-.
    constructor; try assumption; fields.
    + rewrite map_app. apply (Permutation_trans It). do 3 apply Permutation_app_head. apply (perm_hand_over _ (fst c) [] []).
    + rewrite Iw, <- app_assoc. reflexivity.
    + rewrite Iq, map_app, <- app_assoc. reflexivity.
  - (* FRTake *)
    destruct (r st) as [|[t i] rest]; [discriminate|]. destruct (rh st); [discriminate|]. injection Hl as <-.
    constructor; try assumption; fields.
    + apply (Permutation_trans It). do 4 apply Permutation_app_head. apply (perm_hand_over _ t [] _ [] []).
    + rewrite Iq, <- app_assoc. reflexivity.
  - (* FDeliver *)
    destruct (rh st) as [[[t i] [|]]|] eqn:Hrh; try discriminate.
    destruct (find_tok p (wt st)) as [t'|] eqn:Hp; [|discriminate].
    destruct (Nat.eqb_spec t t') as [<-|]; [|discriminate]. injection Hl as <-.
    destruct (oldest_waiter _ _ _ _ _ I Hrh Hp) as [<- Hwt].
    constructor; try assumption; fields.
    + rewrite Hwt. cbn [remove_key]. rewrite Nat.eqb_refl. reflexivity.
    + cbn [own_results]. rewrite Nat.eqb_refl. exact Ir.
  - (* FPutF *)
    destruct (rh st) as [[[t i] [|]]|]; try discriminate.
    destruct (length (f st) <? n); [|discriminate]. injection Hl as <-.
    constructor; try assumption; fields.
    exact (Permutation_trans It (perm_give_back _ t _ _ _ _ _)).
Qed.

Theorem invf_reachable : forall n st, reachable n st -> InvF n st.
Proof.
  intros n st Hr. eapply reachable_ind; [apply invf_init| |exact Hr].
  intros s0 l s1 I Hl. eapply invf_step; eassumption.
Qed.

Lemma toks_length : forall st, length (toks st) = tokens st.
Proof.
  intro st. unfold toks, tokens, rh_tok. rewrite !app_length, !map_length, !Nat.add_assoc.
  destruct (wh st); destruct (rh st) as [[[? ?] ?]|]; reflexivity.
Qed.

Theorem flow_conservation : forall n st, InvF n st -> tokens st = n /\ NoDup (toks st).
Proof.
  intros n st [I _ _ _ _ _]. split.
  - rewrite <- toks_length, <- (Permutation_length I). apply seq_length.
  - exact (Permutation_NoDup I (seq_NoDup _ _)).
Qed.

(** a send never blocks: whenever a thread is about to send, the channel has room *)
Theorem flow_sends_never_block : forall n st, InvF n st ->
  (forall p t, find_tok p (ph st) = Some t -> length (w st) < n) /\
  (forall c, wh st = Some c -> length (r st) < n) /\
  (forall t i b, rh st = Some (t, i, b) -> length (f st) < n).
Proof.
  intros n st I. destruct (flow_conservation n st I) as [Hc _]. unfold tokens, opt_len in Hc. split; [|split].
  - intros p t Hp. destruct (ph st); [discriminate|]. cbn [length] in Hc. lia.
  - intros c Hw. rewrite Hw in Hc. lia.
  - intros t i b Hh. rewrite Hh in Hc. lia.
Qed.

(** FIFO: the writer dequeues in the order of the sends, the reader completes in the writer's order,
    nothing is dequeued twice *)
Theorem flow_order : forall n st, InvF n st ->
  sent st = wseq st ++ map snd (w st) /\
  wseq st = rseq st ++ map snd (r st) ++ map snd (optl (wh st)) /\
  NoDup (sent st).
Proof.
  intros n st I.
  split; [exact (f_sent _ _ I)|]. split; [exact (f_wseq _ _ I)|].
  exact (NoDup_app_l _ _ _ (Permutation_NoDup (f_ids _ _ I) (seq_NoDup _ _))).
Qed.

Theorem flow_own_result : forall n st p st', InvF n st -> lstep n st (FDeliver p) = Some st' ->
  exists t, rh st = Some (t, p, false) /\ recv st' = (p, p) :: recv st /\ exists rest, wt st = (p, t) :: rest.
Proof.
  intros n st p st' I Hl. cbn [lstep] in Hl.
  destruct (rh st) as [[[t i] [|]]|] eqn:Hrh; try discriminate.
  destruct (find_tok p (wt st)) as [t'|] eqn:Hp; [|discriminate].
  destruct (Nat.eqb_spec t t') as [<-|]; [|discriminate]. injection Hl as <-.
  destruct (oldest_waiter _ _ _ _ _ I Hrh Hp) as [<- Hwt].
  exists t. split; [reflexivity|]. split; [reflexivity|]. eexists. exact Hwt.
Qed.

(** no stuck state: while a putter holds a token or waits for its result, some step is enabled *)
Theorem flow_not_stuck : forall n st, InvF n st -> (ph st <> [] \/ wt st <> []) ->
  exists l st', lstep n st l = Some st'.
Proof.
  intros n st I Hwork. destruct (flow_sends_never_block n st I) as (S1 & S2 & S3).
  pose proof (f_wt _ _ I) as Hwt. unfold inflight, rh_infl in Hwt.
  destruct (ph st) as [|[p t] rest] eqn:Hph.
  2:{ assert (Hp : find_tok p ((p, t) :: rest) = Some t) by (cbn [find_tok]; rewrite Nat.eqb_refl; reflexivity).
      exists (FPutW p). cbn [lstep]. rewrite Hph, Hp, (proj2 (Nat.ltb_lt _ _) (S1 p t Hp)). eexists. reflexivity. }
  destruct Hwork as [H|H]; [congruence|].
  destruct (rh st) as [[[t i] [|]]|] eqn:Hrh.
  - exists FPutF. cbn [lstep]. rewrite Hrh, (proj2 (Nat.ltb_lt _ _) (S3 _ _ _ eq_refl)). eexists. reflexivity.
  - exists (FDeliver i). cbn [lstep]. rewrite Hrh, Hwt. cbn [app map swap find_tok]. rewrite !Nat.eqb_refl.
    eexists. reflexivity.
  - destruct (wh st) as [c|] eqn:Hwh.
    { exists FPutR. cbn [lstep]. rewrite Hwh, (proj2 (Nat.ltb_lt _ _) (S2 c eq_refl)). eexists. reflexivity. }
    destruct (r st) as [|[t i] rest] eqn:Hr2.
    2:{ exists FRTake. cbn [lstep]. rewrite Hr2, Hrh. eexists. reflexivity. }
    destruct (w st) as [|c rest] eqn:Hw.
    2:{ exists FWTake. cbn [lstep]. rewrite Hw, Hwh. eexists. reflexivity. }
    exfalso. exact (H Hwt).
Qed.
