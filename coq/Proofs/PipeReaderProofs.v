(** The reader transcription ([Model/Pipe.v]): closed forms of [reader_step] on the five kinds of frame a
    ServerProto server can send ([reader_step_free], [_conf], [_sub], [_normal], [_pong]); [sync_multi_length]
    for the synchronous reads. *)
From Coq Require Import List NArith ZArith Bool Lia Arith String.
Require Import RV.Model.Base RV.Model.PipeQueue RV.Model.Pipe RV.Model.PipeLts.
Import ListNotations.
Open Scope N_scope.

Lemma sync_multi_length n : forall fs ms r, sync_multi n fs = Some (ms, r) -> List.length ms = n.
Proof.
  induction n as [|n IH]; intros fs ms r H; cbn [sync_multi] in H.
  - now inversion H.
  - destruct (sync_read fs) as [[m r0]|]; [|discriminate].
    destruct (sync_multi n r0) as [[ms' r']|] eqn:E; [|discriminate].
    inversion H; subst. cbn. f_equal. eapply IH; eauto.
Qed.

Definition is_apush (a : action) : bool := match a with APush _ _ => true | _ => false end.

(** handlePush only produces [APush] effects, and never answers (false, true) *)
Lemma handle_push_spec vs :
  forallb is_apush (snd (handle_push vs)) = true /\
  (fst (fst (handle_push vs)) = false -> snd (fst (handle_push vs)) = false).
Proof.
  unfold handle_push. destruct vs as [|v0 [|v1 r]]; [cbn; auto|cbn; auto|].
  repeat match goal with
         | |- context [if ?b then _ else _] => destruct b
         end; cbn; auto; split; auto; discriminate.
Qed.

Lemma handle_push_acts vs : forallb is_apush (snd (handle_push vs)) = true.
Proof. apply handle_push_spec. Qed.

Definition flags_clear (st : rstate) : Prop := r_prply st = false /\ r_unsub st = false /\ r_sur st = false.

Lemma set_flags_id st : r_prply st = false -> r_unsub st = false -> set_flags st false false = st.
Proof. destruct st; cbn; intros -> ->; reflexivity. Qed.

Section Reader.
  Variables (r2ps : bool) (ver : Z).
  Hypothesis Hver : ver <> 6%Z.

  Lemma ver_test m : (Z.eqb ver 6 && negb (match m_vals m with [] => true | _ => false end)) = false.
  Proof. destruct (Z.eqb ver 6) eqn:E; [apply Z.eqb_eq in E; contradiction|reflexivity]. Qed.

  (** an out-of-band push leaves the loop state alone *)
  Lemma rd_pushed_free st f :
    free_push r2ps f = true -> flags_clear st -> (r_skip st <= 0)%Z ->
    exists pa, rd_pushed r2ps ver st f = inl (st, pa) /\ forallb is_apush pa = true.
  Proof.
    intros Hf (F1&F2&F3) Hs. unfold free_push in Hf. apply andb_true_iff in Hf as [Hp Hc].
    unfold push_class in Hc.
    pose proof (handle_push_spec (m_vals f)) as [Ha Hb].
    unfold rd_pushed. rewrite Hp.
    destruct (handle_push (m_vals f)) as [[prply unsub] pa] eqn:E. cbn in Hc, Ha, Hb.
    exists pa. split; [|assumption].
    destruct prply; cbn [negb].
    - cbn in Hc. subst unsub.
      assert ((0 <? r_skip (set_flags st true true))%Z = false) as -> by (cbn; apply Z.ltb_ge; assumption).
      cbn [set_flags r_prply r_unsub r_skip]. do 2 f_equal. destruct st; cbn in *; subst; reflexivity.
    - rewrite (Hb eq_refl). do 2 f_equal. now apply set_flags_id.
  Qed.

  Lemma reader_step_free next st f :
    free_push r2ps f = true -> flags_clear st -> (r_skip st <= 0)%Z ->
    exists pa, reader_step r2ps ver next st f = (st, pa) /\ forallb is_apush pa = true.
  Proof.
    intros Hf Hc Hs. destruct (rd_pushed_free st f Hf Hc Hs) as (pa&E&Hp).
    exists pa. split; [|assumption]. unfold reader_step. now rewrite E.
  Qed.

  (** a further confirmation of a multi-channel subscribe is skipped *)
  Lemma reader_step_conf next st f :
    sub_confirm r2ps f = true -> flags_clear st -> (0 < r_skip st)%Z ->
    exists pa, reader_step r2ps ver next st f = (set_skip st (r_skip st - 1)%Z, pa) /\ forallb is_apush pa = true.
  Proof.
    intros Hf (F1&F2&F3) Hs. unfold sub_confirm in Hf. apply andb_true_iff in Hf as [Hf Hc2]. apply andb_true_iff in Hf as [Hp Hc1].
    unfold push_class in Hc1, Hc2.
    pose proof (handle_push_acts (m_vals f)) as Ha.
    unfold reader_step, rd_pushed. rewrite Hp.
    destruct (handle_push (m_vals f)) as [[prply unsub] pa] eqn:E. cbn in Hc1, Hc2, Ha. subst prply.
    exists pa. split; [|assumption]. cbn [negb].
    assert ((0 <? r_skip (set_flags st true unsub))%Z = true) as -> by (cbn; apply Z.ltb_lt; assumption).
    f_equal. destruct st; cbn in *; subst; reflexivity.
  Qed.

  (** actions without effect on calls and queue *)
  Definition inert (a : action) : bool :=
    match a with APush _ _ | ACacheStatic _ _ | ACacheOptIn _ _ => true | _ => false end.

  Lemma apush_inert pa : forallb is_apush pa = true -> forallb inert pa = true.
  Proof.
    induction pa as [|a pa IH]; cbn; [reflexivity|]. intros H. apply andb_true_iff in H as [H1 H2].
    rewrite (IH H2). destruct a; try discriminate; reflexivity.
  Qed.

  (** phase 1 on a frame that bears a reply: a first subscribe confirmation, or a non-push frame *)
  Lemma rd_pushed_sub st f :
    sub_confirm r2ps f = true -> flags_clear st -> (r_skip st <= 0)%Z ->
    exists pa, rd_pushed r2ps ver st f = inr (set_flags st true false, pa) /\ forallb inert pa = true.
  Proof.
    intros Hf (F1&F2&F3) Hs. unfold sub_confirm in Hf. apply andb_true_iff in Hf as [Hf Hc2]. apply andb_true_iff in Hf as [Hp Hc1].
    unfold push_class in Hc1, Hc2.
    pose proof (handle_push_acts (m_vals f)) as Ha.
    unfold rd_pushed. rewrite Hp.
    destruct (handle_push (m_vals f)) as [[prply unsub] pa] eqn:E. cbn in Hc1, Hc2, Ha. subst prply.
    apply negb_true_iff in Hc2. subst unsub.
    exists pa. split; [|now apply apush_inert]. cbn [negb].
    assert ((0 <? r_skip (set_flags st true false))%Z = false) as -> by (cbn; apply Z.ltb_ge; assumption).
    reflexivity.
  Qed.

  Lemma rd_pushed_plain st f :
    is_push_frame r2ps f = false -> rd_pushed r2ps ver st f = inr (st, []).
  Proof. intros Hp. unfold rd_pushed. rewrite Hp, ver_test. reflexivity. Qed.

  Lemma rd_taken_cur next st1 a1 m c :
    (r_ff st1 < List.length (r_multi st1))%nat -> nth_error (r_multi st1) (r_ff st1) = Some c ->
    exists pre, rd_taken next st1 a1 m = inr (st1, a1 ++ pre) /\ forallb inert pre = true.
  Proof.
    intros Hlt Hn. unfold rd_taken.
    assert (Nat.eqb (r_ff st1) (List.length (r_multi st1)) = false) as -> by (apply Nat.eqb_neq; lia).
    rewrite Hn.
    destruct (Nat.ltb 0 (r_ff st1) && c_static c).
    { eexists. split; [reflexivity|reflexivity]. }
    destruct (Nat.leb 4 (r_ff st1) && Nat.leb 2 (List.length (m_vals m)) && match r_multi st1 with c0 :: _ => c_optin c0 | [] => false end) eqn:G.
    - destruct (nth_error (r_multi st1) (r_ff st1 - 1)) eqn:E1.
      + eexists. split; [reflexivity|reflexivity].
      + exfalso. apply nth_error_None in E1. lia.
    - exists []. split; [now rewrite app_nil_r|reflexivity].
  Qed.

  Lemma rd_taken_next st1 a1 m sl :
    r_ff st1 = List.length (r_multi st1) ->
    rd_taken (Some sl) st1 a1 m = inr (set_slot st1 (Some sl), a1 ++ [ATakeNext true]).
  Proof. intros E. unfold rd_taken. rewrite E, Nat.eqb_refl. reflexivity. Qed.

  Lemma rd_classify_normal st st2 a2 c m :
    r_prply st2 = false -> r_sur st2 = false -> c_noreply c = false -> c_unsub c = false ->
    rd_classify st st2 a2 c m = inr (st2, m).
  Proof. intros H1 H2 H3 H4. unfold rd_classify. rewrite H1, H2, H3, H4. reflexivity. Qed.

  Lemma rd_classify_sub st st2 a2 c m :
    r_prply st2 = true -> r_unsub st2 = false -> c_noreply c = true ->
    rd_classify st st2 a2 c m = inr (set_skip (set_flags st2 false false) (Z.of_nat (c_argc c) - 2)%Z, empty_msg).
  Proof. intros H1 H2 H3. unfold rd_classify. rewrite H1, H2, H3. reflexivity. Qed.

  Lemma rd_classify_pong st st2 a2 c m :
    r_prply st2 = false -> r_sur st2 = false -> c_unsub c = true -> fst (is_unsub_reply m) = true ->
    bytes_eqb (m_str m) (b "QUEUED"%string) = false ->
    rd_classify st st2 a2 c m = inr (st2, snd (is_unsub_reply m)).
  Proof.
    intros H1 H2 H3 H4 H5. unfold rd_classify. rewrite H1, H2, H3, H4, H5. rewrite andb_false_r. reflexivity.
  Qed.

  (** where the reply-bearing frame lands: in the slot being filled, or in the next written slot *)
  Inductive lands (next : option slot) (st : rstate) (c : cmd) : rstate -> list action -> Prop :=
  | LandCur : (r_ff st < List.length (r_multi st))%nat -> nth_error (r_multi st) (r_ff st) = Some c ->
              lands next st c st []
  | LandNext sl rest : r_ff st = List.length (r_multi st) -> next = Some sl -> s_cmds sl = c :: rest ->
              lands next st c (set_slot st (Some sl)) [ATakeNext true].

  Lemma lands_nth next st c st2 tk : lands next st c st2 tk -> nth_error (r_multi st2) (r_ff st2) = Some c.
  Proof. intros [H1 H2|sl rest H1 H2 H3]; [assumption|]. cbn. now rewrite H3. Qed.

  Lemma lands_flags next st c st2 tk : lands next st c st2 tk ->
    r_prply st2 = r_prply st /\ r_unsub st2 = r_unsub st /\ r_sur st2 = r_sur st /\ r_skip st2 = r_skip st.
  Proof. intros [H1 H2|sl rest H1 H2 H3]; cbn; auto. Qed.

  Lemma rd_taken_lands next st1 a1 m c st2 tk :
    lands next st1 c st2 tk ->
    exists pre, rd_taken next st1 a1 m = inr (st2, a1 ++ tk ++ pre) /\ forallb inert pre = true.
  Proof.
    intros [H1 H2|sl rest H1 H2 H3].
    - destruct (rd_taken_cur next st1 a1 m c H1 H2) as (pre&E&Hp). exists pre. split; [exact E|exact Hp].
    - subst next. exists []. split; [|reflexivity]. rewrite (rd_taken_next st1 a1 m sl H1). now rewrite app_nil_r.
  Qed.

  (** the reply of an ordinary command *)
  Lemma reader_step_normal next st f c st2 tk :
    flags_clear st -> is_push_frame r2ps f = false -> c_noreply c = false -> c_unsub c = false ->
    lands next st c st2 tk ->
    exists pre, reader_step r2ps ver next st f = rd_store st2 (tk ++ pre) f /\ forallb inert pre = true.
  Proof.
    intros (F1&F2&F3) Hp Hn Hu Hl.
    destruct (rd_taken_lands next st [] f c st2 tk Hl) as (pre&E&Hi). cbn [app] in E.
    destruct (lands_flags _ _ _ _ _ Hl) as (G1&G2&G3&G4).
    exists pre. split; [|assumption].
    unfold reader_step. rewrite (rd_pushed_plain st f Hp), E, (lands_nth _ _ _ _ _ Hl).
    rewrite rd_classify_normal; auto; congruence.
  Qed.

  (** the PONG that answers the PING written after an unsubscribe command *)
  Lemma reader_step_pong next st f c st2 tk :
    flags_clear st -> is_push_frame r2ps f = false -> c_unsub c = true ->
    fst (is_unsub_reply f) = true -> bytes_eqb (m_str f) (b "QUEUED"%string) = false ->
    lands next st c st2 tk ->
    exists pre, reader_step r2ps ver next st f = rd_store st2 (tk ++ pre) (snd (is_unsub_reply f)) /\ forallb inert pre = true.
  Proof.
    intros (F1&F2&F3) Hp Hu Hr Hq Hl.
    destruct (rd_taken_lands next st [] f c st2 tk Hl) as (pre&E&Hi). cbn [app] in E.
    destruct (lands_flags _ _ _ _ _ Hl) as (G1&G2&G3&G4).
    exists pre. split; [|assumption].
    unfold reader_step. rewrite (rd_pushed_plain st f Hp), E, (lands_nth _ _ _ _ _ Hl).
    rewrite rd_classify_pong; auto; congruence.
  Qed.

  (** the first confirmation of a subscribe command *)
  Lemma reader_step_sub next st f c st2 tk :
    flags_clear st -> (r_skip st <= 0)%Z -> sub_confirm r2ps f = true -> c_noreply c = true ->
    lands next st c st2 tk ->
    exists pre1 pre2, reader_step r2ps ver next st f =
                      rd_store (set_skip st2 (Z.of_nat (c_argc c) - 2)%Z) (pre1 ++ tk ++ pre2) empty_msg /\
                      forallb inert pre1 = true /\ forallb inert pre2 = true.
  Proof.
    intros (F1&F2&F3) Hs Hf Hn Hl.
    destruct (rd_pushed_sub st f Hf (conj F1 (conj F2 F3)) Hs) as (pa&E1&Hpa).
    assert (Hl' : exists st2', lands next (set_flags st true false) c st2' tk /\
                               set_flags st2' false false = st2).
    { destruct Hl as [H1 H2|sl rest H1 H2 H3].
      - exists (set_flags st true false). split; [constructor; assumption|].
        destruct st; cbn in *; subst; reflexivity.
      - exists (set_slot (set_flags st true false) (Some sl)). split; [econstructor; eauto|].
        destruct st; cbn in *; subst; reflexivity. }
    destruct Hl' as (st2'&Hl'&Est).
    destruct (rd_taken_lands next (set_flags st true false) pa f c st2' tk Hl') as (pre&E&Hi).
    destruct (lands_flags _ _ _ _ _ Hl') as (G1&G2&G3&G4). cbn in G1, G2.
    exists pa, pre. split; [|split; assumption].
    unfold reader_step. rewrite E1, E, (lands_nth _ _ _ _ _ Hl').
    rewrite rd_classify_sub; auto. now rewrite Est.
  Qed.
End Reader.
