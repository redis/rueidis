(** Pool LTS: what Props/C24.v and Props/C05pool.v rest on, stated for any state (those that need them:
    for any state satisfying [Inv]), and the witness schedules against the code as found. *)
From Coq Require Import List ZArith Bool Arith Lia.
Require Import RV.Model.Base RV.Model.Pool RV.Proofs.PoolBase RV.Proofs.PoolProofs RV.Proofs.PoolProofs2
               RV.Proofs.PoolProofs3 RV.Proofs.PoolProofs4.
Import ListNotations.
Open Scope Z_scope.

Definition enabled (cfg : config) (s : state) (l : label) : Prop := exists s', lstep cfg s l = Some s'.

Theorem inv1_bound : forall cfg s, Inv1 cfg s ->
  size s = Z.of_nat (live s) - Z.of_nat (dstores s) /\ Z.of_nat (live s) <= cap cfg /\
  (down s = false -> dstores s = 0%nat /\ size s = Z.of_nat (live s) /\ 0 <= size s <= cap cfg).
Proof.
  intros cfg s [I1 I2 I3 I4].
  split; [exact I1|]. split; [exact I2|]. intro Hd. destruct (I3 Hd) as [D1 D2]. rewrite D1 in *. lia.
Qed.

Theorem pool_store_accepts : forall cfg s w, In w (held s) -> mutex s = None ->
  exists s', lstep cfg s (Store w) = Some s' /\ held s' = wremove1 w (held s) /\
             (sigs s' = S (sigs s)).
Proof.
  intros cfg s w Hin Hm. apply wmemb_In in Hin. cbn [lstep]. unfold mutex_free. rewrite Hin, Hm. cbn [andb].
  destruct (if down s then None else is_real_ok s w) as [id|]; eexists; repeat split.
Qed.

Theorem pool_mutex_released : forall cfg s u, mutex s = Some u -> enabled cfg s (AcqPark u).
Proof.
  intros cfg s u Hm. unfold enabled. cbn [lstep]. rewrite Hm, Nat.eqb_refl. eexists. reflexivity.
Qed.

Definition acquire_label (l : label) : bool :=
  match l with AcqEnter _ _ | AcqWake _ | MakeBad _ _ => true | _ => false end.

Theorem pool_after_close : forall cfg s l s', down s = true -> acquire_label l = true ->
  lstep cfg s l = Some s' ->
  exists w, held s' = w :: held s /\ (w = CtxDead \/ w = DeadDown) /\ idle s' = idle s /\ down s' = true.
Proof.
  intros cfg s l s' Hd Hal Hl.
  destruct (lstep_pstep _ _ _ _ Hl); try discriminate Hal;
    match goal with |- context [acquire_eval _ _ ?s1] => exact (acquire_eval_when_down cfg t s1 Hd) end.
Qed.

Theorem pool_store_after_close : forall cfg s w s', down s = true -> lstep cfg s (Store w) = Some s' ->
  idle s' = idle s /\ (forall id, w = Real id -> In id (broken s')).
Proof.
  intros cfg s w s' Hd Hl. apply lstep_pstep in Hl. inversion Hl; subst; [congruence|].
  split; [reflexivity|]. intros id [= ->]. left. reflexivity.
Qed.

Lemma count_counted_pos : forall l, (1 <= count_counted l)%nat -> exists w, In w l /\ counted w = true.
Proof.
  induction l as [|y r IH]; cbn [count_counted]; [lia|]. intro H.
  destruct (counted y) eqn:E.
  - exists y. split; [left; reflexivity|exact E].
  - destruct IH as (w & W1 & W2); [lia|]. exists w. split; [right; exact W1|exact W2].
Qed.

Lemma count_ctxdead_pos : forall l, (1 <= count_ctxdead l)%nat -> In CtxDead l.
Proof.
  induction l as [|y r IH]; cbn [count_ctxdead]; [lia|]. intro H.
  destruct y; try (right; apply IH; exact H). left. reflexivity.
Qed.

Definition waker_label (l : label) : bool :=
  match l with Signal (Some _) | AcqWake _ | Store CtxDead => true | _ => false end.

(** If somebody is parked while the pool has free capacity, a wake-up is in flight and its next
    step is enabled: a pending Signal, a woken thread re-acquiring the mutex, or the Store of a dead
    pipe handed to a cancelled caller (which signals). *)
Theorem pool_no_lost_wakeup : forall cfg s, Inv cfg s ->
  down s = false -> parked s <> [] -> 0 < free cfg s ->
  exists l, waker_label l = true /\ enabled cfg s l.
Proof.
  intros cfg s [[I1 I2 I3 I4] _ [LW _]] Hd Hp Hf.
  specialize (LW Hd Hp). unfold wakers in LW.
  assert (Hm : mutex s = None).
  { destruct (mutex s) as [u|] eqn:E; [|reflexivity]. destruct (I4 _ eq_refl) as (K1 & K2 & K3).
    unfold free in Hf. rewrite K1 in Hf. cbn [length] in Hf. lia. }
  destruct (sigs s) as [|k] eqn:Hs.
  - destruct (woken s) as [|u r] eqn:Hw.
    + cbn [length] in LW. assert (H : (1 <= count_ctxdead (held s))%nat) by lia.
      apply count_ctxdead_pos in H. exists (Store CtxDead). split; [reflexivity|].
      destruct (pool_store_accepts cfg s CtxDead H Hm) as (s' & S1 & _). exists s'. exact S1.
    + exists (AcqWake u). split; [reflexivity|]. unfold enabled. cbn [lstep]. unfold mutex_free. rewrite Hm, Hw.
      cbn [memb]. rewrite Nat.eqb_refl. cbn [orb andb]. eexists. reflexivity.
  - destruct (parked s) as [|p r] eqn:Hpk; [congruence|].
    exists (Signal (Some p)). split; [reflexivity|]. unfold enabled. cbn [lstep]. rewrite Hs, Hpk.
    cbn [memb]. rewrite Nat.eqb_refl. cbn [orb]. eexists. reflexivity.
Qed.

(** steps of threads and goroutines that are already inside the pool's code or hold one of its wires
    (no new caller, no cancellation, no connection failure is needed) *)
Definition internal_label (l : label) : bool :=
  match l with
  | AcqPark _ | AcqWake _ | MakeOk _ None _ | Store _ | Signal (Some _) | CloseBcast => true
  | _ => false
  end.

Theorem pool_not_stuck : forall cfg s, Inv cfg s -> 1 <= cap cfg -> parked s <> [] ->
  exists l, internal_label l = true /\ enabled cfg s l.
Proof.
  intros cfg s I Hcap Hp. pose proof I as [[I1 I2 I3 I4] _ [LW LD]].
  destruct (mutex s) as [u|] eqn:Hm.
  { exists (AcqPark u). split; [reflexivity|]. apply pool_mutex_released. exact Hm. }
  destruct (down s) eqn:Hd.
  { destruct (LD eq_refl) as [X|X]; [congruence|]. exists CloseBcast. split; [reflexivity|].
    unfold enabled. cbn [lstep]. destruct (cbc s); [lia|]. eexists. reflexivity. }
  destruct (I3 eq_refl) as [D1 D2].
  destruct (Z_lt_le_dec 0 (free cfg s)) as [Hf|Hf].
  { destruct (pool_no_lost_wakeup cfg s I Hd Hp Hf) as (l & L1 & L2). exists l. split; [|exact L2].
    destruct l; try discriminate; try reflexivity. destruct o; [reflexivity|discriminate]. }
  unfold free in Hf. unfold live in *.
  assert (Hlive : (1 <= count_counted (held s) + length (making s))%nat) by lia.
  destruct (making s) as [|u r] eqn:Hmk.
  - cbn [length] in Hlive. destruct (count_counted_pos (held s)) as (w & W1 & W2); [lia|].
    exists (Store w). split; [reflexivity|]. destruct (pool_store_accepts cfg s w W1 Hm) as (s' & S1 & _). exists s'. exact S1.
  - exists (MakeOk u None false). split; [reflexivity|]. unfold enabled. cbn [lstep]. rewrite Hmk. cbn [memb].
    rewrite Nat.eqb_refl. cbn [orb]. eexists. reflexivity.
Qed.

Lemma acquire_eval_ctxdone : forall cfg t s, memb t (ctxdone s) = true ->
  held (acquire_eval cfg t s) = CtxDead :: held s /\ In t (exiting (acquire_eval cfg t s)).
Proof.
  intros cfg t s Hc. apply memb_In in Hc.
  destruct (acquire_eval_spec cfg t s) as [_ _ F| |_ F|_ _ F|? ? ? _ _ F _ _]; try destruct (F Hc).
  split; [reflexivity|left; reflexivity].
Qed.

Definition wake_label (t : nat) (l : label) : bool :=
  match l with AcqPark _ => true | Bcast u | AcqWake u => Nat.eqb u t | _ => false end.

Theorem pool_cancelled_waiter_has_waker : forall s t, InvT s -> In t (parked s) -> In t (ctxdone s) -> In t (bpend s).
Proof.
  intros s t (_ & _ & _ & _ & IW) Hp Hd. apply IW; [|exact Hd]. apply In_cnt in Hp. lia.
Qed.

(** From every state in which [t] is parked with a done context and the broadcast of its cancellation
    goroutine pending there is a continuation of at most three steps - the mutex holder finishing its
    cond.Wait, that broadcast, and t re-acquiring the mutex - after which t leaves Acquire with the
    context error. *)
Theorem pool_cancelled_waiter_wakes : forall cfg s t, locked_bcast cfg = true ->
  In t (parked s) -> In t (ctxdone s) -> In t (bpend s) ->
  exists sch s', (length sch <= 3)%nat /\ forallb (wake_label t) sch = true /\ run cfg sch s = Some s' /\
                 In t (exiting s') /\ hd_error (held s') = Some CtxDead.
Proof.
  intros cfg s t R2 Hp Hd Hb.
  (* step A: release the mutex if somebody is between its check and its Wait *)
  assert (HA : exists pre s1, (length pre <= 1)%nat /\ forallb (wake_label t) pre = true /\ run cfg pre s = Some s1 /\
                 mutex s1 = None /\ In t (parked s1) /\ ctxdone s1 = ctxdone s /\ bpend s1 = bpend s).
  { destruct (mutex s) as [u|] eqn:Hm.
    - exists [AcqPark u]. eexists. split; [cbn; lia|]. split; [reflexivity|]. cbn [run lstep]. rewrite Hm, Nat.eqb_refl.
      split; [reflexivity|]. pst. repeat split; try reflexivity. apply in_or_app. left. exact Hp.
    - exists []. exists s. cbn [run length forallb]. repeat split; auto. }
  destruct HA as (pre & s1 & A1 & A2 & A3 & A4 & A5 & A6 & A7).
  (* step B: the broadcast *)
  pose (s2 := upd_threads s1 [] (woken s1 ++ parked s1) (making s1) (exiting s1) (entered s1) (cancellable s1) (armed s1)
                (ctxdone s1) (remove1 t (bpend s1))).
  assert (HB : lstep cfg s1 (Bcast t) = Some s2).
  { apply memb_In in Hb. rewrite <- A7 in Hb. cbn [lstep]. rewrite Hb. unfold mutex_free. rewrite A4, R2. reflexivity. }
  (* step C: t re-acquires the mutex *)
  assert (Hw : memb t (woken s2) = true). { apply memb_In. subst s2. pst. apply in_or_app. right. exact A5. }
  pose (s2' := upd_threads s2 (parked s2) (remove1 t (woken s2)) (making s2) (exiting s2) (entered s2)
                 (cancellable s2) (armed s2) (ctxdone s2) (bpend s2)).
  assert (HC : lstep cfg s2 (AcqWake t) = Some (acquire_eval cfg t s2')).
  { cbn [lstep]. rewrite Hw. unfold mutex_free. subst s2. pst. rewrite A4. reflexivity. }
  assert (Hcd : memb t (ctxdone s2') = true). { subst s2' s2. pst. rewrite A6. apply memb_In. exact Hd. }
  destruct (acquire_eval_ctxdone cfg t s2' Hcd) as [H1 H2].
  exists (pre ++ [Bcast t; AcqWake t]). exists (acquire_eval cfg t s2').
  split; [rewrite app_length; cbn [length]; lia|].
  split; [rewrite forallb_app, A2; cbn [forallb wake_label]; rewrite Nat.eqb_refl; reflexivity|].
  split; [rewrite run_app, A3; cbn [run]; rewrite HB, HC; reflexivity|].
  split; [exact H2|rewrite H1; reflexivity].
Qed.

Theorem pool_ctx_waiter_wakes : forall cfg s t, InvT s -> locked_bcast cfg = true ->
  In t (parked s) -> In t (ctxdone s) ->
  In t (bpend s) /\
  exists sch s', (length sch <= 3)%nat /\ forallb (wake_label t) sch = true /\ run cfg sch s = Some s' /\
                 In t (exiting s') /\ hd_error (held s') = Some CtxDead.
Proof.
  intros cfg s t I R2 Hp Hd. pose proof (pool_cancelled_waiter_has_waker _ _ I Hp Hd) as Hb.
  split; [exact Hb|]. apply pool_cancelled_waiter_wakes; assumption.
Qed.

(** D6: a dead pipe handed out for a done context is stored back: size goes negative, and two
    later callers both open a connection although the capacity is 1. *)
Definition d6_schedule : list label :=
  [CtxCancel 1; AcqEnter 1 true; AcqReturn 1; Store CtxDead; Signal None;
   AcqEnter 2 false; MakeOk 2 (Some 1%nat) false; AcqReturn 2;
   AcqEnter 3 false; MakeOk 3 (Some 2%nat) false; AcqReturn 3].

(** D8: "check; cancel; Broadcast; Wait" - the waiter is parked with a done context and nothing
    that could wake it is pending. *)
Definition d8_schedule : list label :=
  [AcqEnter 1 false; MakeOk 1 (Some 1%nat) false; AcqReturn 1; AcqEnter 2 true; CtxCancel 2; Bcast 2; AcqPark 2].

(** after [d8_schedule] on the code as found, caller 2 is parked with a done context and no pending step can wake it *)
Lemma d8_waiter_never_woken :
  exists sch s, run (orig_cfg 1 0 false) sch init = Some s /\
    In 2%nat (parked s) /\ In 2%nat (ctxdone s) /\ ~ In 2%nat (bpend s) /\
    (forall l, wake_label 2 l = true -> lstep (orig_cfg 1 0 false) s l = None) /\
    (forall o, lstep (orig_cfg 1 0 false) s (Signal o) = None) /\ lstep (orig_cfg 1 0 false) s CloseBcast = None.
Proof.
  exists d8_schedule. eexists. split; [vm_compute; reflexivity|].
  split; [cbn; tauto|]. split; [cbn; tauto|]. split; [cbn; tauto|].
  split; [|split; [intros [o|]; reflexivity|reflexivity]].
  intros l Hl. destruct l; try discriminate; cbn [wake_label] in Hl.
  - reflexivity.
  - apply Nat.eqb_eq in Hl. subst t. reflexivity.
  - apply Nat.eqb_eq in Hl. subst t. reflexivity.
Qed.

(** the same schedule is not a run of the repaired code: its Bcast needs the mutex *)
Theorem pool_d8_schedule_disabled_fixed : run (fixed_cfg 1 0 false) d8_schedule init = None.
Proof. vm_compute. reflexivity. Qed.
