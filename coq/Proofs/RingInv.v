(** Ring LTS: the invariants.  Each one reads a few registers and a few fields of every slot (its footprint);
    a step rewrites one slot ([rewrites]), so preservation is a statement about that slot, and a step that
    leaves the footprint alone preserves the invariant for free.
    [Cnt]: the uint32 counters are the ghost counts; [Que]: the counting invariant and the order of the
    writer and the reader; [Own]: the reader's lock and the slot owner; [Tkt]: tickets and places of the
    putters; [Wake]: no wake-up is lost. *)
From Coq Require Import List NArith ZArith Bool Arith Lia.
Require Import RV.Model.Base RV.Model.Ring RV.Proofs.RingBase.
Import ListNotations.
Local Open Scope nat_scope.

Section RingInv.
Variable k : nat.
Variable start : N.
Notation sof := (sof k start).
Notation cntpos := (cntpos k start).

(** the item of position [j]: the one that filled its slot on the lap of [j] *)
Definition item_at (st : state) (j : nat) : nat :=
  nth (cntpos (j - 1) (sof j)) (fillseq (slots st (sof j))) 0.

Definition last_is (l : list nat) (o : option nat) : Prop := exists pre i, l = pre ++ [i] /\ o = Some i.

(** counting invariant: mark and payload of slot [s] and the length of its history agree with how many of the
    positions up to n1 (dequeued) and up to n2 (completed) fall on [s] *)
Definition CI (st : state) (s : nat) : Prop :=
  let x := slots st s in
  (mark x = 0 /\ payload x = None /\ length (fillseq x) = cntpos (n1 st) s /\ cntpos (n1 st) s = cntpos (n2 st) s) \/
  (mark x = 1 /\ last_is (fillseq x) (payload x) /\ length (fillseq x) = S (cntpos (n1 st) s) /\ cntpos (n1 st) s = cntpos (n2 st) s) \/
  (mark x = 2 /\ last_is (fillseq x) (payload x) /\ length (fillseq x) = cntpos (n1 st) s /\ cntpos (n1 st) s = S (cntpos (n2 st) s)).

(** the item that occupies slot [s] and whose result has not been delivered yet; [und_held] below says the
    same through what the reader holds of the slot *)
Definition und (st : state) (s : nat) : option nat :=
  if Nat.eqb (mark (slots st s)) 0 then
    match rpc st with RHold s' (Some i) => if Nat.eqb s' s then Some i else None | _ => None end
  else payload (slots st s).

(** [read1] is one ahead of [n1] while the writer sits in WaitForWrite *)
Definition wpos (w : wstate) : nat := match w with WWait _ => 1 | WIdle => 0 end.

Record Cnt (st : state) : Prop := {
  c_write : write st = u32 (start + N.of_nat (nw st));
  c_read1 : read1 st = u32 (start + N.of_nat (n1 st + wpos (wpc st)));
  c_read2 : read2 st = u32 (start + N.of_nat (n2 st));
  c_wwait : forall s, wpc st = WWait s -> s = sof (S (n1 st))
}.

Lemma cnt_init : Cnt (init start).
Proof. constructor; cbn; rewrite ?N.add_0_r; try reflexivity. discriminate. Qed.

(** the slots the three cursors move to *)
Lemma next_write : forall st, Cnt st -> idx k (u32 (write st + 1)) = sof (S (nw st)).
Proof. intros st C. unfold RingBase.sof. rewrite (c_write st C), u32_succ. reflexivity. Qed.

Lemma next_read1 : forall st, Cnt st -> wpc st = WIdle ->
  u32 (read1 st + 1) = u32 (start + N.of_nat (S (n1 st))) /\ idx k (u32 (read1 st + 1)) = sof (S (n1 st)).
Proof.
  intros st C Hw. pose proof (c_read1 st C) as H. rewrite Hw, Nat.add_0_r in H.
  unfold RingBase.sof. rewrite H, u32_succ. split; reflexivity.
Qed.

Lemma next_read2 : forall st, Cnt st ->
  u32 (read2 st + 1) = u32 (start + N.of_nat (S (n2 st))) /\ idx k (u32 (read2 st + 1)) = sof (S (n2 st)).
Proof. intros st C. unfold RingBase.sof. rewrite (c_read2 st C), u32_succ. split; reflexivity. Qed.

Definition cnt_regs (st : state) := (write st, nw st, read1 st, n1 st, wpc st, read2 st, n2 st).

Lemma cnt_frame : forall st st', cnt_regs st' = cnt_regs st -> Cnt st -> Cnt st'.
Proof.
  intros st st' H [A B C D]. injection H as H1 H2 H3 H4 H5 H6 H7.
  constructor; rewrite ?H1, ?H2, ?H3, ?H4, ?H5, ?H6, ?H7; assumption.
Qed.

Lemma cnt_step : forall st l st', Cnt st -> rstep k st l st' -> Cnt st'.
Proof.
  intros st l st' C R. pose proof C as [Cw C1 C2 Cww].
  destruct R; try exact C; try (apply (cnt_frame st); [reflexivity|exact C]); constructor; unfold taken; rst; try assumption.
  - rewrite Cw. apply u32_succ.
  - rewrite Hw, Nat.add_0_r. apply (next_read1 st C Hw).
  - rewrite Hw. discriminate.
  - cbn [wpos]. rewrite Nat.add_1_r. apply (next_read1 st C Hw).
  - intros s0 E. injection E as <-. rewrite Hs. apply (next_read1 st C Hw).
  - rewrite C1, Hw, Nat.add_0_r, Nat.add_1_r. reflexivity.
  - discriminate.
  - apply (next_read2 st C).
Qed.

Definition cell (x : slot) := (mark x, payload x, fillseq x).

Record Que (st : state) : Prop := {
  q_le : n2 st <= n1 st;
  q_ci : forall s, CI st s;
  q_ws : wseq st = map (item_at st) (seq 1 (n1 st));
  q_rs : rseq st = map (item_at st) (seq 1 (n2 st))
}.

Lemma que_init : Que (init start).
Proof. constructor; [apply le_n|intro s; left; cbn; auto|reflexivity|reflexivity]. Qed.

Lemma CI_cell : forall st st' s, n1 st' = n1 st -> n2 st' = n2 st -> cell (slots st' s) = cell (slots st s) -> CI st s -> CI st' s.
Proof.
  intros st st' s H1 H2 H. injection H as Hm Hp Hf. unfold CI. cbv zeta. rewrite H1, H2, Hm, Hp, Hf. auto.
Qed.

Lemma map_item_at_frame : forall st st' a n,
  (forall s, fillseq (slots st' s) = fillseq (slots st s)) -> map (item_at st') (seq a n) = map (item_at st) (seq a n).
Proof. intros st st' a n H. apply map_ext. intro j. unfold item_at. rewrite H. reflexivity. Qed.

(** appending to a fill sequence does not change the items of positions that were already dequeued *)
Lemma map_item_at_fill : forall st st' s p n,
  (forall s', s' <> s -> fillseq (slots st' s') = fillseq (slots st s')) ->
  fillseq (slots st' s) = fillseq (slots st s) ++ [p] ->
  cntpos n s <= length (fillseq (slots st s)) ->
  map (item_at st') (seq 1 n) = map (item_at st) (seq 1 n).
Proof.
  intros st st' s p n Ho Hs Hl. apply map_ext_in. intros j Hj. apply in_seq in Hj.
  unfold item_at. destruct (Nat.eq_dec (sof j) s) as [E|E].
  - rewrite E, Hs. apply app_nth1.
    assert (H : cntpos (j - 1) (sof j) < cntpos n (sof j)) by (apply cntpos_lt_at; lia).
    rewrite E in H. lia.
  - rewrite (Ho _ E). reflexivity.
Qed.

(** the item of position [n + 1] when the slot's history has just reached its lap *)
Lemma item_at_last : forall st n pre i, fillseq (slots st (sof (S n))) = pre ++ [i] ->
  length pre = cntpos n (sof (S n)) -> item_at st (S n) = i.
Proof.
  intros st n pre i Hf Hl. unfold item_at. rewrite Hf, Nat.sub_succ, Nat.sub_0_r, app_nth2 by lia.
  rewrite Hl, Nat.sub_diag. reflexivity.
Qed.

Definition que_regs (st : state) := (n1 st, n2 st, wseq st, rseq st).

Lemma que_frame : forall st st', que_regs st' = que_regs st -> (forall j, cell (slots st' j) = cell (slots st j)) ->
  Que st -> Que st'.
Proof.
  intros st st' H Hc [Q1 Q2 Q3 Q4]. injection H as H1 H2 H3 H4.
  assert (Hf : forall j, fillseq (slots st' j) = fillseq (slots st j)) by (intro j; exact (f_equal snd (Hc j))).
  constructor.
  - lia.
  - intro s. apply (CI_cell st); auto.
  - rewrite H3, H1, Q3. symmetry. apply map_item_at_frame. exact Hf.
  - rewrite H4, H2, Q4. symmetry. apply map_item_at_frame. exact Hf.
Qed.

(** a fill appends to the history of a free slot *)
Lemma que_fill : forall st st' s x v p, Que st -> x = slots st s -> mark x = 0 -> rewrites st st' s v ->
  cell v = (1, Some p, fillseq x ++ [p]) -> que_regs st' = que_regs st -> Que st'.
Proof.
  intros st st' s x v p [Q1 Q2 Q3 Q4] Hx Hm Hrw Hv H. injection H as H1 H2 H3 H4. injection Hv as Vm Vp Vf.
  pose proof (Q2 s) as Hci. unfold CI in Hci. cbv zeta in Hci. rewrite <- Hx in Hci.
  destruct Hci as [(C1 & C2 & C3 & C4)|[(C1 & _)|(C1 & _)]]; try congruence.
  assert (Ho : forall j, j <> s -> fillseq (slots st' j) = fillseq (slots st j)).
  { intros j E. rewrite (rewrites_other _ _ _ _ _ Hrw E). reflexivity. }
  assert (Hs : fillseq (slots st' s) = fillseq (slots st s) ++ [p]).
  { rewrite (rewrites_same _ _ _ _ Hrw), Vf, Hx. reflexivity. }
  constructor.
  - lia.
  - intro j. destruct (Nat.eq_dec j s) as [->|E].
    + unfold CI. cbv zeta. rewrite (rewrites_same _ _ _ _ Hrw), Vm, Vp, Vf, H1, H2, app_length. cbn [length]. right. left.
      split; [reflexivity|]. split; [exists (fillseq x), p; auto|]. lia.
    + apply (CI_cell st); auto. rewrite (rewrites_other _ _ _ _ _ Hrw E). reflexivity.
  - rewrite H3, H1, Q3. symmetry. apply (map_item_at_fill _ _ s p _ Ho Hs). rewrite <- Hx. lia.
  - rewrite H4, H2, Q4. symmetry. apply (map_item_at_fill _ _ s p _ Ho Hs). rewrite <- Hx.
    pose proof (cntpos_mono k start _ _ s Q1). lia.
Qed.

(** the writer takes the command of position n1 + 1 *)
Lemma que_take : forall st st' s x v, Que st -> s = sof (S (n1 st)) -> x = slots st s -> mark x = 1 ->
  rewrites st st' s v -> cell v = (2, payload x, fillseq x) ->
  que_regs st' = (S (n1 st), n2 st, wseq st ++ opt_list (payload x), rseq st) -> Que st'.
Proof.
  intros st st' s x v [Q1 Q2 Q3 Q4] Hs Hx Hm Hrw Hv H. injection H as H1 H2 H3 H4.
  assert (Hc : forall j, j <> s -> cell (slots st' j) = cell (slots st j)).
  { intros j E. rewrite (rewrites_other _ _ _ _ _ Hrw E). reflexivity. }
  assert (Hf : forall j, fillseq (slots st' j) = fillseq (slots st j)).
  { apply (rewrites_proj _ fillseq _ _ _ _ Hrw). rewrite <- Hx. exact (f_equal snd Hv). }
  injection Hv as Vm Vp Vf.
  pose proof (Q2 s) as Hci. unfold CI in Hci. cbv zeta in Hci. rewrite <- Hx in Hci.
  destruct Hci as [(C1 & _)|[(C1 & (pre & i & Cf & Cp) & C3 & C4)|(C1 & _)]]; try congruence.
  assert (Hsucc : cntpos (S (n1 st)) s = S (cntpos (n1 st) s)) by (rewrite Hs; apply cntpos_succ_same).
  constructor.
  - lia.
  - intro j. destruct (Nat.eq_dec j s) as [->|E].
    + unfold CI. cbv zeta. rewrite (rewrites_same _ _ _ _ Hrw), Vm, Vp, Vf, H1, H2. right. right.
      split; [reflexivity|]. split; [exists pre, i; auto|]. lia.
    + unfold CI. cbv zeta. injection (Hc j E) as -> -> ->. rewrite H1, H2.
      rewrite (cntpos_succ_other k start (n1 st) j) by congruence. apply Q2.
  - rewrite H3, H1, seq_S, map_app, Q3, (map_item_at_frame st st' _ _ Hf). f_equal.
    cbn [map]. rewrite Cp. cbn [opt_list]. f_equal. symmetry. apply (item_at_last _ _ pre).
    + rewrite Hf, <- Hs, <- Hx. exact Cf.
    + rewrite <- Hs. rewrite Cf, app_length in C3. cbn [length] in C3. lia.
  - rewrite H4, H2, Q4. symmetry. apply map_item_at_frame. exact Hf.
Qed.

(** the reader completes position n2 + 1 *)
Lemma que_complete : forall st st' s x v, Que st -> s = sof (S (n2 st)) -> x = slots st s -> mark x = 2 ->
  rewrites st st' s v -> cell v = (0, None, fillseq x) ->
  que_regs st' = (n1 st, S (n2 st), wseq st, rseq st ++ opt_list (payload x)) -> Que st'.
Proof.
  intros st st' s x v [Q1 Q2 Q3 Q4] Hs Hx Hm Hrw Hv H. injection H as H1 H2 H3 H4.
  assert (Hc : forall j, j <> s -> cell (slots st' j) = cell (slots st j)).
  { intros j E. rewrite (rewrites_other _ _ _ _ _ Hrw E). reflexivity. }
  assert (Hf : forall j, fillseq (slots st' j) = fillseq (slots st j)).
  { apply (rewrites_proj _ fillseq _ _ _ _ Hrw). rewrite <- Hx. exact (f_equal snd Hv). }
  injection Hv as Vm Vp Vf.
  pose proof (Q2 s) as Hci. unfold CI in Hci. cbv zeta in Hci. rewrite <- Hx in Hci.
  destruct Hci as [(C1 & _)|[(C1 & _)|(C1 & (pre & i & Cf & Cp) & C3 & C4)]]; try congruence.
  assert (Hsucc : cntpos (S (n2 st)) s = S (cntpos (n2 st) s)) by (rewrite Hs; apply cntpos_succ_same).
  constructor.
  - destruct (le_lt_dec (n1 st) (n2 st)) as [L|L]; [|lia]. pose proof (cntpos_mono k start _ _ s L). lia.
  - intro j. destruct (Nat.eq_dec j s) as [->|E].
    + unfold CI. cbv zeta. rewrite (rewrites_same _ _ _ _ Hrw), Vm, Vp, Vf, H1, H2. left. repeat split; lia.
    + unfold CI. cbv zeta. injection (Hc j E) as -> -> ->. rewrite H1, H2.
      rewrite (cntpos_succ_other k start (n2 st) j) by congruence. apply Q2.
  - rewrite H3, H1, Q3. symmetry. apply map_item_at_frame. exact Hf.
  - rewrite H4, H2, seq_S, map_app, Q4, (map_item_at_frame st st' _ _ Hf). f_equal.
    cbn [map]. rewrite Cp. cbn [opt_list]. f_equal. symmetry. apply (item_at_last _ _ pre).
    + rewrite Hf, <- Hs, <- Hx. exact Cf.
    + rewrite <- Hs. rewrite Cf, app_length in C3. cbn [length] in C3. lia.
Qed.

Lemma que_step : forall st l st', Cnt st -> Que st -> rstep k st l st' -> Que st'.
Proof.
  intros st l st' C Q R.
  destruct R; try exact Q;
    try (apply (que_frame st);
         [reflexivity|eapply (rewrites_proj _ cell _ _ s); [intro; reflexivity|subst; reflexivity]|exact Q]).
  - (* R_fill *) eapply (que_fill st _ s x _ p Q Hx Hm); [intro; reflexivity|reflexivity|reflexivity].
  - (* R_take *) assert (Es : s = sof (S (n1 st))) by (rewrite Hs; apply (next_read1 st C Hw)).
    eapply (que_take st _ s x _ Q Es Hx Hm); [intro; reflexivity|reflexivity|reflexivity].
  - (* R_retry_take *) subst y. eapply (que_take st _ s x _ Q (c_wwait st C s Hw) Hx Hm); [intro; apply upd_upd|reflexivity|reflexivity].
  - (* R_retry_sleep *) apply (que_frame st); [reflexivity| |exact Q]. eapply (rewrites_proj _ cell _ _ s); [intro; apply upd_upd|subst x; reflexivity].
  - (* R_complete *) assert (Es : s = sof (S (n2 st))) by (rewrite Hs; apply (next_read2 st C)).
    eapply (que_complete st _ s x _ Q Es Hx Hm); [intro; reflexivity|reflexivity|reflexivity].
  - (* R_nosignal *) apply (que_frame st); [reflexivity|intro; reflexivity|exact Q].
Qed.

(** what the reader holds of slot [s]: nothing, the lock only, or the lock and the result of item [i] *)
Definition held (st : state) (s : nat) : option (option nat) :=
  match rpc st with RHold s' it => if Nat.eqb s' s then Some it else None | _ => None end.

Definition undel (h : option (option nat)) (x : slot) : option nat :=
  if Nat.eqb (mark x) 0 then match h with Some (Some i) => Some i | _ => None end else payload x.

Lemma und_held : forall st s, und st s = undel (held st s) (slots st s).
Proof.
  intros st s. unfold und, undel, held. destruct (rpc st) as [|s' [i|]|s']; try reflexivity; destruct (Nat.eqb s' s); reflexivity.
Qed.

(** the lock is the reader's; a result is pending only in a slot already freed; the putters that still have
    to broadcast or wait for a result are exactly the occupant whose result is undelivered *)
Definition own_slot (h : option (option nat)) (x : slot) : Prop :=
  (rlock x = true <-> h <> None) /\ (forall i, h = Some (Some i) -> mark x = 0) /\
  bc x ++ wt x = opt_list (undel h x).

Record Own (st : state) : Prop := {
  o_slot : forall s, own_slot (held st s) (slots st s);
  o_recv : own_results (recv st) = true
}.

Lemma own_init : Own (init start).
Proof. constructor; [|reflexivity]. intro s. unfold own_slot. cbn. repeat split; congruence. Qed.

Lemma held_hold : forall st s it, rpc st = RHold s it -> held st s = Some it.
Proof. intros st s it H. unfold held. rewrite H, Nat.eqb_refl. reflexivity. Qed.

(** the reader holds nothing of the slots it is not at *)
Lemma held_other : forall st s j, match rpc st with RHold s' _ => s' = s | _ => True end -> j <> s -> held st j = None.
Proof.
  intros st s j H E. unfold held. destruct (rpc st) as [|s' it|s']; try reflexivity. subst s'.
  destruct (Nat.eqb s j) eqn:B; [apply Nat.eqb_eq in B; congruence|reflexivity].
Qed.

Lemma own_lock_iff : forall st s, Own st -> rlock (slots st s) = true <-> (exists it, rpc st = RHold s it).
Proof.
  intros st s O. destruct (o_slot st O s) as (L & _). rewrite L. unfold held.
  destruct (rpc st) as [|s' it|s']; try (split; [congruence|intros [it H]; discriminate]).
  destruct (Nat.eqb s' s) eqn:B.
  - apply Nat.eqb_eq in B. subst s'. split; [eauto|discriminate].
  - apply Nat.eqb_neq in B. split; [congruence|]. intros [it' H]. congruence.
Qed.

Lemma rlock_free_idle : forall st, Own st -> (forall s it, rpc st <> RHold s it) -> forall s, rlock (slots st s) = false.
Proof.
  intros st O Hr s. destruct (rlock (slots st s)) eqn:E; [|reflexivity].
  apply (own_lock_iff st s O) in E. destruct E as [it E]. destruct (Hr _ _ E).
Qed.

Lemma own_free : forall h x, own_slot h x -> rlock x = false -> h = None.
Proof. intros h x (L & _) Hr. destruct h; [|reflexivity]. assert (rlock x = true) by (apply L; discriminate). congruence. Qed.

(** a putter found in [bc] or in [wt] is the one undelivered occupant, and it is alone *)
Lemma own_bc : forall h x p, own_slot h x -> memb p (bc x) = true -> bc x = [p] /\ wt x = [] /\ undel h x = Some p.
Proof.
  intros h x p (_ & _ & So) H. destruct (undel h x) as [i|]; cbn [opt_list] in So.
  - apply app_single_inv in So. destruct So as [[B W]|[B W]]; rewrite B in H; [|discriminate].
    apply memb_single in H. subst i. auto.
  - apply app_eq_nil in So. destruct So as [B _]. rewrite B in H. discriminate.
Qed.

Lemma own_wt : forall h x p, own_slot h x -> memb p (wt x) = true -> bc x = [] /\ wt x = [p] /\ undel h x = Some p.
Proof.
  intros h x p (_ & _ & So) H. destruct (undel h x) as [i|]; cbn [opt_list] in So.
  - apply app_single_inv in So. destruct So as [[B W]|[B W]]; rewrite W in H; [discriminate|].
    apply memb_single in H. subst i. auto.
  - apply app_eq_nil in So. destruct So as [_ W]. rewrite W in H. discriminate.
Qed.

(** a step of the reader moves between [RIdle], [RSig] and [RHold] of the one slot [s]; the other steps leave [rpc] alone *)
Lemma own_upd : forall st st' s v, Own st -> rewrites st st' s v ->
  rpc st' = rpc st \/
    (match rpc st with RHold s' _ => s' = s | _ => True end /\ match rpc st' with RHold s' _ => s' = s | _ => True end) ->
  own_slot (held st' s) v -> own_results (recv st') = true -> Own st'.
Proof.
  intros st st' s v [O1 O2] Hrw Hr Hv Hrecv. constructor; [|exact Hrecv].
  intro j. destruct (Nat.eq_dec j s) as [->|E].
  - rewrite (rewrites_same _ _ _ _ Hrw). exact Hv.
  - rewrite (rewrites_other _ _ _ _ _ Hrw E). replace (held st' j) with (held st j); [apply O1|].
    destruct Hr as [Hr|[A B]]; [unfold held; rewrite Hr; reflexivity|].
    rewrite (held_other st s j A E), (held_other st' s j B E). reflexivity.
Qed.

Lemma own_step : forall st l st', Que st -> Own st -> rstep k st l st' -> Own st'.
Proof.
  intros st l st' Q O R. pose proof (o_recv st O) as Orecv.
  destruct R; try exact O; try pose proof (o_slot st O s) as Os; try rewrite <- Hx in Os;
    (* the steps that leave the lock, the mark and the owner's lists of the slot alone *)
    try (eapply (own_upd st _ s); [exact O|first [intro; reflexivity|intro; apply upd_upd]|left; reflexivity|subst; exact Os|exact Orecv]).
  - (* R_fill *) eapply (own_upd st _ s); [exact O|intro; reflexivity|left; reflexivity| |exact Orecv].
    change (held (set_slot st s (filled p m (unwait p x))) s) with (held st s).
    pose proof (own_free _ _ Os Hr) as Hh. rewrite Hh in *. destruct Os as (L & M & So).
    unfold undel in So. rewrite Hm in So. cbn [Nat.eqb opt_list] in So. apply app_eq_nil in So. destruct So as [B W].
    unfold own_slot, undel, filled, unwait. rst. rewrite B, W. cbn [Nat.eqb]. split; [exact L|]. split; [discriminate|].
    destruct (slept x); reflexivity.
  - (* R_bcast *) eapply (own_upd st _ s); [exact O|intro; reflexivity|left; reflexivity| |exact Orecv].
    change (held (set_slot st s _) s) with (held st s). destruct (own_bc _ _ _ Os Hp) as (B & W & U).
    destruct Os as (L & M & So). unfold own_slot, undel in *. rst. rewrite B, W, remove1_single. rewrite B, W in So. auto.
  - (* R_take *) eapply (own_upd st _ s); [exact O|intro; reflexivity|left; reflexivity| |exact Orecv].
    change (held (taken st s x _) s) with (held st s). pose proof (own_free _ _ Os Hr) as Hh. rewrite Hh in *.
    destruct Os as (L & M & So). unfold own_slot, undel in *. rst. rewrite Hm in So.
    split; [exact L|]. split; [discriminate|exact So].
  - (* R_retry_take *) eapply (own_upd st _ s); [exact O|intro; apply upd_upd|left; reflexivity| |exact Orecv].
    change (held (set_wpc _ _) s) with (held st s). pose proof (own_free _ _ Os Hr) as Hh. rewrite Hh in *. subst y.
    destruct Os as (L & M & So). unfold own_slot, undel in *. rst. rewrite Hm in So.
    split; [exact L|]. split; [discriminate|exact So].
  - (* R_complete: the occupant's result becomes the reader's *) eapply (own_upd st _ s); [exact O|intro; reflexivity|right; rewrite Hrp; split; [exact I|reflexivity]| |exact Orecv].
    pose proof (q_ci st Q s) as Hci. unfold CI in Hci. cbv zeta in Hci. rewrite <- Hx in Hci.
    destruct Hci as [(C1 & _)|[(C1 & _)|(_ & (pre & i & _ & Cp) & _)]]; try congruence.
    erewrite (held_hold _ s) by reflexivity. pose proof (own_free _ _ Os Hr) as Hh. rewrite Hh in Os. destruct Os as (L & M & So).
    unfold own_slot, undel in *. rst. rewrite Hm in So. rewrite So, Cp. cbn. repeat split; congruence.
  - (* R_lock *) eapply (own_upd st _ s); [exact O|intro; reflexivity|right; rewrite Hrp; split; [exact I|reflexivity]| |exact Orecv].
    erewrite (held_hold _ s) by reflexivity. pose proof (own_free _ _ Os Hr) as Hh. rewrite Hh in Os. destruct Os as (L & M & So).
    unfold own_slot, undel in *. rst. repeat split; congruence.
  - (* R_deliver: the one putter waiting for a result is the item taken *) rewrite (held_hold st s _ Hrp) in Os. destruct (own_wt _ _ _ Os Hp) as (B & W & U). destruct Os as (L & M & So).
    unfold undel in U. rewrite (M i eq_refl) in U. cbn [Nat.eqb] in U. injection U as ->.
    eapply (own_upd st _ s); [exact O|intro; reflexivity|right; rewrite Hrp; split; reflexivity| |].
    + erewrite (held_hold _ s) by reflexivity. unfold own_slot, undel. rst. rewrite (M p eq_refl), B, W, remove1_single.
      split; [rewrite L; split; discriminate|]. split; [discriminate|reflexivity].
    + cbn [recv add_recv set_rpc own_results]. rewrite Nat.eqb_refl. exact Orecv.
  - (* R_unlock *) rewrite (held_hold st s _ Hrp) in Os. destruct Os as (L & M & So).
    eapply (own_upd st _ s); [exact O|intro; reflexivity|right; rewrite Hrp; split; [reflexivity|exact I]| |exact Orecv].
    unfold own_slot, undel, held in *. rst. split; [split; congruence|]. split; [discriminate|exact So].
  - (* R_signal *) eapply (own_upd st _ s); [exact O|intro; reflexivity|right; rewrite Hrp; split; exact I| |exact Orecv].
    unfold held in *. rewrite Hrp in Os. exact Os.
  - (* R_nosignal *) eapply (own_upd st _ s); [exact O|apply rewrites_none; reflexivity|right; rewrite Hrp; split; exact I| |exact Orecv].
    unfold held in *. rewrite Hrp in Os. exact Os.
Qed.

Definition pend (x : slot) : nat := length (fillseq x) + length (tk x) + length (parked1 x) + length (woken1 x).
Definition occ (x : slot) (p : nat) : nat := cnt (tk x) p + cnt (parked1 x) p + cnt (woken1 x) p + cnt (fillseq x) p.

(** every ticket of a slot is waiting there or has filled it; a ticket is in the slot of its position, once *)
Record Tkt (st : state) : Prop := {
  t_tk : forall s, cntpos (nw st) s = pend (slots st s);
  t_loc : forall s p, 1 <= occ (slots st s) p -> sof p = s /\ 1 <= p <= nw st;
  t_one : forall p, 1 <= p <= nw st -> occ (slots st (sof p)) p = 1
}.

Lemma tkt_init : Tkt (init start).
Proof. constructor; cbn [init slots nw]; unfold pend, occ; cbn; intros; lia. Qed.

(** a step that moves a putter between the lists of one slot *)
Lemma tkt_upd : forall st st' s x v, Tkt st -> x = slots st s -> rewrites st st' s v -> nw st' = nw st ->
  pend v = pend x -> (forall q, occ v q = occ x q) -> Tkt st'.
Proof.
  intros st st' s x v [T1 T2 T3] Hx Hrw Hn Hp Ho.
  assert (H : forall j, pend (slots st' j) = pend (slots st j) /\ forall q, occ (slots st' j) q = occ (slots st j) q).
  { intro j. destruct (Nat.eq_dec j s) as [->|E].
    - rewrite (rewrites_same _ _ _ _ Hrw), <- Hx. auto.
    - rewrite (rewrites_other _ _ _ _ _ Hrw E). auto. }
  constructor.
  - intro j. rewrite Hn, (proj1 (H j)). apply T1.
  - intros j q. rewrite Hn, (proj2 (H j)). apply T2.
  - intros q. rewrite Hn, (proj2 (H _)). apply T3.
Qed.

(** leaving the list one waits in takes one occurrence of [p] away *)
Lemma unwait_counts : forall p x y, y = unwait p x -> memb p (tk x) || memb p (woken1 x) = true ->
  fillseq y = fillseq x /\ parked1 y = parked1 x /\
  S (length (tk y) + length (woken1 y)) = length (tk x) + length (woken1 x) /\
  forall q, cnt (tk y) q + cnt (woken1 y) q + ind p q = cnt (tk x) q + cnt (woken1 x) q.
Proof.
  intros p x y -> G. unfold unwait. rst. split; [reflexivity|]. split; [reflexivity|]. destruct (memb p (tk x)) eqn:M.
  - pose proof (remove1_length _ _ M). pose proof (memb_cnt _ _ M). split; [lia|].
    intro q. rewrite cnt_remove1. case_ind p q; lia.
  - cbn [orb] in G. pose proof (remove1_length _ _ G). pose proof (memb_cnt _ _ G). split; [lia|].
    intro q. rewrite cnt_remove1. case_ind p q; lia.
Qed.

Lemma tkt_step : forall st l st', Cnt st -> Tkt st -> rstep k st l st' -> Tkt st'.
Proof.
  intros st l st' C T R.
  destruct R; try exact T;
    try (eapply (tkt_upd st _ s _ _ T eq_refl); [intro; reflexivity|reflexivity|subst; reflexivity|subst; reflexivity]).
  - (* R_ticket: a new ticket: position nw + 1 *) destruct T as [T1 T2 T3]. rewrite (next_write st C) in Hs.
    assert (Hnew : forall j, occ (slots st j) (S (nw st)) = 0).
    { intro j. destruct (occ (slots st j) (S (nw st))) eqn:E; [reflexivity|]. destruct (T2 j (S (nw st))); lia. }
    constructor; rst.
    + intro j. unfold pend. slot_cases j s E; rst.
      * rewrite Hs at 1. rewrite cntpos_succ_same, <- Hs, (T1 s), <- Hx. unfold pend. rewrite app_length. cbn [length]. lia.
      * rewrite (cntpos_succ_other k start (nw st) j) by congruence. apply T1.
    + intros j q. unfold occ. slot_cases j s E; rst.
      * rewrite cnt_app1. intro H. case_ind (S (nw st)) q; [split; [auto|lia]|].
        destruct (T2 s q); [rewrite <- Hx; unfold occ; lia|]. split; [assumption|lia].
      * intro H. destruct (T2 j q H). split; [assumption|lia].
    + intros q Hq. unfold occ. destruct (Nat.eq_dec (sof q) s) as [E|E].
      * rewrite E, upd_same. rst. rewrite cnt_app1. case_ind (S (nw st)) q.
        -- specialize (Hnew s). rewrite <- Hx in Hnew. unfold occ in Hnew. lia.
        -- specialize (T3 q ltac:(lia)). rewrite E, <- Hx in T3. unfold occ in T3. lia.
      * rewrite upd_other by exact E. apply T3. assert (q <> S (nw st)) by congruence. lia.
  - (* R_fill *) remember (unwait p x) as y eqn:Hy. destruct (unwait_counts p x y Hy Hp) as (F3 & F4 & F1 & F2).
    eapply (tkt_upd st _ s x _ T Hx); [intro; reflexivity|reflexivity| |]; unfold pend, occ, filled; rst; rewrite F3, F4.
    + rewrite app_length. cbn [length]. lia.
    + intro q. rewrite cnt_app1. specialize (F2 q). lia.
  - (* R_park *) destruct (unwait_counts p x y Hy Hp) as (F3 & F4 & F1 & F2).
    eapply (tkt_upd st _ s x _ T Hx); [intro; reflexivity|reflexivity| |]; unfold pend, occ; rst; rewrite F3, F4.
    + rewrite app_length. cbn [length]. lia.
    + intro q. rewrite cnt_app1. specialize (F2 q). lia.
  - (* R_retry_take *) eapply (tkt_upd st _ s _ _ T eq_refl); [intro; apply upd_upd|reflexivity|subst; reflexivity|subst; reflexivity].
  - (* R_retry_sleep *) eapply (tkt_upd st _ s _ _ T eq_refl); [intro; apply upd_upd|reflexivity|subst; reflexivity|subst; reflexivity].
  - (* R_signal *) pose proof (remove1_length _ _ Hp). pose proof (memb_cnt _ _ Hp).
    eapply (tkt_upd st _ s x _ T Hx); [intro; reflexivity|reflexivity| |]; unfold pend, occ; rst.
    + rewrite app_length. cbn [length]. lia.
    + intro q. rewrite cnt_remove1, cnt_app1. case_ind p q; lia.
  - (* R_nosignal *) eapply (tkt_upd st _ s _ _ T eq_refl); [apply rewrites_none|..]; reflexivity.
Qed.

(** L1: putters parked on the slot => it is occupied, or the reader holds its lock, or is about to signal it
    ([sig]), or one of them is already woken. *)
Definition l1 (sig : Prop) (x : slot) : Prop :=
  parked1 x <> [] -> mark x <> 0 \/ rlock x = true \/ sig \/ woken1 x <> [].

(** L2: the writer parked on the slot => slept is set and there is nothing to write there or a putter is about
    to broadcast. *)
Definition l2 (x : slot) : Prop := wparked x = true -> slept x = true /\ (mark x <> 1 \/ bc x <> []).

(** the writer's flags are up on the slot it waits on ([ww]) and only there, one of the two *)
Definition writer_flags (ww : Prop) (x : slot) : Prop :=
  (wparked x = true \/ wwoken x = true -> ww) /\ (ww -> wparked x = negb (wwoken x)).

Definition wake_slot (sig ww : Prop) (x : slot) : Prop := l1 sig x /\ l2 x /\ writer_flags ww x.

Definition Wake (st : state) : Prop := forall s, wake_slot (rpc st = RSig s) (wpc st = WWait s) (slots st s).

Lemma wake_init : Wake (init start).
Proof.
  intro s. split; [intro H; destruct (H eq_refl)|]. split; [intro H; discriminate H|].
  split; [intros [H|H]; discriminate H|intro H; discriminate H].
Qed.

Lemma l1_fp : forall (sig sig' : Prop) x v,
  (parked1 v, mark v, rlock v, woken1 v) = (parked1 x, mark x, rlock x, woken1 x) -> (sig -> sig') -> l1 sig x -> l1 sig' v.
Proof.
  intros sig sig' x v H Hs L. injection H as H1 H2 H3 H4. unfold l1. rewrite H1, H2, H3, H4.
  intro Hp. destruct (L Hp) as [X|[X|[X|X]]]; auto.
Qed.

(** the mark moved away from 1: L2 needs slept only *)
Lemma l2_mark : forall x v, (wparked v, slept v) = (wparked x, slept x) -> mark v <> 1 -> l2 x -> l2 v.
Proof. intros x v H Hm L. injection H as H1 H2. unfold l2. rewrite H1, H2. intro Hp. split; [apply (L Hp)|left; exact Hm]. Qed.

Lemma writer_flags_fp : forall (ww ww' : Prop) x v, (wparked v, wwoken v) = (wparked x, wwoken x) -> (ww' <-> ww) -> writer_flags ww x -> writer_flags ww' v.
Proof.
  intros ww ww' x v H Hw [A B]. injection H as H1 H2. unfold writer_flags. rewrite H1, H2.
  split; intro X; [apply Hw, A, X|apply B, Hw, X].
Qed.

(** the steps of the writer and of the reader concern the slot they are at: for the others [sig] can only become
    true and [ww] does not change *)
Lemma wake_upd : forall st st' s v, Wake st -> rewrites st st' s v ->
  (forall j, j <> s -> (rpc st = RSig j -> rpc st' = RSig j) /\ (wpc st' = WWait j <-> wpc st = WWait j)) ->
  wake_slot (rpc st' = RSig s) (wpc st' = WWait s) v -> Wake st'.
Proof.
  intros st st' s v W Hrw Ho Hv j. destruct (Nat.eq_dec j s) as [->|E].
  - rewrite (rewrites_same _ _ _ _ Hrw). exact Hv.
  - rewrite (rewrites_other _ _ _ _ _ Hrw E). destruct (Ho j E) as [A B]. destruct (W j) as (W1 & W2 & W3).
    split; [exact (l1_fp _ _ _ _ eq_refl A W1)|]. split; [exact W2|exact (writer_flags_fp _ _ _ _ eq_refl B W3)].
Qed.

Lemma wake_step : forall st l st', Wake st -> rstep k st l st' -> Wake st'.
Proof.
  intros st l st' W R.
  assert (Same : forall st' s, rpc st' = rpc st -> wpc st' = wpc st ->
            forall j, j <> s -> (rpc st = RSig j -> rpc st' = RSig j) /\ (wpc st' = WWait j <-> wpc st = WWait j)).
  { intros st1 s Hr Hw j _. rewrite Hr, Hw. split; [auto|reflexivity]. }
  destruct R; try exact W; destruct (W s) as (W1 & W2 & W3); try rewrite <- Hx in W1, W2, W3.
  - (* R_ticket *) eapply (wake_upd st _ s); [exact W|intro; reflexivity|apply Same; reflexivity|].
    split; [exact W1|]. split; [exact W2|exact W3].
  - (* R_fill: a writer asleep on the slot is owed a broadcast *) eapply (wake_upd st _ s); [exact W|intro; reflexivity|apply Same; reflexivity|].
    split; [intros _; left; discriminate|]. split; [|exact W3].
    unfold l2, filled, unwait. rst. intro Hwp. destruct (W2 Hwp) as [Sl _]. rewrite Sl. split; [reflexivity|].
    right. apply app_single_nonempty.
  - (* R_park *) eapply (wake_upd st _ s); [exact W|intro; reflexivity|apply Same; reflexivity|]. subst y.
    split; [intros _; left; exact Hm|]. split; [exact W2|exact W3].
  - (* R_bcast: the writer, if parked, is woken *) eapply (wake_upd st _ s); [exact W|intro; reflexivity|apply Same; reflexivity|].
    split; [exact W1|]. split; [intro X; discriminate X|].
    destruct W3 as [A B]. unfold writer_flags. rst. split.
    + intros [X|X]; [discriminate X|]. apply A. apply orb_prop. exact X.
    + intro X. rewrite (B X). destruct (wwoken x); reflexivity.
  - (* R_take *) eapply (wake_upd st _ s); [exact W|intro; reflexivity|apply Same; reflexivity|].
    split; [intros _; left; discriminate|]. split; [|exact W3].
    apply (l2_mark x); [reflexivity|discriminate|exact W2].
  - (* R_sleep *) eapply (wake_upd st _ s); [exact W|intro; reflexivity| |].
    + intros j E. rst. rewrite Hw. split; [auto|]. split; intro X; [injection X as ->; destruct (E eq_refl)|discriminate X].
    + split; [exact W1|]. split; [intros _; split; [reflexivity|left; exact Hm]|].
      split; intros _; reflexivity.
  - (* R_retry_take *) eapply (wake_upd st _ s); [exact W|intro; apply upd_upd| |].
    + intros j E. rst. rewrite Hw. split; [auto|]. split; intro X; [discriminate X|injection X as ->; destruct (E eq_refl)].
    + subst y. split; [intros _; left; discriminate|]. split; [intro X; discriminate X|].
      split; [intros [X|X]; discriminate X|intro X; discriminate X].
  - (* R_retry_sleep *) eapply (wake_upd st _ s); [exact W|intro; apply upd_upd|apply Same; reflexivity|].
    split; [exact W1|]. split; [intros _; split; [reflexivity|left; exact Hm]|].
    split; [intros _; exact Hw|intros _; reflexivity].
  - (* R_complete *) eapply (wake_upd st _ s); [exact W|intro; reflexivity| |].
    + intros j E. rst. rewrite Hrp. split; [intro X; discriminate X|reflexivity].
    + split; [intros _; right; left; reflexivity|]. split; [|exact W3].
      apply (l2_mark x); [reflexivity|discriminate|exact W2].
  - (* R_lock *) eapply (wake_upd st _ s); [exact W|intro; reflexivity| |].
    + intros j E. rst. rewrite Hrp. split; [intro X; discriminate X|reflexivity].
    + split; [intros _; right; left; reflexivity|]. split; [exact W2|exact W3].
  - (* R_deliver *) eapply (wake_upd st _ s); [exact W|intro; reflexivity| |].
    + intros j E. rst. rewrite Hrp. split; [intro X; discriminate X|reflexivity].
    + split; [refine (l1_fp _ _ x _ eq_refl _ W1); rewrite Hrp; intro X; discriminate X|].
      split; [exact W2|exact W3].
  - (* R_unlock: the signal is next *) eapply (wake_upd st _ s); [exact W|intro; reflexivity| |].
    + intros j E. rst. rewrite Hrp. split; [intro X; discriminate X|reflexivity].
    + split; [intros _; right; right; left; reflexivity|]. split; [exact W2|exact W3].
  - (* R_signal *) eapply (wake_upd st _ s); [exact W|intro; reflexivity| |].
    + intros j E. rst. rewrite Hrp. split; [intro X; injection X as ->; destruct (E eq_refl)|reflexivity].
    + split; [intros _; right; right; right; apply app_single_nonempty|].
      split; [exact W2|exact W3].
  - (* R_nosignal: nobody to signal *) eapply (wake_upd st _ s); [exact W|apply rewrites_none; reflexivity| |].
    + intros j E. rst. rewrite Hrp. split; [intro X; injection X as ->; destruct (E eq_refl)|reflexivity].
    + split; [intro X; destruct (X Hp)|]. split; [exact W2|exact W3].
Qed.

Record Inv (st : state) : Prop := {
  inv_c : Cnt st; inv_q : Que st; inv_o : Own st; inv_t : Tkt st; inv_w : Wake st
}.

Lemma inv_init : Inv (init start).
Proof. constructor; [apply cnt_init|apply que_init|apply own_init|apply tkt_init|apply wake_init]. Qed.

Theorem inv_step : forall st l st', Inv st -> lstep k st l = Some st' -> Inv st'.
Proof.
  intros st l st' [C Q O T W] Hl. apply lstep_rstep in Hl. constructor.
  - eapply cnt_step; eassumption.
  - eapply que_step; eassumption.
  - eapply own_step; eassumption.
  - eapply tkt_step; eassumption.
  - eapply wake_step; eassumption.
Qed.

End RingInv.
