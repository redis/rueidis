(** Proofs about Model/Retry.v: when a command is sent again (C28) and how often a command that is
    neither read-only nor retryable can be executed in one call (C03). *)
From Coq Require Import List Arith NArith ZArith Bool Lia.
Require Import RV.Model.Base RV.Model.ClusterTopo RV.Model.Retry.
Import ListNotations.
Open Scope Z_scope.

(** failures after which the single-node clients may retry *)
Definition retry_class_single (r : reply) : bool :=
  match r with RLoading | RTransport | RCtx => true | _ => false end.

(** the events of a call: every one but the first is justified by the decision taken on the one before *)
Fixpoint ev_chain (p : policy) (retryable : bool) (attempts : nat) (tr : list ev) : Prop :=
  match tr with
  | e1 :: ((e2 :: _) as r) =>
    match single_decision p retryable attempts (e_tick e1) with
    | DResend => e_why e2 = WExpired /\ ev_chain p retryable attempts r
    | DRetry => e_why e2 = WRetry /\ ev_chain p retryable (S attempts) r
    | DReturn => False
    end
  | _ => True
  end.

Lemma effective_idem t : effective (effective t) = effective t.
Proof. unfold effective. destruct (k_ctx_call t) eqn:E; [reflexivity|now rewrite E]. Qed.

(** nothing is written when the context is already done *)
Lemma single_do_ctx_done f p retryable attempts w t0 env :
  k_ctx_call t0 = true -> single_do (S f) p retryable attempts w (t0 :: env) = ([], Done RCtx).
Proof.
  intro H. cbn [single_do]. unfold single_decision, effective. rewrite H. cbn [k_reply is_expired k_ctx_cls k_closed].
  unfold single_retryable_err. rewrite orb_true_r. cbn [negb]. rewrite andb_false_r. cbn. reflexivity.
Qed.

Section Runs.
Variables (p : policy) (retryable : bool).

Inductive sruns : nat -> nat -> why -> list tick -> list ev -> outcome -> Prop :=
| SFuel a w env : sruns 0 a w env [] OutOfFuel
| SEnv f a w : sruns (S f) a w [] [] OutOfEnv
| SCtx f a w t env : k_ctx_call t = true -> sruns (S f) a w (t :: env) [] (Done RCtx)
| SReturn f a w t env :
    k_ctx_call t = false -> single_decision p retryable a t = DReturn ->
    sruns (S f) a w (t :: env) [mkEv w t] (Done (k_reply t))
| SResend f a w t env tr o :
    k_ctx_call t = false -> single_decision p retryable a t = DResend ->
    sruns f a WExpired env tr o -> sruns (S f) a w (t :: env) (mkEv w t :: tr) o
| SRetry f a w t env tr o :
    k_ctx_call t = false -> single_decision p retryable a t = DRetry ->
    sruns f (S a) WRetry env tr o -> sruns (S f) a w (t :: env) (mkEv w t :: tr) o.

Lemma single_do_runs : forall f a w env tr o, single_do f p retryable a w env = (tr, o) -> sruns f a w env tr o.
Proof.
  induction f as [|f IH]; intros a w env tr o H; [injection H as <- <-; constructor|].
  destruct env as [|t env]; [injection H as <- <-; constructor|].
  destruct (k_ctx_call t) eqn:CC; [rewrite single_do_ctx_done in H by exact CC; injection H as <- <-; now constructor|].
  cbn [single_do] in H. unfold effective in H. rewrite CC in H.
  destruct (single_decision p retryable a t) eqn:D.
  - injection H as <- <-. now constructor.
  - destruct (single_do f p retryable a WExpired env) as [tr1 o1] eqn:R. injection H as <- <-. apply SResend; auto.
  - destruct (single_do f p retryable (S a) WRetry env) as [tr1 o1] eqn:R. injection H as <- <-. apply SRetry; auto.
Qed.

Lemma sruns_head {f a w env tr o} : sruns f a w env tr o -> forall e r, tr = e :: r -> e_why e = w.
Proof. destruct 1; intros e r E; try discriminate; now injection E as <- _. Qed.

Lemma sruns_chain {f a w env tr o} : sruns f a w env tr o -> ev_chain p retryable a tr.
Proof.
  induction 1 as [| | | |f a w t env tr o CC D R IH|f a w t env tr o CC D R IH]; try exact I;
    (destruct tr as [|e2 r2]; [exact I|]); cbn [ev_chain e_tick]; rewrite D; split; auto; exact (sruns_head R e2 r2 eq_refl).
Qed.

(** events are attempts of the environment that were really written *)
Lemma sruns_events {f a w env tr o} : sruns f a w env tr o ->
  forall e, In e tr -> In (e_tick e) env /\ k_ctx_call (e_tick e) = false.
Proof.
  induction 1; intros e Hin; try (now destruct Hin); destruct Hin as [<-|Hin]; try (now destruct Hin); cbn [e_tick];
    try (split; [now left|assumption]); destruct (IHsruns e Hin); (split; [now right|assumption]).
Qed.

End Runs.

(** the reply handed back is the one of the last attempt written (or the context error) *)
Lemma single_do_last f p retryable a w env tr r : single_do f p retryable a w env = (tr, Done r) ->
  r = RCtx \/ exists pre e, tr = pre ++ [e] /\ k_reply (e_tick e) = r.
Proof.
  intro H. apply single_do_runs in H. remember (Done r) as o eqn:Eo. induction H; try discriminate.
  - injection Eo as <-. now left.
  - injection Eo as <-. right. exists [], (mkEv w t). auto.
  - destruct (IHsruns Eo) as [X|[pre [e [-> E2]]]]; [now left|right]. exists (mkEv w t :: pre), e. auto.
  - destruct (IHsruns Eo) as [X|[pre [e [-> E2]]]]; [now left|right]. exists (mkEv w t :: pre), e. auto.
Qed.

Definition expired_executed (e : ev) : bool := is_expired (k_reply (e_tick e)) && k_executed (e_tick e).

Lemma nonretryable_decision p a t :
  single_decision p false a t <> DRetry /\ (single_decision p false a t = DResend -> k_reply t = RExpired).
Proof.
  unfold single_decision. rewrite andb_false_r. cbn [andb].
  destruct (k_reply t); cbn; split; intros; try discriminate; reflexivity.
Qed.

(** for a command that is not retryable only an expired connection leads to another send *)
Lemma sruns_nonretryable_shape {p f a w env tr o} : sruns p false f a w env tr o ->
  forall pre e post, tr = pre ++ e :: post -> post <> [] -> k_reply (e_tick e) = RExpired.
Proof.
  induction 1 as [| | | |f a w t env tr o CC D R IH|f a w t env tr o CC D R IH]; intros pre e post E Np;
    try (destruct pre as [|? [|]]; try discriminate; injection E as _ <-; congruence).
  - destruct pre as [|x pre]; injection E as E1 E2; [subst e; exact (proj2 (nonretryable_decision p a t) D)|eauto].
  - now destruct (proj1 (nonretryable_decision p a t)).
Qed.

Lemma executions_cons e tr : executions (e :: tr) = ((if k_executed (e_tick e) then 1 else 0) + executions tr)%nat.
Proof. unfold executions. cbn [filter]. now destruct (k_executed (e_tick e)). Qed.

Lemma executions_app a b : executions (a ++ b) = (executions a + executions b)%nat.
Proof. unfold executions. now rewrite filter_app, app_length. Qed.

Lemma expired_counts e tr n : k_reply (e_tick e) = RExpired -> (executions tr <= n + length (filter expired_executed tr))%nat ->
  (executions (e :: tr) <= n + length (filter expired_executed (e :: tr)))%nat.
Proof.
  intros X H. rewrite executions_cons. cbn [filter]. unfold expired_executed at 1. rewrite X. cbn [is_expired andb].
  destruct (k_executed (e_tick e)); cbn [length]; lia.
Qed.

(** characterisation: more than one execution needs an expired-connection result for an attempt
    that the server had executed *)
Lemma sruns_c03 {p f a w env tr o} : sruns p false f a w env tr o ->
  (executions tr <= 1 + length (filter expired_executed tr))%nat.
Proof.
  induction 1 as [| | | |f a w t env tr o CC D R IH|f a w t env tr o CC D R IH]; try (cbn; lia).
  - rewrite executions_cons. cbn. destruct (k_executed t); lia.
  - apply expired_counts; [exact (proj2 (nonretryable_decision p a t) D)|exact IH].
  - now destruct (proj1 (nonretryable_decision p a t)).
Qed.

(** an inner call that ends with a refusal (REDIRECT, MOVED, …) did not execute the command, except on
    attempts that ended with an expired connection *)
Lemma sruns_refused {p f a w env tr r} : sruns p false f a w env tr (Done r) ->
  (forall t, In t env -> consistent t = true) ->
  (match r with RRedirect _ | RMoved _ | RAsk _ => True | _ => False end) ->
  (executions tr <= length (filter expired_executed tr))%nat.
Proof.
  intro H. remember (Done r) as o eqn:Eo.
  induction H as [| | | f a w t env CC D|f a w t env tr o CC D R IH|f a w t env tr o CC D R IH]; intros Hc Hr; try discriminate; try (cbn; lia).
  - injection Eo as <-. rewrite executions_cons. cbn.
    pose proof (Hc t (or_introl eq_refl)) as K. unfold consistent in K. apply andb_true_iff in K. destruct K as [K _].
    destruct (k_reply t); try contradiction; apply negb_true_iff in K; rewrite K; cbn; lia.
  - apply (expired_counts _ _ 0); [exact (proj2 (nonretryable_decision p a t) D)|]. apply IH; auto. intros; apply Hc; now right.
  - now destruct (proj1 (nonretryable_decision p a t)).
Qed.

Lemma standalone_do_c03 : forall f p redirect attempts w env tr o,
  (forall o', In o' env -> forall t, In t (o_inner o') -> consistent t = true) ->
  standalone_do f p redirect false attempts w env = (tr, o) ->
  (executions tr <= 1 + length (filter expired_executed tr))%nat.
Proof.
  induction f as [|f IH]; intros p redirect attempts w env tr o Hc H; [injection H as <- _; cbn; lia|].
  destruct env as [|ot env']; [injection H as <- _; cbn; lia|].
  cbn [standalone_do] in H.
  destruct (single_do (S (length (o_inner ot))) p false 1 w (o_inner ot)) as [tr1 res] eqn:R. apply single_do_runs in R.
  pose proof (sruns_c03 R) as B1.
  assert (Hdone : (tr1, res) = (tr, o) -> (executions tr <= 1 + length (filter expired_executed tr))%nat)
    by (intro E; injection E as <- _; exact B1).
  destruct res as [r| |]; try (apply Hdone; exact H).
  destruct r; try (apply Hdone; exact H).
  destruct (redirect && (o_switch_ok ot || wait_or_skip (p_delay p attempts (RRedirect a)) (o_left ot))); [|apply Hdone; exact H].
  destruct (standalone_do f p redirect false (S attempts) WRedirect env') as [tr2 o2] eqn:R2. injection H as <- <-.
  pose proof (IH _ _ _ _ _ _ _ (fun o' Hin => Hc o' (or_intror Hin)) R2) as B2.
  pose proof (sruns_refused R (Hc ot (or_introl eq_refl)) I) as B1'.
  rewrite executions_app, filter_app, app_length. lia.
Qed.

(** a written INCR is executed, the connection expires before the reply, the client re-sends *)
Definition w_expired_exec : tick := mkTick RExpired true false false false None.
Definition w_value_exec : tick := mkTick (RVal 7) true false false false None.
Definition w_policy : policy := mkPolicy true (fun _ _ => 0) true.

Lemma single_do_c03_witness :
  let '(tr, o) := single_do 3 w_policy false 1 WFirst [w_expired_exec; w_value_exec] in
  executions tr = 2%nat /\ o = Done (RVal 7) /\ forallb consistent [w_expired_exec; w_value_exec] = true.
Proof. vm_compute. repeat split; reflexivity. Qed.

(** standalone DoMulti: the first member is executed, the second is answered REDIRECT, the whole
    batch is sent again to the new primary *)
Definition w_cmds : list bcmd := [mkCmd None KPlain false false 1; mkCmd None KPlain false false 2].
Definition w_redirect : tick := mkTick (RRedirect ([49%N], 6380)) false false false false None.
Definition w_env_batch : list obtick :=
  [mkObtick [[w_value_exec; w_redirect]] true None; mkObtick [[w_value_exec; w_value_exec]] true None].

Lemma standalone_domulti_c03_witness :
  let '(tr, o) := standalone_domulti 3 w_policy true w_cmds 1 WFirst w_env_batch in
  batch_executions 0 tr = 2%nat /\ o = Some [RVal 7; RVal 7] /\
  forallb (fun ob => forallb (forallb consistent) (ob_inner ob)) w_env_batch = true.
Proof. vm_compute. repeat split; reflexivity. Qed.

(** no answer is errConnExpired: the expiry scan finds no index to resume from *)
Lemma recover_from_none cs : forall rs i tx, (forall r, In r rs -> is_expired r = false) -> recover_from cs rs i tx = None.
Proof.
  induction cs as [|c cs IH]; intros rs i tx H; [destruct rs; reflexivity|].
  destruct rs as [|r rs]; [reflexivity|]. cbn [recover_from]. rewrite (H r (or_introl eq_refl)). apply IH.
  intros x Hx. apply H. now right.
Qed.

Lemma recover_loop_none f cs rs env : (forall r, In r rs -> is_expired r = false) ->
  recover_loop (S f) cs rs env = Some (rs, [], env).
Proof. intro H. cbn [recover_loop]. now rewrite recover_from_none. Qed.
