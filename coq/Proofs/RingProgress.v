(** Ring LTS: absence of stuck states.  Whenever a ticket holder has not been answered yet, a step that
    moves the queue forward is enabled (a fill, a dequeue, a completion, a hand-over, an unlock or a
    wake-up) - polling steps that find nothing do not count. *)
From Coq Require Import List NArith ZArith Bool Arith Lia.
Require Import RV.Model.Base RV.Model.Ring RV.Proofs.RingBase RV.Proofs.RingInv.
Import ListNotations.
Local Open Scope nat_scope.

Definition progress (st : state) (l : label) (st' : state) : Prop :=
  match l with
  | PutTicket => False
  | PutLock p s _ => length (fillseq (slots st' s)) = S (length (fillseq (slots st s)))
  | PutBcast _ _ => True
  | WNext | WWaitEnter | WWaitRetry => n1 st' = S (n1 st)
  | RNext => n2 st' = S (n2 st)
  | RDeliver _ | RUnlock | RSignal _ => True
  | WNextBusy => False
  end.

Section Progress.
Variable k : nat.
Variable start : N.
Notation sof := (sof k start).
Notation cntpos := (cntpos k start).

Lemma fill_enabled : forall st s p m, mark (slots st s) = 0 -> rlock (slots st s) = false ->
  (memb p (tk (slots st s)) = true \/ memb p (woken1 (slots st s)) = true) ->
  exists st', lstep k st (PutLock p s m) = Some st' /\ progress st (PutLock p s m) st'.
Proof.
  intros st s p m Hm Hr Hp. cbn [lstep]. rewrite Hr. cbn [negb andb].
  assert (G : memb p (tk (slots st s)) || memb p (woken1 (slots st s)) = true) by (apply orb_true_iff; exact Hp).
  rewrite G. set (x := slots st s) in *.
  remember (if memb p (tk x) then sl_lists x (remove1 p (tk x)) (parked1 x) (woken1 x) (bc x) (wt x)
            else sl_lists x (tk x) (parked1 x) (remove1 p (woken1 x)) (bc x) (wt x)) as x1 eqn:Ex1.
  assert (M : mark x1 = 0 /\ fillseq x1 = fillseq x) by (subst x1; destruct (memb p (tk x)); rst; auto).
  destruct M as [M1 M2]. clear Ex1. rewrite M1. cbn [Nat.eqb]. eexists. split; [reflexivity|].
  unfold progress. rst. rewrite upd_same. destruct (slept x1); rst; rewrite M2, app_length; cbn [length]; subst x; lia.
Qed.

Theorem ring_not_stuck : forall st, Inv k start st -> (n2 st < nw st \/ rpc st <> RIdle) ->
  exists l st', lstep k st l = Some st' /\ progress st l st'.
Proof.
  intros st [C Q O T W] Hwork.
  destruct (rpc st) as [|s it|s] eqn:Hrp.
  2:{ (* the reader holds a slot *)
      destruct it as [i|].
      - pose proof (o_slot _ O s) as Os. rewrite (held_hold st s _ Hrp) in Os. destruct Os as (_ & M & So).
        unfold undel in So. rewrite (M i eq_refl) in So. apply app_single_inv in So. destruct So as [[B Wt]|[B Wt]].
        + exists (PutBcast i s). cbn [lstep]. rewrite B. rewrite memb_head. eexists. split; [reflexivity|exact I].
        + exists (RDeliver i). cbn [lstep]. rewrite Hrp, Wt, memb_head. eexists. split; [reflexivity|exact I].
      - exists RUnlock. cbn [lstep]. rewrite Hrp. eexists. split; [reflexivity|exact I]. }
  2:{ (* the reader still has to signal *)
      destruct (parked1 (slots st s)) as [|p r] eqn:Hp.
      - exists (RSignal None). cbn [lstep]. rewrite Hrp, Hp. cbn [is_nil]. eexists. split; [reflexivity|exact I].
      - exists (RSignal (Some p)). cbn [lstep]. rewrite Hrp, Hp, memb_head. eexists. split; [reflexivity|exact I]. }
  (* the reader is idle: no slot is locked *)
  destruct Hwork as [Hwork|Hwork]; [|congruence].
  assert (Hfree : forall s, rlock (slots st s) = false) by (apply (rlock_free_idle st O); intros; rewrite Hrp; discriminate).
  pose proof (q_le _ _ _ Q) as Hle.
  destruct (Nat.eq_dec (n2 st) (n1 st)) as [Heq|Hne].
  2:{ (* a written command waits for its reply *)
      set (s := sof (S (n2 st))).
      assert (Hm : mark (slots st s) = 2).
      { pose proof (q_ci _ _ _ Q s) as Hci. unfold CI in Hci. cbv zeta in Hci.
        assert (Hlt : cntpos (n2 st) s < cntpos (n1 st) s).
        { assert (H := cntpos_mono k start (S (n2 st)) (n1 st) s ltac:(lia)). unfold s in H at 1. rewrite cntpos_succ_same in H. fold s in H. lia. }
        destruct Hci as [(C1 & _ & _ & C4)|[(C1 & _ & _ & C4)|(C1 & _)]]; [lia|lia|exact C1]. }
      exists RNext. cbn [lstep]. rewrite Hrp. destruct (next_read2 _ _ st C) as [_ R2]. rewrite R2. fold s.
      rewrite (Hfree s), Hm. cbn [Nat.eqb].
      eexists. split; [reflexivity|]. unfold progress. rst. reflexivity. }
  (* everything written has been answered; position n1+1 has a ticket *)
  set (s := sof (S (n1 st))).
  pose proof (q_ci _ _ _ Q s) as Hci. unfold CI in Hci. cbv zeta in Hci.
  destruct (W s) as (L1 & L2 & W3 & W4). unfold l1, l2 in L1, L2.
  destruct Hci as [(C1 & C2 & C3 & C4)|[(C1 & C2 & C3 & C4)|(C1 & C2 & C3 & C4)]]; [| |rewrite Heq in C4; lia].
  - (* the slot is free: a ticket holder is pending on it *)
    assert (Hpend : 1 <= length (tk (slots st s)) + length (parked1 (slots st s)) + length (woken1 (slots st s))).
    { pose proof (t_tk _ _ _ T s) as Htk. unfold pend in Htk.
      assert (H := cntpos_mono k start (S (n1 st)) (nw st) s ltac:(lia)). unfold s in H at 1. rewrite cntpos_succ_same in H. fold s in H. lia. }
    destruct (tk (slots st s)) as [|p r] eqn:Htk.
    + destruct (woken1 (slots st s)) as [|p r] eqn:Hwk.
      * exfalso. cbn [length] in Hpend.
        assert (Hp : parked1 (slots st s) <> []) by (destruct (parked1 (slots st s)); [cbn [length] in Hpend; lia|discriminate]).
        destruct (L1 Hp) as [X|[X|[X|X]]]; try congruence; try (rewrite (Hfree s) in X; discriminate).
      * exists (PutLock p s false). apply fill_enabled; [exact C1|apply Hfree|]. right. rewrite Hwk. apply memb_head.
    + exists (PutLock p s false). apply fill_enabled; [exact C1|apply Hfree|]. left. rewrite Htk. apply memb_head.
  - (* the command of position n1+1 is there: the writer takes it (or is being woken) *)
    destruct (wpc st) as [|s'] eqn:Hw.
    + exists WNext. cbn [lstep]. rewrite Hw. destruct (next_read1 _ _ st C Hw) as [R1 R2]. rewrite R2. fold s. rewrite (Hfree s).
      unfold writer_take. rewrite C1. cbn [Nat.eqb]. eexists. split; [reflexivity|]. unfold progress. rst. reflexivity.
    + pose proof (c_wwait _ _ _ C s' Hw) as Hs'. fold s in Hs'. subst s'. specialize (W4 eq_refl).
      destruct (wparked (slots st s)) eqn:P1.
      * destruct (L2 eq_refl) as [_ [X|X]]; [congruence|].
        destruct (hd_memb _ X) as [p Hp]. exists (PutBcast p s). cbn [lstep]. rewrite Hp. eexists. split; [reflexivity|exact I].
      * apply (f_equal negb) in W4. rewrite negb_involutive in W4. cbn [negb] in W4.
        exists WWaitRetry. cbn [lstep]. rewrite Hw, <- W4, (Hfree s). cbn [negb andb].
        unfold writer_take. rst. rewrite upd_same. rst. rewrite C1. cbn [Nat.eqb].
        eexists. split; [reflexivity|]. unfold progress. rst. reflexivity.
Qed.

End Progress.
