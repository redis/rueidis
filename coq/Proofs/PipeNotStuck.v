(** C04_not_stuck: while the clean-up loop of _background runs with waits > 0, some thread other than
    the loop's idle spin can take a step: every counted waiter is either about to move by itself or has
    its slot in the queue where the loop (or the still running writer) will reach it. *)
From Coq Require Import List NArith ZArith Bool Arith Lia Permutation.
Require Import RV.Model.Base RV.Model.PipeQueue RV.Model.Pipe RV.Model.PipeLts.
Require Import RV.Proofs.PipeLtsBasics RV.Proofs.PipeExclusive RV.Proofs.PipeRouting RV.Proofs.PipeLifecycle.
Import ListNotations.
Open Scope N_scope.

Definition waiting (c : crec) : Prop := (k_pc c = PWait \/ k_drain c = DWait) /\ k_comp c = false.
(** the life cycle of the pseudo-call (the PING of Close) that a closer waits for *)
Definition kw_ok (p : pc) : Prop := match p with PPut | PWait | PGot | PRet => True | _ => False end.

Record InvW (s : pstate) : Prop := mkInvW {
  w_slot : forall t, waiting (p_calls s t) ->
           In t (map s_owner (q_pend (p_q s) ++ q_wr (p_q s))) \/
           (exists r, p_b s = BRead r /\ r_owner r = t /\ (r_ff r < List.length (r_multi r))%nat);
  w_kwait : forall k t', p_closers s k = KWait t' -> kw_ok (k_pc (p_calls s t'));
  w_run : p_b s <> BOff -> p_w s <> WOff
}.

Lemma invw_init g : InvW (p_init g).
Proof.
  constructor; cbn.
  - intros t [[K|K] _]; discriminate.
  - intros k t' K; discriminate.
  - intros K; contradiction.
Qed.

Lemma invw_same s s' :
  InvW s -> p_q s' = p_q s -> p_b s' = p_b s -> p_w s' = p_w s -> p_closers s' = p_closers s ->
  (forall t, k_pc (p_calls s' t) = k_pc (p_calls s t) /\ k_drain (p_calls s' t) = k_drain (p_calls s t) /\
             k_comp (p_calls s' t) = k_comp (p_calls s t)) ->
  InvW s'.
Proof.
  intros [w1 w2 w3] e1 e2 e3 e4 e5. constructor; rewrite ?e1, ?e2, ?e3, ?e4; auto.
  - intros t Hw. apply w1. destruct (e5 t) as (a&b&c). unfold waiting in *. now rewrite <- a, <- b, <- c.
  - intros k t' K. destruct (e5 t') as (a&_). rewrite a. eauto.
Qed.

Lemma invw_call s s' t c' :
  InvW s -> p_q s' = p_q s -> p_b s' = p_b s -> p_w s' = p_w s -> p_closers s' = p_closers s ->
  (forall u, p_calls s' u = upd (p_calls s) t c' u) ->
  (waiting c' -> waiting (p_calls s t)) ->
  (kw_ok (k_pc (p_calls s t)) -> kw_ok (k_pc c')) ->
  InvW s'.
Proof.
  intros [w1 w2 w3] e1 e2 e3 e4 e5 Hw Hk. constructor; rewrite ?e1, ?e2, ?e3, ?e4; auto.
  - intros u Hu. rewrite e5 in Hu. unfold upd in Hu. destruct (N.eqb u t) eqn:E.
    + apply N.eqb_eq in E. subst u. apply w1. auto.
    + apply w1. exact Hu.
  - intros k t' K. rewrite e5. unfold upd. destruct (N.eqb t' t) eqn:E.
    + apply N.eqb_eq in E. subst t'. apply Hk. eauto.
    + eauto.
Qed.

(** the tail of _background moves on: no reader any more, the writer was started long ago *)
Lemma invw_post s s' :
  InvW s -> p_b s <> BOff -> (forall r, p_b s <> BRead r) ->
  p_q s' = p_q s -> p_w s' = p_w s -> p_closers s' = p_closers s -> p_calls s' = p_calls s -> InvW s'.
Proof.
  intros [w1 w2 w3] Hb Hr e1 e2 e3 e4. constructor; rewrite ?e1, ?e2, ?e3, ?e4; auto.
  intros t Hw. destruct (w1 t Hw) as [K|(r&K&_)]; [now left|destruct (Hr r K)].
Qed.

(** a closer moves to a state in which it does not wait for a PING *)
Lemma invw_closer s s' t k' :
  InvW s -> p_q s' = p_q s -> p_b s' = p_b s -> p_w s' = p_w s -> p_calls s' = p_calls s ->
  (forall u, p_closers s' u = upd (p_closers s) t k' u) -> (forall t', k' <> KWait t') -> InvW s'.
Proof.
  intros [w1 w2 w3] e1 e2 e3 e4 e5 Hk. constructor; rewrite ?e1, ?e2, ?e3, ?e4; auto.
  intros k t' K. rewrite e5 in K. unfold upd in K. destruct (N.eqb k t); [destruct (Hk t' K)|eauto].
Qed.

Lemma apply_act_cap o m s a : q_cap (p_q (apply_act o m s a)) = q_cap (p_q s).
Proof.
  destruct a as [k v|got|i c|i mg|i x|x|w|]; cbn [apply_act]; try reflexivity.
  - destruct got; [|reflexivity]. unfold q_next_result. destruct (q_wr (p_q s)); reflexivity.
  - destruct m; reflexivity.
Qed.

Lemma fold_apply_cap o m acts : forall s, q_cap (p_q (fold_left (apply_act o m) acts s)) = q_cap (p_q s).
Proof.
  induction acts as [|a acts IH]; intros s; cbn [fold_left]; [reflexivity|]. rewrite IH. apply apply_act_cap.
Qed.

Lemma cap_step g s l s' : pstep g s l = Some s' -> q_cap (p_q s') = q_cap (p_q s).
Proof.
  intros H. destruct (pstep_inv g s l s' H); subst; rewrite ?do_background_eq; cbn; try reflexivity.
  - (* LPut *) unfold q_put in Eq. destruct (q_can_put (p_q s)); inversion Eq; reflexivity.
  - (* LWNext *) unfold q_next_write in Eq. destruct (q_pend (p_q s)); inversion Eq; reflexivity.
  - (* LRStep *) apply (fold_apply_cap _ _ _ (set_wire s (p_c2s s) rest)).
  - (* LRFail *) destruct complete; reflexivity.
  - (* LCleanNW *) unfold q_next_write in Eq. destruct (q_pend (p_q s)); inversion Eq; reflexivity.
  - (* LCleanNR *) unfold q_next_result in Eq. destruct (q_wr (p_q s)); inversion Eq; reflexivity.
Qed.

Lemma cap_run g sched : forall s s', prun g sched s = Some s' -> q_cap (p_q s') = q_cap (p_q s).
Proof.
  intros s s'. apply (prun_inv g (fun x => q_cap (p_q x) = q_cap (p_q s))); [|reflexivity].
  intros x l x' K E. rewrite <- K. exact (cap_step g x l x' E).
Qed.

(** steps that count as progress of the system: everything except the loop's idle spin and the
    environment's own initiatives (new calls, cancellations, failures, server activity, a new Close) *)
Definition progress_label (l : label) : bool :=
  match l with
  | LCleanSpin | LCall _ _ _ _ | LCtxDone _ | LFail | LExtExit | LSrv | LSrvPush _ | LClose1 _ => false
  | _ => true
  end.

Fixpoint list_max (l : list N) : N := match l with [] => 0 | x :: r => N.max x (list_max r) end.
Lemma list_max_ge l x : In x l -> x <= list_max l.
Proof. induction l as [|a l IH]; intros H; [destruct H|]. cbn. destruct H as [->|H]; [lia|]. specialize (IH H). lia. Qed.
Definition fresh_id (s : pstate) : N := N.succ (N.max (list_max (p_tids s)) (list_max (p_ktids s))).
Lemma fresh_id_ok s : fresh s (fresh_id s) = true.
Proof.
  unfold fresh. apply andb_true_iff. split; apply negb_true_iff; apply not_true_is_false; intros H;
    apply existsb_exists in H as (x&Hx&E); apply N.eqb_eq in E; subst x; apply list_max_ge in Hx; unfold fresh_id in Hx; lia.
Qed.

Section NotStuck.
  Variable g : config.
  Hypothesis Hsrv : forall c, cmd_served_ok (g_r2ps g) (g_srv g) c = true.
  Hypothesis Hver : g_ver g <> 6%Z.

  (* [wcall s t]: [invw_call] for a step that only rewrites the record of t; what remains is that t does not
     start waiting, and that a pseudo-call a closer waits for stays in its life cycle.  [nokw Epc]: the
     second holds vacuously, the old pc [Epc] is not one of that life cycle. *)
  Ltac wcall s t :=
    eapply (invw_call s _ t); [eassumption|reflexivity|reflexivity|reflexivity|reflexivity|intros ?; reflexivity| |].

  Ltac nokw Epc := let K := fresh "K" in intros K; rewrite Epc in K; cbn in K; destruct K.

  Lemma invw_do_background s : InvW s -> (p_bg s = false -> p_b s = BOff) -> InvW (do_background s).
  Proof.
    intros [w1 w2 w3] Hb. rewrite do_background_eq. destruct (p_bg s) eqn:E; constructor; cbn; auto.
    - intros t Hw. destruct (w1 t Hw) as [K|(r&K&_)]; [now left|]. rewrite (Hb eq_refl) in K. discriminate.
    - intros _; discriminate.
  Qed.

  Lemma invw_step s l s' : InvA s -> InvB g s -> InvW s -> pstep g s l = Some s' -> InvW s'.
  Proof.
    intros IA IB IW H.
    assert (Hbo : p_bg s = false -> p_b s = BOff) by (intros K; apply (a_bgw s IA K)).
    (* a caller that has not returned has no drainer, so its next step leaves nobody newly waiting *)
    assert (Hnw : forall t c', k_pc (p_calls s t) <> PRet -> k_pc c' <> PWait -> k_drain c' = k_drain (p_calls s t) ->
                  waiting c' -> waiting (p_calls s t)).
    { intros t c' Hp Hp' Hd [[K|K] _]; [contradiction|]. rewrite Hd, (drain_none s t IA Hp) in K. discriminate. }
    pose proof (fun t => fresh_idle s t IA) as Hnew.
    assert (Hsame : forall s1, p_q s1 = p_q s -> p_b s1 = p_b s -> p_w s1 = p_w s -> p_closers s1 = p_closers s ->
                    p_calls s1 = p_calls s -> InvW s1).
    { intros s1 e1 e2 e3 e4 e5. apply (invw_same s); auto. intros u. rewrite e5. auto. }
    pose proof (pstep_inv g s l s' H) as St. destruct St; subst;
      try (apply Hsame; reflexivity);
      try (wcall s t; [apply Hnw; try reflexivity; cbn; congruence|nokw Epc]).
    - (* LCall *) wcall s t; [intros [[K|K] _]; discriminate|nokw (Hnew t Hfr)].
    - (* LCtxDone *) wcall s t; [intros K; exact K|intros K; exact K].
    - (* LIncr, context done *) wcall s t; [intros [[K|K] _]; discriminate|nokw Epc].
    - (* LLoad *) wcall s t; [apply Hnw; try reflexivity; destruct Hx; cbn; congruence|nokw Epc].
    - (* LBg *)
      eapply (invw_call (do_background s) _ t);
        [exact (invw_do_background s IW Hbo)|reflexivity|reflexivity|reflexivity|reflexivity|intros ?; reflexivity| |];
        rewrite do_background_eq; cbn [p_calls]; [apply Hnw; try reflexivity; cbn; congruence|nokw Epc].
    - (* LSyncR *) wcall s t; [apply Hnw; try reflexivity; destruct k; cbn; congruence|nokw Epc].
    - (* LSyncFail *)
      unfold sync_user in Hsy.
      assert (I0 : InvW (set_wire (latch s (if ctxerr then ECtx else EConn) true) [] [])) by (apply Hsame; reflexivity).
      eapply (invw_call _ _ t);
        [exact (invw_do_background _ I0 Hbo)|reflexivity|reflexivity|reflexivity|reflexivity|intros ?; reflexivity| |];
        rewrite do_background_eq; cbn [p_calls set_wire latch].
      + apply Hnw; try reflexivity; cbn; try congruence. intros K. rewrite K in Hsy. discriminate.
      + destruct (k_pc (p_calls s t)); try discriminate; intros [].
    - (* LBgAfter *)
      eapply (invw_call (do_background s) _ t);
        [exact (invw_do_background s IW Hbo)|reflexivity|reflexivity|reflexivity|reflexivity|intros ?; reflexivity| |];
        rewrite do_background_eq; cbn [p_calls]; [apply Hnw; try reflexivity; cbn; congruence|nokw Epc].
    - (* LPut *)
      unfold q_put in Eq. destruct (q_can_put (p_q s)); [|discriminate]. inversion Eq; subst; clear Eq.
      destruct IW as [w1 w2 w3]. constructor; cbn; auto.
      + intros u Hu. unfold upd in Hu. destruct (N.eqb u t) eqn:E.
        * apply N.eqb_eq in E. subst u. left. rewrite <- app_assoc, map_app. apply in_or_app. right. cbn. now left.
        * destruct (w1 u Hu) as [K|K]; [|now right]. left. rewrite <- app_assoc, map_app. rewrite map_app in K.
          apply in_app_or in K as [K|K]; apply in_or_app; [now left|right]. cbn. now right.
      + intros k t' K. unfold upd. destruct (N.eqb t' t) eqn:E; [exact I|eauto].
    - (* LPutFail *) exact I.
    - (* LRecv *) exact I.
    - (* LAbort *) wcall s t; [|intros _; exact I]. intros [_ Kc]. cbn in Kc. split; [now left|exact Kc].
    - (* LFin *) exact I.
    - (* LDrainRecv *)
      assert (Epc : k_pc (p_calls s t) = PRet) by (apply (a_dr s IA); congruence).
      wcall s t; [intros [[K|K] _]; cbn in K; congruence|cbn; rewrite Epc; intros _; exact I].
    - (* LDrainFin *)
      assert (Epc : k_pc (p_calls s t) = PRet) by (apply (a_dr s IA); congruence).
      wcall s t; [intros [[K|K] _]; cbn in K; congruence|cbn; rewrite Epc; intros _; exact I].
    - (* LWNext *)
      unfold q_next_write in Eq. destruct (q_pend (p_q s)) as [|x p] eqn:Ep; [discriminate|]. inversion Eq; subst; clear Eq.
      destruct IW as [w1 w2 w3]. constructor; cbn; auto.
      intros u Hu. destruct (w1 u Hu) as [K|K]; [|now right]. left. rewrite Ep in K.
      eapply Permutation_in; [apply (Permutation_map s_owner (move_perm sl p (q_wr (p_q s))))|exact K].
    - (* LWExit *) destruct IW as [w1 w2 w3]. constructor; cbn; auto. intros _; discriminate.
    - (* LRStep *)
      destruct (fold_apply_frame (r_owner r') (r_resps r') acts (set_wire s (p_c2s s) rest)) as (q'&cs&dl&Efr&_).
      match type of H with _ = Some ?x => set (s' := x) in * end.
      assert (Ecl : p_closers s' = p_closers s) by (unfold s'; rewrite Efr; reflexivity).
      assert (Ew : p_w s' = p_w s) by (unfold s'; rewrite Efr; reflexivity).
      clearbody s'. clear Efr.
      assert (IB' : InvB g s') by (eapply invb_step; eauto).
      destruct (rstep_effect g Hsrv Hver s s' IB H) as (r0&r1&Eb0&Eb'&Hpend&Hwlog&Hpc&Hcomp&Heff).
      rewrite Eb in Eb0. inversion Eb0; subst r0. clear Eb0. rename r1 into rn.
      destruct IW as [w1 w2 w3]. constructor.
      + intros u [Hu1 Hu2].
        assert (Hw : waiting (p_calls s u)).
        { destruct (Hpc u) as [K1 K2]. split; [rewrite <- K1, <- K2; exact Hu1|apply Hcomp; exact Hu2]. }
        destruct Heff as [(D1&D2&D3&D4&D5)|(c&L&EL&Edl&EL'&Hland&Hfull)].
        * destruct (w1 u Hw) as [K|(r0&K1&K2&K3)].
          -- left. now rewrite Hpend, D2.
          -- right. rewrite Eb in K1. inversion K1; try subst r0. exists rn. rewrite D3, D4, D5. auto.
        * destruct (w1 u Hw) as [K|(r0&K1&K2&K3)].
          -- destruct Hland as [(W1&W2&W3&W4&W5)|(sl&W1&W2&W3&W4&W5)].
             ++ left. now rewrite Hpend, W1.
             ++ rewrite W1, map_app in K. cbn in K. apply in_app_or in K as [K|[K|K]].
                ** left. rewrite Hpend, map_app. apply in_or_app. now left.
                ** (* the slot just taken *)
                   destruct (Nat.eq_dec (r_ff rn) (List.length (r_multi rn))) as [Ef|Nf].
                   --- exfalso. rewrite <- K, <- W2 in Hu2. rewrite (Hfull Ef) in Hu2. discriminate.
                   --- right. exists rn. split; [exact Eb'|split; [congruence|]].
                       destruct (b_cur g s' IB' rn Eb') as (_&_&K2&_). lia.
                ** left. rewrite Hpend, map_app. apply in_or_app. now right.
          -- rewrite Eb in K1. inversion K1; try subst r0.
             destruct Hland as [(W1&W2&W3&W4&W5)|(sl&W1&W2&W3&W4&W5)]; [|lia].
             destruct (Nat.eq_dec (r_ff rn) (List.length (r_multi rn))) as [Ef|Nf].
             ++ exfalso. rewrite <- K2, <- W2 in Hu2. rewrite (Hfull Ef) in Hu2. discriminate.
             ++ right. exists rn. split; [exact Eb'|split; [congruence|]].
                destruct (b_cur g s' IB' rn Eb') as (_&_&K4&_). lia.
      + intros k t' K. rewrite Ecl in K. destruct (Hpc t') as [K1 _]. rewrite K1. eauto.
      + rewrite Ew, Eb'. intros _. apply w3. rewrite Eb. discriminate.
    - (* LRFail *)
      unfold reader_exit in Ere.
      destruct IW as [w1 w2 w3]. destruct complete.
      + destruct (Nat.ltb (r_ff r) (List.length (r_multi r))) eqn:El; [|inversion Ere].
        constructor; cbn; auto.
        * intros u [Hu1 Hu2]. unfold upd in Hu1, Hu2. destruct (N.eqb u (r_owner r)) eqn:E; [cbn in Hu2; discriminate|].
          destruct (w1 u (conj Hu1 Hu2)) as [K|(r0&K1&K2&K3)]; [now left|].
          rewrite Eb in K1; inversion K1; try subst r0. apply N.eqb_neq in E. exfalso. apply E. symmetry. exact K2.
        * intros k t' K. unfold upd. destruct (N.eqb t' (r_owner r)) eqn:E2; cbn; [apply N.eqb_eq in E2; subst t'; eauto|eauto].
        * intros _. apply w3. rewrite Eb. discriminate.
      + destruct (Nat.ltb (r_ff r) (List.length (r_multi r))) eqn:El; [inversion Ere|].
        constructor; cbn; auto.
        * intros u Hu. destruct (w1 u Hu) as [K|(r0&K1&K2&K3)]; [now left|].
          rewrite Eb in K1; inversion K1; try subst r0. apply Nat.ltb_ge in El. lia.
        * intros _. apply w3. rewrite Eb. discriminate.
    - (* LPostSkip *) apply (invw_post s); auto; rewrite Eb; discriminate.
    - (* LPostPing *)
      pose proof (Hnew t' Hfr) as Epc.
      destruct IW as [w1 w2 w3]. constructor; cbn; auto.
      + intros u Hu. unfold upd in Hu. destruct (N.eqb u t') eqn:E1; [destruct Hu as [[K|K] _]; discriminate|].
        destruct (w1 u Hu) as [K|(r0&K1&_)]; [now left|rewrite Eb in K1; discriminate].
      + intros k u K. unfold upd. destruct (N.eqb u t'); [exact I|eauto].
      + intros _. apply w3. rewrite Eb. discriminate.
    - (* LCleanNW *)
      unfold q_next_write in Eq. destruct (q_pend (p_q s)) as [|x p] eqn:Ep; [discriminate|]. inversion Eq; subst; clear Eq.
      destruct IW as [w1 w2 w3]. constructor; cbn; auto.
      intros u Hu. destruct (w1 u Hu) as [K|K]; [|now right]. left. rewrite Ep in K.
      eapply Permutation_in; [apply (Permutation_map s_owner (move_perm sl p (q_wr (p_q s))))|exact K].
    - (* LCleanNR *)
      unfold q_next_result in Eq. destruct (q_wr (p_q s)) as [|sl0 wr'] eqn:Ew; [discriminate|]. inversion Eq; subst; clear Eq.
      destruct IW as [w1 w2 w3]. constructor; cbn; auto.
      + intros u [Hu1 Hu2]. unfold upd in Hu1, Hu2. destruct (N.eqb u (s_owner sl)) eqn:E; [cbn in Hu2; discriminate|].
        destruct (w1 u (conj Hu1 Hu2)) as [K|(r0&K1&_)]; [|rewrite Eb in K1; discriminate].
        left. rewrite Ew, map_app in K. cbn in K. rewrite map_app. apply in_app_or in K as [K|[K|K]]; apply in_or_app; auto.
        apply N.eqb_neq in E. congruence.
      + intros k t' K. unfold upd. destruct (N.eqb t' (s_owner sl)) eqn:E2; cbn; [apply N.eqb_eq in E2; subst t'; eauto|eauto].
    - (* LCleanExit *) apply (invw_post s); auto; rewrite Eb; discriminate.
    - (* LFinal *) apply (invw_post s); auto; rewrite Eb; discriminate.
    - (* LClose1 *) eapply (invw_closer s _ t _ IW); try reflexivity; try (intros ?; reflexivity); discriminate.
    - (* LClose2 *) eapply (invw_closer s _ t _ IW); try reflexivity; try (intros ?; reflexivity); discriminate.
    - (* LClose3, background() *)
      eapply (invw_closer (do_background s) _ t _ (invw_do_background s IW Hbo)); try reflexivity; try (intros ?; reflexivity); discriminate.
    - (* LClose3 *) eapply (invw_closer s _ t _ IW); try reflexivity; try (intros ?; reflexivity); discriminate.
    - (* LClose4 *)
      pose proof (Hnew t' Hfr) as Epc.
      destruct IW as [w1 w2 w3]. constructor; cbn; auto.
      + intros u Hu. unfold upd in Hu. destruct (N.eqb u t') eqn:E2; [destruct Hu as [[K|K] _]; discriminate|]. auto.
      + intros k u K. unfold upd in *. destruct (N.eqb k t) eqn:E3.
        * inversion K; subst u. rewrite N.eqb_refl. exact I.
        * destruct (N.eqb u t') eqn:E4; [exact I|eauto].
    - (* LCloseJoin *) eapply (invw_closer s _ t _ IW); try reflexivity; try (intros ?; reflexivity); discriminate.
    - (* LClose5 *) eapply (invw_closer s _ t _ IW); try reflexivity; try (intros ?; reflexivity); discriminate.
  Qed.

  (** progress needs a queue with at least one position; InvW's preservation does not *)
  Hypothesis Hcap : (0 < g_cap g)%nat.

  Definition can_progress (s : pstate) : Prop := exists l s', progress_label l = true /\ pstep g s l = Some s'.

  Lemma queue_progress s :
    InvA s -> InvB g s -> InvC s -> InvW s -> p_b s = BClean -> (0 < p_waits s)%nat ->
    q_pend (p_q s) ++ q_wr (p_q s) <> [] -> can_progress s.
  Proof.
    intros IA IB IC IW Eb Hw Hne.
    assert (Hw0 : Nat.eqb (p_waits s) 0 = false) by (apply Nat.eqb_neq; lia).
    destruct (q_wr (p_q s)) as [|sl wr'] eqn:Ewr.
    - destruct (q_pend (p_q s)) as [|x p] eqn:Ep; [contradiction|].
      destruct (p_wclosed s) eqn:Ec.
      + exists LCleanNW. eexists. split; [reflexivity|]. cbn [pstep]. rewrite Eb, Ec, Hw0. cbn. unfold q_next_write. rewrite Ep. reflexivity.
      + assert (Hrun : p_w s = WRun).
        { destruct (p_w s) eqn:E.
          - exfalso. apply (w_run s IW); [rewrite Eb; discriminate|exact E].
          - reflexivity.
          - apply (c_wdone s IC) in E. congruence. }
        assert (Hh : q_held (p_q s) = false) by (apply (b_held g s IB); intros r; rewrite Eb; discriminate).
        exists LWNext. eexists. split; [reflexivity|]. cbn [pstep]. rewrite Hrun.
        assert (wnext_blocked g (p_q s) = false) as -> by (unfold wnext_blocked; destruct (g_kind g); [rewrite Hh|]; reflexivity).
        unfold q_next_write. rewrite Ep. reflexivity.
    - exists LCleanNR. eexists. split; [reflexivity|]. cbn [pstep]. rewrite Eb, Hw0. cbn. unfold q_next_result. rewrite Ewr. reflexivity.
  Qed.

  Lemma caller_progress s t :
    InvA s -> InvB g s -> InvC s -> InvW s -> p_b s = BClean -> (0 < p_waits s)%nat ->
    q_cap (p_q s) = g_cap g -> (0 < holds (p_calls s t))%nat -> can_progress s.
  Proof.
    intros IA IB IC IW Eb Hw Hcp Hh.
    assert (Hbg : p_bg s = true) by (apply bg_of_b; [assumption|rewrite Eb; discriminate]).
    assert (Hheld : q_held (p_q s) = false) by (apply (b_held g s IB); intros r; rewrite Eb; discriminate).
    assert (Hq : In t (map s_owner (q_pend (p_q s) ++ q_wr (p_q s))) -> can_progress s).
    { intros Hin. apply queue_progress; auto. intros E. rewrite E in Hin. destruct Hin. }
    unfold holds in Hh.
    destruct (k_pc (p_calls s t)) as [| |w| | |k| |b| | | | |] eqn:Epc.
    - (* PIdle *) destruct (k_drain (p_calls s t)) eqn:Ed; cbn in Hh; try lia;
        assert (k_pc (p_calls s t) = PRet) by (apply (a_dr s IA); congruence); congruence.
    - destruct (k_drain (p_calls s t)) eqn:Ed; cbn in Hh; try lia;
        assert (k_pc (p_calls s t) = PRet) by (apply (a_dr s IA); congruence); congruence.
    - exists (LLoad t). cbn [pstep]. rewrite Epc.
      destruct (N.eqb (p_st s) 1); [eexists; split; reflexivity|].
      destruct (N.eqb (p_st s) 0); [|eexists; split; reflexivity].
      destruct (negb (Nat.eqb w 1)); [eexists; split; reflexivity|].
      destruct (needs_bg (p_calls s t)); eexists; split; reflexivity.
    - exists (LBg t). cbn [pstep]. rewrite Epc. eexists; split; reflexivity.
    - exfalso. assert (K : sync_user (p_calls s t) = true) by (unfold sync_user; now rewrite Epc).
      rewrite (a_e2 s IA Hbg t) in K. discriminate.
    - exfalso. assert (K : sync_user (p_calls s t) = true) by (unfold sync_user; now rewrite Epc).
      rewrite (a_e2 s IA Hbg t) in K. discriminate.
    - exists (LErr t). cbn [pstep]. rewrite Epc. eexists; split; reflexivity.
    - exists (LDecr t). cbn [pstep]. rewrite Epc.
      destruct (b && negb (Nat.eqb (p_waits s) 1)); eexists; split; reflexivity.
    - exists (LBgAfter t). cbn [pstep]. rewrite Epc. eexists; split; reflexivity.
    - (* PPut *)
      destruct (q_can_put (p_q s)) eqn:Ecp.
      + exists (LPut t). cbn [pstep]. rewrite Epc. unfold q_put. rewrite Ecp. eexists; split; reflexivity.
      + apply queue_progress; auto. intros E. apply app_eq_nil in E as [E1 E2].
        unfold q_can_put, q_used in Ecp. rewrite E1, E2, Hheld, Hcp in Ecp. cbn in Ecp. destruct (g_cap g); [lia|discriminate].
    - (* PWait *)
      destruct (k_comp (p_calls s t)) eqn:Ec.
      + exists (LRecv t). cbn [pstep]. rewrite Epc, Ec. eexists; split; reflexivity.
      + destruct (w_slot s IW t) as [K|(r&K&_)]; [split; [now left|exact Ec]|auto|rewrite Eb in K; discriminate].
    - exists (LFin t). cbn [pstep]. rewrite Epc. eexists; split; reflexivity.
    - (* PRet: the drainer *)
      destruct (k_drain (p_calls s t)) eqn:Ed; cbn in Hh; try lia.
      + destruct (k_comp (p_calls s t)) eqn:Ec.
        * exists (LDrainRecv t). cbn [pstep]. rewrite Ed, Ec. eexists; split; reflexivity.
        * destruct (w_slot s IW t) as [K|(r&K&_)]; [split; [now right|exact Ec]|auto|rewrite Eb in K; discriminate].
      + exists (LDrainFin t). cbn [pstep]. rewrite Ed. eexists; split; reflexivity.
  Qed.

  Theorem not_stuck s :
    InvA s -> InvB g s -> InvC s -> InvW s -> q_cap (p_q s) = g_cap g ->
    p_b s = BClean -> (0 < p_waits s)%nat -> can_progress s.
  Proof.
    intros IA IB IC IW Hcp Eb Hw.
    pose proof (a_count s IA) as Hc. unfold hsum in Hc.
    destruct (Nat.eq_dec (sumf (fun t => holds (p_calls s t)) (p_tids s)) 0) as [E0|N0].
    - assert (Hk : (0 < sumf (fun t => kholds (p_closers s t)) (p_ktids s))%nat) by lia.
      destruct (sumf_pos _ _ Hk) as (k&_&Hkk).
      destruct (p_closers s k) as [|w|bg ping|t'| |] eqn:Ek; cbn in Hkk; try lia.
      + exists (LClose2 k false). cbn [pstep]. rewrite Ek. eexists; split; reflexivity.
      + destruct bg.
        * exists (LClose3 k). cbn [pstep]. rewrite Ek. eexists; split; reflexivity.
        * destruct ping.
          -- exists (LClose4 k (fresh_id s)). cbn [pstep]. rewrite Ek, fresh_id_ok. eexists; split; reflexivity.
          -- exists (LClose3 k). cbn [pstep]. rewrite Ek. eexists; split; reflexivity.
      + pose proof (w_kwait s IW k t' Ek) as Kw.
        destruct (k_pc (p_calls s t')) eqn:Epc; try contradiction.
        * eapply (caller_progress s t'); eauto. unfold holds. rewrite Epc. lia.
        * eapply (caller_progress s t'); eauto. unfold holds. rewrite Epc. lia.
        * eapply (caller_progress s t'); eauto. unfold holds. rewrite Epc. lia.
        * exists (LCloseJoin k). cbn [pstep]. rewrite Ek, Epc. eexists; split; reflexivity.
      + exists (LClose5 k). cbn [pstep]. rewrite Ek. eexists; split; reflexivity.
    - assert (Hp : (0 < sumf (fun t => holds (p_calls s t)) (p_tids s))%nat) by lia.
      destruct (sumf_pos _ _ Hp) as (t&_&Ht). eapply (caller_progress s t); eauto.
  Qed.
  Theorem invw_run sched : forall s s', InvA s -> InvB g s -> InvC s -> InvW s -> prun g sched s = Some s' ->
    InvA s' /\ InvB g s' /\ InvC s' /\ InvW s'.
  Proof.
    intros s s' IA IB IC IW. apply (prun_inv g (fun x => InvA x /\ InvB g x /\ InvC x /\ InvW x)); [|auto].
    intros x l x' (A&B&C&W) E.
    split; [eapply inva_step|split; [eapply invb_step|split; [eapply invc_step|eapply invw_step]]]; eauto.
  Qed.
End NotStuck.
