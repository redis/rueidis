(** What every invariant of the pipe LTS is proved from: the step function characterised branch by branch
    ([Step], [pstep_inv]) so that no invariant unfolds [pstep] again; induction over schedules done once
    ([prun_inv]); what the reader's actions cannot change ([act_frame]); [do_background] as one record; sums
    over thread lists for the counting invariant. *)
From Coq Require Import List NArith ZArith Bool Arith Lia.
Require Import RV.Model.Base RV.Model.PipeQueue RV.Model.Pipe RV.Model.PipeLts.
Import ListNotations.
Open Scope N_scope.

Lemma upd_same {A} (f : N -> A) t x : upd f t x t = x.
Proof. unfold upd. now rewrite N.eqb_refl. Qed.

Lemma upd_other {A} (f : N -> A) t x u : u <> t -> upd f t x u = f u.
Proof. intros H. unfold upd. destruct (N.eqb u t) eqn:E; [apply N.eqb_eq in E; contradiction|reflexivity]. Qed.

Fixpoint sumf {A} (f : A -> nat) (l : list A) : nat :=
  match l with
  | [] => 0%nat
  | x :: r => (f x + sumf f r)%nat
  end.

Lemma sumf_ext {A} (f g : A -> nat) l : (forall x, In x l -> f x = g x) -> sumf f l = sumf g l.
Proof.
  induction l as [|x l IH]; intros H; cbn; [reflexivity|].
  rewrite (H x (or_introl eq_refl)), IH; [reflexivity|]. intros y Hy. apply H. now right.
Qed.

Lemma sumf_upd_notin {A} (h : A -> nat) (f : N -> A) t x l :
  ~ In t l -> sumf (fun u => h (upd f t x u)) l = sumf (fun u => h (f u)) l.
Proof.
  intros H. apply sumf_ext. intros u Hu. rewrite upd_other; [reflexivity|]. intros ->. contradiction.
Qed.

Lemma sumf_upd_in {A} (h : A -> nat) (f : N -> A) t x l :
  NoDup l -> In t l ->
  (sumf (fun u => h (upd f t x u)) l + h (f t) = sumf (fun u => h (f u)) l + h x)%nat.
Proof.
  induction l as [|a l IH]; intros Hnd Hin; [destruct Hin|].
  inversion Hnd as [|? ? Hna Hnd']; subst. cbn [sumf].
  destruct Hin as [->|Hin].
  - rewrite upd_same. rewrite sumf_upd_notin by assumption. lia.
  - assert (a <> t) by (intros ->; contradiction).
    rewrite upd_other by assumption. specialize (IH Hnd' Hin). lia.
Qed.

Lemma sumf_zero {A} (f : A -> nat) l : sumf f l = 0%nat -> forall x, In x l -> f x = 0%nat.
Proof.
  induction l as [|a l IH]; intros H x Hx; [destruct Hx|]. cbn in H.
  destruct Hx as [->|Hx]; [lia|]. apply IH; [lia|assumption].
Qed.

Lemma sumf_ge {A} (f : A -> nat) l x : In x l -> (f x <= sumf f l)%nat.
Proof.
  induction l as [|a l IH]; intros Hx; [destruct Hx|]. cbn.
  destruct Hx as [->|Hx]; [lia|]. specialize (IH Hx). lia.
Qed.

Lemma sumf_pos {A} (f : A -> nat) l : (0 < sumf f l)%nat -> exists x, In x l /\ (0 < f x)%nat.
Proof.
  induction l as [|a l IH]; cbn; intros H; [lia|].
  destruct (f a) eqn:E.
  - destruct (IH H) as (x&Hx&Hf). exists x. split; [now right|exact Hf].
  - exists a. split; [now left|lia].
Qed.

Lemma filter_atmost1 {A} (P : A -> bool) (l : list A) :
  NoDup l -> (forall x y, In x l -> In y l -> P x = true -> P y = true -> x = y) ->
  (List.length (filter P l) <= 1)%nat.
Proof.
  induction l as [|a l IH]; intros Hnd H; cbn; [lia|].
  inversion Hnd as [|? ? Hna Hnd']; subst.
  destruct (P a) eqn:Pa.
  - cbn. assert (filter P l = []) as ->; [|cbn; lia].
    destruct (filter P l) as [|b r] eqn:E; [reflexivity|].
    assert (In b (filter P l)) as Hb by (rewrite E; now left).
    apply filter_In in Hb as [Hb1 Hb2].
    assert (a = b) by (apply H; [now left|now right|assumption|assumption]). subst. contradiction.
  - apply IH; [assumption|]. intros x y Hx Hy. apply H; now right.
Qed.

Lemma filter_nil {A} (P : A -> bool) l : (forall x, In x l -> P x = false) -> filter P l = [].
Proof.
  induction l as [|a l IH]; intros H; cbn; [reflexivity|].
  rewrite (H a (or_introl eq_refl)). apply IH. intros x Hx. apply H. now right.
Qed.

(** sum of the counts held on the waits counter *)
Definition hsum (s : pstate) : nat :=
  (sumf (fun t => holds (p_calls s t)) (p_tids s) + sumf (fun t => kholds (p_closers s t)) (p_ktids s))%nat.

(** what the reader's actions leave unchanged: everything but the queue, the delivery log and the
    results / completion flags of the call records *)
Definition act_frame (s s' : pstate) : Prop :=
  exists q' calls' dlog',
    s' = mkP (p_st s) (p_bg s) (p_waits s) (p_err s) q' (p_w s) (p_wbuf s) (p_wclosed s) (p_conn s) (p_c2s s) (p_s2c s)
             (p_b s) (p_cache_closed s) calls' (p_tids s) (p_closers s) (p_ktids s) (p_wlog s) dlog' (p_sent s) /\
    forall t, exists r b, calls' t = with_comp (with_res (p_calls s t) r) b.

Lemma crec_eta c : c = with_comp (with_res c (k_res c)) (k_comp c).
Proof. destruct c; reflexivity. Qed.

Lemma act_frame_refl s : act_frame s s.
Proof.
  exists (p_q s), (p_calls s), (p_dlog s). split; [destruct s; reflexivity|].
  intros t. do 2 eexists. apply crec_eta.
Qed.

Lemma act_frame_trans s1 s2 s3 : act_frame s1 s2 -> act_frame s2 s3 -> act_frame s1 s3.
Proof.
  intros (q&cs&d&->&K1) (q'&cs'&d'&->&K2). do 3 eexists. split; [reflexivity|].
  intros t. destruct (K2 t) as (r'&b'&->). cbn. destruct (K1 t) as (r&b&->). do 2 eexists. reflexivity.
Qed.

Lemma upd_frame (f : N -> crec) o r b t : exists r' b', upd f o (with_comp (with_res (f o) r) b) t = with_comp (with_res (f t) r') b'.
Proof.
  unfold upd. destruct (N.eqb t o) eqn:E; [apply N.eqb_eq in E; subst; eauto|]. do 2 eexists. apply crec_eta.
Qed.

Lemma apply_act_frame o m s a : act_frame s (apply_act o m s a).
Proof.
  destruct a as [k v|got|i c|i c|i mg|mg|w|]; cbn [apply_act]; try apply act_frame_refl.
  - destruct got; [|apply act_frame_refl].
    destruct (q_next_result (p_q s)) as [[sl q']|]; [|apply act_frame_refl].
    do 3 eexists. split; [reflexivity|]. intros t. do 2 eexists. apply crec_eta.
  - do 3 eexists. split; [reflexivity|]. intros t.
    apply (upd_frame (p_calls s) o (k_res (p_calls s o) ++ [RMsg mg]) (k_comp (p_calls s o)) t).
  - destruct m; do 3 eexists; (split; [reflexivity|]); intros t.
    + apply (upd_frame (p_calls s) o (k_res (p_calls s o)) true t).
    + apply (upd_frame (p_calls s) o (k_res (p_calls s o) ++ [RMsg mg]) true t).
Qed.

Lemma fold_apply_frame o m acts : forall s, act_frame s (fold_left (apply_act o m) acts s).
Proof.
  induction acts as [|a acts IH]; intros s; cbn [fold_left]; [apply act_frame_refl|].
  eapply act_frame_trans; [apply apply_act_frame|apply IH].
Qed.

Lemma act_frame_pc s s' : act_frame s s' ->
  forall t, k_pc (p_calls s' t) = k_pc (p_calls s t) /\ k_drain (p_calls s' t) = k_drain (p_calls s t).
Proof. intros (q'&cs&dl&->&K) t. cbn. destruct (K t) as (r&b&->). auto. Qed.

Lemma prun_inv g (P : pstate -> Prop) :
  (forall s l s', P s -> pstep g s l = Some s' -> P s') ->
  forall sched s s', P s -> prun g sched s = Some s' -> P s'.
Proof.
  intros Hstep. induction sched as [|l r IH]; intros s s' I H; cbn [prun] in H.
  - inversion H; subst; assumption.
  - destruct (pstep g s l) as [s1|] eqn:E; [|discriminate]. exact (IH s1 s' (Hstep s l s1 I E) H).
Qed.

Lemma do_background_eq s :
  do_background s =
  mkP (if N.eqb (p_st s) 0 then 1 else p_st s) true (p_waits s) (p_err s) (p_q s) (if p_bg s then p_w s else WRun)
      (p_wbuf s) (p_wclosed s) (p_conn s) (p_c2s s) (p_s2c s) (if p_bg s then p_b s else BRead r_init)
      (p_cache_closed s) (p_calls s) (p_tids s) (p_closers s) (p_ktids s) (p_wlog s) (p_dlog s) (p_sent s).
Proof. unfold do_background. destruct (p_bg s); reflexivity. Qed.

Lemma prun_app g a : forall b s s1 s2, prun g a s = Some s1 -> prun g b s1 = Some s2 -> prun g (a ++ b) s = Some s2.
Proof.
  induction a as [|l r IH]; intros b s s1 s2 H1 H2; cbn in *.
  - inversion H1; subst. exact H2.
  - destruct (pstep g s l); [|discriminate]. eapply IH; eauto.
Qed.

Lemma calls_do_background s : p_calls (do_background s) = p_calls s.
Proof. rewrite do_background_eq. reflexivity. Qed.

Lemma do_background_set_call s t c : set_call (do_background s) t c = do_background (set_call s t c).
Proof. unfold do_background; cbn. destruct (p_bg s); reflexivity. Qed.

Lemma do_background_set_closer s t k : set_closer (do_background s) t k = do_background (set_closer s t k).
Proof. unfold do_background; cbn. destruct (p_bg s); reflexivity. Qed.

Lemma fresh_notin s t : fresh s t = true -> ~ In t (p_tids s) /\ ~ In t (p_ktids s).
Proof.
  assert (K : forall l, negb (existsb (N.eqb t) l) = true -> ~ In t l).
  { intros l G Hin. apply negb_true_iff, not_true_iff_false in G. apply G.
    apply existsb_exists. exists t. split; [assumption|apply N.eqb_refl]. }
  unfold fresh. intros G. apply andb_true_iff in G as [G1 G2]. auto.
Qed.

(** * The step function, branch by branch

    [Step g s l s'] has one constructor for every way in which [pstep g s l] returns a state; the guards of
    the branch are its hypotheses and [s'] is written as in the model.  [c] is always the record of the
    acting caller.  The invariants are proved by case analysis on [Step], never by unfolding [pstep]. *)

(** where [LLoad] sends a caller that got [w] from incrWaits *)
Inductive load_to (s : pstate) (c : crec) (w : nat) : pc -> Prop :=
| LdPut : p_st s = 1 \/ (p_st s = 0 /\ w <> 1%nat) -> load_to s c w PPut
| LdBg : p_st s = 0 -> w = 1%nat -> needs_bg c = true -> load_to s c w PBg
| LdSync : p_st s = 0 -> w = 1%nat -> needs_bg c = false -> load_to s c w PSyncW
| LdErr : p_st s <> 0 -> p_st s <> 1 -> load_to s c w PErr.

(** breaks a hypothesis [f ... = Some s'] about a step function into its enabled branches; used for
    [pstep_inv] below and for the small step function of the watchdog *)
Ltac break_step H :=
  repeat match type of H with
         | (if ?x then _ else _) = Some _ =>
           let E := fresh "E" in destruct x eqn:E; try discriminate H
         | (match ?x with _ => _ end) = Some _ =>
           let E := fresh "E" in destruct x eqn:E; try discriminate H
         | (let '(_, _) := ?x in _) = Some _ =>
           let E := fresh "E" in destruct x eqn:E
         end.

Section StepCases.
  Variable g : config.

  Inductive Step (s : pstate) : label -> pstate -> Prop :=
  | StCall t cmds multi ck
      (Hfr : fresh s t = true) (Hne : cmds <> []) (Hmu : multi = true \/ List.length cmds = 1%nat)
      (Hwf : forallb wf_cmd cmds = true) :
      Step s (LCall t cmds multi ck) (add_tid (set_call s t (mkC cmds multi ck true false false PIncr [] false None DNone)) t)
  | StCtxDone t c (Ec : p_calls s t = c)
      (Hctx : k_ctx c <> CtxBg) (Hpc : k_pc c <> PIdle) (Hdone : k_done c = false) :
      Step s (LCtxDone t) (set_call s t (with_done c))
  | StIncrDone t c (Ec : p_calls s t = c) (Epc : k_pc c = PIncr) (Hdone : k_done c = true) :
      Step s (LIncr t)
           (set_call s t (mkC (k_cmds c) (k_multi c) (k_ctx c) (k_ctxput c) true true PRet [] false
                              (Some (errs_for c ECtx)) DNone))
  | StIncr t c (Ec : p_calls s t = c) (Epc : k_pc c = PIncr) (Hdone : k_done c = false) :
      Step s (LIncr t) (set_call (set_waits s (S (p_waits s))) t (with_pc c (PLoad (S (p_waits s)))))
  | StLoad t c w x (Ec : p_calls s t = c) (Epc : k_pc c = PLoad w) (Hx : load_to s c w x) :
      Step s (LLoad t) (set_call s t (with_pc c x))
  | StBg t c (Ec : p_calls s t = c) (Epc : k_pc c = PBg) :
      Step s (LBg t) (set_call (do_background s) t (with_pc c PPut))
  | StSyncW t c (Ec : p_calls s t = c) (Epc : k_pc c = PSyncW) (Hconn : p_conn s = true) :
      Step s (LSyncW t)
           (set_sent (set_call (set_wire s (p_c2s s ++ map witem_of (k_cmds c)) (p_s2c s)) t
                               (with_pc c (PSyncR (List.length (k_cmds c))))) (t :: p_sent s))
  | StSyncRPush t c k f r (Ec : p_calls s t = c) (Epc : k_pc c = PSyncR (S k)) (Es2c : p_s2c s = f :: r)
      (Hty : N.eqb (m_typ f) t_push = true) :
      Step s (LSyncR t) (set_wire s (p_c2s s) r)
  | StSyncR t c k f r (Ec : p_calls s t = c) (Epc : k_pc c = PSyncR (S k)) (Es2c : p_s2c s = f :: r)
      (Hty : N.eqb (m_typ f) t_push = false) :
      Step s (LSyncR t)
           (set_call (set_wire s (p_c2s s) r) t
                     (with_pc (with_res c (k_res c ++ [RMsg f])) (match k with O => PDecr true | _ => PSyncR k end)))
  | StSyncFail t ctxerr c (Ec : p_calls s t = c) (Hsy : sync_user c = true)
      (Hcause : ctxerr = true -> k_ctx c = CtxDeadline /\ k_done c = true) :
      Step s (LSyncFail t ctxerr)
           (set_call (do_background (set_wire (latch s (if ctxerr then ECtx else EConn) true) [] [])) t
                     (with_pc (with_res c (errs_for c (if ctxerr then ECtx else EConn))) (PDecr true)))
  | StErr t c (Ec : p_calls s t = c) (Epc : k_pc c = PErr) :
      Step s (LErr t) (set_call s t (with_pc (with_res c (errs_for c (the_err s))) (PDecr false)))
  | StDecrBg t c (Ec : p_calls s t = c) (Epc : k_pc c = PDecr true) (Hw : p_waits s <> 1%nat) :
      Step s (LDecr t) (set_call s t (with_pc c PBgAfter))
  | StDecr t c st0 (Ec : p_calls s t = c) (Epc : k_pc c = PDecr st0) (Hw : st0 = false \/ p_waits s = 1%nat) :
      Step s (LDecr t) (set_call (set_waits s (pred (p_waits s))) t (with_ret c (k_res c)))
  | StBgAfter t c (Ec : p_calls s t = c) (Epc : k_pc c = PBgAfter) :
      Step s (LBgAfter t) (set_call (do_background s) t (with_pc c (PDecr false)))
  | StPut t c q' (Ec : p_calls s t = c) (Epc : k_pc c = PPut) (Eq : q_put (p_q s) (slot_of t c) = Some q') :
      Step s (LPut t) (set_call (set_q s q') t (with_pc c PWait))
  | StPutFail t c (Ec : p_calls s t = c) (Epc : k_pc c = PPut) (Hk : g_kind g = Flow)
      (Hdone : k_done c = true) (Hcp : k_ctxput c = true) :
      Step s (LPutFail t) (set_call (set_waits s (pred (p_waits s))) t (with_ret c (errs_for c ECtx)))
  | StRecv t c (Ec : p_calls s t = c) (Epc : k_pc c = PWait) (Hcomp : k_comp c = true) :
      Step s (LRecv t) (set_call s t (with_pc (with_comp c false) PGot))
  | StAbort t c (Ec : p_calls s t = c) (Epc : k_pc c = PWait) (Hdone : k_done c = true) :
      Step s (LAbort t) (set_call s t (with_drain (with_ret c (errs_for c ECtx)) DWait))
  | StFin t c (Ec : p_calls s t = c) (Epc : k_pc c = PGot) :
      Step s (LFin t) (set_call (set_waits s (pred (p_waits s))) t (with_ret c (k_res c)))
  | StDrainRecv t c (Ec : p_calls s t = c) (Edr : k_drain c = DWait) (Hcomp : k_comp c = true) :
      Step s (LDrainRecv t) (set_call s t (with_drain (with_comp c false) DGot))
  | StDrainFin t c (Ec : p_calls s t = c) (Edr : k_drain c = DGot) :
      Step s (LDrainFin t) (set_call (set_waits s (pred (p_waits s))) t (with_drain c DDone))
  | StWNext sl q' (Ew : p_w s = WRun) (Hnb : wnext_blocked g (p_q s) = false)
      (Eq : q_next_write (p_q s) = Some (sl, q')) :
      Step s LWNext
           (let s1 := set_wbuf (set_q s q') (p_wbuf s ++ map witem_of (s_cmds sl)) in
            mkP (p_st s1) (p_bg s1) (p_waits s1) (p_err s1) (p_q s1) (p_w s1) (p_wbuf s1) (p_wclosed s1) (p_conn s1)
                (p_c2s s1) (p_s2c s1) (p_b s1) (p_cache_closed s1) (p_calls s1) (p_tids s1) (p_closers s1) (p_ktids s1)
                (p_wlog s1 ++ [sl]) (p_dlog s1) (s_owner sl :: p_sent s1))
  | StWFlush (Ew : p_w s = WRun) (Hconn : p_conn s = true) (Hbuf : p_wbuf s <> []) :
      Step s LWFlush (set_wbuf (set_wire s (p_c2s s ++ p_wbuf s) (p_s2c s)) [])
  | StWExit (Ew : p_w s = WRun) (Hconn : p_conn s = false) (Hbuf : p_wbuf s <> []) :
      Step s LWExit
           (let s1 := do_exit s EConn in
            mkP (p_st s1) (p_bg s1) (p_waits s1) (p_err s1) (p_q s1) WDone (p_wbuf s1) true (p_conn s1) (p_c2s s1)
                (p_s2c s1) (p_b s1) (p_cache_closed s1) (p_calls s1) (p_tids s1) (p_closers s1) (p_ktids s1)
                (p_wlog s1) (p_dlog s1) (p_sent s1))
  | StSrv w r (Ec2s : p_c2s s = w :: r) (Hconn : p_conn s = true) :
      Step s LSrv (set_wire s r (p_s2c s ++ frames_of (g_srv g) w))
  | StSrvPush m (Hconn : p_conn s = true) (Hfree : free_push (g_r2ps g) m = true)
      (Hty : N.eqb (m_typ m) t_push = true \/ p_bg s = true) :
      Step s (LSrvPush m) (set_wire s (p_c2s s) (p_s2c s ++ [m]))
  | StRStep r f rest r' acts (Eb : p_b s = BRead r) (Es2c : p_s2c s = f :: rest)
      (Ers : reader_step (g_r2ps g) (g_ver g) (hd_error (q_wr (p_q s))) r f = (r', acts))
      (Hbad : existsb is_bad acts = false) :
      Step s LRStep
           (set_b (fold_left (apply_act (r_owner r') (r_resps r')) acts (set_wire s (p_c2s s) rest)) (BRead r'))
  | StRFail r idx complete (Eb : p_b s = BRead r) (Ere : reader_exit r = (idx, complete)) :
      Step s LRFail
           (set_b (do_exit (if complete then
                              let c := p_calls s (r_owner r) in
                              set_q (set_call s (r_owner r)
                                              (with_comp (with_res c (k_res c ++ map (fun _ => RErr (the_err s))
                                                            (if r_resps r then idx else [0%nat]))) true))
                                    (q_finish (p_q s))
                            else s) (the_err s)) BPost)
  | StPostSkip (Eb : p_b s = BPost) (Hwc : p_wclosed s = true) :
      Step s LPostSkip
           (let s1 := set_b s BClean in
            mkP (p_st s1) (p_bg s1) (p_waits s1) (p_err s1) (p_q s1) (p_w s1) (p_wbuf s1) (p_wclosed s1) (p_conn s1)
                (p_c2s s1) (p_s2c s1) (p_b s1) true (p_calls s1) (p_tids s1) (p_closers s1) (p_ktids s1) (p_wlog s1)
                (p_dlog s1) (p_sent s1))
  | StPostPing t' (Eb : p_b s = BPost) (Hwc : p_wclosed s = false) (Hfr : fresh s t' = true) :
      Step s (LPostPing t')
           (let s1 := add_tid (set_call (set_waits (set_b s BClean) (S (p_waits s))) t' ping_call) t' in
            mkP (p_st s1) (p_bg s1) (p_waits s1) (p_err s1) (p_q s1) (p_w s1) (p_wbuf s1) (p_wclosed s1) (p_conn s1)
                (p_c2s s1) (p_s2c s1) (p_b s1) true (p_calls s1) (p_tids s1) (p_closers s1) (p_ktids s1) (p_wlog s1)
                (p_dlog s1) (p_sent s1))
  | StCleanNW sl q' (Eb : p_b s = BClean) (Hwc : p_wclosed s = true) (Hw : p_waits s <> 0%nat)
      (Eq : q_next_write (p_q s) = Some (sl, q')) :
      Step s LCleanNW (set_q s q')
  | StCleanNR sl q' (Eb : p_b s = BClean) (Hw : p_waits s <> 0%nat) (Eq : q_next_result (p_q s) = Some (sl, q')) :
      Step s LCleanNR
           (let c := p_calls s (s_owner sl) in
            set_q (set_call s (s_owner sl) (with_comp (with_res c (errs_for c (the_err s))) true)) (q_finish q'))
  | StCleanSpin (Eb : p_b s = BClean) (Hw : p_waits s <> 0%nat) : Step s LCleanSpin s
  | StCleanExit (Eb : p_b s = BClean) (Hw : p_waits s = 0%nat) : Step s LCleanExit (set_b s BWaitClose)
  | StFinal (Eb : p_b s = BWaitClose) (Hwc : p_wclosed s = true) :
      Step s LFinal
           (let s1 := set_b s BDone in
            mkP 4 (p_bg s1) (p_waits s1) (p_err s1) (p_q s1) (p_w s1) (p_wbuf s1) (p_wclosed s1) (p_conn s1) (p_c2s s1)
                (p_s2c s1) (p_b s1) (p_cache_closed s1) (p_calls s1) (p_tids s1) (p_closers s1) (p_ktids s1) (p_wlog s1)
                (p_dlog s1) (p_sent s1))
  | StFail (Hconn : p_conn s = true) :
      Step s LFail
           (mkP (p_st s) (p_bg s) (p_waits s) (p_err s) (p_q s) (p_w s) (p_wbuf s) (p_wclosed s) false (p_c2s s) (p_s2c s)
                (p_b s) (p_cache_closed s) (p_calls s) (p_tids s) (p_closers s) (p_ktids s) (p_wlog s) (p_dlog s) (p_sent s))
  | StExtExit : Step s LExtExit (do_exit s EWatchdog)
  | StClose1 t (Hfr : fresh s t = true) :
      Step s (LClose1 t)
           (let s1 := latch s EClosing false in
            add_ktid (set_closer (set_waits s1 (S (p_waits s1))) t (K1 (S (p_waits s1)))) t)
  | StClose2 t block1 w (Ek : p_closers s t = K1 w) :
      Step s (LClose2 t block1)
           (let stopping1 := N.eqb (p_st s) 0 in
            let stopping2 := N.eqb (p_st s) 1 in
            set_closer
              (mkP (if stopping1 || stopping2 then 2 else p_st s) (p_bg s) (p_waits s) (p_err s) (p_q s) (p_w s) (p_wbuf s)
                   (p_wclosed s) (p_conn s) (p_c2s s) (p_s2c s) (p_b s) (p_cache_closed s) (p_calls s) (p_tids s)
                   (p_closers s) (p_ktids s) (p_wlog s) (p_dlog s) (p_sent s))
              t (K2 (stopping1 && Nat.eqb w 1) (block1 && (stopping1 || stopping2))))
  | StClose3Bg t ping (Ek : p_closers s t = K2 true ping) :
      Step s (LClose3 t) (set_closer (do_background s) t (K2 false ping))
  | StClose3 t (Ek : p_closers s t = K2 false false) : Step s (LClose3 t) (set_closer s t K5)
  | StClose4 t t' (Ek : p_closers s t = K2 false true) (Hfr : fresh s t' = true) :
      Step s (LClose4 t t') (set_closer (add_tid (set_call (set_waits s (S (p_waits s))) t' ping_call) t') t (KWait t'))
  | StCloseJoin t t' (Ek : p_closers s t = KWait t') (Eret : k_pc (p_calls s t') = PRet) :
      Step s (LCloseJoin t) (set_closer s t K5)
  | StClose5 t (Ek : p_closers s t = K5) :
      Step s (LClose5 t)
           (let s1 := set_closer (set_waits s (pred (p_waits s))) t KDone in
            mkP (p_st s1) (p_bg s1) (p_waits s1) (p_err s1) (p_q s1) (p_w s1) (p_wbuf s1) (p_wclosed s1) false (p_c2s s1)
                (p_s2c s1) (p_b s1) (p_cache_closed s1) (p_calls s1) (p_tids s1) (p_closers s1) (p_ktids s1) (p_wlog s1)
                (p_dlog s1) (p_sent s1)).

  Lemma pstep_inv s l s' : pstep g s l = Some s' -> Step s l s'.
  Proof.
    destruct l; cbn [pstep]; intros H; break_step H; injection H as <-;
      repeat match goal with
             | E : _ && _ = true |- _ => apply andb_true_iff in E as [? ?]
             | E : negb _ = true |- _ => apply negb_true_iff in E
             | E : negb _ = false |- _ => apply negb_false_iff in E
             | E : Nat.eqb _ _ = true |- _ => apply Nat.eqb_eq in E
             | E : Nat.eqb _ _ = false |- _ => apply Nat.eqb_neq in E
             end;
      try (econstructor; eauto; congruence).
    - (* LCall *) constructor; auto.
      + destruct cmds; discriminate.
      + destruct multi; [now left|right; now apply Nat.eqb_eq].
    - (* LLoad *) apply N.eqb_eq in E0. econstructor; eauto. constructor. auto.
    - apply N.eqb_eq in E1. econstructor; eauto. constructor. auto.
    - apply N.eqb_eq in E1. econstructor; eauto. now constructor.
    - apply N.eqb_eq in E1. econstructor; eauto. now constructor.
    - apply N.eqb_neq in E0, E1. econstructor; eauto. now constructor.
    - (* LSyncR *) destruct n as [|n]; [apply (StSyncR s t _ 0%nat m l)|apply (StSyncR s t _ (S n) m l)]; auto.
    - (* LSyncFail *) constructor; auto. intros ->. destruct (k_ctx (p_calls s t)); auto; discriminate.
    - (* LDecr *) econstructor; eauto. destruct st0; [right|now left]. now apply negb_false_iff, Nat.eqb_eq in E0.
    - (* LWFlush *) constructor; auto. destruct (p_wbuf s); [discriminate|discriminate].
    - (* LWExit *) constructor; auto. destruct (p_wbuf s); [discriminate|discriminate].
    - (* LSrvPush *) constructor; auto. destruct (N.eqb (m_typ m) t_push); auto.
  Qed.
End StepCases.
