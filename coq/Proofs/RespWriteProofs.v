(** C14: [dec] prints the canonical decimal numeral ([dval] reads it back); the independent server-side
    parser inverts [write_cmd] (parse_cmd_write_cmd), hence framing of consecutive commands and
    prefix-freeness. *)
From Coq Require Import List NArith Bool Lia Arith ZifyN ZifyNat ZifyBool.
Require Import RV.Model.Base RV.Model.RespWrite.
Import ListNotations.
Open Scope N_scope.

(** value of a digit string continued from accumulator [a] (what any decimal reader computes) *)
Fixpoint dval (ds : bytes) (a : N) : N :=
  match ds with
  | [] => a
  | d :: r => dval r (a * 10 + (d - 48))
  end.

Lemma dval_app ds1 ds2 a : dval (ds1 ++ ds2) a = dval ds2 (dval ds1 a).
Proof. revert a; induction ds1 as [|d r IH]; intros a; cbn [dval app]; [reflexivity|apply IH]. Qed.

Lemma is_digit_spec b : is_digit b = true <-> 48 <= b <= 57.
Proof. unfold is_digit. lia. Qed.

Lemma size_nat_gt p : N.pos p < 2 ^ N.of_nat (Pos.size_nat p).
Proof.
  induction p as [p IH|p IH|]; cbn [Pos.size_nat].
  - rewrite Nat2N.inj_succ, N.pow_succ_r'. lia.
  - rewrite Nat2N.inj_succ, N.pow_succ_r'. lia.
  - cbn. lia.
Qed.

Lemma N_size_nat_gt n : n < 2 ^ N.of_nat (N.size_nat n).
Proof. destruct n as [|p]; [cbn; lia|apply size_nat_gt]. Qed.

Lemma dec_aux_digits : forall fuel n acc,
  Forall (fun d => is_digit d = true) acc -> Forall (fun d => is_digit d = true) (dec_aux fuel n acc).
Proof.
  induction fuel as [|f IH]; intros n acc Ha; cbn [dec_aux]; [exact Ha|].
  assert (Hd : is_digit (48 + n mod 10) = true).
  { apply is_digit_spec. pose proof (N.mod_lt n 10 ltac:(lia)). lia. }
  destruct (n / 10 =? 0); [constructor; assumption|apply IH; constructor; assumption].
Qed.

Lemma dec_aux_val : forall fuel n acc, n < 2 ^ N.of_nat fuel ->
  dval (dec_aux fuel n acc) 0 = dval acc n.
Proof.
  induction fuel as [|f IH]; intros n acc Hn.
  - cbn in Hn. assert (n = 0) by lia. subst. reflexivity.
  - cbn [dec_aux].
    pose proof (N.div_mod n 10 ltac:(lia)) as Hdm.
    pose proof (N.mod_lt n 10 ltac:(lia)) as Hm.
    destruct (N.eqb_spec (n / 10) 0) as [Hz|Hnz].
    + cbn [dval]. f_equal. lia.
    + rewrite IH.
      * cbn [dval]. f_equal. lia.
      * rewrite Nat2N.inj_succ, N.pow_succ_r' in Hn.
        apply N.div_lt_upper_bound; lia.
Qed.

Lemma dec_aux_nonempty fuel n acc : dec_aux (S fuel) n acc <> [].
Proof.
  revert n acc; induction fuel as [|f IH]; intros n acc; cbn [dec_aux].
  - destruct (n / 10 =? 0); discriminate.
  - destruct (n / 10 =? 0); [discriminate|]. apply IH.
Qed.

Lemma dec_digits n : Forall (fun d => is_digit d = true) (dec n).
Proof. apply dec_aux_digits. constructor. Qed.

Lemma dec_val n : dval (dec n) 0 = n.
Proof.
  unfold dec. rewrite dec_aux_val; [reflexivity|].
  rewrite Nat2N.inj_succ, N.pow_succ_r'. pose proof (N_size_nat_gt n). lia.
Qed.

Lemma dec_nonempty n : dec n <> [].
Proof. apply dec_aux_nonempty. Qed.

Lemma dec_small n : n < 10 -> dec n = [48 + n].
Proof.
  intros H. unfold dec. cbn [dec_aux].
  rewrite N.div_small by lia. cbn [N.eqb]. rewrite N.mod_small by lia. reflexivity.
Qed.

(** at most [fuel] digits are printed *)
Lemma dec_aux_length_bound : forall fuel n acc, (length (dec_aux fuel n acc) <= fuel + length acc)%nat.
Proof.
  induction fuel as [|f IH]; intros n acc; cbn [dec_aux]; [lia|].
  destruct (n / 10 =? 0); [cbn [length]; lia|].
  specialize (IH (n / 10) ((48 + n mod 10) :: acc)). cbn [length] in IH. lia.
Qed.

Lemma parse_num_aux_digits : forall ds r a seen, Forall (fun d => is_digit d = true) ds ->
  parse_num_aux (ds ++ r) a seen = parse_num_aux r (dval ds a) (seen || negb (match ds with [] => true | _ => false end)).
Proof.
  induction ds as [|d ds IH]; intros r a seen Hd.
  - cbn. now rewrite orb_false_r.
  - inversion Hd as [|? ? Hd1 Hd2]; subst.
    cbn [app parse_num_aux dval]. rewrite Hd1. rewrite IH by assumption.
    f_equal. cbn [negb]. rewrite orb_true_r. destruct ds; cbn; now rewrite ?orb_true_r.
Qed.

Lemma parse_num_dec n rest : parse_num (dec n ++ crlf ++ rest) = Some (n, rest).
Proof.
  unfold parse_num. rewrite parse_num_aux_digits by apply dec_digits.
  rewrite dec_val. pose proof (dec_nonempty n) as Hne.
  destruct (dec n) as [|d ds]; [congruence|]. reflexivity.
Qed.

Lemma take_exact_app (s r : bytes) : take_exact (length s) (s ++ r) = Some (s, r).
Proof. induction s as [|b s IH]; cbn [length take_exact app]; [reflexivity|now rewrite IH]. Qed.

Lemma parse_bulk_write_b s rest : parse_bulk (write_b 36 s ++ rest) = Some (s, rest).
Proof.
  unfold write_b, write_n, parse_bulk. cbn [app].
  rewrite <- !app_assoc. rewrite parse_num_dec.
  unfold blen. rewrite Nat2N.id. rewrite take_exact_app. reflexivity.
Qed.

Lemma parse_bulks_write : forall argv rest,
  parse_bulks (length argv) (flat_map (write_b 36) argv ++ rest) = Some (argv, rest).
Proof.
  induction argv as [|a argv IH]; intros rest; cbn [length parse_bulks flat_map]; [reflexivity|].
  rewrite <- app_assoc, parse_bulk_write_b, IH. reflexivity.
Qed.

Lemma parse_cmd_write_cmd argv rest : parse_cmd (write_cmd argv ++ rest) = Some (argv, rest).
Proof.
  unfold write_cmd, write_n, parse_cmd. cbn [app].
  rewrite <- !app_assoc. rewrite parse_num_dec. rewrite Nat2N.id. apply parse_bulks_write.
Qed.

Lemma write_cmd_nonempty argv : exists b r, write_cmd argv = b :: r.
Proof. unfold write_cmd, write_n. cbn [app]. eauto. Qed.

Lemma parse_cmds_concat : forall cs fuel, (length cs < fuel)%nat ->
  parse_cmds fuel (concat (map write_cmd cs)) = Some cs.
Proof.
  induction cs as [|c cs IH]; intros fuel Hf.
  - destruct fuel; reflexivity.
  - destruct fuel as [|f]; [cbn in Hf; lia|].
    cbn [map concat].
    destruct (write_cmd_nonempty c) as (b & r & E).
    remember (write_cmd c ++ concat (map write_cmd cs)) as l eqn:El.
    assert (Hl : exists b' r', l = b' :: r') by (subst l; rewrite E; cbn; eauto).
    destruct Hl as (b' & r' & El'). rewrite El'. cbn [parse_cmds]. rewrite <- El', El.
    rewrite parse_cmd_write_cmd. rewrite IH by (cbn in Hf; lia). reflexivity.
Qed.

Lemma write_cmd_length_pos argv : (1 <= length (write_cmd argv))%nat.
Proof. destruct (write_cmd_nonempty argv) as (b & r & E). rewrite E. cbn. lia. Qed.

Lemma concat_write_length cs : (length cs <= length (concat (map write_cmd cs)))%nat.
Proof.
  induction cs as [|c cs IH]; cbn [map concat length]; [lia|].
  rewrite app_length. pose proof (write_cmd_length_pos c). lia.
Qed.

Lemma parse_stream_concat cs : parse_stream (concat (map write_cmd cs)) = Some cs.
Proof. unfold parse_stream. apply parse_cmds_concat. pose proof (concat_write_length cs). lia. Qed.

(** consequences: the encoding is injective and prefix-free (a frame never swallows or lends bytes) *)
Lemma write_cmd_prefix_free a b ra rb : write_cmd a ++ ra = write_cmd b ++ rb -> a = b /\ ra = rb.
Proof.
  intros E. pose proof (parse_cmd_write_cmd a ra) as Ha. rewrite E, parse_cmd_write_cmd in Ha.
  inversion Ha. auto.
Qed.

Lemma write_cmd_injective a b : write_cmd a = write_cmd b -> a = b.
Proof.
  intros E. apply (write_cmd_prefix_free a b [] []). now rewrite E.
Qed.

(** exact size of a frame: header digits + per argument header, payload and CRLF *)
Lemma write_cmd_length argv :
  length (write_cmd argv) =
  (3 + length (dec (N.of_nat (length argv))) +
   fold_right (fun a acc => 5 + length (dec (blen a)) + length a + acc) 0 argv)%nat.
Proof.
  unfold write_cmd, write_n. cbn [app length]. rewrite !app_length. cbn [crlf length].
  assert (H : length (flat_map (write_b 36) argv) =
              fold_right (fun a acc => 5 + length (dec (blen a)) + length a + acc)%nat 0%nat argv).
  { induction argv as [|a argv IH]; cbn [flat_map fold_right length]; [reflexivity|].
    rewrite app_length, IH. unfold write_b, write_n. cbn [app length]. rewrite !app_length. cbn [crlf length]. lia. }
  rewrite H. lia.
Qed.
