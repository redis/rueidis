(** C15: no accessor of Model/Accessors.v panics, on any reply tree.  [np r] is [r <> RPanic]; the database [np] holds
    one rule per combinator ([np_bind], [np_if], [np_opt], [np_mapM]; [np_idx] needs the length fact that a surrounding
    [np_if_leb] / [np_if_ltb] supplies), so the proof for an accessor follows its syntax tree; only the loops need induction. *)
From Coq Require Import String List NArith ZArith Bool Lia Arith.
Require Import RV.Model.Base RV.Model.AccBase RV.Model.Accessors RV.Proofs.BinaryProofs.
Require Import RV.Proofs.ListFacts.
Import ListNotations.
Open Scope N_scope.

Definition np {A} (r : res A) : Prop := r <> RPanic.

Lemma np_ok {A} (a : A) : np (ROk a). Proof. discriminate. Qed.
Lemma np_err {A} (e : aerr) : np (@RErr A e). Proof. discriminate. Qed.

Lemma np_if {A} (c : bool) (x y : res A) : np x -> np y -> np (if c then x else y).
Proof. now destruct c. Qed.
Lemma np_opt {A B} (o : option A) (f : A -> res B) (y : res B) :
  (forall a, np (f a)) -> np y -> np (match o with Some a => f a | None => y end).
Proof. now destruct o. Qed.
#[export] Hint Resolve np_ok np_err np_if np_opt : np.

Lemma np_bind {A B} (r : res A) (f : A -> res B) : np r -> (forall a, r = ROk a -> np (f a)) -> np (rbind r f).
Proof. unfold np. destruct r; cbn; intros H1 H2; [now apply H2|discriminate|contradiction]. Qed.

Lemma np_mapM {A B} (f : A -> res B) (l : list A) : (forall x, In x l -> np (f x)) -> np (mapM f l).
Proof.
  induction l as [|x r IH]; intro H; cbn [mapM]; [apply np_ok|].
  apply np_bind; [apply H; now left|]. intros y _. apply np_bind; [apply IH; intros; apply H; now right|].
  intros; apply np_ok.
Qed.

Lemma np_idx {A} (l : list A) i : (i < length l)%nat -> np (idx l i).
Proof. intro H. unfold idx. destruct (nth_error l i) eqn:E; [apply np_ok|]. apply nth_error_None in E. lia. Qed.

Lemma idx_panic {A} (l : list A) i : idx l i = RPanic <-> (length l <= i)%nat.
Proof. unfold idx. rewrite <- nth_error_None. now destruct (nth_error l i). Qed.

Lemma np_rmap {A B} (f : A -> B) (r : res A) : np r -> np (rmap f r).
Proof. unfold np. destruct r; cbn; auto; discriminate. Qed.

(** a length test keeps what it established for the indexing under it *)
Lemma np_if_leb {A} n m (x y : res A) : ((n <= m)%nat -> np x) -> np y -> np (if (n <=? m)%nat then x else y).
Proof. destruct (Nat.leb_spec n m); auto. Qed.
Lemma np_if_ltb {A} n m (x y : res A) : ((n < m)%nat -> np x) -> ((m <= n)%nat -> np y) -> np (if (n <? m)%nat then x else y).
Proof. destruct (Nat.ltb_spec n m); auto. Qed.
#[export] Hint Resolve np_bind np_mapM np_rmap np_idx np_if_leb np_if_ltb : np.
#[export] Hint Extern 1 (_ < _)%nat => lia : np.
#[export] Hint Extern 1 (_ <= _)%nat => lia : np.

Lemma even_len_cons2 {A} (a c : A) l : even_len (a :: c :: l) = even_len l.
Proof. reflexivity. Qed.

Lemma np_pair_loop {S} (body : msg -> msg -> S -> res S) : (forall k v s, np (body k v s)) ->
  forall vs st, even_len vs = true -> np (pair_loop body vs st).
Proof.
  intros Hb vs. induction vs as [|k|k v r IH] using list_pairs_ind; intros st He; cbn [pair_loop]; [apply np_ok|discriminate|].
  apply np_bind; [apply Hb|]. intros st' _. now apply IH.
Qed.

Lemma np_pair_loop_guarded {S} (body : msg -> msg -> S -> res S) : (forall k v s, np (body k v s)) ->
  forall vs st, np (pair_loop_guarded body vs st).
Proof.
  intros Hb vs. induction vs as [|k|k v r IH] using list_pairs_ind; intro st; cbn [pair_loop_guarded]; try apply np_ok.
  apply np_bind; [apply Hb|]. intros st' _. apply IH.
Qed.
#[export] Hint Resolve np_pair_loop_guarded : np.

Lemma np_to_string m : np (to_string m).
Proof. unfold to_string. auto 6 with np. Qed.

Lemma np_error_or_parse {A} m : np (@error_or_parse A m).
Proof. unfold error_or_parse. auto with np. Qed.

Lemma np_of_raw {A} (r : A * option aerr) : np (of_raw r).
Proof. destruct r as [v [e|]]; cbn; auto with np. Qed.
#[export] Hint Resolve np_to_string np_error_or_parse np_of_raw : np.

Lemma np_decode_json e m : np (decode_json e m).
Proof. unfold decode_json. auto with np. Qed.

Lemma np_as_int64 m : np (as_int64 m).
Proof. unfold as_int64. auto 6 with np. Qed.

Lemma np_as_uint64 m : np (as_uint64 m).
Proof. unfold as_uint64. auto 6 with np. Qed.

Lemma np_as_bool m : np (as_bool m).
Proof. unfold as_bool. auto 6 with np. Qed.

Lemma np_as_float64 e m : np (as_float64 e m).
Proof. apply np_of_raw. Qed.

Lemma np_to_int64 m : np (to_int64 m).
Proof. unfold to_int64. auto with np. Qed.
Lemma np_to_bool m : np (to_bool m).
Proof. unfold to_bool. auto with np. Qed.
Lemma np_to_float64 e m : np (to_float64 e m).
Proof. unfold to_float64. auto with np. Qed.
Lemma np_to_array m : np (to_array m).
Proof. unfold to_array. auto with np. Qed.

#[export] Hint Resolve np_decode_json np_as_int64 np_as_uint64 np_as_bool np_as_float64
  np_to_int64 np_to_bool np_to_float64 np_to_array : np.

Lemma np_as_str_slice m : np (as_str_slice m).
Proof. unfold as_str_slice. auto with np. Qed.

Lemma np_as_int_slice m : np (as_int_slice m).
Proof.
  unfold as_int_slice. apply np_bind; auto with np. intros vs _. apply np_mapM. intros v _.
  destruct (mstr v); auto with np.
Qed.

Lemma np_as_float_slice e m : np (as_float_slice e m).
Proof.
  unfold as_float_slice. apply np_bind; auto with np. intros vs _. apply np_mapM. intros v _.
  destruct (mstr v); auto with np. destruct (to_float64_s e _) as [x [|]]; auto with np.
Qed.

Lemma np_as_bool_slice m : np (as_bool_slice m).
Proof. unfold as_bool_slice. auto with np. Qed.

#[export] Hint Resolve np_as_str_slice np_as_int_slice np_as_float_slice np_as_bool_slice : np.

Lemma np_to_map_vals : forall vs acc, even_len vs = true -> np (to_map_vals vs acc).
Proof.
  intro vs. induction vs as [|k|k v r IH] using list_pairs_ind; intros acc He; cbn [to_map_vals]; [apply np_ok|discriminate|].
  apply np_if; [now apply IH|apply np_err].
Qed.

Lemma np_even_guard {A} (g : bool) (vs : list msg) (loop e : res A) :
  (even_len vs = true -> np loop) -> np e -> np (if g && even_len vs then loop else e).
Proof. intros Hl He. destruct g; [|exact He]. cbn [andb]. destruct (even_len vs); auto. Qed.

Lemma np_if_even {A} (vs : list msg) (x y : res A) : (even_len vs = true -> np x) -> np y -> np (if even_len vs then x else y).
Proof. destruct (even_len vs); auto. Qed.

Lemma np_if_len2 {A} (l : list msg) (x y : res A) :
  np x -> ((length l = 2)%nat -> np y) -> np (if negb (length l =? 2)%nat then x else y).
Proof. destruct (Nat.eqb_spec (length l) 2); auto. Qed.

(** a sub-reply whose nil is a value: [match r with ROk a => … | RErr ENil => ROk y | RErr er => RErr er | RPanic => RPanic end] *)
Lemma np_nil_ok {A B} (r : res A) (g : A -> res B) (y : B) : np r -> (forall a, np (g a)) ->
  np (match r with ROk a => g a | RErr ENil => ROk y | RErr er => RErr er | RPanic => RPanic end).
Proof. unfold np. destruct r as [a|[]|]; auto; discriminate. Qed.
#[export] Hint Resolve np_pair_loop np_to_map_vals np_even_guard np_if_even np_if_len2 np_nil_ok : np.

Lemma np_as_map m : np (as_map m).
Proof. unfold as_map. auto with np. Qed.

Lemma np_to_map m : np (to_map m).
Proof. unfold to_map. auto with np. Qed.

Lemma np_as_str_map m : np (as_str_map m).
Proof. unfold as_str_map. auto 7 with np. Qed.

Lemma np_as_int_map m : np (as_int_map m).
Proof.
  unfold as_int_map, as_int_map_with. apply np_opt; [auto with np|]. apply np_even_guard; [|apply np_err].
  apply np_pair_loop. intros k v s. apply np_if; [|apply np_ok]. destruct (mstr v); auto with np.
Qed.

#[export] Hint Resolve np_as_map np_to_map np_as_str_map np_as_int_map : np.

Lemma np_as_xrange_entry m : np (as_xrange_entry m).
Proof. unfold as_xrange_entry. auto 14 with np. Qed.

Lemma np_as_xrange m : np (as_xrange m).
Proof. unfold as_xrange. auto using np_as_xrange_entry with np. Qed.

Lemma np_xread_generic {E} (conv : msg -> res (list E)) : (forall v, np (conv v)) -> forall m, np (xread_generic conv m).
Proof.
  intros Hc m. unfold xread_generic. apply np_opt; [auto with np|]. apply np_if.
  - auto 8 with np.
  - apply np_if; [|apply np_err].
    generalize (@nil (bytes * list E)). induction (mvals m) as [|v rest IH]; intro acc; auto with np.
    destruct (negb (is_array v) || negb (length (mvals v) =? 2)%nat) eqn:E1; auto with np.
    apply orb_false_iff in E1. destruct E1 as [_ E1]. apply negb_false_iff in E1. apply Nat.eqb_eq in E1.
    apply np_bind; [apply np_idx; lia|]. intros k _. apply np_bind; [apply np_idx; lia|]. auto with np.
Qed.

Lemma np_as_xread m : np (as_xread m).
Proof. apply np_xread_generic. apply np_as_xrange. Qed.

Lemma np_slice_pairs fa : forall n i, (2 * (i + n) <= length fa)%nat -> np (slice_pairs fa n i).
Proof. induction n as [|n IH]; intros i H; cbn [slice_pairs]; auto 9 with np. Qed.

Lemma np_as_xrange_slice m : np (as_xrange_slice m).
Proof.
  assert (S : forall fa, np (slice_pairs fa (Nat.div2 (length fa)) 0))
    by (intro fa; apply np_slice_pairs; pose proof (div2_double_le (length fa)); lia).
  unfold as_xrange_slice. auto 14 with np.
Qed.

Lemma np_as_xrange_slices m : np (as_xrange_slices m).
Proof. unfold as_xrange_slices. auto using np_as_xrange_slice with np. Qed.

Lemma np_as_xread_slices m : np (as_xread_slices m).
Proof. apply np_xread_generic. apply np_as_xrange_slices. Qed.

#[export] Hint Resolve np_as_xrange_entry np_as_xrange np_as_xread np_as_xrange_slice np_as_xrange_slices np_as_xread_slices : np.

Lemma np_to_zscore e vs : np (to_zscore e vs).
Proof.
  unfold to_zscore. destruct vs as [|v0 [|v1 [|v2 r]]]; cbn [length Nat.eqb]; auto with np.
  cbn [idx nth_error rbind]. auto 7 with np.
Qed.
#[export] Hint Resolve np_to_zscore : np.

Lemma np_as_zscore e m : np (as_zscore e m).
Proof. unfold as_zscore. auto with np. Qed.

Lemma np_zscore_chunks e arr : forall n i, (2 * (i + n) <= length arr)%nat -> np (zscore_chunks e arr n i).
Proof.
  induction n as [|n IH]; intros i H; cbn [zscore_chunks]; auto with np.
  destruct (Nat.ltb_spec (length arr) (i * 2 + 2)); [lia|]. auto 7 with np.
Qed.

Lemma np_as_zscores e m : np (as_zscores e m).
Proof.
  unfold as_zscores. apply np_bind; auto with np. intros arr _. apply np_if; [auto with np|].
  apply np_zscore_chunks. pose proof (div2_double_le (length arr)). lia.
Qed.
#[export] Hint Resolve np_as_zscore np_as_zscores : np.

Lemma np_as_scan_entry m : np (as_scan_entry m).
Proof. unfold as_scan_entry. auto 12 with np. Qed.

Lemma np_as_lmpop m : np (as_lmpop m).
Proof. unfold as_lmpop. auto 12 with np. Qed.

Lemma np_as_zmpop e m : np (as_zmpop e m).
Proof. unfold as_zmpop. auto 12 with np. Qed.

#[export] Hint Resolve np_as_scan_entry np_as_lmpop np_as_zmpop : np.

Lemma np_fts_record e r : np (fts_record e r).
Proof. unfold fts_record. auto 8 with np. Qed.

Lemma np_first_as_error {A} v (k : res A) : np k -> np (first_as_error v k).
Proof. unfold first_as_error. destruct (mvals v); auto with np. Qed.

Lemma np_fta_record r : np (fta_record r).
Proof. unfold fta_record. auto with np. Qed.
#[export] Hint Resolve np_fts_record np_first_as_error np_fta_record : np.

Lemma np_as_ft_search e m : np (as_ft_search e m).
Proof.
  unfold as_ft_search. apply np_opt; [auto with np|]. apply np_if; [auto 9 with np|].
  destruct (mvals m) as [|v0 rest] eqn:Ev; [apply np_err|]. apply np_bind; [|intros [wscore wattrs0] _]; auto 8 with np.
  apply np_if_ltb; [|auto with np]. intro. apply np_bind; [auto with np|]. intros v2 _. destruct (mstr v2); auto 6 with np.
Qed.

Lemma np_as_ft_aggregate m : np (as_ft_aggregate m).
Proof.
  unfold as_ft_aggregate. apply np_opt; [auto with np|]. apply np_if; [auto 9 with np|].
  destruct (mvals m); auto with np.
Qed.

Lemma np_as_ft_aggregate_cursor m : np (as_ft_aggregate_cursor m).
Proof.
  unfold as_ft_aggregate_cursor.
  destruct (is_array m && (length (mvals m) =? 2)%nat && match mvals m with v0 :: _ => is_array v0 || is_map v0 | [] => false end) eqn:E.
  - apply andb_true_iff in E. destruct E as [E _]. apply andb_true_iff in E. destruct E as [_ E]. apply Nat.eqb_eq in E.
    apply np_bind; [apply np_idx; lia|]. intros. apply np_bind; [apply np_as_ft_aggregate|]. intros.
    apply np_bind; [apply np_idx; lia|]. auto with np.
  - apply np_bind; [apply np_as_ft_aggregate|]. auto with np.
Qed.

Lemma np_geo_one e v : np (geo_one e v).
Proof.
  unfold geo_one. apply np_if; [apply np_ok|].
  destruct (mvals v) as [|i0 info] eqn:Ev; auto with np.
  cbn [idx nth_error rbind].
  apply np_bind.
  - destruct info as [|x1 info']; auto with np. destruct (mstr x1); auto with np.
    match goal with |- context [to_float64_s e ?s] => destruct (to_float64_s e s) as [d [|]] end; auto with np.
  - intros [dist i] _.
    destruct (match nth_error (i0 :: info) i with Some x => if is_int64 x then (mintlen x, S i) else (0%Z, i) | None => (0%Z, i) end) as [hash i'].
    auto 10 with np.
Qed.

Lemma np_as_geosearch e m : np (as_geosearch e m).
Proof. unfold as_geosearch. auto using np_geo_one with np. Qed.

#[export] Hint Resolve np_as_ft_search np_as_ft_aggregate np_as_ft_aggregate_cursor np_as_geosearch : np.

Section MsgInd.
  Variable P : msg -> Prop.
  Hypothesis HInt : forall t i a, P (MInt t i a).
  Hypothesis HStr : forall t s a, P (MStr t s a).
  Hypothesis HArr : forall t l a, Forall P l -> P (MArr t l a).
  Fixpoint msg_ind' (m : msg) : P m :=
    match m with
    | MInt t i a => HInt t i a
    | MStr t s a => HStr t s a
    | MArr t l a =>
      HArr t l a ((fix go (l : list msg) : Forall P l :=
                     match l with
                     | [] => Forall_nil P
                     | x :: r => Forall_cons x (msg_ind' x) (go r)
                     end) l)
    end.
End MsgInd.

Lemma np_any_elem r : np r -> np (any_elem r).
Proof. unfold np. destruct r as [v|[]|]; cbn; try discriminate. auto. Qed.

Lemma np_to_any e : forall m, np (to_any e m).
Proof.
  assert (F : forall s, np (let '(v, ok) := to_float64_s e s in if ok then ROk (AFloat v) else RErr ENum))
    by (intro s; destruct (to_float64_s e s) as [v [|]]; auto with np).
  induction m as [t i a|t s a|t l a IH] using msg_ind'; cbn [to_any]; (apply np_opt; [auto with np|]); cbv zeta.
  1-2: auto 9 with np.
  apply np_if; [apply F|]. do 3 (apply np_if; [apply np_ok|]). apply np_if; [|apply np_if; [|apply np_err]].
  - destruct (even_len l) eqn:He; [|apply np_err]. apply np_bind; [|auto with np].
    revert IH He. generalize (@nil (bytes * any)). clear.
    induction l as [|k|k v r IHl] using list_pairs_ind; intros acc IH He; [apply np_ok|discriminate|].
    inversion IH as [|? ? _ IH1]; subst. inversion IH1 as [|? ? Hv IH2]; subst.
    apply np_bind; [apply np_any_elem; exact Hv|]. intros x _. now apply IHl.
  - apply np_bind; [|auto with np].
    clear - IH. induction IH as [|v r Hv _ IHr]; [apply np_ok|]. auto using np_any_elem with np.
Qed.

Lemma np_decode_slice_of_json e m : np (decode_slice_of_json e m).
Proof. unfold decode_slice_of_json. auto 10 with np. Qed.
#[export] Hint Resolve np_to_any np_decode_slice_of_json : np.

Lemma np_redirect_addr prefix field text : np (redirect_addr prefix field text).
Proof. unfold redirect_addr. auto 8 with np. Qed.
