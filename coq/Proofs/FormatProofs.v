(** Proofs for Model/Format.v: the base-10 printer produces the canonical decimal numeral of its argument. *)
From Coq Require Import List Arith NArith ZArith Bool Lia.
Require Import RV.Model.Base RV.Model.Format.
Import ListNotations.
Open Scope N_scope.

Lemma size_nat_gt p : Npos p < 2 ^ N.of_nat (Pos.size_nat p).
Proof.
  induction p as [p IH|p IH|]; cbn [Pos.size_nat]; rewrite ?Nat2N.inj_succ, ?N.pow_succ_r'.
  - change (N.pos p~1) with (2 * N.pos p + 1). lia.
  - change (N.pos p~0) with (2 * N.pos p). lia.
  - cbn. lia.
Qed.

Lemma N_size_nat_gt n : n < 2 ^ N.of_nat (S (N.size_nat n)).
Proof.
  destruct n as [|p]; [cbn; lia|].
  cbn [N.size_nat]. rewrite Nat2N.inj_succ, N.pow_succ_r'. pose proof (size_nat_gt p). lia.
Qed.

Lemma dec_value_aux_app l1 : forall l2 a,
  dec_value_aux (l1 ++ l2) a =
  match dec_value_aux l1 a with Some a' => dec_value_aux l2 a' | None => None end.
Proof.
  induction l1 as [|b l1 IH]; intros l2 a; cbn [app dec_value_aux]; [reflexivity|].
  destruct (is_digit b); [apply IH|reflexivity].
Qed.

Lemma digit_char_small d : d < 10 -> digit_char d = 48 + d /\ is_digit (48 + d) = true.
Proof.
  intros H. unfold digit_char, is_digit.
  destruct (N.ltb_spec d 10); [|lia]. split; [reflexivity|].
  apply andb_true_intro; split; apply N.leb_le; lia.
Qed.

Lemma single_digit n a : n < 10 ->
  dec_value_aux [digit_char n] a = Some (a * 10 ^ N.of_nat (length [digit_char n]) + n) /\ (n <> 0 -> digit_char n <> 48).
Proof.
  intros H. destruct (digit_char_small n H) as [E D]. cbn [dec_value_aux length]. rewrite E, D.
  change (N.of_nat 1) with 1. rewrite N.pow_1_r. split; [f_equal; lia|lia].
Qed.

Lemma digits_aux_spec : forall fuel n acc, n < 2 ^ N.of_nat (S fuel) ->
  exists ds, digits_aux (S fuel) 10 n acc = ds ++ acc /\ ds <> [] /\
    (forall a, dec_value_aux ds a = Some (a * 10 ^ N.of_nat (length ds) + n)) /\
    (n <> 0 -> hd 0 ds <> 48).
Proof.
  induction fuel as [|f IH]; intros n acc Hn; cbn [digits_aux]; destruct (N.ltb_spec n 10) as [Hlt|Hge].
  1, 3: exists [digit_char n]; repeat split;
    [discriminate|intros a; apply single_digit, Hlt|cbn [hd]; apply (single_digit n 0 Hlt)].
  - (* fuel 1: n < 2 *) change (2 ^ N.of_nat 1) with 2 in Hn. lia.
  - assert (Hdiv : n / 10 < 2 ^ N.of_nat (S f)).
    { apply N.div_lt_upper_bound; [lia|].
      rewrite Nat2N.inj_succ, N.pow_succ_r' in Hn. lia. }
    destruct (IH (n / 10) (digit_char (n mod 10) :: acc) Hdiv) as (ds & E & Hne & Hv & Hz).
    assert (Hm : n mod 10 < 10) by (apply N.mod_lt; lia).
    destruct (digit_char_small _ Hm) as [Ed Dd].
    exists (ds ++ [digit_char (n mod 10)]). repeat split.
    * change (digits_aux (S f) 10 (n / 10) (digit_char (n mod 10) :: acc) = (ds ++ [digit_char (n mod 10)]) ++ acc).
      rewrite E, <- app_assoc. reflexivity.
    * destruct ds; discriminate.
    * intros a. rewrite dec_value_aux_app, Hv. cbn [dec_value_aux]. rewrite Ed, Dd. f_equal.
      rewrite app_length. cbn [length]. rewrite Nat.add_1_r, Nat2N.inj_succ, N.pow_succ_r'.
      pose proof (N.div_mod n 10 ltac:(lia)) as Hdm.
      set (P := 10 ^ N.of_nat (length ds)). clearbody P.
      set (q := n / 10) in *. set (m := n mod 10) in *. clearbody q m.
      rewrite Hdm. replace (48 + m - 48) with m by lia. ring.
    * intros _. destruct ds as [|d ds']; [contradiction|]. cbn [app hd]. cbn [hd] in Hz. apply Hz.
      intro Hq. assert (n / 10 * 10 <= n) by (pose proof (N.div_mod n 10 ltac:(lia)); lia).
      assert (1 <= n / 10) by (apply N.div_le_lower_bound; lia). lia.
Qed.

(** FormatUint(n, 10) is the canonical decimal numeral of n *)
Theorem fmt_uint_value n : dec_value (fmt_uint n) = Some n /\ dec_canonical (fmt_uint n) = true.
Proof.
  destruct (N.eq_dec n 0) as [->|Hn]; [split; reflexivity|].
  unfold fmt_uint, fmt_uint_base.
  destruct (digits_aux_spec (N.size_nat n) n [] (N_size_nat_gt n)) as (ds & E & Hne & Hv & Hz).
  rewrite E, app_nil_r. specialize (Hz Hn).
  destruct ds as [|d ds']; [contradiction|]. cbn [hd] in Hz. split.
  - unfold dec_value. rewrite Hv. f_equal; lia.
  - unfold dec_canonical. destruct (N.eqb_spec d 48); [contradiction|reflexivity].
Qed.

Lemma dec_value_first_digit d r n : dec_value (d :: r) = Some n -> is_digit d = true.
Proof. unfold dec_value. cbn [dec_value_aux]. destruct (is_digit d); [reflexivity|discriminate]. Qed.

(** FormatInt(z, 10): optional '-', then the canonical numeral of |z| *)
Theorem fmt_int_value z : int_value (fmt_int z) = Some z.
Proof.
  destruct z as [|p|p]; unfold fmt_int, fmt_int_base.
  - reflexivity.
  - destruct (fmt_uint_value (Npos p)) as [Hv _]. fold (fmt_uint (Npos p)).
    unfold int_value. destruct (fmt_uint (N.pos p)) as [|d r] eqn:E; [discriminate|].
    pose proof (dec_value_first_digit _ _ _ Hv) as Hd.
    destruct (N.eqb_spec d 45) as [->|Hne]; [discriminate|].
    rewrite Hv. reflexivity.
  - destruct (fmt_uint_value (Npos p)) as [Hv _]. fold (fmt_uint (Npos p)).
    unfold int_value. rewrite N.eqb_refl, Hv. reflexivity.
Qed.
