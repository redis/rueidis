(** cluster.go askingMultiCache (model [asking_multi_cache]): the ASK path answers its commands in order,
    [asking_multi_cache_spec]; used by C11_cluster_positional for commands redirected with -ASK. *)
From Coq Require Import String Ascii.
From Coq Require Import List Arith NArith ZArith Bool Lia.
Require Import RV.Model.Base RV.Model.CacheBatch RV.Proofs.CacheBatchBase RV.Proofs.CacheBatchMulti.
Import ListNotations.
Open Scope nat_scope.

Section Ask.
  Variable srv : argv -> msg.
  Variable qerr : argv -> option msg.
  Variable optin : bool.

  Definition asking_cmd : argv := [bs "ASKING"].

  Definition ask_msgs (skip : bool) (a : argv) : list msg :=
    if skip then [optin_reply srv qerr optin; q_or qerr asking_cmd (srv asking_cmd); q_or qerr a (srv a)]
    else [optin_reply srv qerr optin; q_or qerr asking_cmd (srv asking_cmd); ok_msg;
          q_or qerr (pttl_cmd a) queued_msg; q_or qerr a queued_msg; exec_reply srv qerr [pttl_cmd a; a]].

  Lemma wire_go_ask_stride skip a rest :
    not_tx a ->
    wire_go srv qerr false [] false (asking_stride optin skip a ++ rest)
    = ask_msgs skip a ++ wire_go srv qerr false [] false rest.
  Proof.
    intro Ha. assert (Hask : not_tx asking_cmd) by (split; reflexivity).
    destruct skip; cbn [asking_stride ask_msgs app];
      rewrite (wire_go_plain srv qerr (optin_cmd optin)), (wire_go_plain srv qerr asking_cmd)
        by (apply optin_not_tx || exact Hask).
    - now rewrite wire_go_plain.
    - do 2 f_equal. apply (wire_go_tx srv qerr [pttl_cmd a; a] rest).
      exact (Forall_cons _ (pttl_not_tx _) (Forall_cons _ Ha (Forall_nil _))).
  Qed.

  Definition ask_res (skip : bool) (a : argv) : list rres := map new_result (ask_msgs skip a).

  Lemma redis_wire_ask skip l :
    Forall not_tx l ->
    redis_wire srv qerr (flat_map (asking_stride optin skip) l) = flat_map (ask_res skip) l.
  Proof.
    intro H. unfold redis_wire. induction H as [|a l Ha _ IH]; [reflexivity|].
    cbn [flat_map]. rewrite wire_go_ask_stride, map_app by assumption. now rewrite IH.
  Qed.

  (** what one command alone is answered on the ASK path *)
  Definition ask_one (skip : bool) (a : argv) : rres :=
    if skip then new_result (q_or qerr a (srv a))
    else if aborted qerr a
         then new_error (match res_error (new_result (q_or qerr a queued_msg)) with
                         | Some pe => pe
                         | None => ERedis (trim_err (m_str execabort_msg))
                         end)
         else new_result (srv a).

  Lemma decode_ask_stride a :
    decode_ask (nth 4 (ask_res false a) zero_res) (nth 5 (ask_res false a) zero_res) = Ok (ask_one false a).
  Proof.
    cbn [ask_res ask_msgs map nth]. rewrite exec_reply_stride. unfold ask_one.
    destruct (aborted qerr a); reflexivity.
  Qed.

  Lemma ask6_length a : length (ask_res false a) = 6.
  Proof. reflexivity. Qed.
  Lemma ask3_length a : length (ask_res true a) = 3.
  Proof. reflexivity. Qed.

  Lemma ask_walk6 rest : forall pre fuel,
    length rest < fuel ->
    ask_walk fuel false (pre ++ flat_map (ask_res false) rest) (length pre + 5) = Ok (map (ask_one false) rest).
  Proof.
    induction rest as [|a rest IH]; intros pre [|fuel] Hf; try (cbn in Hf; lia); cbn [ask_walk map].
    - now rewrite past_blocks.
    - rewrite (in_block _ 6 ask6_length) by lia. unfold rnth.
      rewrite <- Nat.add_sub_assoc, !(nth_block _ 6 ask6_length) by lia.
      cbn [Nat.sub]. rewrite decode_ask_stride.
      cbn [flat_map length] in *. rewrite app_assoc, (next_block _ 6 ask6_length pre a), IH by lia. reflexivity.
  Qed.

  Lemma ask_walk3 rest : forall pre fuel,
    length rest < fuel ->
    ask_walk fuel true (pre ++ flat_map (ask_res true) rest) (length pre + 2) = Ok (map (ask_one true) rest).
  Proof.
    induction rest as [|a rest IH]; intros pre [|fuel] Hf; try (cbn in Hf; lia); cbn [ask_walk map].
    - now rewrite past_blocks.
    - rewrite (in_block _ 3 ask3_length) by lia. unfold rnth. rewrite (nth_block _ 3 ask3_length) by lia.
      change (nth 2 (ask_res true a) zero_res) with (ask_one true a).
      cbn [flat_map length] in *. rewrite app_assoc, (next_block _ 3 ask3_length pre a), IH by lia. reflexivity.
  Qed.

  Theorem asking_multi_cache_spec batch :
    Forall (fun it => not_tx (it_argv it)) batch ->
    asking_multi_cache srv qerr optin batch = Ok (map (fun it => ask_one (forallb it_static batch) (it_argv it)) batch).
  Proof.
    intro Htx. unfold asking_multi_cache. set (skip := forallb it_static batch).
    rewrite <- (flat_map_map (asking_stride optin skip) it_argv), redis_wire_ask by (apply Forall_map; exact Htx).
    rewrite <- (map_map it_argv (ask_one skip)).
    destruct skip.
    - exact (ask_walk3 (map it_argv batch) [] _ (blocks_fuel _ 3 ask3_length _ (Nat.lt_0_succ 2))).
    - exact (ask_walk6 (map it_argv batch) [] _ (blocks_fuel _ 6 ask6_length _ (Nat.lt_0_succ 5))).
  Qed.
End Ask.
