(** C09: single flight per command, waiters get the result, nothing cached after a cancel. *)
From Coq Require Import List NArith ZArith Bool Lia.
Require Import RV.Model.Base RV.Model.Lru RV.Proofs.LruBase RV.Proofs.LruSteps RV.Proofs.LruAnswers RV.Proofs.LruHist.
Import ListNotations.
Open Scope Z_scope.

Theorem step_wait g s o e a :
  inv s -> In e (order s) -> pending e = true ->
  In a (answers (ekey e) (ecmd e) o (snd (step g s o))) -> a = AWait (eid e).
Proof.
  intros Hi He Hp H. destruct (step_answer g s o _ _ a Hi H) as [sm [P1 [_ Ha]]].
  destruct (path_quiet _ _ _ _ P1 Hi) as [Him Q]. pose proof (q_pend _ _ Q e He Hp) as Hem.
  destruct a as [v|id|]; cbn [answered] in Ha.
  - destruct Ha as [e0 [A [B [_ [D _]]]]]. rewrite (unique_entry sm e e0 Him Hem A B) in D. congruence.
  - destruct Ha as [e0 [A [B [_ <-]]]]. rewrite (unique_entry sm e e0 Him Hem A B). reflexivity.
  - destruct Ha as [Hd _]. specialize (Hd e Hem eq_refl). rewrite (live_pending e _ Hp) in Hd. discriminate.
Qed.

(** from the Flight that misses on an open store until its Update / Cancel or Close, every lookup of
    the command waits on the entry that Flight created *)
Theorem miss_then_wait g s k c ttl now v mid o a :
  inv s -> closed s = false -> Forall wf_op mid ->
  snd (flight s k c ttl now) = OFlight v None ->
  Forall (fun o' => ~ resolves k c o') mid ->
  In a (answers k c o (snd (step g (run g mid (fst (flight s k c ttl now))) o))) ->
  a = AWait (next_id s).
Proof.
  intros Hi Hc Hw Hm Hr Ha. rewrite (flight_out s k c ttl now Hi) in Hm. injection Hm as _ Hn.
  destruct (flight_creates s k c ttl now Hc Hn) as [e' [A [B <-]]].
  pose proof (new_pending_pending _ _ _ _ _ _ B) as C. destruct B as [[= <- <-] _].
  pose proof (inv_step g s (Flight (ekey e') (ecmd e') ttl now) I Hi) as Hi1. cbn [step fst] in Hi1.
  apply (step_wait g _ o e' a (inv_run g mid _ Hw Hi1)); [|exact C|exact Ha].
  apply pending_survives_run; assumption.
Qed.

Theorem step_flying g s o k c a :
  inv s -> closed s = false -> In a (answers k c o (snd (step g s o))) -> (forall v, a <> AHit v) ->
  exists e, In e (order (fst (step g s o))) /\ kc e = (k, c) /\ pending e = true /\ (forall id, a = AWait id -> eid e = id).
Proof.
  intros Hi Hc H Hn. destruct (step_answer g s o k c a Hi H) as [sm [P1 [P2 Ha]]].
  destruct (path_quiet _ _ _ _ P1 Hi) as [Him Q1]. destruct (path_quiet _ _ _ _ P2 Him) as [_ Q2].
  destruct a as [v|id|]; cbn [answered] in Ha.
  - elim (Hn v eq_refl).
  - destruct Ha as [e [A [B [C D]]]]. exists e. split; [apply (q_pend _ _ Q2); assumption|].
    repeat split; try assumption. intros ? [= <-]. exact D.
  - destruct Ha as [_ Ha]. destruct Ha as [e' [A [B C]]]; [rewrite (q_closed _ _ Q1); exact Hc|].
    exists e'. repeat split; try assumption. intros ? [=].
Qed.

Lemma cancel_releases s k c e :
  inv s -> In e (order s) -> kc e = (k, c) -> pending e = true ->
  snd (cancel s k c) = OCancel (Some (Rel (eid e) (eval e))) /\ lookup k c (order (fst (cancel s k c))) = None.
Proof.
  intros Hi He Hk Hp. rewrite cancel_spec, (lookup_unique k c _ e (inv_kc s Hi) He Hk), Hp. cbn [fst snd order].
  split; [reflexivity|apply remove_kc_lookup].
Qed.

Lemma close_releases s e : In e (order s) -> pending e = true -> In (eid e) (released (snd (close s))).
Proof. intros He Hp. cbn. apply in_map. apply filter_In. split; assumption. Qed.

Lemma flight_after_cancel s k c ttl now :
  inv s -> closed s = false -> lookup k c (order s) = None ->
  snd (flight s k c ttl now) = OFlight (pending_msg ttl now) None.
Proof. intros Hi Hc Hl. rewrite (flight_out s k c ttl now Hi). unfold flight_result. rewrite Hl, Hc. reflexivity. Qed.

(** a cancelled flight is not cached: the command is absent and the next Flight misses again *)
Lemma not_cached_after_cancel s e ttl now :
  inv s -> In e (order s) -> pending e = true ->
  let s' := fst (cancel s (ekey e) (ecmd e)) in
  lookup (ekey e) (ecmd e) (order s') = None /\
  snd (flight s' (ekey e) (ecmd e) ttl now) = OFlight (pending_msg ttl now) None.
Proof.
  intros Hi He Hp s'. pose proof (cancel_releases s _ _ e Hi He eq_refl Hp) as [_ Hl].
  split; [exact Hl|]. apply flight_after_cancel; [apply inv_cancel; exact Hi| |exact Hl].
  unfold s'. rewrite cancel_spec, (inv_lookup s e Hi He), Hp. cbn [fst closed].
  destruct (closed s) eqn:Hc; [rewrite (inv_closed s Hi Hc) in He; contradiction|reflexivity].
Qed.

(** [R], the identities released so far: no duplicates, all allocated, none of an entry still in flight *)
Definition rel_inv (R : list N) (s : state) : Prop :=
  NoDup R /\ (forall id, In id R -> (id < next_id s)%N) /\ (forall e, In e (order s) -> pending e = true -> ~ In (eid e) R).

(** what a step from [s] to [s'] with output [x] releases: in-flight entries of [s], each once, none of which
    is in flight in [s'] *)
Definition releases (s : state) (x : out) (s' : state) : Prop :=
  NoDup (released x) /\
  (forall id, In id (released x) -> exists e, In e (order s) /\ pending e = true /\ eid e = id) /\
  (forall e', In e' (order s') -> pending e' = true -> ~ In (eid e') (released x)).

Lemma releases_none s x s' : released x = [] -> releases s x s'.
Proof. intro E. unfold releases. rewrite E. split; [constructor|split; [intros ? []|intros ? ? ? []]]. Qed.

(** Update and Cancel release the in-flight entry [e] of their command: what is in flight afterwards are
    other entries of [s], and identities are unique *)
Lemma releases_one s x s' e :
  inv s -> In e (order s) -> pending e = true -> released x = [eid e] ->
  (forall e', In e' (order s') -> pending e' = true -> In e' (order s) /\ kc e' <> kc e) ->
  releases s x s'.
Proof.
  intros Hi He Hp E Hs'. unfold releases. rewrite E. split; [repeat constructor; intros []|]. split.
  - intros id [<-|[]]. exists e. tauto.
  - intros e' He' Hp' [Hid|[]]. destruct (Hs' e' He' Hp') as [A B]. apply B. f_equal.
    exact (NoDup_map_inj eid (order s) e' e (inv_idnd s Hi) A He (eq_sym Hid)).
Qed.

Lemma step_released g s o : wf_op o -> inv s -> releases s (snd (step g s o)) (fst (step g s o)).
Proof.
  intros Hw Hi.
  destruct o as [k0 c0 ttl now|now items|k0 c0 v0|k0 c0 err|keys|err|k0 c0 now|k0 c0 now|ids|k0 c0 ttl now|now items|now items];
    cbn [step]; try (apply releases_none; reflexivity).
  - (* Flight *) apply releases_none. rewrite (flight_out s k0 c0 ttl now Hi). reflexivity.
  - (* Flights *) apply releases_none. rewrite flights_eq. reflexivity.
  - (* Update: the completed entry is not in flight *)
    rewrite update_spec. destruct (lookup k0 c0 (order s)) as [e|] eqn:El; [|apply releases_none; reflexivity].
    pose proof (lookup_some _ _ _ _ El) as [He Hk].
    destruct (pending e) eqn:Ep; [|apply releases_none; reflexivity].
    apply (releases_one s _ _ e Hi He Ep); [reflexivity|]. cbn [fst]. intros e' He' Hp'.
    apply (proj1 (after_evict_spec g _)), (commit_in g s k0 c0 v0 e e' Hi El) in He'.
    destruct He' as [[A B]| ->]; [split; [exact A|rewrite Hk; exact B]|].
    unfold pending, completed in Hp'. cbn [eval] in Hp'. rewrite wf_msg_done in Hp' by exact Hw. discriminate.
  - (* Cancel *) rewrite cancel_spec. destruct (lookup k0 c0 (order s)) as [e|] eqn:El; [|apply releases_none; reflexivity].
    pose proof (lookup_some _ _ _ _ El) as [He Hk]. destruct (pending e) eqn:Ep; [|apply releases_none; reflexivity].
    apply (releases_one s _ _ e Hi He Ep); [reflexivity|]. cbn [fst order]. intros e' He' _.
    apply remove_kc_in in He'. rewrite Hk. exact He'.
  - (* Close *) split; [|split]; cbn [close fst snd released order].
    + apply NoDup_map_filter. apply (inv_idnd s Hi).
    + intros id Hid. apply in_map_iff in Hid. destruct Hid as [e [<- He]]. apply filter_In in He. exists e. tauto.
    + intros e' [].
  - (* FlightFast *) apply releases_none. rewrite flight_fast_out.
    destruct (lookup k0 c0 (order s)) as [e|]; [destruct (live (eval e) now)|]; reflexivity.
  - (* FlightSlow *) apply releases_none. rewrite (flight_slow_out s k0 c0 ttl now Hi). reflexivity.
  - (* FlightsFast *) apply releases_none. destruct (flights_fast s now items) as [[s1 rs] mv]. reflexivity.
  - (* FlightsSlow *) apply releases_none. destruct (flights_slow s now items) as [s1 rs]. reflexivity.
Qed.

Lemma trace_app g ops1 ops2 s : trace g (ops1 ++ ops2) s = trace g ops1 s ++ trace g ops2 (run g ops1 s).
Proof.
  revert s. induction ops1 as [|o r IH]; intro s; [reflexivity|].
  cbn [app trace]. rewrite run_cons. destruct (step g s o) as [s1 x] eqn:E. cbn [fst]. rewrite IH. reflexivity.
Qed.

Lemma rel_inv_run g ops : forall s R,
  Forall wf_op ops -> inv s -> rel_inv R s ->
  rel_inv (R ++ flat_map released (trace g ops s)) (run g ops s).
Proof.
  induction ops as [|o r IH]; intros s R Hw Hi Hr; [cbn [trace flat_map]; rewrite app_nil_r; exact Hr|].
  inversion Hw as [|? ? Hwo Hwr]; subst. rewrite run_cons. cbn [trace].
  pose proof (step_released g s o Hwo Hi) as [S1 [S2 S3]]. pose proof (inv_step g s o Hwo Hi) as Hi1.
  pose proof (next_id_mono g s o Hi) as Hmono. pose proof (step_prov g s o) as Hprov.
  destruct (step g s o) as [s1 x] eqn:E. cbn [fst snd flat_map] in *.
  rewrite app_assoc. apply IH; [exact Hwr|exact Hi1|].
  destruct Hr as [R1 [R2 R3]]. split; [|split].
  - clear IH. induction R as [|a R IHR]; cbn [app]; [exact S1|].
    inversion R1; subst. constructor.
    + intro Hin. apply in_app_or in Hin. destruct Hin as [Hin|Hin]; [contradiction|].
      destruct (S2 a Hin) as [e [He [Hp <-]]]. apply (R3 e He Hp). left. reflexivity.
    + apply IHR; try assumption.
      * intros id Hid. apply R2. right. exact Hid.
      * intros e He Hp Hin. apply (R3 e He Hp). right. exact Hin.
  - intros id Hid. apply in_app_or in Hid. destruct Hid as [Hid|Hid].
    + specialize (R2 id Hid). lia.
    + destruct (S2 id Hid) as [e [He [_ <-]]]. pose proof (inv_ids s Hi e He). lia.
  - intros e' He' Hp' Hin. apply in_app_or in Hin. destruct Hin as [Hin|Hin]; [|exact (S3 e' He' Hp' Hin)].
    destruct (Hprov e' Hi He') as [Hold|[[it [_ [_ [_ [_ Hnew]]]]]|[e0 [v [Ho [_ [_ Heq]]]]]]].
    + exact (R3 e' Hold Hp' Hin).
    + specialize (R2 _ Hin). lia.
    + subst e' o. unfold pending, completed in Hp'. cbn [eval] in Hp'. rewrite wf_msg_done in Hp' by exact Hwo. discriminate.
Qed.

Lemma flights_slow_length s now items : length (snd (flights_slow s now items)) = length items.
Proof. unfold flights_slow. destruct (closed s); [cbn; apply map_length|apply flights_slow_open_length]. Qed.
