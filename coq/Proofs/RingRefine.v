(** The ring LTS refines the abstract queue of positions ([RV.Model.QueueSpec]): every concrete step is a
    specification step with the same output, or a stutter. *)
From Coq Require Import List NArith ZArith Bool Arith Lia.
Require Import RV.Model.Base RV.Model.Ring RV.Model.QueueSpec.
Require Import RV.Proofs.RingBase RV.Proofs.RingInv.
Import ListNotations.
Local Open Scope nat_scope.

Definition abs (st : state) : qstate :=
  {| q_fill := fun s => fillseq (slots st s); q_w := nw st; q_1 := n1 st; q_2 := n2 st |}.

Section Refine.
Variable k : nat.
Variable start : N.
Notation sof := (sof k start).
Notation cntpos := (cntpos k start).

Lemma cntp_cntpos : forall n s, cntp sof n s = cntpos n s.
Proof. intros n s. induction n as [|n IH]; [reflexivity|]. cbn [cntp RingBase.cntpos]. rewrite IH. reflexivity. Qed.

(** what a concrete step shows to the outside: the item handed to the writer / completed by the reader *)
Definition out_of (st st' : state) : option nat * option nat :=
  ((if Nat.eqb (n1 st') (S (n1 st)) then Some (last (wseq st') 0) else None),
   (if Nat.eqb (n2 st') (S (n2 st)) then Some (last (rseq st') 0) else None)).

Definition refines_step (st st' : state) : Prop :=
  qeq (abs st) (abs st') \/
  exists ql q' o, qstep sof (abs st) ql = Some (q', o) /\ qeq q' (abs st') /\
    match ql with
    | QDeq => wseq st' = wseq st ++ match o with Some x => [x] | None => [] end /\ o <> None
    | QComp => rseq st' = rseq st ++ match o with Some x => [x] | None => [] end /\ o <> None
    | _ => wseq st' = wseq st /\ rseq st' = rseq st
    end.

Lemma stutter : forall st st', (forall s, fillseq (slots st' s) = fillseq (slots st s)) ->
  nw st' = nw st -> n1 st' = n1 st -> n2 st' = n2 st -> refines_step st st'.
Proof. intros st st' H A B C. left. unfold qeq, abs. cbn. repeat split; auto. Qed.

(** [cntpos] and [item_at] are the specification's [cntp] and [qitem] at [sof] *)
Lemma qitem_item_at : forall st j, qitem sof (abs st) j = item_at k start st j.
Proof. intros st j. unfold qitem, item_at. rewrite cntp_cntpos. reflexivity. Qed.

(** the writer's take is the dequeue of position n1 + 1 *)
Lemma take_refines : forall st st' s x v, Que k start st -> s = sof (S (n1 st)) -> x = slots st s -> mark x = 1 ->
  rewrites st st' s v -> fillseq v = fillseq x ->
  (nw st', n1 st', n2 st', wseq st', rseq st') = (nw st, S (n1 st), n2 st, wseq st ++ opt_list (payload x), rseq st) ->
  refines_step st st'.
Proof.
  intros st st' s x v Q Hs Hx Hm Hrw Hv H. injection H as H0 H1 H2 H3 H4.
  pose proof (q_ci _ _ _ Q s) as Hci. unfold CI in Hci. cbv zeta in Hci. rewrite <- Hx in Hci.
  destruct Hci as [(C1 & _)|[(C1 & (pre & i & Cf & Cp) & C3 & C4)|(C1 & _)]]; try congruence.
  rewrite Cf, app_length in C3. cbn [length] in C3.
  right. exists QDeq. cbn [qstep abs q_fill q_1 q_2 q_w]. rewrite <- Hs, <- Hx, cntp_cntpos.
  assert (L : (cntpos (n1 st) s <? length (fillseq x)) = true) by (apply Nat.ltb_lt; rewrite Cf, app_length; cbn [length]; lia).
  rewrite L. eexists. eexists. split; [reflexivity|]. split.
  - unfold qeq. cbn [q_fill q_w q_1 q_2]. split; [|auto]. intro j. symmetry.
    apply (rewrites_proj _ fillseq _ _ _ _ Hrw). rewrite <- Hx. exact Hv.
  - split; [|discriminate]. rewrite H3, Cp. cbn [opt_list]. f_equal. f_equal. symmetry. refine (eq_trans (qitem_item_at st _) _). apply (item_at_last _ _ _ _ pre).
    + rewrite <- Hs, <- Hx. exact Cf.
    + rewrite <- Hs. lia.
Qed.

Theorem ring_refines : forall st l st', Cnt k start st -> Que k start st -> lstep k st l = Some st' -> refines_step st st'.
Proof.
  intros st l st' C Q Hl. apply lstep_rstep in Hl.
  destruct Hl;
    try (apply stutter; try reflexivity; eapply (rewrites_proj _ fillseq _ _ s); [intro; reflexivity|subst; reflexivity]).
  - right. exists QTicket. eexists. eexists. split; [reflexivity|]. split; [|rst; auto].
    unfold qeq, abs. cbn [q_fill q_w q_1 q_2]. rst. split; [|auto]. intro j. slot_cases j s E; subst; reflexivity.
  - (* a fill of the next position of a free slot *)
    pose proof (q_ci _ _ _ Q s) as Hci. unfold CI in Hci. cbv zeta in Hci. rewrite <- Hx in Hci.
    destruct Hci as [(C1 & C2 & C3 & C4)|[(C1 & _)|(C1 & _)]]; try congruence.
    right. exists (QFill s p). cbn [qstep abs q_fill q_2]. rewrite <- Hx, cntp_cntpos.
    assert (E : (length (fillseq x) =? cntpos (n2 st) s) = true) by (apply Nat.eqb_eq; lia). rewrite E.
    eexists. eexists. split; [reflexivity|]. split; [|rst; auto]. unfold qeq, abs. cbn [q_fill q_w q_1 q_2]. rst. split; [|auto].
    intro j. unfold upd. destruct (Nat.eqb j s); [subst x|]; reflexivity.
  - assert (Es : s = sof (S (n1 st))) by (rewrite Hs; apply (next_read1 _ _ st C Hw)).
    eapply (take_refines st _ s x _ Q Es Hx Hm); [intro; reflexivity|reflexivity|reflexivity].
  - apply stutter; reflexivity.
  - subst y. eapply (take_refines st _ s x _ Q (c_wwait _ _ _ C s Hw) Hx Hm); [intro; apply upd_upd|reflexivity|reflexivity].
  - apply stutter; try reflexivity. eapply (rewrites_proj _ fillseq _ _ s); [intro; apply upd_upd|subst; reflexivity].
  - (* the reader completes position n2 + 1 *)
    assert (Es : s = sof (S (n2 st))) by (rewrite Hs; apply (next_read2 _ _ st C)).
    pose proof (q_ci _ _ _ Q s) as Hci. unfold CI in Hci. cbv zeta in Hci. rewrite <- Hx in Hci.
    destruct Hci as [(C1 & _)|[(C1 & _)|(C1 & (pre & i & Cf & Cp) & C3 & C4)]]; try congruence.
    rewrite Cf, app_length in C3. cbn [length] in C3.
    assert (Hlt : n2 st < n1 st).
    { destruct (le_lt_dec (n1 st) (n2 st)) as [L|L]; [|exact L]. pose proof (cntpos_mono k start _ _ s L). lia. }
    right. exists QComp. cbn [qstep abs q_fill q_1 q_2 q_w].
    assert (L : (n2 st <? n1 st) = true) by (apply Nat.ltb_lt; exact Hlt). rewrite L.
    eexists. eexists. split; [reflexivity|]. unfold qeq, abs. cbn [q_fill q_w q_1 q_2]. rst.
    split; [split; [|auto]|].
    + intro j. slot_cases j s E; subst; reflexivity.
    + split; [|discriminate]. rewrite Cp. cbn [opt_list]. f_equal. f_equal. symmetry. refine (eq_trans (qitem_item_at st _) _). apply (item_at_last _ _ _ _ pre).
      * rewrite <- Es, <- Hx. exact Cf.
      * rewrite <- Es. lia.
  - apply stutter; reflexivity.
Qed.

End Refine.
