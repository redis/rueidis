(** Proofs about ParseURL (C44): closed form of every option, rejection of invalid values,
    non-interference between parameters. *)
From Coq Require Import List NArith ZArith Bool String.
Require Import RV.Model.Base RV.Model.AccBase RV.Model.Url.
Import ListNotations.
Open Scope N_scope.

Section Mapping.
Variable e : env.

Definition valid_scheme (u : purl) : bool :=
  is_unix_scheme (scheme u) || is_tls_scheme (scheme u) || is_plain_scheme (scheme u).

(** address list: socket path (unix) or host:port of the URL, then every addr parameter in order *)
Definition addrs_of (u : purl) : list bytes :=
  (if is_unix_scheme (scheme u) then [trim_space e (path u)] else [snd (parse_addr e (hostname u) (host u))])
  ++ map (fun a => snd (parse_addr e (hostname u) a)) (q_all (query u) (b "addr")).

(** skip_verify: bare parameter or empty value = true, otherwise strconv.ParseBool *)
Definition skip_of (u : purl) : bool :=
  if q_has (query u) (b "skip_verify") then
    match q_get (query u) (b "skip_verify") with
    | [] => true
    | v => match parse_bool v with Some sv => sv | None => false end
    end
  else false.

Definition tls_of (u : purl) : option tls_cfg :=
  if is_tls_scheme (scheme u) then Some (mkTls (fst (parse_addr e (hostname u) (host u))) (skip_of u)) else None.

Definition user_of (u : purl) : bytes := match user u with Some (n, _) => n | None => [] end.
Definition pass_of (u : purl) : bytes := match user u with Some (_, Some p) => p | _ => [] end.

(** database: the db parameter wins over the path; path only for non-unix schemes *)
Definition db_of (u : purl) : Z :=
  if q_has (query u) (b "db") then
    match parse_int10 (q_get (query u) (b "db")) with Some z => z | None => 0%Z end
  else if is_unix_scheme (scheme u) then 0%Z
  else match split_byte 47 (path u) with
       | [_; d] => match parse_int10 d with Some z => z | None => 0%Z end
       | _ => 0%Z
       end.

(** a duration parameter *)
Definition dur_of (u : purl) (k : bytes) : Z :=
  if q_has (query u) k then
    match parse_duration e (q_get (query u) k) with Some d => d | None => 0%Z end
  else 0%Z.

Definition expected (u : purl) : opts :=
  mkOpts (addrs_of u) (tls_of u) (is_unix_scheme (scheme u)) (user_of u) (pass_of u) (db_of u)
         (dur_of u (b "dial_timeout")) (dur_of u (b "write_timeout"))
         (bytes_eqb (q_get (query u) (b "protocol")) (b "2"))
         (bytes_eqb (q_get (query u) (b "client_cache")) (b "0"))
         (bytes_eqb (q_get (query u) (b "max_retries")) (b "0"))
         (q_get (query u) (b "client_name"))
         (q_get (query u) (b "master_set")).

(** the conditions under which ParseURL rejects *)
Definition bad_path (u : purl) : bool :=
  negb (is_unix_scheme (scheme u)) &&
  match split_byte 47 (path u) with
  | [_; d] => match parse_int10 d with Some _ => false | None => true end
  | _ :: _ :: _ :: _ => true
  | _ => false
  end.
Definition bad_db (u : purl) : bool :=
  q_has (query u) (b "db") && match parse_int10 (q_get (query u) (b "db")) with Some _ => false | None => true end.
Definition bad_dur (u : purl) (k : bytes) : bool :=
  q_has (query u) k && match parse_duration e (q_get (query u) k) with Some _ => false | None => true end.
Definition bad_skip (u : purl) : bool :=
  is_tls_scheme (scheme u) && q_has (query u) (b "skip_verify") &&
  match q_get (query u) (b "skip_verify") with
  | [] => false
  | v => match parse_bool v with Some _ => false | None => true end
  end.

Definition rejected (u : purl) : bool :=
  negb (valid_scheme u) || bad_path u || bad_db u || bad_dur u (b "dial_timeout") || bad_dur u (b "write_timeout") || bad_skip u.

Definition reject_code (u : purl) : N :=
  if negb (valid_scheme u) then EScheme
  else if bad_path u then match split_byte 47 (path u) with [_; _] => EDb | _ => EPath end
  else if bad_db u then EDb
  else if bad_dur u (b "dial_timeout") then EDial
  else if bad_dur u (b "write_timeout") then EWrite
  else ESkipVerify.

Lemma stage_path_spec u :
  stage_path u =
  if bad_path u then Err (match split_byte 47 (path u) with [_; _] => EDb | _ => EPath end)
  else Ok (if is_unix_scheme (scheme u) then None
           else match split_byte 47 (path u) with [_; d] => parse_int10 d | _ => None end).
Proof.
  unfold stage_path, bad_path, path_db. case (is_unix_scheme (scheme u)); [reflexivity|].
  destruct (split_byte 47 (path u)) as [|x [|d [|y r]]]; try reflexivity. now case (parse_int10 d).
Qed.

Lemma stage_db_spec u dbp :
  stage_db u dbp = if bad_db u then Err EDb else
    Ok (if q_has (query u) (b "db") then parse_int10 (q_get (query u) (b "db")) else dbp).
Proof.
  unfold stage_db, bad_db. case (q_has (query u) (b "db")); [|reflexivity].
  now case (parse_int10 (q_get (query u) (b "db"))).
Qed.

Lemma stage_dur_spec u k ek :
  stage_dur e u k ek = if bad_dur u k then Err ek else Ok (dur_of u k).
Proof.
  unfold stage_dur, bad_dur, dur_of. case (q_has (query u) k); [|reflexivity].
  now case (parse_duration e (q_get (query u) k)).
Qed.

Lemma stage_skip_spec u :
  stage_skip u (if is_tls_scheme (scheme u) then Some (mkTls (fst (parse_addr e (hostname u) (host u))) false) else None) =
  if bad_skip u then Err ESkipVerify else Ok (tls_of u).
Proof.
  unfold stage_skip, bad_skip, tls_of, skip_of. case (is_tls_scheme (scheme u)); [|reflexivity].
  case (q_has (query u) (b "skip_verify")); [|reflexivity].
  case (q_get (query u) (b "skip_verify")) as [|c r]; [reflexivity|].
  now case (parse_bool (c :: r)).
Qed.

(** the database number once both stages have passed: the default 0 moves inside the case analysis *)
Lemma db_default (has unix : bool) (dq : option Z) (segs : list bytes) :
  match (if has then dq else if unix then None else match segs with [_; d] => parse_int10 d | _ => None end)
  with Some z => z | None => 0%Z end =
  if has then match dq with Some z => z | None => 0%Z end
  else if unix then 0%Z
  else match segs with [_; d] => match parse_int10 d with Some z => z | None => 0%Z end | _ => 0%Z end.
Proof. case has; [reflexivity|]. case unix; [reflexivity|]. now destruct segs as [|x [|d [|y r]]]. Qed.

(** ParseURL is a total function of the parsed URL: the stages in the order of the code, each either
    rejecting with its own error or handing its closed form on *)
Theorem parse_url_eq (u : purl) :
  parse_url e u = if rejected u then Err (reject_code u) else Ok (expected u).
Proof.
  unfold parse_url, rejected, reject_code. cbv zeta. fold (valid_scheme u).
  case (valid_scheme u); [|reflexivity]. cbn [negb].
  rewrite stage_path_spec. case (bad_path u); [reflexivity|]. cbn [bind].
  rewrite stage_db_spec. case (bad_db u); [reflexivity|]. cbn [bind].
  rewrite !stage_dur_spec.
  case (bad_dur u (b "dial_timeout")); [reflexivity|]. case (bad_dur u (b "write_timeout")); [reflexivity|]. cbn [bind].
  rewrite stage_skip_spec. case (bad_skip u); [reflexivity|]. cbn [bind orb].
  unfold expected, addrs_of, user_of, pass_of, db_of. now rewrite db_default.
Qed.

Lemma parse_url_ok_inv u o : parse_url e u = Ok o -> rejected u = false /\ o = expected u.
Proof. rewrite parse_url_eq. case (rejected u); [discriminate|]. now intros [= <-]. Qed.

Lemma rejected_by u :
  bad_path u = true \/ bad_db u = true \/ bad_dur u (b "dial_timeout") = true \/ bad_dur u (b "write_timeout") = true \/
  bad_skip u = true -> rejected u = true.
Proof. unfold rejected. intros [->|[->|[->|[->| ->]]]]; now rewrite ?orb_true_r. Qed.

Lemma rejected_false u : rejected u = false ->
  valid_scheme u = true /\ bad_path u = false /\ bad_db u = false /\
  bad_dur u (b "dial_timeout") = false /\ bad_dur u (b "write_timeout") = false /\ bad_skip u = false.
Proof.
  unfold rejected. intro R. apply orb_false_iff in R as [R B5]. apply orb_false_iff in R as [R B4].
  apply orb_false_iff in R as [R B3]. apply orb_false_iff in R as [R B2]. apply orb_false_iff in R as [R B1].
  apply negb_false_iff in R. auto 6.
Qed.

Lemma dur_of_spec u k : bad_dur u k = false ->
  (q_has (query u) k = true -> parse_duration e (q_get (query u) k) = Some (dur_of u k)) /\
  (q_has (query u) k = false -> dur_of u k = 0%Z).
Proof.
  unfold bad_dur, dur_of. case (q_has (query u) k); [|easy].
  now case (parse_duration e (q_get (query u) k)).
Qed.

Lemma db_of_spec u : bad_path u = false -> bad_db u = false ->
  (q_has (query u) (b "db") = true -> parse_int10 (q_get (query u) (b "db")) = Some (db_of u)) /\
  (q_has (query u) (b "db") = false -> is_unix_scheme (scheme u) = false ->
     forall x d, split_byte 47 (path u) = [x; d] -> parse_int10 d = Some (db_of u)) /\
  (q_has (query u) (b "db") = false -> (is_unix_scheme (scheme u) = true \/ split_byte 47 (path u) = [path u]) -> db_of u = 0%Z).
Proof.
  unfold bad_path, bad_db, db_of. case (q_has (query u) (b "db")).
  - intros _. now case (parse_int10 (q_get (query u) (b "db"))).
  - intros Hp _. split; [easy|]. split.
    + intros _ Hu x d Hs. rewrite Hu, Hs in *. now destruct (parse_int10 d).
    + intros _ [Hu|Hs]; [now rewrite Hu|]. rewrite Hs. now case (is_unix_scheme (scheme u)).
Qed.

Lemma tls_of_inv u t : tls_of u = Some t ->
  is_tls_scheme (scheme u) = true /\ t = mkTls (fst (parse_addr e (hostname u) (host u))) (skip_of u).
Proof. unfold tls_of. case (is_tls_scheme (scheme u)); [|discriminate]. now intros [= <-]. Qed.

Lemma skip_of_spec u : is_tls_scheme (scheme u) = true -> bad_skip u = false ->
  (q_has (query u) (b "skip_verify") = false -> skip_of u = false) /\
  (q_has (query u) (b "skip_verify") = true -> q_get (query u) (b "skip_verify") = [] -> skip_of u = true) /\
  (q_has (query u) (b "skip_verify") = true -> q_get (query u) (b "skip_verify") <> [] ->
     parse_bool (q_get (query u) (b "skip_verify")) = Some (skip_of u)).
Proof.
  unfold bad_skip, skip_of. intros ->. case (q_has (query u) (b "skip_verify")); [|easy].
  case (q_get (query u) (b "skip_verify")) as [|c r]; [easy|].
  case (parse_bool (c :: r)) as [sv|]; [intros _|discriminate].
  split; [discriminate|]. split; [intros _ [=]|reflexivity].
Qed.

End Mapping.

Lemma q_get_own q q' k : q_all q k = q_all q' k -> q_get q k = q_get q' k.
Proof. unfold q_get. intros ->. reflexivity. Qed.

Lemma dur_of_own e u u' k : q_all (query u) k = q_all (query u') k -> dur_of e u k = dur_of e u' k.
Proof. unfold dur_of, q_has, q_get. intros ->. reflexivity. Qed.

Lemma user_own u u' : user u = user u' -> user_of u = user_of u' /\ pass_of u = pass_of u'.
Proof. unfold user_of, pass_of. intros ->. split; reflexivity. Qed.

Lemma tls_of_own e u u' : scheme u = scheme u' -> host u = host u' -> hostname u = hostname u' ->
  q_all (query u) (b "skip_verify") = q_all (query u') (b "skip_verify") -> tls_of e u = tls_of e u'.
Proof. unfold tls_of, skip_of, q_has, q_get. intros -> -> -> ->. reflexivity. Qed.

Lemma addrs_of_own e u u' : scheme u = scheme u' -> host u = host u' -> hostname u = hostname u' -> path u = path u' ->
  q_all (query u) (b "addr") = q_all (query u') (b "addr") -> addrs_of e u = addrs_of e u'.
Proof. unfold addrs_of. intros -> -> -> -> ->. reflexivity. Qed.

Lemma db_of_own u u' : scheme u = scheme u' -> path u = path u' ->
  q_all (query u) (b "db") = q_all (query u') (b "db") -> db_of u = db_of u'.
Proof. unfold db_of, q_has, q_get. intros -> -> ->. reflexivity. Qed.

Lemma q_all_other q k k' v : bytes_eqb k' k = false -> q_all ((k', v) :: q) k = q_all q k.
Proof. intro H. unfold q_all. cbn [filter fst]. now rewrite H. Qed.

Lemma q_all_app q1 q2 k : q_all (q1 ++ q2) k = q_all q1 k ++ q_all q2 k.
Proof. unfold q_all. now rewrite filter_app, map_app. Qed.

Lemma before_fix_overwrites :
  let e := mkEnv (fun _ => ([], [])) (fun s => if bytes_eqb s (b "5s") then Some 5000000000%Z else if bytes_eqb s (b "1s") then Some 1000000000%Z else None) (fun s => s) in
  timeouts_before_fix e [(b "dial_timeout", b "5s"); (b "write_timeout", b "1s")] = Ok (1000000000%Z, 0%Z).
Proof. vm_compute. reflexivity. Qed.

Lemma addr_entry_hosted e uhost a h p : split_host_port e a = (h, p) -> h <> [] -> p <> [] ->
  snd (parse_addr e uhost a) = join_host_port h p.
Proof. intros H Hh Hp. unfold parse_addr. rewrite H. destruct h; [contradiction|]. destruct p; [contradiction|]. reflexivity. Qed.

(** an entry without a host (":port", or anything net.SplitHostPort rejects: no port at all) takes the default
    host it is given (the caller passes u.Hostname()), or "localhost" when that is empty; a missing port is 6379 *)
Lemma addr_entry_hostless e uhost a p : split_host_port e a = ([], p) ->
  snd (parse_addr e uhost a) =
  join_host_port (match uhost with [] => b "localhost" | _ => uhost end) (match p with [] => b "6379" | _ => p end).
Proof. intros H. unfold parse_addr. rewrite H. destruct uhost; destruct p; reflexivity. Qed.

Theorem addr_entries e u o : parse_url e u = Ok o ->
  forall i a, nth_error (q_all (query u) (b "addr")) i = Some a ->
  nth_error (init_address o) (S i) = Some (snd (parse_addr e (hostname u) a)) /\
  List.length (init_address o) = S (List.length (q_all (query u) (b "addr"))).
Proof.
  intros H i a Hi. apply parse_url_ok_inv in H as [_ ->]. unfold expected, addrs_of; cbn [init_address].
  rewrite app_length, map_length. split; [|now case (is_unix_scheme (scheme u))].
  case (is_unix_scheme (scheme u)); cbn [app nth_error]; exact (map_nth_error _ _ _ Hi).
Qed.

(** the documented rule for an entry with a port: its own host, or the URL's host NAME (localhost if the URL has none) *)
Theorem addr_rule e u a h p : split_host_port e a = (h, p) -> p <> [] ->
  snd (parse_addr e (hostname u) a) =
  join_host_port (match h with [] => match hostname u with [] => b "localhost" | n => n end | _ => h end) p.
Proof.
  intros H Hp. destruct h as [|c r].
  - rewrite (addr_entry_hostless e (hostname u) a p H). destruct p; [contradiction|]. now destruct (hostname u).
  - apply (addr_entry_hosted e (hostname u) a (c :: r) p H); [discriminate|exact Hp].
Qed.

(** with u.Host as the default host ([parse_addr] given [host u] instead of [hostname u]) a port in the URL makes the result malformed *)
Lemma addr_before_fix_malformed :
  let e := mkEnv (fun s => if bytes_eqb s (b ":7001") then ([], b "7001") else ([], [])) (fun _ => None) (fun s => s) in
  snd (parse_addr e (b "h1:7000") (b ":7001")) = b "[h1:7000]:7001" /\   (* default host = u.Host *)
  snd (parse_addr e (b "h1") (b ":7001")) = b "h1:7001" /\               (* default host = u.Hostname() *)
  snd (parse_addr e (b "[::1]") (b "[::1]")) = b "[[::1]]:6379" /\      (* redis://[::1] before *)
  snd (parse_addr e (b "::1") (b "[::1]")) = b "[::1]:6379".            (* … and after *)
Proof. vm_compute. repeat split; reflexivity. Qed.
