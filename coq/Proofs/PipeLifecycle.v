(** C04: InvC (error latch, state word, Close protocol) and InvD (the state after the clean-up loop); [drain]. *)
From Coq Require Import List NArith ZArith Bool Arith Lia.
Require Import RV.Model.Base RV.Model.PipeQueue RV.Model.Pipe RV.Model.PipeLts.
Require Import RV.Proofs.PipeLtsBasics RV.Proofs.PipeExclusive.
Import ListNotations.
Open Scope N_scope.

Definition closer_past_cas (k : kpc) : Prop := match k with K2 _ _ | KWait _ | K5 | KDone => True | _ => False end.

(** [c_err]: a closed pipe has its error latched; [c_k1]: so has one on which a Close has entered; [c_cas]: a closer
    past its compare-and-swap sees a closed pipe; [c_post]: in the tail of _background the pipe and the connection
    are closed; [c_wdone]: p.close is closed exactly when the writer has exited. *)
Record InvC (s : pstate) : Prop := mkInvC {
  c_err : st_closed s -> p_err s <> None;
  c_k1 : forall t, p_closers s t <> KIdle -> p_err s <> None;
  c_cas : forall t, closer_past_cas (p_closers s t) -> st_closed s;
  c_post : match p_b s with BPost | BClean | BWaitClose | BDone => st_closed s /\ p_conn s = false | _ => True end;
  c_wdone : (p_wclosed s = true <-> p_w s = WDone)
}.

Lemma invc_init g : InvC (p_init g).
Proof.
  constructor; cbn.
  - intros [K|K]; discriminate.
  - intros t K. contradiction.
  - intros t [].
  - exact I.
  - split; intros K; discriminate.
Qed.

Lemma st_closed_bg s : st_closed s -> st_closed (do_background s).
Proof. unfold st_closed, do_background. intros [K|K]; destruct (p_bg s); cbn; rewrite K; cbn; auto. Qed.

Lemma st_closed_bg_inv s : st_closed (do_background s) -> st_closed s.
Proof.
  unfold st_closed, do_background. destruct (p_bg s); cbn; destruct (N.eqb (p_st s) 0) eqn:E; auto;
    intros [K|K]; discriminate.
Qed.

Lemma invc_do_background s : InvC s -> (p_bg s = false -> p_w s = WOff) -> InvC (do_background s).
Proof.
  intros [c1 c2 c3 c4 c5] Hw.
  assert (Eerr : p_err (do_background s) = p_err s) by (unfold do_background; destruct (p_bg s); reflexivity).
  assert (Ecl : p_closers (do_background s) = p_closers s) by (unfold do_background; destruct (p_bg s); reflexivity).
  constructor; rewrite ?Eerr, ?Ecl.
  - intros K. apply c1. now apply st_closed_bg_inv.
  - exact c2.
  - intros t K. apply st_closed_bg. eauto.
  - unfold do_background. destruct (p_bg s) eqn:Eb; cbn.
    + destruct (p_b s); auto; destruct c4 as [K1 K2]; split; auto;
        unfold st_closed in *; cbn; destruct K1 as [K|K]; rewrite K; cbn; auto.
    + exact I.
  - unfold do_background. destruct (p_bg s) eqn:Eb; cbn; [exact c5|].
    split; intros K; [|discriminate]. apply c5 in K. rewrite (Hw eq_refl) in K. discriminate.
Qed.

Lemma invc_do_exit s e : InvC s -> InvC (do_exit s e).
Proof.
  intros [c1 c2 c3 c4 c5].
  assert (Hcl : st_closed s -> st_closed (do_exit s e)).
  { unfold st_closed; cbn. intros [K|K]; rewrite K; cbn; auto. }
  constructor; cbn.
  - intros _. destruct (p_err s); discriminate.
  - intros t _. destruct (p_err s); discriminate.
  - intros t K. apply Hcl. eauto.
  - destruct (p_b s); auto; destruct c4 as [K1 K2]; split; auto.
  - exact c5.
Qed.

Lemma invc_same s s' :
  InvC s -> p_st s' = p_st s -> p_err s' = p_err s -> p_closers s' = p_closers s -> p_b s' = p_b s ->
  p_conn s' = p_conn s -> p_wclosed s' = p_wclosed s -> p_w s' = p_w s -> InvC s'.
Proof.
  intros [c1 c2 c3 c4 c5] e1 e2 e3 e4 e5 e6 e7.
  constructor; unfold st_closed in *; rewrite ?e1, ?e2, ?e3, ?e4, ?e5, ?e6, ?e7; auto.
Qed.

(** a closer that is past its compare-and-swap moves on; it may close the connection *)
Lemma invc_closer s s' t k' :
  InvC s -> closer_past_cas (p_closers s t) ->
  p_st s' = p_st s -> p_err s' = p_err s -> (forall u, p_closers s' u = upd (p_closers s) t k' u) -> p_b s' = p_b s ->
  p_conn s' = p_conn s \/ p_conn s' = false -> p_wclosed s' = p_wclosed s -> p_w s' = p_w s -> InvC s'.
Proof.
  intros IC Hk e1 e2 e3 e4 e5 e6 e7.
  assert (Hcl : st_closed s) by apply (c_cas s IC t Hk).
  assert (Herr : p_err s <> None) by (apply (c_k1 s IC t); destruct (p_closers s t); try discriminate; destruct Hk).
  destruct IC as [c1 c2 c3 c4 c5]. constructor; unfold st_closed in *; rewrite ?e1, ?e2, ?e4, ?e6, ?e7; auto.
  destruct (p_b s); auto; destruct c4; destruct e5 as [->| ->]; auto.
Qed.

Lemma bg_st s : InvA s -> p_b s <> BOff -> p_st s = 1 \/ st_closed s.
Proof.
  intros IA Hb. pose proof (bg_of_b s IA Hb) as Hbg.
  pose proof (a_bgst s IA Hbg). destruct (a_st s IA) as [K|[K|[K|K]]]; unfold st_closed; auto. contradiction.
Qed.

Lemma invc_step g s l s' : InvA s -> InvC s -> pstep g s l = Some s' -> InvC s'.
Proof.
  intros IA IC H.
  assert (Hw : p_bg s = false -> p_w s = WOff) by (intros K; apply (a_bgw s IA K)).
  assert (Hlatch : forall e b, InvC (latch s e b)).
  { intros e b. destruct IC as [c1 c2 c3 c4 c5]. constructor; cbn; auto; try (intros; destruct (p_err s); discriminate).
    destruct (p_b s); auto; destruct c4; destruct b; auto. }
  destruct (pstep_inv g s l s' H); subst; try (apply (invc_same s); auto; fail).
  - (* LBg *) apply (invc_same (do_background s)); auto. now apply invc_do_background.
  - (* LSyncFail *)
    apply (invc_same (do_background (latch s (if ctxerr then ECtx else EConn) true))); try (rewrite !do_background_eq; reflexivity).
    apply invc_do_background; auto.
  - (* LBgAfter *) apply (invc_same (do_background s)); auto. now apply invc_do_background.
  - (* LWExit *)
    pose proof (invc_do_exit s EConn IC) as [c1 c2 c3 c4 c5]. constructor; cbn in *; auto. split; reflexivity.
  - (* LRStep *)
    destruct (fold_apply_frame (r_owner r') (r_resps r') acts (set_wire s (p_c2s s) rest)) as (q'&cs&dl&->&_).
    destruct IC as [c1 c2 c3 c4 c5]. constructor; unfold st_closed in *; cbn; auto.
  - (* LRFail *)
    assert (Hcl : (if N.eqb (p_st s) 1 then 2 else p_st s) = 2 \/ (if N.eqb (p_st s) 1 then 2 else p_st s) = 4).
    { destruct (bg_st s IA) as [K|[K|K]]; [rewrite Eb; discriminate|..]; rewrite K; cbn; auto. }
    destruct IC as [c1 c2 c3 c4 c5].
    destruct complete; constructor; unfold st_closed; cbn; auto; try (intros; destruct (p_err s); discriminate).
  - (* LPostSkip *) destruct IC as [c1 c2 c3 c4 c5]. rewrite Eb in c4. constructor; cbn; auto.
  - (* LPostPing *) destruct IC as [c1 c2 c3 c4 c5]. rewrite Eb in c4. constructor; cbn; auto.
  - (* LCleanExit *) destruct IC as [c1 c2 c3 c4 c5]. rewrite Eb in c4. constructor; cbn; auto.
  - (* LFinal *)
    destruct IC as [c1 c2 c3 c4 c5]. rewrite Eb in c4. destruct c4 as [K1 K2]. constructor; unfold st_closed; cbn; auto.
  - (* LFail *)
    destruct IC as [c1 c2 c3 c4 c5]. constructor; cbn; auto. destruct (p_b s); auto; destruct c4; auto.
  - (* LExtExit *) now apply invc_do_exit.
  - (* LClose1 *)
    destruct IC as [c1 c2 c3 c4 c5]. constructor; cbn; auto; try (intros; destruct (p_err s); discriminate).
    intros u. unfold upd. destruct (N.eqb u t); [intros []|apply c3].
  - (* LClose2 *)
    destruct IC as [c1 c2 c3 c4 c5].
    assert (Herr : p_err s <> None) by (apply (c2 t); rewrite Ek; discriminate).
    assert (Hcl : forall x, (if N.eqb (p_st s) 0 || N.eqb (p_st s) 1 then 2 else p_st s) = x -> x = 2 \/ x = 4).
    { intros x <-. destruct (a_st s IA) as [K|[K|[K|K]]]; rewrite K; cbn; auto. }
    constructor; unfold st_closed; cbn; auto.
    all: try solve [intros; eapply Hcl; reflexivity].
    all: try solve [destruct (p_b s); auto; destruct c4 as [K1 K2]; split; auto; eapply Hcl; reflexivity].
  - (* LClose3, background() *)
    assert (Hcl : st_closed s) by (apply (c_cas s IC t); rewrite Ek; exact I).
    assert (Herr : p_err s <> None) by (apply (c_k1 s IC t); rewrite Ek; discriminate).
    pose proof (invc_do_background s IC Hw) as [c1 c2 c3 c4 c5].
    constructor; cbn; auto.
    all: try solve [intros; rewrite do_background_eq; exact Herr].
    all: try solve [intros; now apply st_closed_bg].
  - (* LClose3 *) eapply (invc_closer s _ t); try reflexivity; [exact IC|rewrite Ek; exact I|now left].
  - (* LClose4 *) eapply (invc_closer s _ t); try reflexivity; [exact IC|rewrite Ek; exact I|now left].
  - (* LCloseJoin *) eapply (invc_closer s _ t); try reflexivity; [exact IC|rewrite Ek; exact I|now left].
  - (* LClose5 *) eapply (invc_closer s _ t); try reflexivity; [exact IC|rewrite Ek; exact I|now right].
Qed.

Theorem invc_run g sched : forall s s', InvA s -> InvC s ->
  prun g sched s = Some s' -> InvA s' /\ InvC s'.
Proof.
  intros s s' IA IC. apply (prun_inv g (fun x => InvA x /\ InvC x)); [|auto].
  intros x l x' [A C] E. split; [eapply inva_step|eapply invc_step]; eauto.
Qed.

(** C04_drain: after the clean-up loop has left (waits = 0) nobody waits on this pipe any more *)
Definition quiet_c (c : crec) : Prop :=
  match k_pc c with PIdle | PIncr | PLoad _ | PErr | PDecr false | PRet => True | _ => False end /\
  (k_drain c = DNone \/ k_drain c = DDone).
Definition quiet_k (k : kpc) : Prop :=
  match k with KIdle | K1 _ | K2 false false | K5 | KDone => True | _ => False end.
Definition drained (s : pstate) : Prop := p_b s = BWaitClose \/ p_b s = BDone.

Record InvD (s : pstate) : Prop := mkInvD {
  d_cache : match p_b s with BClean | BWaitClose | BDone => p_cache_closed s = true | _ => True end;
  d_quiet : drained s -> (forall t, quiet_c (p_calls s t)) /\ (forall t, quiet_k (p_closers s t))
}.

Lemma invd_init g : InvD (p_init g).
Proof. constructor; cbn; [exact I|]. intros [K|K]; discriminate. Qed.

Lemma holds0_quiet c : holds c = 0%nat -> quiet_c c.
Proof.
  unfold holds, quiet_c. destruct (k_pc c) as [| | | | | | |b| | | | |]; destruct (k_drain c); cbn; intros H; try lia; auto.
Qed.

Lemma kholds0_quiet k : kholds k = 0%nat -> quiet_k k.
Proof. destruct k; cbn; intros H; try lia; auto. Qed.

Lemma invd_call s s' t c' :
  InvD s -> p_b s' = p_b s -> p_closers s' = p_closers s -> p_cache_closed s' = p_cache_closed s ->
  (forall u, p_calls s' u = upd (p_calls s) t c' u) ->
  (drained s -> quiet_c (p_calls s t) -> quiet_c c') ->
  InvD s'.
Proof.
  intros [d1 d2] e1 e2 e3 e4 Hq. constructor; unfold drained; rewrite ?e1, ?e2, ?e3; auto.
  intros Hd. destruct (d2 Hd) as [A B]. split; [|exact B].
  intros u. rewrite e4. unfold upd. destruct (N.eqb u t) eqn:E; [|apply A]. apply Hq; auto.
Qed.

Lemma invd_same s s' :
  InvD s -> p_b s' = p_b s -> p_closers s' = p_closers s -> p_cache_closed s' = p_cache_closed s ->
  (forall u, k_pc (p_calls s' u) = k_pc (p_calls s u) /\ k_drain (p_calls s' u) = k_drain (p_calls s u)) ->
  InvD s'.
Proof.
  intros [d1 d2] e1 e2 e3 e4. constructor; unfold drained; rewrite ?e1, ?e2, ?e3; auto.
  intros Hd. destruct (d2 Hd) as [A B]. split; [|exact B].
  intros u. destruct (e4 u) as [K1 K2]. unfold quiet_c. rewrite K1, K2. apply A.
Qed.

Lemma invd_closer s s' t k' :
  InvD s -> p_b s' = p_b s -> p_cache_closed s' = p_cache_closed s -> p_calls s' = p_calls s ->
  (forall u, p_closers s' u = upd (p_closers s) t k' u) ->
  (drained s -> quiet_k (p_closers s t) -> quiet_k k') ->
  InvD s'.
Proof.
  intros [d1 d2] e1 e3 e2 e4 Hq. constructor; unfold drained; rewrite ?e1, ?e2, ?e3; auto.
  intros Hd. destruct (d2 Hd) as [A B]. split; [exact A|].
  intros u. rewrite e4. unfold upd. destruct (N.eqb u t) eqn:E; [|apply B]. apply Hq; auto.
Qed.

Lemma not_drained_b s b : p_b s = b -> (match b with BWaitClose | BDone => False | _ => True end) -> ~ drained s.
Proof. intros E Hb [K|K]; rewrite E in K; rewrite K in Hb; exact Hb. Qed.

Lemma drained_closed s : InvC s -> drained s -> st_closed s.
Proof. intros IC [K|K]; pose proof (c_post s IC) as P; rewrite K in P; apply P. Qed.

(* the side condition of [invd_call] for a caller whose pc is [Epc]: on a drained pipe either the old
   pc was not quiet (contradiction) or the new one is *)
Ltac qsolve Epc :=
  let Hd := fresh "Hd" in let Q1 := fresh "Q1" in let Q2 := fresh "Q2" in
  intros Hd [Q1 Q2]; unfold quiet_c in *; cbn in *; rewrite ?Epc in *; try contradiction; split; cbn; auto.

Lemma drained_bg_inv s : drained (do_background s) -> drained s.
Proof. unfold drained. rewrite do_background_eq. cbn. destruct (p_bg s); auto. intros [K|K]; discriminate. Qed.

Lemma invd_step g s l s' : InvA s -> InvC s -> InvD s -> pstep g s l = Some s' -> InvD s'.
Proof.
  intros IA IC ID H.
  (* background() is only called by threads that are not quiet *)
  assert (Hbg : forall x, p_b x = p_b s -> p_cache_closed x = p_cache_closed s -> p_bg x = p_bg s ->
                ~ ((forall t, quiet_c (p_calls s t)) /\ (forall t, quiet_k (p_closers s t))) -> InvD (do_background x)).
  { intros x e1 e2 e3 Hnq. destruct ID as [d1 d2]. constructor.
    - rewrite do_background_eq. cbn. rewrite e1, e2, e3. destruct (p_bg s); auto.
    - intros Hd. apply drained_bg_inv in Hd. unfold drained in Hd. rewrite e1 in Hd. destruct (Hnq (d2 Hd)). }
  destruct (pstep_inv g s l s' H); subst; try (apply (invd_same s); auto; fail);
    try (eapply (invd_call s _ t); [exact ID|reflexivity|reflexivity|reflexivity|intros u; reflexivity|]).
  - (* LCall *) intros _ _. split; cbn; auto.
  - (* LCtxDone *) intros _ Q. exact Q.
  - (* LIncr *) intros _ _. split; cbn; auto.
  - (* LIncr *) qsolve Epc.
  - (* LLoad: a drained pipe is closed *)
    intros Hd [_ Q2]. destruct (drained_closed s IC Hd) as [E|E]; destruct Hx as [[K|[K _]]|K _ _|K _ _|_ _]; try congruence;
      (split; [exact I|exact Q2]).
  - (* LBg *)
    rewrite do_background_set_call. apply Hbg; try reflexivity.
    intros [A _]. destruct (A t) as [Q _]. rewrite Epc in Q. exact Q.
  - (* LSyncW *) qsolve Epc.
  - (* LSyncR *) qsolve Epc.
  - (* LSyncFail *)
    rewrite do_background_set_call. apply Hbg; try reflexivity.
    intros [A _]. destruct (A t) as [Q _]. unfold sync_user in Hsy. destruct (k_pc (p_calls s t)); try discriminate; exact Q.
  - (* LErr *) qsolve Epc.
  - (* LDecr *) qsolve Epc.
  - (* LDecr *) qsolve Epc.
  - (* LBgAfter *)
    rewrite do_background_set_call. apply Hbg; try reflexivity.
    intros [A _]. destruct (A t) as [Q _]. rewrite Epc in Q. exact Q.
  - (* LPut *) qsolve Epc.
  - (* LPutFail *) qsolve Epc.
  - (* LRecv *) qsolve Epc.
  - (* LAbort *) qsolve Epc.
  - (* LFin *) qsolve Epc.
  - (* LDrainRecv *) intros Hd [Q1 Q2]. rewrite Edr in Q2. destruct Q2; discriminate.
  - (* LDrainFin *) intros Hd [Q1 Q2]. rewrite Edr in Q2. destruct Q2; discriminate.
  - (* LRStep *) destruct ID as [d1 d2]. constructor; cbn; auto. intros [K|K]; discriminate.
  - (* LRFail *) destruct ID as [d1 d2]. constructor; cbn; auto. intros [K|K]; discriminate.
  - (* LPostSkip *) destruct ID as [d1 d2]. constructor; cbn; auto. intros [K|K]; discriminate.
  - (* LPostPing *) destruct ID as [d1 d2]. constructor; cbn; auto. intros [K|K]; discriminate.
  - (* LCleanNR *)
    destruct ID as [d1 d2]. rewrite Eb in d1. constructor; cbn; rewrite ?Eb; auto. unfold drained; cbn. rewrite Eb. intros [K|K]; discriminate.
  - (* LCleanExit: waits = 0 *)
    rewrite (a_count s IA) in Hw.
    destruct ID as [d1 d2]. rewrite Eb in d1. constructor; cbn; auto.
    intros _. split.
    + intros t. apply holds0_quiet. now apply hsum_zero_c.
    + intros t. apply kholds0_quiet. now apply hsum_zero_k.
  - (* LFinal *)
    destruct ID as [d1 d2]. rewrite Eb in d1. constructor; cbn; auto.
    intros _. apply d2. left. exact Eb.
  - (* LClose1 *)
    eapply (invd_closer s _ t); [exact ID|reflexivity|reflexivity|reflexivity|intros u; reflexivity|]. intros _ _. exact I.
  - (* LClose2 *)
    eapply (invd_closer s _ t); [exact ID|reflexivity|reflexivity|reflexivity|intros u; reflexivity|].
    intros Hd _. destruct (drained_closed s IC Hd) as [E|E]; rewrite E; cbn; rewrite andb_false_r; exact I.
  - (* LClose3, background() *)
    rewrite do_background_set_closer. apply Hbg; try reflexivity.
    intros [_ B]. specialize (B t). rewrite Ek in B. destruct ping; exact B.
  - (* LClose3 *)
    eapply (invd_closer s _ t); [exact ID|reflexivity|reflexivity|reflexivity|intros u; reflexivity|]. intros _ _. exact I.
  - (* LClose4 *)
    destruct ID as [d1 d2]. constructor; cbn; auto.
    intros Hd. destruct (d2 Hd) as [A B]. exfalso. specialize (B t). rewrite Ek in B. exact B.
  - (* LCloseJoin *)
    eapply (invd_closer s _ t); [exact ID|reflexivity|reflexivity|reflexivity|intros u; reflexivity|]. intros _ _. exact I.
  - (* LClose5 *)
    eapply (invd_closer s _ t); [exact ID|reflexivity|reflexivity|reflexivity|intros u; reflexivity|]. intros _ _. exact I.
Qed.

Section Life.
  Variable g : config.

  Theorem invd_run sched : forall s s', InvA s -> InvC s -> InvD s -> prun g sched s = Some s' -> InvA s' /\ InvC s' /\ InvD s'.
  Proof.
    intros s s' IA IC ID. apply (prun_inv g (fun x => InvA x /\ InvC x /\ InvD x)); [|auto].
    intros x l x' (A&C&D) E. split; [eapply inva_step|split; [eapply invc_step|eapply invd_step]]; eauto.
  Qed.

  Theorem invd_reach sched s : prun g sched (p_init g) = Some s -> InvA s /\ InvC s /\ InvD s.
  Proof. intros H. eapply invd_run; [apply inva_init|apply invc_init|apply invd_init|exact H]. Qed.

  Theorem drain sched s :
    prun g sched (p_init g) = Some s -> drained s ->
    (forall t, quiet_c (p_calls s t)) /\ (forall t, quiet_k (p_closers s t)) /\
    p_cache_closed s = true /\ st_closed s /\ p_conn s = false /\ p_err s <> None /\ p_waits s = hsum s.
  Proof.
    intros H Hd. destruct (invd_reach sched s H) as (IA&IC&ID).
    destruct (d_quiet s ID Hd) as [A B]. pose proof (d_cache s ID) as Dc. pose proof (c_post s IC) as Cp.
    pose proof (drained_closed s IC Hd) as Hcl.
    assert (Hcc : p_cache_closed s = true) by (destruct Hd as [K|K]; rewrite K in Dc; exact Dc).
    assert (Hconn : p_conn s = false) by (destruct Hd as [K|K]; rewrite K in Cp; apply Cp).
    pose proof (c_err s IC Hcl) as He. pose proof (a_count s IA) as Hc.
    split; [exact A|split; [exact B|split; [exact Hcc|split; [exact Hcl|split; [exact Hconn|split; [exact He|exact Hc]]]]]].
  Qed.

End Life.

