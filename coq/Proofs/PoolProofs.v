(** Reachability in the pool LTS, and the accounting invariant: it holds for every configuration with
    [skip_uncounted], every capacity and every schedule. *)
From Coq Require Import List NArith ZArith Bool Arith Lia.
Require Import RV.Model.Base RV.Model.Pool RV.Proofs.LtsBase RV.Proofs.PoolBase.
Import ListNotations.
Open Scope Z_scope.

Definition reachable (cfg : config) (s : state) : Prop := exists sch, run cfg sch init = Some s.

Lemma run_app : forall cfg a b s, run cfg (a ++ b) s = match run cfg a s with Some s' => run cfg b s' | None => None end.
Proof. intro cfg. exact (LtsBase.run_app _ _ (lstep cfg) (run cfg) (fun _ => eq_refl) (fun _ _ _ => eq_refl)). Qed.

Lemma reachable_ind : forall cfg (P : state -> Prop),
  P init -> (forall s l s', P s -> lstep cfg s l = Some s' -> P s') ->
  forall s, reachable cfg s -> P s.
Proof.
  intros cfg P H0 Hs s [sch Hr].
  exact (run_ind _ _ (lstep cfg) (run cfg) (fun _ => eq_refl) (fun _ _ _ => eq_refl) P _ H0 Hs sch s Hr).
Qed.

Lemma reachable_step : forall cfg s l s', reachable cfg s -> lstep cfg s l = Some s' -> reachable cfg s'.
Proof.
  intros cfg s l s' [sch Hr] Hl. exists (sch ++ [l]). rewrite run_app, Hr. cbn [run]. rewrite Hl. reflexivity.
Qed.

Record Inv1 (cfg : config) (s : state) : Prop := {
  i1_size : size s = Z.of_nat (live s) - Z.of_nat (dstores s);
  i1_cap : Z.of_nat (live s) <= cap cfg;
  i1_down : down s = false -> dstores s = 0%nat /\ ~ In DeadDown (held s);
  i1_mutex : forall t, mutex s = Some t -> idle s = [] /\ size s = cap cfg /\ down s = false
}.

Lemma inv1_init : forall cfg, 0 <= cap cfg -> Inv1 cfg init.
Proof.
  intros cfg Hc. constructor; cbn; try lia; try tauto; try discriminate.
Qed.

Lemma inv1_acquire_eval : forall cfg t s, Inv1 cfg s -> mutex s = None -> Inv1 cfg (acquire_eval cfg t s).
Proof.
  intros cfg t s [I1 I2 I3 I4] Hm. unfold live in I1, I2.
  assert (H3 : forall w, w <> DeadDown -> down s = false -> dstores s = 0%nat /\ ~ In DeadDown (w :: held s)).
  { intros w Hw Hd. destruct (I3 Hd) as [D1 D2]. split; [exact D1|]. intros [X|X]; [exact (Hw X)|exact (D2 X)]. }
  destruct (acquire_eval_spec cfg t s) as [F1 F2 F3|F|F1 F2|F1 F2 F3|cl id l' F1 F2 F3 F4 F5];
    constructor; unfold live; pst; cbn [count_counted counted length]; try discriminate.
  - (* AE_park *) lia.
  - lia.
  - exact I3.
  - intros _ _. repeat split. exact F2.
  - (* AE_ctx *) lia.
  - lia.
  - apply H3. discriminate.
  - (* AE_down *) lia.
  - lia.
  - intro Hd. congruence.
  - (* AE_make *) lia.
  - destruct (I3 F2) as [D1 _]. lia.
  - exact I3.
  - (* AE_got *) rewrite F1, app_length in I1. cbn [length] in I1. lia.
  - rewrite F1, app_length in I2. cbn [length] in I2. lia.
  - apply H3. discriminate.
Qed.

Lemma inv1_step : forall cfg s l s', skip_uncounted cfg = true ->
  Inv1 cfg s -> lstep cfg s l = Some s' -> Inv1 cfg s'.
Proof.
  intros cfg s l s' Hskip I Hl.
  destruct (lstep_pstep _ _ _ _ Hl) as [t c Hm _ _|t Hm|t Hm _|t id brk Ht _|t brk Ht|t id Hm Ht _| | | |id Hw Hm Hd _
                                       |w Hw Hm _| | |b Hm| |Hm _| |];
    clear Hl.
  (* AcqEnter, AcqWake, MakeBad end with an evaluation *)
  1,3,6: apply inv1_acquire_eval; [|exact Hm].
  (* most steps leave size, idle, held, making, down, dstores and mutex alone *)
  all: destruct I as [I1 I2 I3 I4]; try (constructor; assumption); unfold live in I1, I2.
  (* PS_MakeOk, PS_MakeDead: a make in flight becomes a counted wire in held *)
  3,4: pose proof (remove1_length _ _ Ht); constructor; unfold live; pst; cbn [count_counted counted]; try assumption; try lia;
    intro Hd; destruct (I3 Hd) as [D1 D2]; (split; [exact D1|]); intros [X|X]; [discriminate X|exact (D2 X)].
  - (* MakeBad: the slot of the wire that could not be used is given back before the retry *)
    pose proof (remove1_length _ _ Ht). constructor; unfold live; pst; try assumption; try lia.
    rewrite Hm. discriminate.
  - (* AcqPark *) constructor; try assumption. discriminate.
  - (* Store, wire becomes idle *)
    pose proof (count_counted_remove _ _ Hw) as Hc. cbn [counted] in Hc.
    constructor; unfold live; pst; cbn [length]; try lia.
    + intros _. destruct (I3 Hd) as [D1 D2]. split; [exact D1|]. intro X. apply D2. eapply wremove1_In. exact X.
    + rewrite Hm. discriminate.
  - (* Store, wire dropped *)
    pose proof (count_counted_remove _ _ Hw) as Hc. rewrite Hskip. cbn [andb].
    constructor; unfold live; pst.
    + destruct w; cbn [counted wire_eqb] in *; lia.
    + lia.
    + intro Hd. destruct (I3 Hd) as [D1 D2]. destruct w; try (exfalso; exact (D2 Hw)).
      all: split; [exact D1|]; intro X; apply D2; eapply wremove1_In; exact X.
    + rewrite Hm. discriminate.
  - (* CloseCS *) constructor; try assumption; pst; [discriminate|rewrite Hm; discriminate].
  - (* IdleCleanup *) constructor; unfold live; pst; try assumption.
    + rewrite skipn_length. lia.
    + rewrite skipn_length. lia.
    + rewrite Hm. discriminate.
Qed.

Theorem inv1_reachable : forall cfg s, skip_uncounted cfg = true -> 0 <= cap cfg -> reachable cfg s -> Inv1 cfg s.
Proof.
  intros cfg s Hs Hc Hr. eapply reachable_ind; [apply inv1_init; exact Hc| |exact Hr].
  intros s0 l s1 I Hl. eapply inv1_step; eassumption.
Qed.
