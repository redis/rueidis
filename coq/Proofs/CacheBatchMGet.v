(** pipe.doCacheMGet: DoCache on MGET / JSON.MGET returns, at position i, the reply for key i. *)
From Coq Require Import String Ascii.
From Coq Require Import List Arith NArith ZArith Bool Lia.
Require Import RV.Model.Base RV.Model.CacheBatch RV.Proofs.BytesProofs RV.Proofs.CacheBatchBase RV.Proofs.CacheBatchMulti.
Import ListNotations.
Open Scope nat_scope.

Lemma key_mem_In k l : key_mem k l = true <-> In k l.
Proof.
  induction l as [|x l IH]; cbn [key_mem In]; [split; [discriminate|tauto]|].
  rewrite orb_true_iff, bytes_eqb_eq, IH. split; intros [H|H]; auto.
Qed.

Lemma key_index_nth k l : In k l -> exists i, key_index k l = Some i /\ nth_error l i = Some k.
Proof.
  induction l as [|x l IH]; [intros []|]. intro H. cbn [key_index].
  destruct (bytes_eqb k x) eqn:E.
  - apply bytes_eqb_eq in E. subst. exists 0. auto.
  - destruct H as [->|H]; [rewrite bytes_eqb_refl in E; discriminate|].
    destruct (IH H) as [i [Hi Hn]]. exists (S i). rewrite Hi. auto.
Qed.

Lemma filter_all {A} (f : A -> bool) l : length (filter f l) = length l -> filter f l = l.
Proof.
  assert (Hle : forall l', length (filter f l') <= length l').
  { induction l' as [|a l' IH]; cbn [filter length]; [|destruct (f a); cbn [length]]; lia. }
  induction l as [|a l IH]; [reflexivity|]. cbn [filter]. specialize (Hle l).
  destruct (f a); cbn [length]; intro H; [f_equal; apply IH|]; lia.
Qed.

Section MGetProof.
  Variable lookup : key -> bytes -> lk.
  Variable srv : argv -> msg.
  Variable qerr : argv -> option msg.
  Variable optin : bool.

  Variable cc : bytes.          (* the per-key cache command: "GET" or "JSON.GET" ++ path *)
  Variable nkeys : nat.

  Inductive mkind := MKHit (v : msg) | MKWait (r : rres) | MKSelf (k : key) | MKMiss.

  Fixpoint mklist (rw : list key) (l : list key) : list mkind :=
    match l with
    | [] => []
    | k :: r =>
      if key_mem k rw then MKSelf k :: mklist rw r
      else match lookup k cc with
           | LHit v => MKHit v :: mklist rw r
           | LWait x => MKWait x :: mklist rw r
           | LMiss => MKMiss :: mklist (rw ++ [k]) r
           end
    end.

  Definition mk_val (k : mkind) : msg := match k with MKHit v => v | _ => zero_msg end.
  Definition mk_entry (k : mkind) : option mentry :=
    match k with MKWait r => Some (MForeign r) | MKSelf x => Some (MSelf x) | _ => None end.
  Definition mk_is_miss (k : mkind) : bool := match k with MKMiss => true | _ => false end.
  Definition missing (ki : mkind * key) : bool := mk_is_miss (fst ki).

  Fixpoint mk_miss (ks : list mkind) (l : list key) : list key :=
    match ks, l with
    | MKMiss :: r, k :: lr => k :: mk_miss r lr
    | _ :: r, _ :: lr => mk_miss r lr
    | _, _ => []
    end.

  Lemma mk_miss_cons k ks x l : mk_miss (k :: ks) (x :: l) = (if mk_is_miss k then [x] else []) ++ mk_miss ks l.
  Proof. now destruct k. Qed.

  Lemma mk_miss_filter : forall ks l,
    mk_miss ks l = map snd (filter missing (combine ks l)).
  Proof.
    induction ks as [|k ks IH]; intros [|x l]; try reflexivity; [now destruct k|].
    destruct k; cbn [mk_miss combine filter missing fst mk_is_miss map snd]; now rewrite IH.
  Qed.

  (** the classification of one key when the keys [rw] have been appended to the rewritten command *)
  Definition mkind_of (rw : list key) (k : key) : mkind :=
    if key_mem k rw then MKSelf k
    else match lookup k cc with LHit v => MKHit v | LWait x => MKWait x | LMiss => MKMiss end.

  Lemma mklist_cons rw k r :
    mklist rw (k :: r) = mkind_of rw k :: mklist (rw ++ if mk_is_miss (mkind_of rw k) then [k] else []) r.
  Proof.
    unfold mkind_of. cbn [mklist]. destruct (key_mem k rw); [now rewrite app_nil_r|].
    destruct (lookup k cc); cbn [mk_is_miss]; now rewrite ?app_nil_r.
  Qed.

  Lemma mklist_length rw l : length (mklist rw l) = length l.
  Proof. revert rw; induction l as [|k l IH]; intro rw; [reflexivity|]. rewrite mklist_cons. cbn. now rewrite IH. Qed.

  (** the value slice as the code sees it: allocated on the first hit *)
  Definition eff (st : mstate) : list msg := if ms_alloc st then ms_values st else repeat_n zero_msg nkeys.

  Definition scan_step (st : mstate) (ik : nat * key) : mstate :=
    let (i, k) := ik in
    if key_mem k (ms_rewrite st)
    then mkM (ms_alloc st) (ms_values st) (upd i (Some (MSelf k)) (ms_entries st)) (ms_rewrite st)
    else match lookup k cc with
         | LHit v =>
           let vals := if ms_alloc st then ms_values st else repeat_n zero_msg nkeys in
           mkM true (upd i v vals) (ms_entries st) (ms_rewrite st)
         | LWait r => mkM (ms_alloc st) (ms_values st) (upd i (Some (MForeign r)) (ms_entries st)) (ms_rewrite st)
         | LMiss => mkM (ms_alloc st) (ms_values st) (ms_entries st) (ms_rewrite st ++ [k])
         end.

  Lemma scan_step_spec st k pre_v pre_e V E :
    length pre_v = length pre_e ->
    eff st = pre_v ++ zero_msg :: V -> ms_entries st = pre_e ++ None :: E ->
    let mk := mkind_of (ms_rewrite st) k in
    let st' := scan_step st (length pre_v, k) in
    eff st' = pre_v ++ mk_val mk :: V /\ ms_entries st' = pre_e ++ mk_entry mk :: E /\
    ms_rewrite st' = ms_rewrite st ++ (if mk_is_miss mk then [k] else []).
  Proof.
    intros Hl Hv He. unfold mkind_of, scan_step. destruct (key_mem k (ms_rewrite st)).
    - cbn [ms_entries ms_rewrite mk_val mk_entry mk_is_miss]. fold (eff st).
      now rewrite He, Hl, upd_app_here, app_nil_r.
    - destruct (lookup k cc); cbn [ms_entries ms_rewrite mk_val mk_entry mk_is_miss]; unfold eff at 1; cbn [ms_alloc ms_values];
        fold (eff st); rewrite ?Hv, ?He, ?upd_app_here, ?Hl, ?upd_app_here, ?app_nil_r; auto.
  Qed.

  Lemma mget_scan_gen l : forall st pre_v pre_e,
    length pre_v = length pre_e ->
    eff st = pre_v ++ repeat_n zero_msg (length l) ->
    ms_entries st = pre_e ++ repeat_n None (length l) ->
    let st' := fold_left scan_step (combine (seq (length pre_v) (length l)) l) st in
    eff st' = pre_v ++ map mk_val (mklist (ms_rewrite st) l) /\
    ms_entries st' = pre_e ++ map mk_entry (mklist (ms_rewrite st) l) /\
    ms_rewrite st' = ms_rewrite st ++ mk_miss (mklist (ms_rewrite st) l) l.
  Proof.
    induction l as [|k l IH]; intros st pre_v pre_e Hlen Hv He.
    - cbn in *. rewrite !app_nil_r in *. auto.
    - cbn [length seq combine fold_left]. cbn [length repeat_n] in Hv, He.
      destruct (scan_step_spec st k pre_v pre_e _ _ Hlen Hv He) as (Hv1 & He1 & Hr1).
      rewrite <- snoc_app in Hv1. rewrite <- snoc_app in He1.
      rewrite <- (last_length pre_v (mk_val (mkind_of (ms_rewrite st) k))).
      destruct (IH _ _ _ (eq_trans (last_length _ _) (eq_trans (f_equal S Hlen) (eq_sym (last_length _ _)))) Hv1 He1)
        as (A & B & C).
      rewrite A, B, C, Hr1, mklist_cons, !snoc_app, mk_miss_cons, app_assoc. auto.
  Qed.

  Lemma mget_scan_spec ks :
    nkeys = length ks ->
    let st := mget_scan lookup cc nkeys ks in
    eff st = map mk_val (mklist [] ks) /\
    ms_entries st = map mk_entry (mklist [] ks) /\
    ms_rewrite st = mk_miss (mklist [] ks) ks.
  Proof.
    intro Hn. apply (mget_scan_gen ks (mkM false [] (repeat_n None nkeys) []) [] []); [reflexivity| |];
      cbn [eff ms_alloc ms_entries app]; now rewrite Hn.
  Qed.

  (** soundness of a classification w.r.t. the store; [misses] are the keys of the rewritten command *)
  Definition mkind_ok (misses : list key) (mk : mkind) (k : key) : Prop :=
    match mk with
    | MKHit v => lookup k cc = LHit v
    | MKWait r => lookup k cc = LWait r
    | MKMiss => lookup k cc = LMiss
    | MKSelf x => x = k /\ lookup k cc = LMiss /\ In k misses
    end.

  Definition rw_inv (rw : list key) : Prop := forall k, In k rw -> lookup k cc = LMiss.

  Lemma mkind_of_ok rw misses k : rw_inv rw -> incl rw misses -> mkind_ok misses (mkind_of rw k) k.
  Proof.
    intros Hinv Hsub. unfold mkind_ok, mkind_of. destruct (key_mem k rw) eqn:Em.
    - apply key_mem_In in Em. auto.
    - now destruct (lookup k cc).
  Qed.

  Lemma mklist_sound l : forall rw, rw_inv rw ->
    Forall2 (mkind_ok (rw ++ mk_miss (mklist rw l) l)) (mklist rw l) l.
  Proof.
    induction l as [|k l IH]; intros rw Hinv; [constructor|].
    rewrite mklist_cons, mk_miss_cons, app_assoc. constructor.
    - apply mkind_of_ok; [assumption|apply incl_appl, incl_appl, incl_refl].
    - apply IH. intros x Hx. apply in_app_or in Hx as [Hx|Hx]; [auto|].
      pose proof (mkind_of_ok rw rw k Hinv (incl_refl _)) as Hk.
      destruct (mkind_of rw k); try contradiction. destruct Hx as [<-|[]]. exact Hk.
  Qed.

  Definition pttl_of (k : key) : argv := [bs "PTTL"; k].

  (** the transaction on the wire: opt-in, MULTI, one PTTL per missed key, the rewritten command, EXEC.
      [rw : list bytes], not [argv]: [multi] then reads exactly as in [do_cache_mget], and the lemma rewrites *)
  Lemma mget_wire (misskeys : list key) (rw : list bytes) :
    not_tx rw ->
    let multi := [optin_cmd optin; [bs "MULTI"]] ++ map (fun k => [bs "PTTL"; k]) misskeys ++ [rw; [bs "EXEC"]] in
    let cmds := map pttl_of misskeys ++ [rw] in
    rnth (length multi - 1) (redis_wire srv qerr multi) = new_result (exec_reply srv qerr cmds) /\
    rnth (length multi - 2) (redis_wire srv qerr multi) = new_result (q_or qerr rw queued_msg).
  Proof.
    intros Hrw multi cmds.
    assert (Hc : Forall not_tx cmds).
    { apply Forall_app; split; [|now constructor]. apply Forall_forall. intros c Hc.
      apply in_map_iff in Hc as [k [<- _]]. apply pttl_not_tx. }
    set (pre := map new_result (optin_reply srv qerr optin :: ok_msg :: map (fun c => q_or qerr c queued_msg) (map pttl_of misskeys))).
    assert (Hw : redis_wire srv qerr multi
                 = pre ++ [new_result (q_or qerr rw queued_msg); new_result (exec_reply srv qerr cmds)]).
    { unfold redis_wire, multi, pre. cbn [app]. rewrite wire_go_plain by apply optin_not_tx.
      change (map (fun k => [bs "PTTL"; k]) misskeys ++ [rw; [bs "EXEC"]]) with (map pttl_of misskeys ++ [rw] ++ [[bs "EXEC"]]).
      rewrite app_assoc. fold cmds. rewrite wire_go_tx by assumption. unfold cmds.
      cbn [map]. rewrite !map_app. cbn [map app]. now rewrite <- app_assoc. }
    assert (Hl : length multi = length pre + 2).
    { unfold multi, pre. rewrite !app_length, !map_length. cbn [length]. rewrite !map_length. unfold key. lia. }
    rewrite Hw, Hl. split.
    - replace (length pre + 2 - 1) with (length pre + 1) by lia. now rewrite rnth_app_r.
    - replace (length pre + 2 - 2) with (length pre + 0) by lia. now rewrite rnth_app_r.
  Qed.

  Lemma last_queued (misskeys : list key) (rw : list bytes) :
    last_msg (map srv (map pttl_of misskeys ++ [rw])) = Some (srv rw).
  Proof.
    unfold last_msg. rewrite map_app, app_length. cbn [map length].
    now rewrite Nat.add_sub, nth_error_app2, Nat.sub_diag by lia.
  Qed.

  (** the final element of a classified key; [elem] is what the server's reply holds for a missed key *)
  Definition m_answer (elem : key -> msg) (ki : mkind * key) : msg :=
    match fst ki with
    | MKHit v => v
    | MKWait r => r_val r
    | MKSelf k => elem k
    | MKMiss => elem (snd ki)
    end.

  Lemma mget_waits_spec elem misskeys (kis : list (mkind * key)) : forall pre,
    (forall r k, In (MKWait r, k) kis -> r_err r = None) ->
    (forall x k, In (MKSelf x, k) kis -> In x misskeys) ->
    mget_waits misskeys (map elem misskeys) (map (fun ki => mk_entry (fst ki)) kis) (length pre)
               (pre ++ map (fun ki => mk_val (fst ki)) kis)
    = Ok (inl (pre ++ map (fun ki => if missing ki then zero_msg else m_answer elem ki) kis)).
  Proof.
    induction kis as [|[k x] kis IH]; intros pre Hw Hs; [reflexivity|].
    assert (Hnext : forall y,
      mget_waits misskeys (map elem misskeys) (map (fun ki => mk_entry (fst ki)) kis) (S (length pre))
                 (pre ++ y :: map (fun ki => mk_val (fst ki)) kis)
      = Ok (inl (pre ++ y :: map (fun ki => if missing ki then zero_msg else m_answer elem ki) kis))).
    { intro y. specialize (IH (pre ++ [y])). rewrite last_length, !snoc_app in IH.
      apply IH; intros; [eapply Hw|eapply Hs]; right; eauto. }
    destruct k as [v|r|y|]; cbn [map fst snd mk_entry mk_val missing mk_is_miss m_answer mget_waits]; try apply Hnext.
    - rewrite (Hw r x (in_eq _ _)), upd_app_here. apply Hnext.
    - destruct (key_index_nth y misskeys (Hs y x (in_eq _ _))) as [i [Hi Hn]].
      rewrite Hi, nth_error_map, Hn. cbn [option_map]. rewrite upd_app_here. apply Hnext.
  Qed.
End MGetProof.

(** the shape of the command: [cmd0 :: keys], followed by the path for JSON.MGET *)
Section Shape.
  Variable cmd0 : bytes.
  Variable ks : list key.
  Variable pathopt : list bytes.
  Let commands : argv := cmd0 :: ks ++ pathopt.
  Hypothesis Hshape : (is_json commands = true /\ exists p, pathopt = [p]) \/ (is_json commands = false /\ pathopt = []).

  Lemma nkeys_eq : (length commands - 1) - (if is_json commands then 1 else 0) = length ks.
  Proof.
    unfold commands in *. cbn [length]. rewrite app_length.
    destruct Hshape as [[-> [p ->]]|[-> ->]]; cbn [length]; lia.
  Qed.

  Lemma ks_eq : firstn (length ks) (skipn 1 commands) = ks.
  Proof. unfold commands. cbn [skipn]. rewrite firstn_app, Nat.sub_diag, firstn_all. cbn [firstn]. apply app_nil_r. Qed.

  Lemma rewritten_eq (ms : list key) :
    (nth 0 commands [] :: ms) ++ (if is_json commands then [last commands []] else []) = cmd0 :: ms ++ pathopt.
  Proof.
    unfold commands in *. cbn [nth]. destruct Hshape as [[-> [p ->]]|[-> ->]]; [|reflexivity].
    cbn [app]. do 2 f_equal.
    change (cmd0 :: ks ++ [p]) with ((cmd0 :: ks) ++ [p]). now rewrite last_last.
  Qed.
End Shape.

Section MGetTop.
  Variable lookup : key -> bytes -> lk.
  Variable srv : argv -> msg.
  Variable qerr : argv -> option msg.
  Variable optin : bool.

  Variable cmd0 : bytes.                 (* "MGET" or "JSON.MGET" *)
  Variable ks : list key.
  Variable pathopt : list bytes.         (* [] for MGET, [path] for JSON.MGET *)
  Variable elem : key -> msg.            (* the element the server returns for one key *)

  Let commands : argv := cmd0 :: ks ++ pathopt.
  Let cc : bytes := mget_cc commands.

  Hypothesis Hshape : (is_json commands = true /\ exists p, pathopt = [p]) \/ (is_json commands = false /\ pathopt = []).
  Hypothesis Hcmd0 : bytes_eqb cmd0 (bs "MULTI") = false /\ bytes_eqb cmd0 (bs "EXEC") = false.
  (** the server answers the (rewritten) multi-key command elementwise, one element per key in order *)
  Hypothesis Hsrv : forall ms, srv (cmd0 :: ms ++ pathopt) = arr (map elem ms).
  Hypothesis Helem : forall k, m_typ (elem k) <> 0%N.
  Hypothesis Hhit : forall k v, lookup k cc = LHit v -> m_typ v <> 0%N.
  Hypothesis Hwait : forall k r, lookup k cc = LWait r -> r_err r = None /\ m_typ (r_val r) <> 0%N.
  (** no command of the transaction is rejected by the server *)
  Hypothesis Hq : forall a, qerr a = None.

  Definition per_key (k : key) : msg :=
    match lookup k cc with
    | LHit v => v
    | LWait r => r_val r
    | LMiss => elem k
    end.

  Theorem do_cache_mget_positional :
    do_cache_mget lookup srv qerr optin commands = Ok (new_result (arr (map per_key ks))).
  Proof.
    unfold do_cache_mget. cbv zeta. unfold commands.
    rewrite (nkeys_eq cmd0 ks pathopt Hshape), ks_eq. change (mget_cc (cmd0 :: ks ++ pathopt)) with cc.
    destruct (mget_scan_spec lookup cc (length ks) ks eq_refl) as (Hv & He & Hr).
    set (kl := mklist lookup cc [] ks) in *.
    fold (eff (length ks) (mget_scan lookup cc (length ks) ks)). rewrite Hv, He, Hr.
    assert (Hkl : length kl = length ks) by apply mklist_length.
    pose proof (mklist_sound lookup cc ks [] (fun _ H => match H with end)) as Hs. fold kl in Hs. cbn [app] in Hs.
    set (kis := combine kl ks).
    assert (Hmiss : mk_miss kl ks = map snd (filter missing kis)) by apply mk_miss_filter.
    assert (Hkind : forall k x, In (k, x) kis -> mkind_ok lookup cc (mk_miss kl ks) k x)
      by (intros k x; apply Forall2_combine_in, Hs).
    rewrite <- (map_combine_fst mk_val kl ks Hkl), <- (map_combine_fst mk_entry kl ks Hkl). fold kis.
    assert (Hwaits : forall r k, In (MKWait r, k) kis -> r_err r = None).
    { intros r k Hin. exact (proj1 (Hwait k r (Hkind _ _ Hin))). }
    assert (Hselfs : forall x k, In (MKSelf x, k) kis -> In x (mk_miss kl ks)).
    { intros x k Hin. now destruct (Hkind _ _ Hin) as (-> & _ & H). }
    assert (Hfilled : Forall (fun ki => typ_unfilled (m_answer elem ki) = false) kis).
    { apply Forall_forall. intros [k x] Hin. unfold typ_unfilled.
      pose proof (Hkind _ _ Hin) as Hk.
      destruct k; cbn [m_answer fst snd mkind_ok] in *; apply N.eqb_neq; eauto. apply (Hwait x r Hk). }
    assert (Hfinal : map (m_answer elem) kis = map per_key ks).
    { transitivity (map per_key (map snd kis)); [|unfold kis; now rewrite map_snd_combine].
      rewrite map_map. apply map_ext_in. intros [k x] Hin.
      unfold per_key. pose proof (Hkind _ _ Hin) as Hk.
      destruct k; cbn [m_answer fst snd mkind_ok] in *; try destruct Hk as (-> & Hk & _); now rewrite Hk. }
    assert (Hfills : map elem (mk_miss kl ks) = map (m_answer elem) (filter missing kis)).
    { rewrite Hmiss, map_map. apply map_ext_in. intros [k x] Hin. apply filter_In in Hin as [_ Hm].
      destruct k; try discriminate. reflexivity. }
    pose proof (mget_waits_spec elem (mk_miss kl ks) kis [] Hwaits Hselfs) as Hw. cbn [app length] in Hw.
    destruct (mk_miss kl ks) as [|m0 mrest] eqn:Emiss.
    - (* every key was a hit or a wait *)
      cbn [map] in Hw. rewrite Hw. rewrite <- Hfinal, <- (refill_m_spec missing (m_answer elem) kis Hfilled), <- Hfills. reflexivity.
    - rewrite <- Emiss in *. set (misskeys := mk_miss kl ks) in *.
      rewrite (rewritten_eq cmd0 ks pathopt Hshape).
      destruct (mget_wire srv qerr optin misskeys (cmd0 :: misskeys ++ pathopt) Hcmd0) as [Hex _].
      cbv zeta in Hex. rewrite Hex.
      assert (Hrep : exec_reply srv qerr (map pttl_of misskeys ++ [cmd0 :: misskeys ++ pathopt])
                     = arr (map srv (map pttl_of misskeys ++ [cmd0 :: misskeys ++ pathopt]))).
      { unfold exec_reply. replace (existsb _ _) with false; [reflexivity|]. symmetry. apply not_true_is_false.
        intro Hex'. apply existsb_exists in Hex' as [c [_ Hc]]. unfold rejected in Hc. now rewrite Hq in Hc. }
      rewrite Hrep. unfold to_array. cbn [r_err new_result r_val arr m_typ m_vals]. cbn [N.eqb orb tArr Pos.eqb].
      rewrite last_queued, Hsrv. change (msg_error (arr (map elem misskeys))) with (@None err). cbv iota.
      cbn [length]. rewrite !app_length.
      match goal with |- context [?a =? ?b] => destruct (Nat.eqb_spec a b) as [Heq|Hneq] end.
      + (* every key missed: the server's reply is returned as it is *)
        rewrite <- Hfinal, Hfills, filter_all; [reflexivity|].
        rewrite <- (map_length snd), <- Hmiss. unfold kis. rewrite combine_length, Hkl. fold misskeys. lia.
      + cbn [m_vals arr].
        replace (2 <=? length (map srv (map pttl_of misskeys ++ [cmd0 :: misskeys ++ pathopt]))) with true.
        2:{ symmetry. apply Nat.leb_le. rewrite map_length, app_length, map_length, Emiss. cbn [length]. lia. }
        rewrite Hw, Hfills, (refill_m_spec missing (m_answer elem) kis Hfilled), Hfinal. reflexivity.
  Qed.
End MGetTop.
