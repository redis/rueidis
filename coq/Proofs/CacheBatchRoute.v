(** mux.DoMultiCache / cluster.DoMultiCache: grouping the batch by wire / connection and scattering the
    sub-results through the recorded indices puts every reply at the position of its command. *)
From Coq Require Import String Ascii.
From Coq Require Import List Arith NArith ZArith Bool Lia.
Require Import RV.Model.Base RV.Model.CacheBatch RV.Proofs.CacheBatchBase RV.Proofs.CacheBatchMulti.
Import ListNotations.
Open Scope nat_scope.

Lemma upd_nth_same {A} i (x d : A) l : i < length l -> nth i (upd i x l) d = x.
Proof. revert i; induction l as [|a l IH]; intros [|i] H; cbn in *; try lia; auto. apply IH. lia. Qed.

Lemma upd_nth_other {A} i j (x d : A) l : i <> j -> nth j (upd i x l) d = nth j l d.
Proof.
  revert i j; induction l as [|a l IH]; intros [|i] [|j] H; cbn; auto; try congruence.
Qed.

Lemma indexed_gen_in {A} (l : list A) : forall off i x,
  In (i, x) (combine (seq off (length l)) l) <-> (off <= i /\ nth_error l (i - off) = Some x).
Proof.
  induction l as [|a l IH]; intros off i x; cbn [length seq combine In].
  - split; [intros []|intros [_ H]; destruct (i - off); discriminate].
  - rewrite IH. split.
    + intros [E|[Hle Hn]].
      * inversion E; subst. rewrite Nat.sub_diag. auto.
      * split; [lia|]. replace (i - off) with (S (i - S off)) by lia. exact Hn.
    + intros [Hle Hn]. destruct (Nat.eq_dec i off) as [->|Hne].
      * rewrite Nat.sub_diag in Hn. cbn in Hn. left. congruence.
      * right. split; [lia|]. replace (i - off) with (S (i - S off)) in Hn by lia. exact Hn.
Qed.

Lemma indexed_in {A} (l : list A) i x : In (i, x) (indexed l) <-> nth_error l i = Some x.
Proof. unfold indexed. rewrite indexed_gen_in, Nat.sub_0_r. split; [tauto|split; [lia|assumption]]. Qed.

Definition bkeys (bks : list (N * bucket)) : list N := map fst bks.

Lemma bucket_add_spec s i c : forall bks,
  NoDup (bkeys bks) -> In s (bkeys bks) ->
  bucket_add s i c bks
  = Ok (map (fun sb : N * bucket => if N.eqb s (fst sb) then (fst sb, mkB (b_idx (snd sb) ++ [i]) (b_cmds (snd sb) ++ [c])) else sb) bks).
Proof.
  induction bks as [|[t b] bks IH]; intros Hnd Hin; [destruct Hin|].
  cbn [bucket_add map fst snd]. inversion Hnd as [|? ? Hnt Hnd']; subst.
  destruct (N.eqb_spec s t) as [->|Hne].
  - f_equal. f_equal. rewrite <- (map_id bks) at 1. apply map_ext_in. intros [t' b'] Hin'. cbn [fst snd].
    destruct (N.eqb_spec t t') as [->|]; [|reflexivity]. exfalso. apply Hnt. apply in_map_iff. exists (t', b'). auto.
  - destruct Hin as [E|Hin]; [cbn in E; congruence|]. rewrite IH by assumption. reflexivity.
Qed.

Lemma distinct_groups_nil gs : forall seen, distinct_groups gs seen = [] -> forall x, In x gs -> In x seen.
Proof.
  induction gs as [|g gs IH]; intros seen H x Hx; [destruct Hx|].
  cbn [distinct_groups] in H. destruct (existsb (N.eqb g) seen) eqn:E; [|discriminate].
  destruct Hx as [<-|Hx]; [|now apply (IH seen)].
  apply existsb_exists in E as [y [Hy Ey]]. apply N.eqb_eq in Ey. now subst.
Qed.

Section Buckets.
  Variable group_of : item -> N.

  Definition grp (s : N) (ic : nat * item) : bool := N.eqb (group_of (snd ic)) s.

  Lemma fill_fold l : forall bks,
    NoDup (bkeys bks) -> (forall ic, In ic l -> In (group_of (snd ic)) (bkeys bks)) ->
    fold_left (fun acc (ic : nat * item) =>
      match acc with
      | Ok bks => bucket_add (group_of (snd ic)) (fst ic) (snd ic) bks
      | other => other
      end) l (Ok bks)
    = Ok (map (fun sb : N * bucket =>
                 (fst sb, mkB (b_idx (snd sb) ++ map fst (filter (grp (fst sb)) l))
                              (b_cmds (snd sb) ++ map snd (filter (grp (fst sb)) l)))) bks).
  Proof.
    induction l as [|[i c] l IH]; intros bks Hnd Hall.
    - cbn [fold_left filter map]. f_equal. rewrite <- (map_id bks) at 1. apply map_ext. intros [s [ix cm]].
      cbn. now rewrite !app_nil_r.
    - cbn [fold_left fst snd].
      rewrite bucket_add_spec; [|assumption|apply (Hall (i, c)); now left].
      rewrite IH.
      + f_equal. rewrite map_map. apply map_ext. intros [s b]. cbn [fst snd filter].
        assert (Eg : grp s (i, c) = N.eqb (group_of c) s) by reflexivity.
        rewrite Eg. destruct (N.eqb (group_of c) s); cbn [fst snd b_idx b_cmds map]; [|reflexivity].
        now rewrite <- !app_assoc.
      + unfold bkeys in *. rewrite map_map.
        erewrite map_ext; [exact Hnd|]. intros [s b]. cbn. now destruct (N.eqb _ s).
      + intros ic Hic. unfold bkeys in *. rewrite map_map.
        erewrite map_ext; [apply Hall; now right|]. intros [s b]. cbn. now destruct (N.eqb _ s).
  Qed.

  Lemma distinct_groups_spec gs : forall seen,
    NoDup (distinct_groups gs seen) /\
    (forall x, In x (distinct_groups gs seen) <-> In x gs /\ ~ In x seen).
  Proof.
    induction gs as [|g gs IH]; intro seen; cbn [distinct_groups].
    - split; [constructor|]. intros x; cbn; tauto.
    - destruct (existsb (N.eqb g) seen) eqn:E.
      + destruct (IH seen) as [Hnd Hin]. split; [assumption|]. intro x. rewrite Hin. cbn [In].
        apply existsb_exists in E as [y [Hy Ey]]. apply N.eqb_eq in Ey. subst y.
        split; [tauto|]. intros [[->|H] Hn]; tauto.
      + assert (Hg : ~ In g seen).
        { intro H. assert (existsb (N.eqb g) seen = true) by (apply existsb_exists; exists g; split; [assumption|apply N.eqb_refl]). congruence. }
        destruct (IH (g :: seen)) as [Hnd Hin]. split.
        * constructor; [|assumption]. rewrite Hin. cbn. tauto.
        * intro x. cbn [In]. rewrite Hin. cbn [In]. split.
          -- intros [<-|[H1 H2]]; tauto.
          -- intros [[<-|H1] H2]; [tauto|]. destruct (N.eq_dec g x); [tauto|right; tauto].
  Qed.

  Lemma group_of_in batch i it :
    nth_error batch i = Some it -> In (group_of it) (distinct_groups (map group_of batch) []).
  Proof.
    intro H. apply (proj2 (distinct_groups_spec _ _)). split; [|tauto]. apply in_map. eapply nth_error_In; eauto.
  Qed.

  Definition pairs (batch : list item) (s : N) : list (nat * item) := filter (grp s) (indexed batch).

  Definition the_buckets (batch : list item) : list (N * bucket) :=
    map (fun s => (s, mkB (map fst (pairs batch s)) (map snd (pairs batch s))))
        (distinct_groups (map group_of batch) []).

  Lemma fill_buckets_spec batch : fill_buckets group_of batch = Ok (the_buckets batch).
  Proof.
    unfold fill_buckets. destruct (distinct_groups_spec (map group_of batch) []) as [Hnd Hin].
    rewrite fill_fold.
    - unfold the_buckets. f_equal. rewrite map_map. reflexivity.
    - unfold bkeys. rewrite map_map. cbn [fst]. now rewrite map_id.
    - intros [i c] Hic. unfold bkeys. rewrite map_map. cbn [fst snd]. rewrite map_id. apply Hin.
      split; [|tauto]. apply in_map. apply indexed_in in Hic. eapply nth_error_In; eauto.
  Qed.

  Lemma pairs_in batch s i c : In (i, c) (pairs batch s) <-> nth_error batch i = Some c /\ group_of c = s.
  Proof. unfold pairs. rewrite filter_In, indexed_in. unfold grp. cbn [snd]. now rewrite N.eqb_eq. Qed.

  Lemma bucket_find_the batch s :
    bucket_find s (the_buckets batch) =
    if existsb (N.eqb s) (distinct_groups (map group_of batch) [])
    then Some (mkB (map fst (pairs batch s)) (map snd (pairs batch s))) else None.
  Proof.
    unfold the_buckets. induction (distinct_groups (map group_of batch) []) as [|t l IH]; [reflexivity|].
    cbn [map bucket_find existsb]. destruct (N.eqb_spec s t) as [->|]; [reflexivity|exact IH].
  Qed.
End Buckets.

(** scattering preserves "every written index holds a good value" *)
Section Scatter.
  Variable Good : nat -> rres -> Prop.

  Definition all_good (W : list nat) (rs : list rres) : Prop := forall i, In i W -> Good i (nth i rs zero_res).

  Lemma all_good_incl W W' rs : incl W' W -> all_good W rs -> all_good W' rs.
  Proof. intros Hi H i Hin. apply H, Hi, Hin. Qed.

  (** the written set grows at its right end, in the order of the writes, so that no step has to permute it *)
  Lemma all_good_upd W rs i r : i < length rs -> Good i r -> all_good W rs -> all_good (W ++ [i]) (upd i r rs).
  Proof.
    intros Hi Hr Hw x Hx. destruct (Nat.eq_dec i x) as [<-|Hne]; [now rewrite upd_nth_same|].
    rewrite upd_nth_other by assumption. apply in_app_or in Hx as [Hx|[Hx|[]]]; [now apply Hw|contradiction].
  Qed.

  Lemma scatter_inv idx resp : forall rs W,
    Forall2 Good idx resp -> Forall (fun i => i < length rs) idx -> all_good W rs ->
    exists rs', scatter idx resp rs = Ok rs' /\ length rs' = length rs /\ all_good (W ++ idx) rs'.
  Proof.
    intros rs W H. revert rs W. induction H as [|i r idx resp Hg _ IH]; intros rs W Hlt Hw.
    - exists rs. now rewrite app_nil_r.
    - inversion Hlt as [|? ? Hi Hlt']; subst. cbn [scatter]. unfold set_nth.
      destruct (Nat.ltb_spec i (length rs)); [|lia].
      destruct (IH (upd i r rs) (W ++ [i])) as (rs' & Hs & Hl & Hg').
      + rewrite upd_length. exact Hlt'.
      + now apply all_good_upd.
      + rewrite snoc_app in Hg'. exists rs'. split; [assumption|]. split; [now rewrite Hl, upd_length|assumption].
  Qed.
End Scatter.

Lemma Forall2_nth_all {A B} (R : A -> B -> Prop) l1 l2 d1 d2 :
  length l1 = length l2 -> (forall i, i < length l2 -> R (nth i l1 d1) (nth i l2 d2)) -> Forall2 R l1 l2.
Proof.
  revert l2; induction l1 as [|a l1 IH]; intros [|b l2] Hl H; try discriminate; constructor.
  - apply (H 0). cbn; lia.
  - apply IH; [cbn in Hl; lia|]. intros i Hi. apply (H (S i)). cbn; lia.
Qed.

Section Mux.
  Variable conn_do : N -> list item -> result (list rres).
  Variable group_of : item -> N.
  Variable batch : list item.
  (** [P g r it]: [r] is an acceptable answer of wire [g] to [it] *)
  Variable P : N -> rres -> item -> Prop.
  Hypothesis Hconn : forall g cmds, cmds <> [] -> (forall it, In it cmds -> In it batch /\ group_of it = g) ->
    exists resp, conn_do g cmds = Ok resp /\ Forall2 (P g) resp cmds.

  Definition good_mux (i : nat) (r : rres) : Prop :=
    exists it, nth_error batch i = Some it /\ P (group_of it) r it.

  Let groups := distinct_groups (map group_of batch) [].

  Lemma run_buckets_inv order : forall rs W,
    length rs = length batch -> all_good good_mux W rs ->
    exists rs', run_buckets conn_do order (the_buckets group_of batch) rs = Ok rs' /\ length rs' = length batch /\
      all_good good_mux (W ++ flat_map (fun g => if existsb (N.eqb g) groups then map fst (pairs group_of batch g) else []) order) rs'.
  Proof.
    induction order as [|g order IH]; intros rs W Hl Hw.
    - exists rs. rewrite app_nil_r. auto.
    - cbn [run_buckets flat_map]. rewrite bucket_find_the. fold groups.
      destruct (existsb (N.eqb g) groups) eqn:Eg.
      + cbn [b_cmds b_idx].
        set (ps := pairs group_of batch g).
        assert (Hne : map snd ps <> []).
        { apply existsb_exists in Eg as [g' [Hg' Eg']]. apply N.eqb_eq in Eg'. subst g'.
          unfold groups in Hg'. apply (proj2 (distinct_groups_spec _ _)) in Hg' as [Hg' _].
          apply in_map_iff in Hg' as [it [Hit Hin]]. apply In_nth_error in Hin as [i Hi].
          assert (In (i, it) ps) by (apply pairs_in; auto).
          intro E. apply map_eq_nil in E. rewrite E in H. destruct H. }
        destruct (Hconn g (map snd ps) Hne) as (resp & Hdo & Hresp).
        { intros it Hit. apply in_map_iff in Hit as [[i c] [<- Hin]]. apply pairs_in in Hin as [Hn Hg].
          cbn [snd]. split; [eapply nth_error_In; eauto|assumption]. }
        rewrite Hdo.
        assert (Hgood : Forall2 good_mux (map fst ps) resp).
        { apply (Forall2_of_map_r _ _ _ _ _ _ Hresp).
          intros [i c] r Hin Hp. apply pairs_in in Hin as [Hn Hg]. cbn [fst snd] in *.
          exists c. split; [assumption|now rewrite Hg]. }
        destruct (scatter_inv good_mux (map fst ps) resp rs W Hgood) as (rs1 & Hs & Hl1 & Hg1); [|assumption|].
        { apply Forall_forall. intros i Hi. apply in_map_iff in Hi as [[i' c] [<- Hin]]. apply pairs_in in Hin as [Hn _].
          cbn [fst]. rewrite Hl. apply nth_error_Some. congruence. }
        rewrite Hs.
        destruct (IH rs1 (W ++ map fst ps)) as (rs' & Hr & Hl' & Hg'); [congruence|assumption|].
        rewrite <- app_assoc in Hg'. now exists rs'.
      + apply IH; assumption.
  Qed.

  Theorem run_buckets_positional order :
    (forall g, In g groups -> In g order) ->
    exists rs, run_buckets conn_do order (the_buckets group_of batch) (repeat_n zero_res (length batch)) = Ok rs /\
      Forall2 (fun r it => P (group_of it) r it) rs batch.
  Proof.
    intro Hcover.
    destruct (run_buckets_inv order (repeat_n zero_res (length batch)) []) as (rs & Hr & Hl & Hg).
    - apply BytesProofs.repeat_n_length.
    - intros i [].
    - exists rs. split; [assumption|].
      apply Forall2_nth_all with (d1 := zero_res) (d2 := no_item); [assumption|].
      intros i Hi. destruct (nth_error batch i) as [it|] eqn:En; [|apply nth_error_None in En; lia].
      rewrite (nth_error_nth _ _ _ En).
      destruct (Hg i) as (it' & En' & HP).
      + apply in_flat_map. exists (group_of it). split.
        * eapply Hcover, group_of_in, En.
        * assert (Eg : existsb (N.eqb (group_of it)) groups = true).
          { apply existsb_exists. exists (group_of it). split; [eapply group_of_in, En|apply N.eqb_refl]. }
          rewrite Eg. apply in_map_iff. exists (i, it). split; [reflexivity|]. apply pairs_in. auto.
      + rewrite En in En'. injection En' as <-. exact HP.
  Qed.
End Mux.

Lemma one_group_head (g : item -> N) (batch : list item) :
  batch <> [] -> length (distinct_groups (map g batch) []) < 2 ->
  exists it0 b0, batch = it0 :: b0 /\ forall it, In it batch -> g it = g it0.
Proof.
  destruct batch as [|it0 b0]; [contradiction|]. intros _ Hlt. exists it0, b0. split; [reflexivity|].
  cbn [map distinct_groups existsb length] in Hlt.
  assert (Hnil : distinct_groups (map g b0) [g it0] = []).
  { destruct (distinct_groups (map g b0) [g it0]); [reflexivity|cbn [length] in Hlt; lia]. }
  intros it [<-|Hit]; [reflexivity|].
  assert (H : In (g it) [g it0]) by (eapply distinct_groups_nil; eauto using in_map).
  destruct H as [H|[]]; auto.
Qed.

Lemma match_head {A B} (l : list A) a l' (p : B) (f : A -> B) :
  l = a :: l' -> match l with [] => p | x :: _ => f x end = f a.
Proof. intros ->. reflexivity. Qed.

Lemma Forall2_with_in {A B} (R : A -> B -> Prop) l1 l2 :
  Forall2 R l1 l2 -> Forall2 (fun a b => In b l2 /\ R a b) l1 l2.
Proof.
  induction 1 as [|a b l1 l2 Hab _ IH]; constructor; [split; [now left|assumption]|].
  eapply Forall2_imp; [|exact IH]. intros x y [Hin Hr]. split; [now right|assumption].
Qed.

Section MuxTop.
  Variable conn_do : N -> list item -> result (list rres).
  Variable nwires : N.
  Variable slot_of : item -> N.
  Variable batch : list item.
  Variable P : N -> rres -> item -> Prop.

  Let g (it : item) : N := N.land (slot_of it) (nwires - 1).

  Hypothesis Hne : batch <> [].
  Hypothesis Hconn : forall w cmds, cmds <> [] -> (forall it, In it cmds -> In it batch /\ g it = w) ->
    exists resp, conn_do w cmds = Ok resp /\ Forall2 (P w) resp cmds.

  (** any processing order of the per-wire batches that covers the wires in use *)
  Theorem mux_do_multi_cache_positional order :
    (forall w, In w (distinct_groups (map g batch) []) -> In w order) ->
    exists rs, mux_do_multi_cache conn_do nwires slot_of order batch = Ok rs /\
      Forall2 (fun r it => P (g it) r it) rs batch.
  Proof.
    intro Hcover. unfold mux_do_multi_cache. fold g.
    destruct (N.eqb_spec (nwires - 1) 0) as [Hm|Hm].
    - destruct (Hconn 0%N batch Hne) as (resp & Hd & Hr).
      { intros it Hit. split; [assumption|]. unfold g. rewrite Hm. apply N.land_0_r. }
      exists resp. split; [assumption|]. eapply Forall2_imp; [|exact Hr].
      intros r it HP. unfold g. rewrite Hm, N.land_0_r. exact HP.
    - change (fun it : item => N.land (slot_of it) (nwires - 1)) with g.
      unfold less_than_2.
      destruct (Nat.ltb_spec (length (distinct_groups (map g batch) [])) 2) as [Hlt|Hge].
      + destruct (one_group_head g batch Hne Hlt) as (it0 & b0 & Eb & Hall).
        rewrite (match_head batch it0 b0 Panic (fun x => conn_do (N.land (slot_of x) (nwires - 1)) batch) Eb). fold (g it0).
        destruct (Hconn (g it0) batch Hne) as (resp & Hd & Hr); [intros; split; auto|].
        exists resp. split; [assumption|].
        apply Forall2_with_in in Hr.
        eapply Forall2_imp; [|exact Hr]. intros r it [Hin HP]. now rewrite (Hall it Hin).
      + rewrite fill_buckets_spec.
        apply run_buckets_positional; assumption.
  Qed.
End MuxTop.

Definition cbkeys (bks : list (N * cbucket)) : list N := map fst bks.

Section ClusterProof.
  Variable conn_of : item -> option N.
  Variable conn_do : N -> list item -> result (list rres).
  Variable asking_do : N -> list item -> result (list rres).
  Variable redirect_of : rres -> redirect.
  Variable batch : list item.
  (** [R c r it]: [r] is an answer of connection [c] to command [it] (directly or after ASKING) *)
  Variable R : N -> rres -> item -> Prop.

  Hypothesis Hconn : forall c cmds, cmds <> [] -> (forall it, In it cmds -> In it batch) ->
    exists resp, conn_do c cmds = Ok resp /\ Forall2 (R c) resp cmds.
  Hypothesis Hask : forall c cmds, cmds <> [] -> (forall it, In it cmds -> In it batch) ->
    exists resp, asking_do c cmds = Ok resp /\ Forall2 (R c) resp cmds.

  Definition good_cl (i : nat) (r : rres) : Prop :=
    exists it c, nth_error batch i = Some it /\ R c r it.

  (** the recorded index of every queued command is the position of that command in the batch *)
  Definition paired (idx : list nat) (cmds : list item) : Prop :=
    Forall2 (fun i c => nth_error batch i = Some c) idx cmds.

  Definition cb_ok (b : cbucket) : Prop := paired (cb_idx b) (cb_cmds b) /\ paired (cb_aidx b) (cb_acmds b).

  Definition cbs_ok (bks : list (N * cbucket)) : Prop := Forall (fun sb => cb_ok (snd sb)) bks.

  Lemma paired_snoc idx cmds i c : paired idx cmds -> nth_error batch i = Some c -> paired (idx ++ [i]) (cmds ++ [c]).
  Proof. intros H Hn. apply Forall2_app; [assumption|constructor; [assumption|constructor]]. Qed.

  Lemma cb_add_ok s asking i c bks : cbs_ok bks -> nth_error batch i = Some c -> cbs_ok (cb_add s asking i c bks).
  Proof.
    intros Hok Hn. induction bks as [|[t b] bks IH]; cbn [cb_add].
    - constructor; [|constructor]. destruct asking; cbn; split; try constructor; auto; constructor.
    - inversion Hok as [|? ? Hb Hok']; subst. destruct (N.eqb s t).
      + constructor; [|assumption]. destruct Hb as [H1 H2]. destruct asking; cbn [snd]; split; cbn; auto using paired_snoc.
      + constructor; [assumption|]. apply IH. exact Hok'.
  Qed.

  Lemma cb_find_ok s bks b : cbs_ok bks -> cb_find s bks = Some b -> cb_ok b.
  Proof.
    induction bks as [|[t b'] bks IH]; cbn [cb_find]; [discriminate|]. intros Hok H. inversion Hok; subst.
    destruct (N.eqb s t); [injection H as <-; assumption|auto].
  Qed.

  Lemma result_cache_fn_inv cc idx cmds resps : forall rs W next,
    paired idx cmds -> Forall2 (R cc) resps cmds -> length rs = length batch ->
    all_good good_cl W rs -> cbs_ok next ->
    exists rs' next', result_cache_fn redirect_of cc idx cmds resps rs next = Ok (rs', next') /\
      length rs' = length batch /\ all_good good_cl (W ++ idx) rs' /\ cbs_ok next'.
  Proof.
    intros rs W next Hp. revert resps rs W next.
    induction Hp as [|i c idx cmds Hn _ IH]; intros resps rs W next Hr Hl Hw Hnx.
    - inversion Hr; subst. exists rs, next. rewrite app_nil_r. cbn. auto.
    - inversion Hr as [|r ? resps' ? Hrc Hr']; subst. cbn [result_cache_fn]. unfold set_nth.
      assert (Hi : i < length rs) by (rewrite Hl; apply nth_error_Some; congruence).
      destruct (Nat.ltb_spec i (length rs)); [|lia].
      set (next1 := match redirect_of r with RNone => next | RMoved t => cb_add t false i c next | RAsk t => cb_add t true i c next end).
      assert (Hnx1 : cbs_ok next1) by (unfold next1; destruct (redirect_of r); auto using cb_add_ok).
      destruct (IH resps' (upd i r rs) (W ++ [i]) next1) as (rs' & next' & Hf & Hl' & Hg' & Hn'); auto.
      + now rewrite upd_length.
      + apply all_good_upd; [assumption|exists c, cc; auto|assumption].
      + rewrite snoc_app in Hg'. now exists rs', next'.
  Qed.

  Lemma paired_in idx cmds it : paired idx cmds -> In it cmds -> In it batch.
  Proof.
    induction 1 as [|i c idx cmds Hn _ IH]; [intros []|]. intros [<-|H]; [eapply nth_error_In; eauto|auto].
  Qed.

  Lemma do_retry_cache_inv cc b : forall rs W next,
    cb_ok b -> length rs = length batch -> all_good good_cl W rs -> cbs_ok next ->
    exists rs' next', do_retry_cache conn_do asking_do redirect_of cc b rs next = Ok (rs', next') /\
      length rs' = length batch /\ all_good good_cl (W ++ cb_idx b ++ cb_aidx b) rs' /\ cbs_ok next'.
  Proof.
    intros rs W next [Hp1 Hp2] Hl Hw Hnx. unfold do_retry_cache.
    assert (Step1 : exists rs1 next1,
      match cb_cmds b with
      | [] => Ok (rs, next)
      | _ :: _ => match conn_do cc (cb_cmds b) with
                  | Ok resps => result_cache_fn redirect_of cc (cb_idx b) (cb_cmds b) resps rs next
                  | Err e => Err e
                  | Panic => Panic
                  end
      end = Ok (rs1, next1) /\ length rs1 = length batch /\ all_good good_cl (W ++ cb_idx b) rs1 /\ cbs_ok next1).
    { destruct (cb_cmds b) as [|c0 cs] eqn:Ec.
      - inversion Hp1; subst. exists rs, next. rewrite app_nil_r. auto.
      - rewrite <- Ec in *. destruct (Hconn cc (cb_cmds b)) as (resps & Hd & Hr); [rewrite Ec; discriminate|intros it Hit; exact (paired_in _ _ it Hp1 Hit)|].
        rewrite Hd. apply result_cache_fn_inv; auto. }
    destruct Step1 as (rs1 & next1 & -> & Hl1 & Hg1 & Hn1).
    destruct (cb_acmds b) as [|c0 cs] eqn:Ec.
    - inversion Hp2; subst. exists rs1, next1. rewrite app_nil_r. auto.
    - rewrite <- Ec in *. destruct (Hask cc (cb_acmds b)) as (resps & Hd & Hr); [rewrite Ec; discriminate|intros it Hit; exact (paired_in _ _ it Hp2 Hit)|].
      rewrite Hd, app_assoc. apply result_cache_fn_inv; auto.
  Qed.

  Lemma cluster_round_inv order bks : forall rs W next,
    cbs_ok bks -> length rs = length batch -> all_good good_cl W rs -> cbs_ok next ->
    exists rs' next', cluster_round conn_do asking_do redirect_of order bks rs next = Ok (rs', next') /\
      length rs' = length batch /\ cbs_ok next' /\
      all_good good_cl (W ++ flat_map (fun g => match cb_find g bks with Some b => cb_idx b ++ cb_aidx b | None => [] end) order) rs'.
  Proof.
    induction order as [|g order IH]; intros rs W next Hok Hl Hw Hnx.
    - exists rs, next. rewrite app_nil_r. auto.
    - cbn [cluster_round flat_map]. destruct (cb_find g bks) as [b|] eqn:Ef.
      + destruct (do_retry_cache_inv g b rs W next) as (rs1 & next1 & Hd & Hl1 & Hg1 & Hn1); eauto using cb_find_ok.
        rewrite Hd. destruct (IH rs1 (W ++ cb_idx b ++ cb_aidx b) next1) as (rs' & next' & Hr & Hl' & Hn' & Hg'); auto.
        rewrite <- app_assoc in Hg'. now exists rs', next'.
      + apply IH; assumption.
  Qed.

  (** once every position holds an answer to its command, further rounds keep it so *)
  Lemma cluster_rounds_inv fuel : forall orders maxredir redirects bks rs W,
    cbs_ok bks -> length rs = length batch -> all_good good_cl W rs ->
    forall out, cluster_rounds conn_do asking_do redirect_of fuel orders maxredir redirects bks rs = Ok out ->
      length out = length batch /\ all_good good_cl W out.
  Proof.
    induction fuel as [|fuel IH]; intros orders maxredir redirects bks rs W Hok Hl Hw out Hrun; [discriminate|].
    cbn [cluster_rounds] in Hrun.
    set (order := match orders with o :: _ => o | [] => map fst bks end) in Hrun.
    destruct (cluster_round_inv order bks rs W []) as (rs1 & next & Hr & Hl1 & Hn1 & Hg1); auto; [constructor|].
    rewrite Hr in Hrun.
    assert (HgW : all_good good_cl W rs1) by (eapply all_good_incl; [apply incl_appl, incl_refl|exact Hg1]).
    destruct next as [|n0 nx].
    - injection Hrun as <-. auto.
    - destruct ((0 <? maxredir) && (maxredir <? S redirects)).
      + injection Hrun as <-. auto.
      + eapply IH; eauto.
  Qed.

  Definition cl_group (it : item) : N := match conn_of it with Some g => g | None => 0%N end.

  Lemma paired_of_list (l : list (nat * item)) :
    (forall p, In p l -> nth_error batch (fst p) = Some (snd p)) -> paired (map fst l) (map snd l).
  Proof.
    induction l as [|[i c] l IHl]; intro Hsub; cbn [map]; constructor.
    - apply (Hsub (i, c)). now left.
    - apply IHl. intros; apply Hsub; now right.
  Qed.

  (** the first round writes every position *)
  Lemma first_round_covers order :
    (forall g, In g (distinct_groups (map cl_group batch) []) -> In g order) ->
    let cbs := map (fun gb : N * bucket => (fst gb, mkCB (b_idx (snd gb)) (b_cmds (snd gb)) [] [])) (the_buckets cl_group batch) in
    cbs_ok cbs /\
    forall i, i < length batch ->
      In i (flat_map (fun g => match cb_find g cbs with Some b => cb_idx b ++ cb_aidx b | None => [] end) order).
  Proof.
    intros Hcover cbs. split.
    - unfold cbs, cbs_ok, the_buckets. rewrite !map_map. apply Forall_forall. intros sb Hsb.
      apply in_map_iff in Hsb as [s [<- _]]. cbn [snd fst]. split; cbn [cb_idx cb_cmds cb_aidx cb_acmds b_idx b_cmds]; [|constructor].
      apply paired_of_list. intros [i c] Hp. apply pairs_in in Hp. tauto.
    - intros i Hi. destruct (nth_error batch i) as [it|] eqn:En; [|apply nth_error_None in En; lia].
      apply in_flat_map. exists (cl_group it). split.
      + eapply Hcover, group_of_in, En.
      + assert (Hf : cb_find (cl_group it) cbs
                     = Some (mkCB (map fst (pairs cl_group batch (cl_group it))) (map snd (pairs cl_group batch (cl_group it))) [] [])).
        { unfold cbs, the_buckets. rewrite map_map. cbn [fst snd b_idx b_cmds].
          pose proof (group_of_in cl_group batch i it En) as Hin.
          clear Hcover. induction (distinct_groups (map cl_group batch) []) as [|t0 l0 IHl]; [destruct Hin|].
          cbn [map cb_find fst]. destruct (N.eqb_spec (cl_group it) t0) as [Heq|Hne]; [now rewrite Heq|].
          destruct Hin as [E|Hin]; [congruence|auto]. }
        rewrite Hf. cbn [cb_aidx cb_idx]. rewrite app_nil_r. apply in_map_iff. exists (i, it). split; [reflexivity|]. apply pairs_in. auto.
  Qed.

  (** whatever redirections happen, a finished call has at every position an answer to that
      position's command *)
  Theorem cluster_do_multi_cache_positional fuel orders maxredir rs :
    (forall g, In g (distinct_groups (map cl_group batch) []) ->
               In g (match orders with o :: _ => o | [] => distinct_groups (map cl_group batch) [] end)) ->
    cluster_do_multi_cache conn_of conn_do asking_do redirect_of fuel orders maxredir batch = Ok (inl rs) ->
    Forall2 (fun r it => exists c, R c r it) rs batch.
  Proof.
    intros Hcover Hrun. unfold cluster_do_multi_cache in Hrun.
    destruct batch as [|it0 b0] eqn:Eb; [injection Hrun as <-; constructor|]. rewrite <- Eb in *.
    unfold pick_multi_cache in Hrun.
    destruct (forallb _ batch); [|discriminate].
    change (fun it : item => match conn_of it with Some g => g | None => 0%N end) with cl_group in Hrun.
    rewrite fill_buckets_spec in Hrun.
    set (cbs := map (fun gb : N * bucket => (fst gb, mkCB (b_idx (snd gb)) (b_cmds (snd gb)) [] [])) (the_buckets cl_group batch)) in Hrun.
    destruct fuel as [|fuel]; [discriminate|]. cbn [cluster_rounds] in Hrun.
    set (order := match orders with o :: _ => o | [] => map fst cbs end) in Hrun.
    assert (Hord : forall g, In g (distinct_groups (map cl_group batch) []) -> In g order).
    { intros g Hg. unfold order. destruct orders as [|o os]; [|now apply Hcover].
      unfold cbs, the_buckets. rewrite !map_map. cbn [fst]. now rewrite map_id. }
    destruct (first_round_covers order Hord) as [Hok Hcov].
    fold cbs in Hok, Hcov.
    destruct (cluster_round_inv order cbs (repeat_n zero_res (length batch)) [] []) as (rs1 & next & Hr & Hl1 & Hn1 & Hg1);
      auto using BytesProofs.repeat_n_length; [intros ? []|constructor|].
    rewrite Hr in Hrun. cbn [app] in Hg1.
    set (Wall := flat_map (fun g => match cb_find g cbs with Some b => cb_idx b ++ cb_aidx b | None => [] end) order) in *.
    assert (Hfinal : length rs = length batch /\ all_good good_cl Wall rs).
    { destruct next as [|n0 nx].
      - injection Hrun as <-. auto.
      - destruct ((0 <? maxredir) && (maxredir <? 1)).
        + injection Hrun as <-. auto.
        + destruct (cluster_rounds conn_do asking_do redirect_of fuel (tl orders) maxredir 1 (n0 :: nx) rs1) as [out| |] eqn:Erun; try discriminate.
          injection Hrun as <-. eapply cluster_rounds_inv; eauto. }
    destruct Hfinal as [Hlen Hgood].
    apply Forall2_nth_all with (d1 := zero_res) (d2 := no_item); [assumption|].
    intros i Hi. destruct (Hgood i (Hcov i Hi)) as (it & c & En & HR).
    rewrite (nth_error_nth _ _ _ En). eauto.
  Qed.
End ClusterProof.
