(** Proofs about Model/ClusterBatch.v: a MULTI…EXEC block travels whole (C20_tx_contiguous).
    Everything is positional: [W1]/[W2] say that on a list of commands every MULTI is closed by an
    EXEC with only plain commands in between and vice versa; [idt] says that such a stretch carries
    consecutive indices of the original batch; [mem] says that a plain command which sits inside a
    block of the original batch sits inside a block of the list. *)
From Coq Require Import List Arith NArith ZArith Bool Lia Permutation.
Require Import RV.Model.Base RV.Model.ClusterTopo RV.Model.Retry RV.Model.ClusterDo RV.Model.ClusterBatch.
Require Import RV.Proofs.ClusterTopoProofs RV.Proofs.ClusterDoProofs RV.Proofs.ClusterBatchProofs.
Import ListNotations.
Open Scope Z_scope.

Definition marker (c : bcmd) : bool := is_multi c || is_exec c.

Definition at_ (f : bcmd -> bool) (cs : list bcmd) (z : nat) : bool :=
  match nth_error cs z with Some c => f c | None => false end.
Notation mk := (at_ marker).
Notation mu := (at_ is_multi).
Notation ex := (at_ is_exec).

Definition nomark (cs : list bcmd) (a b : nat) : Prop := forall j, (a < j < b)%nat -> mk cs j = false.

Definition W1 (cs : list bcmd) : Prop :=
  forall z, mu cs z = true -> exists e, (z < e)%nat /\ ex cs e = true /\ nomark cs z e.
Definition W2 (cs : list bcmd) : Prop :=
  forall e, ex cs e = true -> exists z, (z < e)%nat /\ mu cs z = true /\ nomark cs z e.

(** a MULTI…EXEC stretch: MULTI at [z], EXEC at [e], plain commands in between ([W1], [W2] above and [idt],
    [orig_inside], [mem] below spell it out) *)
Definition blk (cs : list bcmd) (z e : nat) : Prop := mu cs z = true /\ ex cs e = true /\ nomark cs z e.
(** position [i] lies strictly inside a stretch *)
Definition inside (cs : list bcmd) (i : nat) : Prop := exists z e, (z < i < e)%nat /\ blk cs z e.

Lemma mu_mk cs z : mu cs z = true -> mk cs z = true.
Proof. unfold at_, marker. destruct (nth_error cs z); [intros ->; reflexivity|discriminate]. Qed.
Lemma ex_mk cs z : ex cs z = true -> mk cs z = true.
Proof. unfold at_, marker. destruct (nth_error cs z); [intros ->; apply orb_true_r|discriminate]. Qed.
Lemma mu_ex_excl cs z : mu cs z = true -> ex cs z = true -> False.
Proof. unfold at_, is_multi, is_exec. destruct (nth_error cs z) as [c|]; [destruct (b_kind c)|]; discriminate. Qed.
Lemma mk_cases cs z : mk cs z = true -> mu cs z = true \/ ex cs z = true.
Proof. unfold at_, marker. destruct (nth_error cs z); [apply orb_true_iff|discriminate]. Qed.
Lemma at_lt f cs z : at_ f cs z = true -> (z < length cs)%nat.
Proof. unfold at_. intro H. apply nth_error_Some. destruct (nth_error cs z); [discriminate|discriminate]. Qed.

Lemma at_app_l f l1 l2 z : (z < length l1)%nat -> at_ f (l1 ++ l2) z = at_ f l1 z.
Proof. intro H. unfold at_. now rewrite nth_error_app1. Qed.
Lemma at_app_r f l1 l2 z : at_ f (l1 ++ l2) (length l1 + z) = at_ f l2 z.
Proof. unfold at_. rewrite nth_error_app2 by lia. now replace (length l1 + z - length l1)%nat with z by lia. Qed.

Lemma at_some f cs i c : nth_error cs i = Some c -> at_ f cs i = f c.
Proof. unfold at_. now intros ->. Qed.
Lemma at_none f cs i : nth_error cs i = None -> at_ f cs i = false.
Proof. unfold at_. now intros ->. Qed.

Lemma scan_down_eq cs i :
  scan_down cs i = if mk cs i then Z.of_nat i else match i with O => -1 | S j => scan_down cs j end.
Proof. unfold at_, marker. destruct i; cbn [scan_down]; destruct (nth_error cs _); reflexivity. Qed.

Lemma scan_down_spec cs : forall i,
  (scan_down cs i = -1 /\ forall j, (j <= i)%nat -> mk cs j = false) \/
  (0 <= scan_down cs i <= Z.of_nat i /\ mk cs (Z.to_nat (scan_down cs i)) = true /\
   forall j, (Z.to_nat (scan_down cs i) < j <= i)%nat -> mk cs j = false).
Proof.
  induction i as [|i IH]; rewrite scan_down_eq; [destruct (mk cs 0) eqn:M|destruct (mk cs (S i)) eqn:M].
  - right. cbn [Z.of_nat Z.to_nat]. split; [lia|]. split; [exact M|]. intros; lia.
  - left. split; [reflexivity|]. intros j Hj. assert (j = 0)%nat as -> by lia. exact M.
  - right. rewrite Nat2Z.id. split; [lia|]. split; [exact M|]. intros; lia.
  - destruct IH as [[E A]|[B [K A]]]; [left; split; [exact E|]|right; split; [lia|split; [exact K|]]];
      intros j Hj; (destruct (Nat.eq_dec j (S i)) as [->|]; [exact M|apply A; lia]).
Qed.

Lemma first_mark_spec cs :
  (first_mark cs <= length cs)%nat /\
  (forall j, (j < first_mark cs)%nat -> mk cs j = false) /\
  ((first_mark cs < length cs)%nat -> mk cs (first_mark cs) = true).
Proof.
  induction cs as [|c r [I1 [I2 I3]]]; cbn [first_mark length].
  - split; [lia|]. split; [intros; lia|intro; lia].
  - destruct (is_multi c || is_exec c) eqn:M.
    + split; [lia|]. split; [intros; lia|]. intros _. unfold at_. cbn. exact M.
    + split; [lia|]. split.
      * intros j Hj. destruct j as [|j]; [unfold at_; cbn; exact M|]. unfold at_. cbn [nth_error]. apply I2. lia.
      * intro H. unfold at_. cbn [nth_error]. apply I3. lia.
Qed.

Lemma at_skipn f cs i j : at_ f (skipn i cs) j = at_ f cs (i + j).
Proof. unfold at_. now rewrite nth_error_skipn. Qed.

Lemma scan_up_spec cs i : (i <= length cs)%nat ->
  exists e, scan_up cs i = Z.of_nat e /\ (i <= e <= length cs)%nat /\
            (forall j, (i <= j < e)%nat -> mk cs j = false) /\
            ((e < length cs)%nat -> mk cs e = true).
Proof.
  intro Hi. unfold scan_up. exists (i + first_mark (skipn i cs))%nat.
  destruct (first_mark_spec (skipn i cs)) as [F1 [F2 F3]]. rewrite skipn_length in F1, F3.
  split; [reflexivity|]. split; [lia|]. split.
  - intros j Hj. replace j with (i + (j - i))%nat by lia. rewrite <- at_skipn. apply F2. lia.
  - intro H. rewrite <- at_skipn. apply F3. lia.
Qed.

Definition outside (cs : list bcmd) (i : nat) : Prop := ~ inside cs i.

Inductive good (ps : list ipair) : list ipair -> Prop :=
| GoodOne i p : nth_error ps i = Some p -> marker (snd p) = false -> outside (map snd ps) i -> good ps [p]
| GoodBlock mi ei : (mi < ei)%nat -> blk (map snd ps) mi ei -> good ps (firstn (ei - mi + 1) (skipn mi ps)).

(** the scan state carried from one position to the next *)
Definition ss (cs : list bcmd) (i : nat) (mi ei : Z) : Prop :=
  ei < Z.of_nat i \/
  (-1 <= mi < Z.of_nat i /\ Z.of_nat i <= ei <= Z.of_nat (length cs) /\
   (mi = -1 \/ mk cs (Z.to_nat mi) = true) /\
   (ei < Z.of_nat (length cs) -> mk cs (Z.to_nat ei) = true) /\
   (forall j, mi < Z.of_nat j < ei -> mk cs j = false)).

Lemma ss_step cs i mi ei : ss cs i mi ei -> ss cs (S i) mi ei.
Proof.
  intros [H|[H1 [H2 H3]]]; [left; lia|].
  destruct (Z.eq_dec ei (Z.of_nat i)); [left; lia|right]. split; [lia|]. split; [lia|exact H3].
Qed.

(** [dstep]'s transaction scan at position [i] (commands [cs], command [cm]): the block bounds it goes on with, whether a
    whole answered block was found there ([found_test]), whether the position sits inside the carried block ([skip_test]) *)
Definition skip_test (hasinit : bool) (cs : list bcmd) (mi ei : Z) (i : nat) : bool :=
  hasinit && (mi <? Z.of_nat i) && (Z.of_nat i <=? ei) && (0 <=? mi)
  && match nth_cmd cs mi with Some cm_mi => is_multi cm_mi | None => false end.

Definition found_test (rescan : bool) (cs : list bcmd) (resps : list reply) (mi ei : Z) : bool :=
  rescan && (0 <=? mi) && (ei <? Z.of_nat (length cs))
  && match nth_cmd cs mi, nth_cmd cs ei with
     | Some cm_mi, Some cm_ei => is_multi cm_mi && is_exec cm_ei
     | _, _ => false
     end
  && match nth_error resps (Z.to_nat mi) with Some rm => is_ok rm | None => false end.

Definition dscan (hasinit : bool) (cs : list bcmd) (resps : list reply) (st : drs) (i : nat) (cm : bcmd) : Z * Z * bool * bool :=
  let rescan := hasinit && (d_ei st <? Z.of_nat i) in
  let mi := if rescan then (if is_exec cm then match i with O => -1 | S j => scan_down cs j end else scan_down cs i) else d_mi st in
  let ei := if rescan then scan_up cs i else d_ei st in
  (mi, ei, found_test rescan cs resps mi ei, skip_test hasinit cs mi ei i).

Section ScanInv.
Variables (pol : policy) (cc : addr) (hasinit : bool) (attempts : nat) (fl : rflags).
Variables (ps : list ipair) (resps : list reply).
Let cs := map snd ps.
Hypothesis HW1 : W1 cs.
Hypothesis HW2 : W2 cs.
Hypothesis Hlen : length resps = length ps.
(** without no-slot commands there is no MULTI / EXEC in the batch at all *)
Hypothesis Hni : hasinit = false -> forall j, mk cs j = false.
(** MULTI carries no key: no node answers it with a redirect, and it is not retryable *)
Hypothesis Hgate : forall i ii cm r, nth_error ps i = Some (ii, cm) -> nth_error resps i = Some r -> is_multi cm = true ->
  match classify r (rf_ctx fl) (rf_closed fl) with
  | ModeNone => True
  | ModeRetry => b_retryable cm = false
  | _ => False
  end.

(** the property of queued actions that is being established (closed under [good] payloads) *)
Variable Qa : action -> Prop.
Hypothesis HQ : forall nc ask pl, good ps pl -> Qa (mkAct nc ask pl).

(** the invariant of the [doresultfn] fold at position [i]: queued payloads are good, the scan state is coherent *)
Definition fold_inv (i : nat) (d : drs) : Prop :=
  Forall Qa (d_acts d) /\ ss cs i (d_mi d) (d_ei d).

Lemma cs_nth i ii cm : nth_error ps i = Some (ii, cm) -> nth_error cs i = Some cm.
Proof. intro H. unfold cs. rewrite nth_error_map, H. reflexivity. Qed.

Lemma nth_cmd_nat z : 0 <= z -> nth_cmd cs z = nth_error cs (Z.to_nat z).
Proof. intro H. unfold nth_cmd. destruct (Z.ltb_spec z 0); [lia|reflexivity]. Qed.

Lemma block_nat (mi ei : nat) : (mi <= ei)%nat -> block ps (Z.of_nat mi) (Z.of_nat ei) = firstn (ei - mi + 1) (skipn mi ps).
Proof.
  intro H. unfold block. rewrite Nat2Z.id. f_equal.
  replace (Z.of_nat ei - Z.of_nat mi + 1) with (Z.of_nat (ei - mi + 1)) by lia. apply Nat2Z.id.
Qed.

(** nearest marker below a position that is inside a block is the block's MULTI *)
Lemma prev_is_multi i z e z' :
  (z < i)%nat -> (i <= e)%nat -> mu cs z = true -> nomark cs z e ->
  (z' < i)%nat -> mk cs z' = true -> (forall j, (z' < j < i)%nat -> mk cs j = false) -> z' = z.
Proof.
  intros Hz He Mz Nz Hz' Mz' Nz'.
  destruct (lt_eq_lt_dec z z') as [[L|E]|G]; [|auto|].
  - rewrite (Nz z') in Mz'; [discriminate|lia].
  - pose proof (mu_mk _ _ Mz) as X. rewrite (Nz' z) in X by lia. discriminate.
Qed.

(** rescan at an EXEC: the block found is the one the EXEC closes *)
Lemma rescan_exec i : ex cs i = true ->
  exists z, (z < i)%nat /\ mu cs z = true /\ nomark cs z i /\
            match i with O => -1 | S j => scan_down cs j end = Z.of_nat z /\ scan_up cs i = Z.of_nat i.
Proof.
  intro E. destruct (HW2 i E) as [z [Hz [Mz Nz]]]. exists z. split; [exact Hz|]. split; [exact Mz|]. split; [exact Nz|].
  split.
  - destruct i as [|j]; [lia|].
    destruct (scan_down_spec cs j) as [[_ A]|[B [K A]]].
    + pose proof (mu_mk _ _ Mz) as X. rewrite (A z) in X by lia. discriminate.
    + assert (Z.to_nat (scan_down cs j) = z).
      { apply (prev_is_multi (S j) z (S j) (Z.to_nat (scan_down cs j))); auto; try lia. intros q Hq. apply A. lia. }
      lia.
  - pose proof (at_lt _ _ _ E) as Hl. destruct (scan_up_spec cs i ltac:(lia)) as [e [-> [He [Ne Me]]]].
    f_equal. destruct (Nat.eq_dec e i) as [|Hne]; [assumption|].
    pose proof (ex_mk _ _ E) as X. rewrite (Ne i) in X by lia. discriminate.
Qed.

(** rescan at a plain command *)
Lemma rescan_plain i : (i < length cs)%nat -> mk cs i = false ->
  exists e, scan_up cs i = Z.of_nat e /\ (i < e <= length cs)%nat /\
            (forall j, (i <= j < e)%nat -> mk cs j = false) /\ ((e < length cs)%nat -> mk cs e = true) /\
            ((scan_down cs i = -1 /\ forall j, (j <= i)%nat -> mk cs j = false) \/
             (exists z, scan_down cs i = Z.of_nat z /\ (z < i)%nat /\ mk cs z = true /\
                        forall j, (z < j <= i)%nat -> mk cs j = false)).
Proof.
  intros Hi M. destruct (scan_up_spec cs i ltac:(lia)) as [e [-> [He [Ne Me]]]]. exists e. split; [reflexivity|].
  assert (e <> i) by (intros ->; rewrite (Me Hi) in M; discriminate).
  split; [lia|]. split; [exact Ne|]. split; [exact Me|].
  destruct (scan_down_spec cs i) as [[E A]|[B [K A]]]; [left; auto|right].
  exists (Z.to_nat (scan_down cs i)). split; [lia|]. split; [|split; [exact K|exact A]].
  destruct (Nat.eq_dec (Z.to_nat (scan_down cs i)) i) as [X|X]; [rewrite X in K; congruence|lia].
Qed.

(** a MULTI below a plain command, with nothing in between: the command is inside that block *)
Lemma inside_block i z e :
  (z < i)%nat -> mu cs z = true -> (forall j, (z < j <= i)%nat -> mk cs j = false) ->
  (i < e <= length cs)%nat -> (forall j, (i <= j < e)%nat -> mk cs j = false) -> ((e < length cs)%nat -> mk cs e = true) ->
  (e < length cs)%nat /\ ex cs e = true /\ nomark cs z e.
Proof.
  intros Hz Mz Nz He Ne Me. destruct (HW1 z Mz) as [e1 [H1 [E1 N1]]].
  pose proof (at_lt _ _ _ E1) as L1. pose proof (ex_mk _ _ E1) as K1.
  assert (i < e1)%nat by (destruct (le_lt_dec e1 i); [rewrite (Nz e1) in K1 by lia; discriminate|assumption]).
  assert (e <= e1)%nat by (destruct (le_lt_dec e e1); [assumption|rewrite (Ne e1) in K1 by lia; discriminate]).
  assert (e = e1).
  { destruct (Nat.eq_dec e e1); [assumption|]. assert (e < length cs)%nat by lia.
    pose proof (Me ltac:(lia)) as X. rewrite (N1 e) in X by lia. discriminate. }
  subst e1. auto.
Qed.

Lemma outside_of_prev i :
  ((forall j, (j <= i)%nat -> mk cs j = false) \/
   (exists z, (z < i)%nat /\ mk cs z = true /\ mu cs z = false /\ forall j, (z < j <= i)%nat -> mk cs j = false)) ->
  outside cs i.
Proof.
  intros H [z0 [e0 [Hze [M0 [E0 N0]]]]]. destruct H as [A|[z [Hz [K [NM A]]]]].
  - pose proof (mu_mk _ _ M0) as X. rewrite (A z0) in X by lia. discriminate.
  - assert (z = z0).
    { apply (prev_is_multi i z0 e0 z); auto; try lia. intros q Hq. apply A. lia. }
    subst. congruence.
Qed.

(** the carried-block test of [dstep] succeeds on a position below a MULTI with the block still open *)
Lemma skip_inside (z i : nat) (EI : Z) : hasinit = true -> (z < i)%nat -> Z.of_nat i <= EI -> mu cs z = true ->
  skip_test hasinit cs (Z.of_nat z) EI i = true.
Proof.
  intros -> Hz He Mz. unfold skip_test. rewrite nth_cmd_nat, Nat2Z.id by lia. unfold at_ in Mz. destruct (nth_error cs z); [rewrite Mz|discriminate].
  destruct (Z.ltb_spec (Z.of_nat z) (Z.of_nat i)); [|lia]. destruct (Z.leb_spec (Z.of_nat i) EI); [|lia].
  destruct (Z.leb_spec 0 (Z.of_nat z)); [|lia]. reflexivity.
Qed.

Lemma fold_inv_outcomes i ii cm (d : drs) MI EI (found skip : bool) nc ask rd1 dl1 rd3 dl3 res :
  Forall Qa (d_acts d) ->
  ss cs (S i) MI EI ->
  (found = true -> good ps (block ps MI EI)) ->
  (found = false -> skip = false -> good ps [(ii, cm)]) ->
  fold_inv (S i) (if found then mkDrs MI EI (d_acts d ++ [mkAct nc ask (block ps MI EI)]) rd1 dl1 res
           else if skip then mkDrs MI EI (d_acts d) (d_redirects d) (d_delay d) res
           else mkDrs MI EI (d_acts d ++ [mkAct nc ask [(ii, cm)]]) rd3 dl3 res).
Proof.
  intros Ha Hs H1 H3. destruct found.
  - split; cbn; [|exact Hs]. apply Forall_app. split; [exact Ha|]. constructor; [apply HQ; auto|constructor].
  - destruct skip.
    + split; cbn; [exact Ha|exact Hs].
    + split; cbn; [|exact Hs]. apply Forall_app. split; [exact Ha|]. constructor; [apply HQ; auto|constructor].
Qed.

(** the scan [dstep] performs at a position that is not a MULTI yields a coherent state and a good payload *)
Lemma dstep_scan_good i ii cm d :
  (i < length ps)%nat -> nth_error ps i = Some (ii, cm) -> is_multi cm = false -> ss cs i (d_mi d) (d_ei d) ->
  forall MI EI found skip, dscan hasinit cs resps d i cm = (MI, EI, found, skip) ->
  ss cs (S i) MI EI /\
  (found = true -> good ps (block ps MI EI)) /\
  (found = false -> skip = false -> good ps [(ii, cm)]).
Proof.
  intros Hi Ep Hnm Hss MI0 EI0 found0 skip0 E. unfold dscan in E. cbv zeta in E.
  set (rescan := hasinit && (d_ei d <? Z.of_nat i)) in E. set (MI := if rescan then _ else d_mi d) in E.
  set (EI := if rescan then _ else d_ei d) in E. set (found := found_test _ _ _ _ _) in E. set (skip := skip_test _ _ _ _ _) in E.
  injection E as <- <- <- <-.
  pose proof (cs_nth _ _ _ Ep) as Ec.
  assert (Hlc : length cs = length ps) by (unfold cs; apply map_length).
  assert (Emk : mk cs i = marker cm) by (apply at_some; exact Ec).
  assert (Eex : ex cs i = is_exec cm) by (apply at_some; exact Ec).
  assert (Emu : mu cs i = false) by (rewrite (at_some _ _ _ _ Ec); exact Hnm).
  destruct rescan eqn:R.
  - (* the scan is redone at this position *)
    apply andb_true_iff in R. destruct R as [Hin R]. apply Z.ltb_lt in R.
    destruct (is_exec cm) eqn:X.
    + (* EXEC *)
      destruct (rescan_exec i Eex) as [z [Hz [Mz [Nz [Emi Eei]]]]].
      assert (EMI : MI = Z.of_nat z) by (unfold MI; exact Emi).
      assert (EEI : EI = Z.of_nat i) by (unfold EI; exact Eei).
      rewrite EMI, EEI. split; [left; lia|]. split.
      * intros _. rewrite block_nat by lia. apply GoodBlock; unfold blk; auto.
      * intros _ Hsk. exfalso. unfold skip in Hsk. rewrite EMI, EEI in Hsk.
        rewrite skip_inside in Hsk by first [assumption|lia]. discriminate.
    + (* plain *)
      assert (Mi : mk cs i = false) by (rewrite Emk; unfold marker; now rewrite Hnm, X).
      destruct (rescan_plain i ltac:(lia) Mi) as [e [Eei [He [Ne [Me Hprev]]]]].
      assert (EEI : EI = Z.of_nat e) by (unfold EI; exact Eei).
      assert (EMI : MI = scan_down cs i) by reflexivity.
      destruct Hprev as [[Emi A]|[z [Emi [Hz [Kz A]]]]].
      * (* no marker at or below *)
        rewrite EMI, Emi, EEI. split.
        { right. split; [lia|]. split; [lia|]. split; [now left|]. split.
          - intro Hl. rewrite Nat2Z.id. apply Me. lia.
          - intros j Hj. destruct (le_lt_dec j i); [apply A; lia|apply Ne; lia]. }
        split.
        { intro Hf. unfold found, found_test in Hf. rewrite EMI, Emi in Hf. cbn in Hf. rewrite ?andb_false_r in Hf. cbn in Hf. discriminate. }
        intros _ _. apply (GoodOne ps i (ii, cm)); [exact Ep|cbn; rewrite <- Emk; exact Mi|].
        apply outside_of_prev. left. exact A.
      * rewrite EMI, Emi, EEI.
        assert (Hss' : ss cs (S i) (Z.of_nat z) (Z.of_nat e)).
        { right. split; [lia|]. split; [lia|]. split; [right; now rewrite Nat2Z.id|]. split.
          - intro Hl. rewrite Nat2Z.id. apply Me. lia.
          - intros j Hj. destruct (le_lt_dec j i); [apply A; lia|apply Ne; lia]. }
        split; [exact Hss'|].
        destruct (mu cs z) eqn:Mz.
        -- destruct (inside_block i z e Hz Mz A He Ne Me) as [Hl [Ee Nze]].
           split.
           ++ intros _. rewrite block_nat by lia. apply GoodBlock; unfold blk; auto; lia.
           ++ intros _ Hsk. exfalso. unfold skip in Hsk. rewrite EMI, Emi, EEI in Hsk.
              rewrite skip_inside in Hsk by first [assumption|lia]. discriminate.
        -- split.
           ++ intro Hf. exfalso. unfold found, found_test in Hf. rewrite EMI, Emi in Hf.
              rewrite (nth_cmd_nat (Z.of_nat z)) in Hf by lia. rewrite Nat2Z.id in Hf.
              unfold at_ in Mz. destruct (nth_error cs z) as [cz|]; [rewrite Mz in Hf|]; cbn in Hf;
                rewrite ?andb_false_r in Hf; cbn in Hf; try discriminate.
              destruct (nth_cmd cs EI); cbn in Hf; rewrite ?andb_false_r in Hf; discriminate.
           ++ intros _ _. apply (GoodOne ps i (ii, cm)); [exact Ep|cbn; rewrite <- Emk; exact Mi|].
              apply outside_of_prev. right. exists z. auto.
  - (* the carried scan state is used *)
    assert (Hf : found = false) by reflexivity.
    split; [now apply ss_step|]. split; [rewrite Hf; discriminate|].
    intros _ Hsk.
    destruct hasinit eqn:Hin.
    + cbn [andb] in R. apply Z.ltb_ge in R.
      destruct Hss as [Hlt|[S1 [S2 [S3 [S4 S5]]]]]; [lia|].
      assert (EMI : MI = d_mi d) by reflexivity. assert (EEI : EI = d_ei d) by reflexivity.
      unfold skip, skip_test in Hsk. rewrite EMI, EEI in Hsk. cbn [andb] in Hsk.
      destruct (Z.ltb_spec (d_mi d) (Z.of_nat i)); [|lia].
      destruct (Z.leb_spec (Z.of_nat i) (d_ei d)); [|lia]. cbn [andb] in Hsk.
      (* the carried MULTI test failed: the previous marker is not a MULTI *)
      assert (Hprev : d_mi d = -1 \/ (0 <= d_mi d /\ mk cs (Z.to_nat (d_mi d)) = true /\ mu cs (Z.to_nat (d_mi d)) = false)).
      { destruct S3 as [E|K]; [now left|]. destruct (Z.eq_dec (d_mi d) (-1)); [now left|right].
        assert (0 <= d_mi d) by lia. split; [assumption|]. split; [exact K|].
        destruct (Z.leb_spec 0 (d_mi d)); [|lia]. cbn [andb] in Hsk.
        rewrite nth_cmd_nat in Hsk by lia. unfold at_. destruct (nth_error cs (Z.to_nat (d_mi d))); [exact Hsk|reflexivity]. }
      destruct (Z.eq_dec (d_ei d) (Z.of_nat i)) as [Eq|Ne].
      * (* the position is the carried end marker: an EXEC whose MULTI is the carried start — impossible here *)
        exfalso. assert (Ki : mk cs i = true) by (rewrite <- (Nat2Z.id i), <- Eq; apply S4; lia).
        destruct (mk_cases _ _ Ki) as [Y|Y]; [congruence|].
        destruct (HW2 i Y) as [z [Hz [Mz Nz]]].
        destruct Hprev as [E|[P0 [K NM]]].
        -- pose proof (mu_mk _ _ Mz) as Kz. rewrite (S5 z) in Kz by lia. discriminate.
        -- assert (Z.to_nat (d_mi d) = z).
           { apply (prev_is_multi i z i (Z.to_nat (d_mi d))); auto; try lia. intros q Hq. apply S5. lia. }
           subst z. congruence.
      * assert (Mi : mk cs i = false) by (apply S5; lia).
        apply (GoodOne ps i (ii, cm)); [exact Ep|cbn; rewrite <- Emk; exact Mi|].
        apply outside_of_prev. destruct Hprev as [E|[P0 [K NM]]].
        -- left. intros j Hj. destruct (Nat.eq_dec j i) as [->|]; [exact Mi|apply S5; lia].
        -- right. exists (Z.to_nat (d_mi d)). split; [lia|]. split; [exact K|]. split; [exact NM|].
           intros j Hj. destruct (Nat.eq_dec j i) as [->|]; [exact Mi|apply S5; lia].
    + (* no no-slot command in the batch: no MULTI / EXEC anywhere *)
      apply (GoodOne ps i (ii, cm)); [exact Ep|cbn; rewrite <- Emk; now apply Hni|].
      apply outside_of_prev. left. intros j _. now apply Hni.
Qed.

Lemma fold_inv_step i d : (i < length ps)%nat -> fold_inv i d -> fold_inv (S i) (dstep pol cc hasinit attempts fl ps resps d i).
Proof.
  intros Hi [Hacts Hss].
  destruct (nth_error ps i) as [[ii cm]|] eqn:Ep; [|apply nth_error_None in Ep; lia].
  destruct (nth_error resps i) as [r|] eqn:Er; [|apply nth_error_None in Er; lia].
  unfold dstep. rewrite Ep, Er. fold cs.
  assert (Hsame : fold_inv (S i) (mkDrs (d_mi d) (d_ei d) (d_acts d) (d_redirects d) (d_delay d) (d_results d ++ [(ii, r)]))).
  { split; cbn; [exact Hacts|now apply ss_step]. }
  destruct (classify r (rf_ctx fl) (rf_closed fl)) as [|a|a|] eqn:CL; [exact Hsame| | |].
  all: cbv zeta.
  all: match goal with |- fold_inv _ (if ?g then _ else _) => destruct g eqn:Gate; [exact Hsame|] end.
  all: assert (Hnm : is_multi cm = false) by
      (destruct (is_multi cm) eqn:M; [|reflexivity]; pose proof (Hgate i ii cm r Ep Er M) as G; rewrite CL in G;
       try contradiction; cbn in Gate; rewrite G in Gate; rewrite andb_false_r in Gate; cbn in Gate; discriminate).
  all: cbn [d_acts d_mi d_ei d_redirects d_delay d_results].
  (* [eq_refl] below checks by computation that [dscan] is the scan [dstep] performs *)
  all: destruct (dstep_scan_good i ii cm d Hi Ep Hnm Hss _ _ _ _ eq_refl) as [C1 [C2 C3]].
  all: apply fold_inv_outcomes; [exact Hacts|exact C1|exact C2|exact C3].
Qed.

Lemma doresultfn_good acts redirects delay results :
  Forall Qa acts ->
  Forall Qa (d_acts (doresultfn pol cc hasinit attempts fl ps resps acts redirects delay results)).
Proof.
  intro Ha. unfold doresultfn. rewrite Hlen.
  assert (G : forall n k d, (k + n = length ps)%nat -> fold_inv k d ->
              fold_inv (k + n) (fold_left (dstep pol cc hasinit attempts fl ps resps) (seq k n) d)).
  { induction n as [|n IH]; intros k d Hk Hj; cbn [seq fold_left]; [now rewrite Nat.add_0_r|].
    replace (k + S n)%nat with (S k + n)%nat by lia. apply IH; [lia|]. apply fold_inv_step; [lia|exact Hj]. }
  apply (G (length ps) 0%nat); [reflexivity|]. split; cbn; [exact Ha|left; lia].
Qed.

End ScanInv.

Section Inv.
Variable multi : list bcmd.

Definition idx_at (pl : list ipair) (j : nat) : option nat := option_map fst (nth_error pl j).

(** a MULTI…EXEC stretch of the list carries consecutive indices of the batch *)
Definition idt (pl : list ipair) : Prop :=
  forall z e iz, (z < e)%nat -> mu (map snd pl) z = true -> ex (map snd pl) e = true -> nomark (map snd pl) z e ->
    idx_at pl z = Some iz -> forall j, (z <= j <= e)%nat -> idx_at pl j = Some (iz + (j - z))%nat.

(** index k of the batch lies strictly inside a MULTI…EXEC block of the batch *)
Definition orig_inside (k : nat) : Prop :=
  exists lo hi, (lo < k < hi)%nat /\ mu multi lo = true /\ ex multi hi = true /\ nomark multi lo hi.

(** a plain command from inside a block of the batch is inside a block of the list *)
Definition mem (pl : list ipair) : Prop :=
  forall i p, nth_error pl i = Some p -> marker (snd p) = false -> orig_inside (fst p) ->
    exists z e, (z < i < e)%nat /\ mu (map snd pl) z = true /\ ex (map snd pl) e = true /\ nomark (map snd pl) z e.

Record txinv (pl : list ipair) : Prop := {
  tx_pairs : Forall (pair_ok multi) pl;
  tx_w1 : W1 (map snd pl);
  tx_w2 : W2 (map snd pl);
  tx_idt : idt pl;
  tx_mem : mem pl;
}.

Lemma txinv_nil : txinv [].
Proof.
  constructor; [constructor| | | |].
  - intros z H. unfold at_ in H. destruct z; discriminate.
  - intros z H. unfold at_ in H. destruct z; discriminate.
  - intros z e iz _ H. unfold at_ in H. destruct z; discriminate.
  - intros i p H. destruct i; discriminate.
Qed.

Lemma nth_error_firstn_out {A} (l : list A) : forall n j, (n <= j)%nat -> nth_error (firstn n l) j = None.
Proof. intros n j H. apply nth_error_None. rewrite firstn_length. lia. Qed.

Lemma nth_error_mid {A} (l : list A) mi n j : (j < n)%nat -> nth_error (firstn n (skipn mi l)) j = nth_error l (mi + j).
Proof. intro H. rewrite nth_error_firstn by exact H. apply nth_error_skipn. Qed.

Lemma at_mid f (ps : list ipair) mi n j :
  at_ f (map snd (firstn n (skipn mi ps))) j = if (j <? n)%nat then at_ f (map snd ps) (mi + j) else false.
Proof.
  unfold at_. rewrite !nth_error_map. destruct (Nat.ltb_spec j n).
  - now rewrite nth_error_mid.
  - now rewrite nth_error_firstn_out.
Qed.

Lemma good_txinv ps pl : txinv ps -> good ps pl -> txinv pl.
Proof.
  intros [P W1p W2p I M] G. destruct G as [i p Ep Mp Op|mi ei Hlt [Mmi [Eei Nme]]].
  - (* a single plain command from outside every block *)
    assert (Hc : forall f z, at_ f (map snd [p]) z = true -> z = 0%nat /\ f (snd p) = true).
    { intros f z H. unfold at_ in H. destruct z as [|z]; cbn in H; [auto|destruct z; discriminate]. }
    constructor.
    + constructor; [|constructor]. rewrite Forall_forall in P. apply P. eapply nth_error_In; eauto.
    + intros z H. destruct (Hc _ _ H) as [_ X]. unfold marker in Mp. rewrite X in Mp. discriminate.
    + intros z H. destruct (Hc _ _ H) as [_ X]. unfold marker in Mp. rewrite X, orb_true_r in Mp. discriminate.
    + intros z e iz _ H. destruct (Hc _ _ H) as [_ X]. unfold marker in Mp. rewrite X in Mp. discriminate.
    + intros j q Hq Mq Oq. destruct j as [|j]; [|destruct j; discriminate]. cbn in Hq. inversion Hq; subst q.
      exfalso. apply Op. destruct (M i p Ep Mp Oq) as [z [e H]]. exists z, e. exact H.
  - (* a whole block *)
    set (n := (ei - mi + 1)%nat).
    assert (Hat : forall f j, at_ f (map snd (firstn n (skipn mi ps))) j = if (j <? n)%nat then at_ f (map snd ps) (mi + j) else false)
      by (intros; apply at_mid).
    assert (Hmk : forall j, (j < n)%nat -> mk (map snd (firstn n (skipn mi ps))) j = true -> j = 0%nat \/ j = (ei - mi)%nat).
    { intros j Hj H. rewrite Hat in H. destruct (Nat.ltb_spec j n); [|lia].
      destruct (Nat.eq_dec j 0); [now left|]. destruct (Nat.eq_dec j (ei - mi)); [now right|].
      rewrite (Nme (mi + j)%nat) in H by lia. discriminate. }
    assert (Hmu0 : forall z, mu (map snd (firstn n (skipn mi ps))) z = true -> z = 0%nat).
    { intros z H. pose proof H as H'. rewrite Hat in H'. destruct (Nat.ltb_spec z n); [|discriminate].
      destruct (Hmk z ltac:(lia) (mu_mk _ _ H)) as [E0|E0]; [assumption|]. subst z.
      replace (mi + (ei - mi))%nat with ei in H' by lia. exfalso. exact (mu_ex_excl _ _ H' Eei). }
    assert (Hexn : forall e, ex (map snd (firstn n (skipn mi ps))) e = true -> e = (ei - mi)%nat).
    { intros e H. pose proof H as H'. rewrite Hat in H'. destruct (Nat.ltb_spec e n); [|discriminate].
      destruct (Hmk e ltac:(lia) (ex_mk _ _ H)) as [E0|E0]; [|assumption]. subst e.
      rewrite Nat.add_0_r in H'. exfalso. exact (mu_ex_excl _ _ Mmi H'). }
    assert (Hnm : nomark (map snd (firstn n (skipn mi ps))) 0 (ei - mi)).
    { intros j Hj. rewrite Hat. destruct (Nat.ltb_spec j n); [|reflexivity]. apply Nme. lia. }
    assert (Hmu : mu (map snd (firstn n (skipn mi ps))) 0 = true).
    { rewrite Hat. destruct (Nat.ltb_spec 0 n); [|unfold n in *; lia]. now rewrite Nat.add_0_r. }
    assert (Hex : ex (map snd (firstn n (skipn mi ps))) (ei - mi) = true).
    { rewrite Hat. destruct (Nat.ltb_spec (ei - mi) n); [|unfold n in *; lia]. replace (mi + (ei - mi))%nat with ei by lia. exact Eei. }
    constructor.
    + apply Forall_forall. intros q Hq. apply In_firstn in Hq. apply In_skipn in Hq. rewrite Forall_forall in P. auto.
    + intros z H. rewrite (Hmu0 z H). exists (ei - mi)%nat. split; [lia|]. split; [exact Hex|exact Hnm].
    + intros e H. rewrite (Hexn e H). exists 0%nat. split; [lia|]. split; [exact Hmu|exact Hnm].
    + intros z e iz Hze Hz He _ Hiz j Hj. rewrite (Hmu0 z Hz) in *. rewrite (Hexn e He) in *.
      unfold idx_at in *. rewrite nth_error_mid in Hiz by (unfold n; lia). rewrite nth_error_mid by (unfold n; lia).
      rewrite Nat.add_0_r in Hiz. rewrite Nat.sub_0_r.
      pose proof (I mi ei iz Hlt Mmi Eei Nme Hiz (mi + j)%nat ltac:(lia)) as X. unfold idx_at in X.
      rewrite X. f_equal. lia.
    + intros j q Hq Mq _. assert (Hj : (j < n)%nat).
      { destruct (Nat.ltb_spec j n); [assumption|]. rewrite nth_error_firstn_out in Hq by assumption. discriminate. }
      assert (Kj : mk (map snd (firstn n (skipn mi ps))) j = false).
      { unfold at_. rewrite nth_error_map, Hq. cbn. exact Mq. }
      exists 0%nat, (ei - mi)%nat. split.
      * destruct (Nat.eq_dec j 0) as [->|]; [rewrite (mu_mk _ _ Hmu) in Kj; discriminate|].
        destruct (Nat.eq_dec j (ei - mi)) as [->|]; [rewrite (ex_mk _ _ Hex) in Kj; discriminate|]. unfold n in Hj. lia.
      * split; [exact Hmu|]. split; [exact Hex|exact Hnm].
Qed.

Lemma nomark_app_l l1 l2 a b : (b <= length l1)%nat -> nomark (l1 ++ l2) a b <-> nomark l1 a b.
Proof.
  intro H. split; intros N j Hj; specialize (N j Hj); [rewrite at_app_l in N by lia|rewrite at_app_l by lia]; exact N.
Qed.

Lemma nomark_app_r c1 c2 a b : nomark (c1 ++ c2) (length c1 + a) (length c1 + b) <-> nomark c2 a b.
Proof.
  split; intros N j Hj.
  - specialize (N (length c1 + j)%nat ltac:(lia)). now rewrite at_app_r in N.
  - replace j with (length c1 + (j - length c1))%nat by lia. rewrite at_app_r. apply N. lia.
Qed.

Lemma blk_app_l c1 c2 z e : (z < e < length c1)%nat -> blk (c1 ++ c2) z e <-> blk c1 z e.
Proof. intro H. unfold blk. rewrite !at_app_l by lia. now rewrite nomark_app_l by lia. Qed.

Lemma blk_app_r c1 c2 z e : blk (c1 ++ c2) (length c1 + z) (length c1 + e) <-> blk c2 z e.
Proof. unfold blk. now rewrite !at_app_r, nomark_app_r. Qed.

(** a stretch of the concatenation that starts in the first list ends there: its MULTI is closed inside the list *)
Lemma blk_ends_left c1 c2 z e : W1 c1 -> (z < length c1)%nat -> (z < e)%nat -> blk (c1 ++ c2) z e -> (e < length c1)%nat.
Proof.
  intros A Hz Hze [Mz [Ee Nze]]. rewrite at_app_l in Mz by exact Hz. destruct (A z Mz) as [e1 [H1 [E1 N1]]].
  pose proof (at_lt _ _ _ E1) as L1. destruct (le_lt_dec e e1); [lia|]. exfalso.
  pose proof (ex_mk _ _ E1) as K. rewrite <- (at_app_l marker c1 c2 e1 L1) in K. rewrite (Nze e1) in K by lia. discriminate.
Qed.

(** lists that satisfy the invariant can be concatenated: a stretch never straddles the seam *)
Lemma txinv_app l1 l2 : txinv l1 -> txinv l2 -> txinv (l1 ++ l2).
Proof.
  intros [P1 A1 B1 I1 M1] [P2 A2 B2 I2 M2].
  assert (Lm : length (map snd l1) = length l1) by apply map_length.
  (* a position lies in l1, or is a shifted position of l2 *)
  assert (Split : forall z, (z < length l1)%nat \/ exists z', z = (length l1 + z')%nat)
    by (intro z; destruct (le_lt_dec (length l1) z); [right; exists (z - length l1)%nat; lia|now left]).
  constructor; rewrite ?map_app.
  - apply Forall_app. auto.
  - intros z Mz. destruct (Split z) as [Hz|[z' ->]]; rewrite <- Lm in *.
    + rewrite at_app_l in Mz by exact Hz. destruct (A1 _ Mz) as [e [H1 [E N]]]. pose proof (at_lt _ _ _ E).
      exists e. split; [exact H1|]. exact (proj2 (proj2 (blk_app_l (map snd l1) (map snd l2) z e ltac:(lia)) (conj Mz (conj E N)))).
    + rewrite at_app_r in Mz.
      destruct (A2 _ Mz) as [e [H1 [E N]]]. exists (length (map snd l1) + e)%nat. split; [lia|].
      exact (proj2 (proj2 (blk_app_r (map snd l1) (map snd l2) z' e) (conj Mz (conj E N)))).
  - intros e Ee. destruct (Split e) as [He|[e' ->]]; rewrite <- Lm in *.
    + rewrite at_app_l in Ee by exact He. destruct (B1 _ Ee) as [z [H1 [M N]]].
      exists z. split; [exact H1|]. destruct (proj2 (blk_app_l (map snd l1) (map snd l2) z e ltac:(lia)) (conj M (conj Ee N))) as [X [_ Y]]. auto.
    + rewrite at_app_r in Ee.
      destruct (B2 _ Ee) as [z [H1 [M N]]]. exists (length (map snd l1) + z)%nat. split; [lia|].
      destruct (proj2 (blk_app_r (map snd l1) (map snd l2) z e') (conj M (conj Ee N))) as [X [_ Y]]. auto.
  - intros z e iz Hze Mz Ee Nze Hiz j Hj. rewrite map_app in Mz, Ee, Nze. unfold idx_at in *. destruct (Split z) as [Hz|[z' ->]].
    + assert (He : (e < length l1)%nat) by (rewrite <- Lm in *; exact (blk_ends_left _ _ z e A1 Hz Hze (conj Mz (conj Ee Nze)))).
      destruct (proj1 (blk_app_l (map snd l1) (map snd l2) z e ltac:(lia)) (conj Mz (conj Ee Nze))) as [M1' [E1' N1']].
      rewrite nth_error_app1 in Hiz |- * by lia. exact (I1 z e iz Hze M1' E1' N1' Hiz j Hj).
    + replace e with (length l1 + (e - length l1))%nat in * by lia. replace j with (length l1 + (j - length l1))%nat by lia.
      rewrite <- Lm in Mz, Ee, Nze. destruct (proj1 (blk_app_r (map snd l1) (map snd l2) z' (e - length (map snd l1))%nat) (conj Mz (conj Ee Nze))) as [M2' [E2' N2']].
      rewrite Lm in E2', N2'.
      rewrite nth_error_app2 in Hiz |- * by lia.
      replace (length l1 + z' - length l1)%nat with z' in Hiz by lia.
      replace (length l1 + (j - length l1) - length l1)%nat with (j - length l1)%nat by lia.
      pose proof (I2 z' (e - length l1)%nat iz ltac:(lia) M2' E2' N2' Hiz (j - length l1)%nat ltac:(lia)) as X.
      unfold idx_at in X. rewrite X. f_equal. lia.
  - intros i p Hp Mp Op. rewrite map_app. destruct (Split i) as [Hi|[i' ->]].
    + rewrite nth_error_app1 in Hp by exact Hi. destruct (M1 _ _ Hp Mp Op) as [z [e [Hze B]]].
      pose proof (at_lt _ _ _ (proj1 (proj2 B))). exists z, e. split; [exact Hze|]. apply (blk_app_l (map snd l1) (map snd l2) z e); [lia|exact B].
    + rewrite nth_error_app2 in Hp by lia. replace (length l1 + i' - length l1)%nat with i' in Hp by lia.
      destruct (M2 _ _ Hp Mp Op) as [z [e [Hze B]]]. rewrite <- Lm.
      exists (length (map snd l1) + z)%nat, (length (map snd l1) + e)%nat. split; [lia|]. apply blk_app_r. exact B.
Qed.
End Inv.

Section TxRounds.
Variable multi : list bcmd.
Variable srv : servers.
Variable hasinit : bool.

(** without no-slot commands there is no MULTI / EXEC in the batch (they carry no key) *)
Hypothesis Hnoinit : hasinit = false -> forall c, In c multi -> marker c = false.
(** MULTI carries no key: it is not retryable and no node answers it with MOVED / ASK *)
Hypothesis Hmulti : forall c a k, is_multi c = true ->
  b_retryable c = false /\ (forall x, srv c a k <> RMoved x) /\ (forall x, srv c a k <> RAsk x).

(** asking_wire only decorates: the commands on the wire are the list itself *)
Fixpoint strip (w : list (option ipair)) : list ipair :=
  match w with [] => [] | None :: r => strip r | Some p :: r => p :: strip r end.
Lemma strip_asking ps : forall b, strip (asking_wire ps b) = ps.
Proof. induction ps as [|p r IH]; intro b; cbn [asking_wire]; [reflexivity|]. destruct b; cbn [strip]; now rewrite IH. Qed.
Lemma strip_map_some ps : strip (map Some ps) = ps.
Proof. induction ps as [|p r IH]; cbn; [reflexivity|now rewrite IH]. Qed.

(** ASKING is sent once per plain command and once per transaction block, never inside a block *)
Lemma asking_wire_body : forall body e r,
  Forall (fun p => marker (snd p) = false) body -> is_exec (snd e) = true ->
  asking_wire (body ++ e :: r) true = map Some body ++ Some e :: asking_wire r false.
Proof.
  induction body as [|p b IH]; intros e r F E; cbn [app asking_wire map].
  - now rewrite E.
  - inversion F as [|? ? Hp Hb]; subst. unfold marker in Hp. apply orb_false_iff in Hp. destruct Hp as [_ Hx].
    rewrite Hx. cbn [negb]. now rewrite IH.
Qed.

Definition acts_tx (acts : list action) : Prop := Forall (fun a => txinv multi (a_ps a)) acts.
Definition wsend_tx (w : wsend) : Prop := txinv multi (strip (w_wire w)).

Lemma pass_tx pol attempts fl a asking st ps :
  txinv multi ps -> acts_tx (r_acts st) /\ Forall wsend_tx (r_sends st) ->
  acts_tx (r_acts (pass pol srv hasinit attempts fl a asking st ps)) /\
  Forall wsend_tx (r_sends (pass pol srv hasinit attempts fl a asking st ps)).
Proof.
  intros T [Ha Hs]. unfold pass. destruct ps as [|p0 ps0]; [auto|]. set (ps := p0 :: ps0) in *.
  destruct (exchange_on srv a (r_cnt st) ps) as [rs cn] eqn:E. destruct (exchange_on_spec srv a _ _ _ _ E) as [L S].
  cbn [r_acts r_sends]. split.
  - apply (doresultfn_good pol a hasinit attempts fl ps rs (tx_w1 _ _ T) (tx_w2 _ _ T) L); [| | |exact Ha].
    + intros Hn j. unfold at_. rewrite nth_error_map. destruct (nth_error ps j) as [p|] eqn:Ep; [|reflexivity]. cbn.
      apply (Hnoinit Hn). pose proof (tx_pairs _ _ T) as P. rewrite Forall_forall in P.
      exact (nth_error_In _ _ (P p (nth_error_In _ _ Ep))).
    + intros i ii cm r Ep Er M. destruct (S i _ _ Ep Er) as [k ->]. cbn [snd].
      destruct (Hmulti cm a k M) as [R [NM NA]].
      pose proof (classify_redirect (srv cm a k) (rf_ctx fl) (rf_closed fl)) as CL.
      destruct (classify _ _ _); auto; [exact (NM _ CL)|exact (NA _ CL)].
    + intros nc ask pl G. exact (good_txinv multi ps pl T G).
  - apply Forall_app. split; [exact Hs|]. constructor; [|constructor]. unfold wsend_tx. cbn [w_wire].
    destruct asking; cbv iota; [now rewrite strip_asking|now rewrite strip_map_some].
Qed.

Lemma rounds_tx (c : bcfg) :
  (forall k l, Permutation (bc_perm c k l) l) ->
  forall fuel k m attempts redirects asg cn sends asg' sends' out,
  rmap_all (txinv multi) m -> Forall (fun kw => wsend_tx (snd kw)) sends ->
  rounds fuel c srv hasinit k m attempts redirects asg cn sends = (asg', sends', out) ->
  Forall (fun kw => wsend_tx (snd kw)) sends'.
Proof.
  intros Hperm fuel k m attempts redirects asg cn sends asg' sends' out Hm Hs.
  apply (rounds_rule c srv hasinit (fun _ m _ _ _ sends => rmap_all (txinv multi) m /\ Forall (fun kw => wsend_tx (snd kw)) sends)
                     (fun _ sends => Forall (fun kw => wsend_tx (snd kw)) sends)); [tauto| |auto].
  clear - Hperm Hnoinit Hmulti. intros k m a rd asg cn sends [Hm Hs].
  destruct (round_inv (bc_policy c) srv hasinit a (bc_flags c k) (txinv multi)
              (fun st => acts_tx (r_acts st) /\ Forall wsend_tx (r_sends st))
              (fun a0 asking st ps => pass_tx _ _ _ a0 asking st ps) m (mkRstate [] 0 (-1) asg cn []) Hm)
    as [Hacts Hsends]; [split; constructor|]. fold (round_st c srv hasinit k m a asg cn) in Hacts, Hsends.
  assert (rmap_all (txinv multi) (apply_actions (bc_perm c k (r_acts (round_st c srv hasinit k m a asg cn))))).
  { apply (apply_actions_all (txinv multi)) with (3 := Hperm _ _) (4 := Hacts); [apply txinv_nil|apply txinv_app]. }
  assert (Forall (fun kw => wsend_tx (snd kw)) (sends ++ map (fun w => (k, w)) (r_sends (round_st c srv hasinit k m a asg cn)))).
  { apply Forall_app. split; [exact Hs|]. now rewrite Forall_map. }
  cbv zeta. auto.
Qed.
End TxRounds.

Section Top.
Variable multi : list bcmd.

Definition idpairs_from (k : nat) (cs : list bcmd) : list ipair := combine (seq k (length cs)) cs.

Lemma idpairs_nth k cs j c : nth_error cs j = Some c -> nth_error (idpairs_from k cs) j = Some ((k + j)%nat, c).
Proof.
  revert k j. induction cs as [|x r IH]; intros k j H; [destruct j; discriminate|].
  unfold idpairs_from. cbn [length seq combine]. destruct j as [|j]; cbn in H |- *.
  - inversion H; subst. now rewrite Nat.add_0_r.
  - fold (idpairs_from (S k) r). rewrite (IH (S k) j H). f_equal. f_equal. lia.
Qed.

Lemma idpairs_snd k cs : map snd (idpairs_from k cs) = cs.
Proof.
  revert k. induction cs as [|x r IH]; intro k; [reflexivity|]. unfold idpairs_from. cbn [length seq combine map snd].
  f_equal. apply (IH (S k)).
Qed.

Lemma idpairs_length k cs : length (idpairs_from k cs) = length cs.
Proof. unfold idpairs_from. rewrite combine_length, seq_length. lia. Qed.

Lemma txinv_identity : W1 multi -> W2 multi -> txinv multi (idpairs_from 0 multi).
Proof.
  intros A B.
  assert (Hn : forall j p, nth_error (idpairs_from 0 multi) j = Some p -> fst p = j /\ nth_error multi j = Some (snd p)).
  { intros j p H. destruct (nth_error multi j) as [c|] eqn:E.
    - rewrite (idpairs_nth 0 multi j c E) in H. inversion H; subst. cbn. auto.
    - apply nth_error_None in E. assert (nth_error (idpairs_from 0 multi) j = None) by (apply nth_error_None; rewrite idpairs_length; lia). congruence. }
  constructor.
  - apply Forall_forall. intros p Hp. apply In_nth_error in Hp. destruct Hp as [j Hj]. destruct (Hn j p Hj) as [E1 E2].
    unfold pair_ok. now rewrite E1.
  - now rewrite idpairs_snd.
  - now rewrite idpairs_snd.
  - intros z e iz Hze _ Ee _ Hiz j Hj. unfold idx_at in *.
    rewrite idpairs_snd in Ee. pose proof (at_lt _ _ _ Ee) as Le.
    destruct (nth_error multi j) as [c|] eqn:Ej; [|apply nth_error_None in Ej; lia].
    rewrite (idpairs_nth 0 multi j c Ej). cbn.
    destruct (nth_error multi z) as [cz|] eqn:Ez; [|apply nth_error_None in Ez; lia].
    rewrite (idpairs_nth 0 multi z cz Ez) in Hiz. cbn in Hiz. inversion Hiz; subst. f_equal. lia.
  - intros i p Hp Mp [lo [hi [Hl [Ml [Eh N]]]]]. destruct (Hn i p Hp) as [E1 _]. rewrite E1 in Hl.
    exists lo, hi. rewrite idpairs_snd. auto.
Qed.

(** lists without any MULTI / EXEC satisfy the invariant trivially *)
Lemma txinv_plain pl : (forall c, In c multi -> marker c = false) -> Forall (pair_ok multi) pl -> txinv multi pl.
Proof.
  intros Hno P.
  assert (Hm : forall j, mk (map snd pl) j = false).
  { intro j. unfold at_. rewrite nth_error_map. destruct (nth_error pl j) as [p|] eqn:E; [|reflexivity]. cbn.
    apply Hno. rewrite Forall_forall in P. specialize (P p (nth_error_In _ _ E)). eapply nth_error_In. exact P. }
  constructor; [exact P| | | |].
  - intros z H. pose proof (mu_mk _ _ H) as X. rewrite Hm in X. discriminate.
  - intros z H. pose proof (ex_mk _ _ H) as X. rewrite Hm in X. discriminate.
  - intros z e iz _ H. pose proof (mu_mk _ _ H) as X. rewrite Hm in X. discriminate.
  - intros i p _ _ [lo [hi [_ [Ml _]]]]. exfalso. unfold at_ in Ml. destruct (nth_error multi lo) as [c|] eqn:E; [|discriminate].
    pose proof (Hno c (nth_error_In _ _ E)) as X. unfold marker in X. rewrite Ml in X. discriminate.
Qed.

(** with a no-slot command in the batch everything goes to one connection, in order: the map is empty or one group *)
Definition one_group (d : addr) (ps : list ipair) : rmap := match ps with [] => [] | _ => [(d, mkRg ps [])] end.

Lemma pick_multi_plain_one t d : forall cs k acc_ps,
  (forall c s, In c cs -> b_slot c = Some s -> tb_w t s = Some d) ->
  pick_multi_plain t (Some d) k cs (one_group d acc_ps) = Some (one_group d (acc_ps ++ idpairs_from k cs)).
Proof.
  induction cs as [|c r IH]; intros k acc_ps H; cbn [pick_multi_plain].
  - unfold idpairs_from. cbn. now rewrite app_nil_r.
  - assert (Hd : match b_slot c with Some s => tb_w t s | None => Some d end = Some d).
    { destruct (b_slot c) as [s|] eqn:E; [apply (H c s); [now left|exact E]|reflexivity]. }
    rewrite Hd.
    assert (Ha : rmap_add d false [(k, c)] (one_group d acc_ps) = one_group d (acc_ps ++ [(k, c)])).
    { destruct acc_ps; cbn; [reflexivity|now rewrite addr_eqb_refl]. }
    rewrite Ha, IH by (intros c0 s0 Hin; apply H; now right).
    unfold idpairs_from. cbn [length seq combine]. now rewrite <- app_assoc.
Qed.

(** a scan that passes has seen one slot only: the one it ends with *)
Lemma scan_plain_slots t : forall cs last last',
  scan_plain t true cs last = ScanOk last' ->
  (forall x, last = Some x -> last' = Some x) /\ forall c s, In c cs -> b_slot c = Some s -> last' = Some s.
Proof.
  induction cs as [|c r IH]; intros last last' H; cbn [scan_plain] in H.
  - injection H as <-. split; [auto|intros c s []].
  - destruct (b_slot c) as [s|] eqn:Es.
    + destruct last as [l0|]; cbn [andb] in H.
      * destruct (Z.eqb_spec l0 s) as [->|Ne]; cbn [negb] in H; [|discriminate]. destruct (tb_w t s); [|discriminate].
        destruct (IH _ _ H) as [A B]. pose proof (A s eq_refl) as E. split; [intros x [= <-]; exact E|].
        intros c0 s0 [<-|Hin] E0; [congruence|eauto].
      * destruct (tb_w t s); [|discriminate]. destruct (IH _ _ H) as [A B]. pose proof (A s eq_refl) as E.
        split; [discriminate|]. intros c0 s0 [<-|Hin] E0; [congruence|eauto].
    + destruct (IH _ _ H) as [A B]. split; [exact A|]. intros c0 s0 [<-|Hin] E0; [congruence|eauto].
Qed.

Lemma pick_multi_init t str nsel fc m :
  pick_multi t str nsel fc multi = PickOk m true ->
  exists d, m = [(d, mkRg (idpairs_from 0 multi) [])] \/ (multi = [] /\ m = []).
Proof.
  intro H. pose proof (pick_multi_init_flag _ _ _ _ _ _ _ H) as Hi. revert H. unfold pick_multi. rewrite <- Hi. cbn [negb andb].
  destruct (scan_plain t true multi None) as [last| |] eqn:Es; try discriminate.
  destruct (match last with Some l => tb_w t l | None => fc end) as [d|] eqn:Ed; [|discriminate].
  assert (Hall : forall c s, In c multi -> b_slot c = Some s -> tb_w t s = Some d).
  { intros c s Hin E. rewrite (proj2 (scan_plain_slots t multi None last Es) c s Hin E) in Ed. exact Ed. }
  intro H. exists d. destruct (pick_multi_plain t (Some d) 0 multi []) as [m0|] eqn:E0; [|discriminate].
  injection H as <-. pose proof (pick_multi_plain_one t d multi 0%nat [] Hall) as E1. cbn [one_group app] in E1.
  rewrite E1 in E0. injection E0 as <-. destruct multi; [right|left]; auto.
Qed.

(** the map of the first round satisfies the invariant: one list in batch order when a command has no key slot,
    else lists without any MULTI / EXEC (they carry no key) *)
Lemma pick_multi_txinv t str nsel fc m init :
  W1 multi -> W2 multi -> (forall cm, In cm multi -> marker cm = true -> b_slot cm = None) ->
  pick_multi t str nsel fc multi = PickOk m init ->
  (init = false -> forall cm, In cm multi -> marker cm = false) /\ rmap_all (txinv multi) m.
Proof.
  intros A B Hslot Hp.
  assert (Hno : init = false -> forall cm, In cm multi -> marker cm = false).
  { rewrite (pick_multi_init_flag _ _ _ _ _ _ _ Hp). intros Ei cm Hc. destruct (marker cm) eqn:M; [|reflexivity].
    unfold has_init in Ei. rewrite <- Ei. symmetry. apply existsb_exists. exists cm. now rewrite (Hslot cm Hc M). }
  split; [exact Hno|]. destruct init.
  - destruct (pick_multi_init t str nsel fc m Hp) as [d [->|[_ ->]]]; [|constructor].
    constructor; [|constructor]. split; cbn; [now apply txinv_identity|apply txinv_nil].
  - destruct (pick_multi_spec multi t str nsel fc m false Hp) as [Hok _]. unfold rmap_ok in Hok.
    apply Forall_forall. intros ag Hag. rewrite Forall_forall in Hok. destruct (Hok ag Hag). split; apply txinv_plain; auto.
Qed.
End Top.
