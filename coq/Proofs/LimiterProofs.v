(** Model/Limiter.v (C38).  [Jinv]: what the trace of one identifier's calls leaves in its two keys; [script_spec] /
    [step_spec]: one call keeps it; [lrun_spec], [admitted_bound]: histories; [run_proj]: one identifier at a time. *)
From Coq Require Import List NArith ZArith Bool Lia ZifyBool.
Require Import RV.Model.Base RV.Model.Limiter.
Import ListNotations.
Open Scope Z_scope.

Lemma requested_app : forall a b R, requested (a ++ b) R = requested a R + requested b R.
Proof.
  induction a as [|[c o] t IH]; intros b R; cbn [app requested]; [lia|].
  destruct o as [r| |]; rewrite IH; lia.
Qed.

Lemma admitted_app : forall a b R, admitted (a ++ b) R = admitted a R + admitted b R.
Proof.
  induction a as [|[c o] t IH]; intros b R; cbn [app admitted]; [lia|].
  destruct o as [r| |]; rewrite IH; lia.
Qed.

(** every successful call of the trace has a ResetAtMs of at most [R] *)
Definition bounded_by (tr : list (lcall * result lres)) (R : Z) : Prop :=
  forall c r, In (c, Ok r) tr -> reset r <= R.

(** every successful call of the trace has a non-negative n (a negative one is refused before the script runs) *)
Definition nonneg_n (tr : list (lcall * result lres)) : Prop :=
  forall c r, In (c, Ok r) tr -> 0 <= n c.

Lemma requested_beyond : forall tr R R', bounded_by tr R -> R < R' -> requested tr R' = 0.
Proof.
  induction tr as [|[c o] t IH]; intros R R' Hb Hlt; cbn [requested]; [reflexivity|].
  assert (Ht : bounded_by t R) by (intros c' r' Hin; apply (Hb c' r'); right; exact Hin).
  destruct o as [r| |]; try (apply (IH R R' Ht Hlt)).
  assert (reset r <= R) by (apply (Hb c r); left; reflexivity).
  assert (reset r =? R' = false) as -> by lia. rewrite (IH R R' Ht Hlt). lia.
Qed.

Lemma admitted_le_requested : forall tr R, nonneg_n tr -> admitted tr R <= requested tr R.
Proof.
  induction tr as [|[c o] t IH]; intros R Hn; cbn [admitted requested]; [lia|].
  assert (Ht : nonneg_n t) by (intros c' r' Hin; apply (Hn c' r'); right; exact Hin).
  specialize (IH R Ht). destruct o as [r| |]; try exact IH.
  assert (0 <= n c) by (apply (Hn c r); left; reflexivity).
  destruct (reset r =? R); cbn [andb]; [|lia].
  destruct (allowed r && (0 <? n c)); lia.
Qed.

Lemma admitted_nonneg : forall tr R, nonneg_n tr -> 0 <= admitted tr R.
Proof.
  induction tr as [|[c o] t IH]; intros R Hn; cbn [admitted]; [lia|].
  assert (Ht : nonneg_n t) by (intros c' r' Hin; apply (Hn c' r'); right; exact Hin).
  specialize (IH R Ht). destruct o as [r| |]; try exact IH.
  assert (0 <= n c) by (apply (Hn c r); left; reflexivity).
  destruct ((reset r =? R) && allowed r && (0 <? n c)); lia.
Qed.

Lemma in_snoc_ok : forall (tr : list (lcall * result lres)) c o c' r',
  In (c', Ok r') (tr ++ [(c, o)]) -> In (c', Ok r') tr \/ (c' = c /\ o = Ok r').
Proof.
  intros tr c o c' r' H. apply in_app_or in H.
  destruct H as [H|[H|[]]]; [left; exact H|right; inversion H; auto].
Qed.

Lemma requested_snoc : forall tr c r R,
  requested (tr ++ [(c, Ok r)]) R = requested tr R + (if reset r =? R then n c else 0).
Proof. intros. rewrite requested_app. cbn [requested]. lia. Qed.

(** both keys exist with the same expiry (1000 ms past the window's end [R]), the counter [v] holds everything
    requested in window [R], and no call was counted in a later window *)
Definition in_window (s : lstate) (tr : list (lcall * result lres)) (v R : Z) : Prop :=
  cnt s = Some (v, Some (R + 1000)) /\ ex s = Some (R, Some (R + 1000)) /\ v = requested tr R /\ bounded_by tr R.

(** the state [s] is what the trace [tr] of one identifier leaves: no key and no successful call, or one window [R]
    whose counter is the sum requested in [R] *)
Definition Jinv (s : lstate) (tr : list (lcall * result lres)) : Prop :=
  nonneg_n tr /\
  ((cnt s = None /\ ex s = None /\ forall c r, ~ In (c, Ok r) tr) \/ exists v R, in_window s tr v R).

Lemma Jinv_empty : Jinv lempty [].
Proof. split; [intros c r []|]. left. repeat split. intros c r []. Qed.

Lemma Jinv_snoc_err : forall s tr c e, Jinv s tr -> Jinv s (tr ++ [(c, Err e)]).
Proof.
  intros s tr c e [Hnn HJ].
  assert (Hin : forall c' r', In (c', Ok r') (tr ++ [(c, Err e)]) -> In (c', Ok r') tr).
  { intros c' r' H. apply in_snoc_ok in H. destruct H as [H|[_ H]]; [exact H|discriminate H]. }
  split; [intros c' r' H; exact (Hnn c' r' (Hin c' r' H))|].
  destruct HJ as [(Hc & He & Hno)|(v & R & Hc & He & Hv & Hb)]; [left|right; exists v, R]; repeat split; try assumption.
  - intros c' r' H. exact (Hno c' r' (Hin c' r' H)).
  - rewrite requested_app. cbn [requested]. lia.
  - intros c' r' H. exact (Hb c' r' (Hin c' r' H)).
Qed.

Lemma script_fresh : forall s inc next nowc nows,
  (live (ex s) nows = None \/ exists e p, live (ex s) nows = Some (e, p) /\ e < nowc) ->
  nows < next + 1000 ->
  script s inc next nowc nows =
  ({| cnt := Some (inc, Some (next + 1000)); ex := Some (next, Some (next + 1000)) |}, (inc, next)).
Proof.
  intros s inc next nowc nows H Hlt. unfold script.
  assert (Hf : (match (match live (ex s) nows with Some (v, _) => Some v | None => None end) with
                | None => true | Some e => e <? nowc end) = true).
  { destruct H as [->|[e [p [-> He]]]]; [reflexivity|lia]. }
  rewrite Hf. cbn [cnt ex]. unfold incrby. cbn [live].
  assert (nows <? next + 1000 = true) as -> by lia. cbn [Z.add]. reflexivity.
Qed.

Lemma script_same : forall s inc next nowc nows e p,
  live (ex s) nows = Some (e, p) -> nowc <= e ->
  script s inc next nowc nows =
  ({| cnt := fst (incrby (cnt s) nows inc); ex := ex s |}, (snd (incrby (cnt s) nows inc), e)).
Proof.
  intros s inc next nowc nows e p He Hle. unfold script. rewrite He.
  assert (e <? nowc = false) as -> by lia. destruct (incrby (cnt s) nows inc). reflexivity.
Qed.

Lemma in_window_snoc : forall s' tr c r v R,
  cnt s' = Some (v + n c, Some (R + 1000)) -> ex s' = Some (R, Some (R + 1000)) ->
  v = requested tr R -> bounded_by tr R -> reset r = R ->
  in_window s' (tr ++ [(c, Ok r)]) (v + n c) R.
Proof.
  intros s' tr c r v R Hc He Hv Hb Hr. split; [exact Hc|]. split; [exact He|]. split.
  - rewrite requested_snoc, Hr, Z.eqb_refl, Hv. reflexivity.
  - intros c' r' Hin. apply in_snoc_ok in Hin. destruct Hin as [Hin|[_ [= <-]]]; [exact (Hb c' r' Hin)|lia].
Qed.

(** the script leaves the state in the window [e] it reports, and [cur] is everything requested in it, this call
    included ([r]: the result the caller builds, with ResetAtMs = [e]) *)
Lemma script_spec : forall s tr c r, Jinv s tr -> good c ->
  let '(s', (cur, e)) := script s (n c) (now_c c + window c) (now_c c) (now_s c) in
  reset r = e -> in_window s' (tr ++ [(c, Ok r)]) cur e.
Proof.
  intros s tr c r [Hnn HJ] [Hw Hskew]. set (next := now_c c + window c).
  (* a new window: every earlier call was counted in a window that ended before [next] *)
  assert (Hfresh : forall R, bounded_by tr R -> R < next ->
            (live (ex s) (now_s c) = None \/ exists e p, live (ex s) (now_s c) = Some (e, p) /\ e < now_c c) ->
            let '(s', (cur, e)) := script s (n c) next (now_c c) (now_s c) in
            reset r = e -> in_window s' (tr ++ [(c, Ok r)]) cur e).
  { intros R Hb Hlt Hcase. rewrite (script_fresh s _ _ _ _ Hcase) by (unfold next; lia). intros Hr.
    apply (in_window_snoc _ tr c r 0 next); try reflexivity; [|intros c' r' Hin; specialize (Hb c' r' Hin); lia|exact Hr].
    symmetry. exact (requested_beyond tr R next Hb Hlt). }
  destruct HJ as [(Hc & He & Hno)|(v & R & Hc & He & Hv & Hb)].
  - apply (Hfresh (next - 1)); [intros c' r' Hin; destruct (Hno c' r' Hin)|lia|left; rewrite He; reflexivity].
  - destruct (now_s c <? R + 1000) eqn:Ealive.
    + assert (H1 : live (ex s) (now_s c) = Some (R, Some (R + 1000))) by (rewrite He; cbn [live]; rewrite Ealive; reflexivity).
      destruct (R <? now_c c) eqn:Eold.
      * (* the window is over by the caller's clock *)
        apply (Hfresh R Hb); [unfold next; lia|right; exists R, (Some (R + 1000)); split; [exact H1|lia]].
      * (* same window *)
        assert (H3 : live (cnt s) (now_s c) = Some (v, Some (R + 1000))) by (rewrite Hc; cbn [live]; rewrite Ealive; reflexivity).
        rewrite (script_same s (n c) next (now_c c) (now_s c) R _ H1) by lia. unfold incrby. rewrite H3.
        intros Hr. apply in_window_snoc; [reflexivity|exact He|exact Hv|exact Hb|exact Hr].
    + (* both keys expired on the server: by the clock hypothesis the window is over for the caller too *)
      apply (Hfresh R Hb); [unfold next; lia|left; rewrite He; cbn [live]; rewrite Ealive; reflexivity].
Qed.

Lemma step_spec : forall s tr c, Jinv s tr -> good c ->
  let '(s', o) := allow_n s c in
  Jinv s' (tr ++ [(c, o)]) /\
  match o with
  | Ok r =>
    in_window s' (tr ++ [(c, o)]) (current r) (reset r) /\
    remaining r = Z.max (limit c - current r) 0 /\
    allowed r = ((current r <=? limit c) && ((0 <? n c) || (current r <? limit c)))
  | Err _ => True
  | Panic => False
  end.
Proof.
  intros s tr c HJ Hg. unfold allow_n. destruct (n c <? 0) eqn:En.
  - split; [apply Jinv_snoc_err, HJ|exact I].
  - set (r := fun cur e => {| allowed := (cur <=? limit c) && ((0 <? n c) || (cur <? limit c));
                               remaining := Z.max (limit c - cur) 0; reset := e; current := cur |}).
    pose proof (fun cur e => script_spec s tr c (r cur e) HJ Hg) as Hs.
    destruct (script s (n c) (now_c c + window c) (now_c c) (now_s c)) as [s' [cur e]].
    specialize (Hs cur e eq_refl). fold (r cur e). split; [|split; [exact Hs|split; reflexivity]].
    split; [|right; exists cur, e; exact Hs].
    intros c' r' Hin. apply in_snoc_ok in Hin. destruct Hin as [Hin|[-> _]]; [exact (proj1 HJ c' r' Hin)|lia].
Qed.

(** every position of the final trace satisfies the per-call statement, for the trace up to that position *)
Definition call_ok (pre : list (lcall * result lres)) (c : lcall) (o : result lres) : Prop :=
  match o with
  | Ok r =>
    remaining r = Z.max (limit c - requested (pre ++ [(c, o)]) (reset r)) 0 /\
    current r = requested (pre ++ [(c, o)]) (reset r) /\
    (allowed r = true -> 0 < n c -> admitted (pre ++ [(c, o)]) (reset r) <= limit c) /\
    (forall c' r', In (c', Ok r') pre -> reset r' <= reset r)
  | _ => True
  end.

Lemma lrun_spec : forall calls s tr, Jinv s tr -> Forall good calls ->
  let '(s', tr') := lrun s tr calls in
  Jinv s' tr' /\ exists suffix, tr' = tr ++ suffix /\
    forall pre c o post, suffix = pre ++ (c, o) :: post -> call_ok (tr ++ pre) c o.
Proof.
  induction calls as [|c r IH]; intros s tr HJ Hg; cbn [lrun].
  - split; [exact HJ|]. exists []. split; [rewrite app_nil_r; reflexivity|].
    intros pre c o post H. destruct pre; discriminate.
  - pose proof (Forall_inv Hg) as Hc. pose proof (Forall_inv_tail Hg) as Hr.
    pose proof (step_spec s tr c HJ Hc) as Hs.
    destruct (allow_n s c) as [s1 o1]. destruct Hs as [HJ1 Hres].
    specialize (IH s1 (tr ++ [(c, o1)]) HJ1 Hr).
    destruct (lrun s1 (tr ++ [(c, o1)]) r) as [s' tr']. destruct IH as [HJ' [suf [Htr Hall]]].
    split; [exact HJ'|]. exists ((c, o1) :: suf). split; [rewrite Htr, <- app_assoc; reflexivity|].
    intros pre c0 o0 post Heq. destruct pre as [|p pre'].
    + cbn [app] in Heq. inversion Heq; subst. rewrite app_nil_r.
      unfold call_ok. destruct o0 as [r0| |]; try exact I.
      destruct Hres as ((_ & _ & Hcur & Hb) & Hrem & Hal). rewrite <- Hcur.
      split; [exact Hrem|]. split; [reflexivity|]. split.
      * intros Ha Hpos. pose proof (admitted_le_requested _ (reset r0) (proj1 HJ1)) as Hle.
        rewrite Hal in Ha. rewrite <- Hcur in Hle. lia.
      * intros c' r' Hin. apply (Hb c' r'), in_or_app. left. exact Hin.
    + cbn [app] in Heq. inversion Heq; subst.
      specialize (Hall pre' c0 o0 post eq_refl). rewrite <- app_assoc in Hall. exact Hall.
Qed.

(** the bound over a whole history when every call of the identifier uses the same limit *)
Lemma admitted_bound : forall calls s tr L, Jinv s tr -> Forall good calls ->
  (forall c, In c calls -> limit c = L) ->
  (forall R, admitted tr R <= Z.max L 0) ->
  forall R, admitted (snd (lrun s tr calls)) R <= Z.max L 0.
Proof.
  induction calls as [|c r IH]; intros s tr L HJ Hg HL Hb R; cbn [lrun snd]; [apply Hb|].
  pose proof (Forall_inv Hg) as Hc. pose proof (Forall_inv_tail Hg) as Hr.
  pose proof (step_spec s tr c HJ Hc) as Hs.
  destruct (allow_n s c) as [s1 o1]. destruct Hs as [HJ1 Hres].
  apply IH; try assumption.
  - intros c' Hin. apply HL. right. exact Hin.
  - intros R'. rewrite admitted_app. cbn [admitted]. destruct o1 as [r1| |]; try (specialize (Hb R'); lia).
    destruct Hres as ((_ & _ & Hcur & _) & _ & Hal).
    destruct ((reset r1 =? R') && allowed r1 && (0 <? n c)) eqn:E; [|specialize (Hb R'); lia].
    apply andb_prop in E. destruct E as [E E3]. apply andb_prop in E. destruct E as [E1 E2].
    assert (reset r1 = R') by lia. subst R'.
    pose proof (admitted_le_requested tr (reset r1) (proj1 HJ)) as Hle.
    rewrite requested_snoc, Z.eqb_refl in Hcur.
    rewrite Hal in E2. assert (limit c = L) by (apply HL; left; reflexivity). lia.
Qed.

(** the units counted in the window that is current for a caller with clocks (now_c, now_s) *)
Definition counted (s : lstate) (nowc nows : Z) : Z :=
  match live (ex s) nows with
  | Some (e, _) => if e <? nowc then 0 else match live (cnt s) nows with Some (v, _) => v | None => 0 end
  | None => 0
  end.

Definition window_live (s : lstate) (nowc nows : Z) : bool :=
  match live (ex s) nows, live (cnt s) nows with
  | Some (e, _), Some _ => negb (e <? nowc)
  | _, _ => false
  end.

Lemma live_Some : forall k now v p, live k now = Some (v, p) ->
  k = Some (v, p) /\ forall v', live (Some (v', p)) now = Some (v', p).
Proof.
  intros [[v0 [p0|]]|] now v p; cbn [live]; [destruct (now <? p0) eqn:E| |]; intros [= <- <-];
  (split; [reflexivity|]); intros v'; cbn [live]; rewrite ?E; reflexivity.
Qed.

(** the script reports the units counted in the caller's window plus the increment, and that is what is counted
    in that window afterwards ([nowc <= next]: the window length is not negative) *)
Lemma script_counted : forall s inc next nowc nows, nowc <= next -> nows < next + 1000 ->
  let '(s', (cur, e)) := script s inc next nowc nows in
  cur = counted s nowc nows + inc /\ counted s' nowc nows = cur.
Proof.
  intros s inc next nowc nows Hle Hlt.
  assert (Hfresh : (live (ex s) nows = None \/ exists e p, live (ex s) nows = Some (e, p) /\ e < nowc) ->
            counted s nowc nows = 0 ->
            let '(s', (cur, e)) := script s inc next nowc nows in
            cur = counted s nowc nows + inc /\ counted s' nowc nows = cur).
  { intros Hcase ->. rewrite (script_fresh s inc _ _ _ Hcase Hlt). split; [reflexivity|].
    unfold counted. cbn [ex cnt live].
    assert (nows <? next + 1000 = true) as -> by lia. assert (next <? nowc = false) as -> by lia. reflexivity. }
  unfold counted in *. destruct (live (ex s) nows) as [[e pe]|] eqn:Ee; [destruct (e <? nowc) eqn:Eold|].
  - apply Hfresh; [right; exists e, pe; split; [reflexivity|lia]|reflexivity].
  - rewrite (script_same s inc next nowc nows e pe Ee) by lia. unfold incrby. cbn [ex cnt]. rewrite Ee, Eold.
    destruct (live (cnt s) nows) as [[v pv]|] eqn:Ec; cbn [fst snd]; [|cbn [live]; split; reflexivity].
    rewrite (proj2 (live_Some _ _ _ _ Ec)). split; reflexivity.
  - apply Hfresh; [left|]; reflexivity.
Qed.

Lemma script_check_keeps : forall s next nowc nows,
  window_live s nowc nows = true -> fst (script s 0 next nowc nows) = s.
Proof.
  intros s next nowc nows H. unfold window_live in H.
  destruct (live (ex s) nows) as [[e pe]|] eqn:Ee; [|discriminate H].
  destruct (live (cnt s) nows) as [[v pv]|] eqn:Ec; [|discriminate H].
  rewrite (script_same s 0 next nowc nows e pe Ee) by lia. unfold incrby. rewrite Ec. cbn [fst].
  destruct (live_Some _ _ _ _ Ec) as [Hc _]. destruct s as [sc se]. cbn [cnt ex] in *. rewrite Z.add_0_r, Hc. reflexivity.
Qed.

Fixpoint calls_of (id : N) (calls : list call) : list lcall :=
  match calls with
  | [] => []
  | c :: r => if N.eqb (cid c) id then body c :: calls_of id r else calls_of id r
  end.

Lemma proj_app : forall id a b, proj id (a ++ b) = proj id a ++ proj id b.
Proof.
  induction a as [|[c o] t IH]; intros b; cbn [app proj]; [reflexivity|].
  destruct (N.eqb (cid c) id); cbn [app]; rewrite IH; reflexivity.
Qed.

Lemma run_proj : forall calls st tr id,
  let '(st', tr') := run st tr calls in
  lrun (st id) (proj id tr) (calls_of id calls) = (st' id, proj id tr').
Proof.
  induction calls as [|c r IH]; intros st tr id; cbn [run calls_of lrun]; [reflexivity|].
  destruct (allow_n (st (cid c)) (body c)) as [s' o] eqn:Ea.
  specialize (IH (upd st (cid c) s') (tr ++ [(c, o)]) id).
  destruct (run (upd st (cid c) s') (tr ++ [(c, o)]) r) as [st' tr'].
  rewrite proj_app in IH. cbn [proj] in IH. unfold upd in IH.
  destruct (N.eqb (cid c) id) eqn:E.
  - apply N.eqb_eq in E. subst id. rewrite N.eqb_refl in IH. cbn [lrun]. rewrite Ea. exact IH.
  - rewrite N.eqb_sym in E. rewrite E in IH. rewrite app_nil_r in IH. exact IH.
Qed.

Lemma proj_run : forall calls id,
  proj id (snd (run sempty_store [] calls)) = snd (lrun lempty [] (calls_of id calls)).
Proof.
  intros calls id. pose proof (run_proj calls sempty_store [] id) as H.
  destruct (run sempty_store [] calls) as [st' tr']. unfold sempty_store in H. cbn [proj] in H. rewrite H. reflexivity.
Qed.

Lemma calls_of_good : forall id calls, Forall (fun c => good (body c)) calls -> Forall good (calls_of id calls).
Proof.
  induction calls as [|c r IH]; intros H; cbn [calls_of]; [constructor|].
  pose proof (Forall_inv H) as Hc. pose proof (Forall_inv_tail H) as Hr.
  destruct (N.eqb (cid c) id); [constructor; [exact Hc|apply IH; exact Hr]|apply IH; exact Hr].
Qed.

Lemma calls_of_In : forall id calls c, In c (calls_of id calls) -> exists c0, In c0 calls /\ cid c0 = id /\ body c0 = c.
Proof.
  induction calls as [|c0 r IH]; intros c Hin; cbn [calls_of] in Hin; [contradiction|].
  destruct (N.eqb (cid c0) id) eqn:E.
  - destruct Hin as [<-|Hin].
    + exists c0. split; [left; reflexivity|]. split; [apply N.eqb_eq; exact E|reflexivity].
    + destruct (IH c Hin) as [c1 [H1 [H2 H3]]]. exists c1. split; [right; exact H1|split; assumption].
  - destruct (IH c Hin) as [c1 [H1 [H2 H3]]]. exists c1. split; [right; exact H1|split; assumption].
Qed.
