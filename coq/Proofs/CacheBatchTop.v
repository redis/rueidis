(** One cache store and server per connection: mux.DoMultiCache and cluster.DoMultiCache over pipe.DoMultiCache
    and askingMultiCache; MGetCache end to end. *)
From Coq Require Import String Ascii.
From Coq Require Import List Arith NArith ZArith Bool Lia.
Require Import RV.Model.Base RV.Model.CacheBatch.
Require Import RV.Proofs.CacheBatchBase RV.Proofs.CacheBatchMulti RV.Proofs.CacheBatchMGet
               RV.Proofs.CacheBatchRoute RV.Proofs.CacheBatchHelper RV.Proofs.CacheBatchAsk.
Import ListNotations.
Open Scope nat_scope.

Lemma Forall2_nth {A B} (R : A -> B -> Prop) l1 l2 d1 d2 :
  Forall2 R l1 l2 -> forall i, i < length l2 -> R (nth i l1 d1) (nth i l2 d2).
Proof.
  induction 1 as [|a b l1 l2 Hab _ IH]; intros i Hi; [cbn in Hi; lia|].
  destruct i as [|i]; [exact Hab|]. cbn [nth]. apply IH. cbn in Hi. lia.
Qed.

(** two-word commands (GET k, the only shape MGetCache sends) have injective cache keys *)
Lemma ck_inj_two_words : forall l : list argv, Forall (fun a => length a = 2) l -> ck_inj l.
Proof.
  intros l Hl a b Ha Hb E. rewrite Forall_forall in Hl.
  pose proof (Hl a Ha) as La. pose proof (Hl b Hb) as Lb.
  destruct a as [|a1 [|a2 [|]]]; try discriminate. destruct b as [|b1 [|b2 [|]]]; try discriminate.
  cbn in E. now inversion E.
Qed.

Section PerConn.
  Variable lookup_of : N -> key -> bytes -> lk.
  Variable srv_of : N -> argv -> msg.
  Variable qerr_of : N -> argv -> option msg.
  Variable optin use_lru : bool.
  Variable batch : list item.

  Hypothesis Hne : batch <> [].
  Hypothesis Hmget : existsb it_mget batch = false.
  Hypothesis Htx : Forall (fun it => not_tx (it_argv it)) batch.
  Hypothesis Hinj : ck_inj (map it_argv batch).
  Hypothesis Hhit : forall w k c v, lookup_of w k c = LHit v -> m_typ v <> 0%N.
  Hypothesis Hwait : forall w k c r, lookup_of w k c = LWait r -> filled r.
  Hypothesis Hsrv : forall w a, m_typ (srv_of w a) <> 0%N.
  Hypothesis Hqerr : forall w a e, qerr_of w a = Some e -> m_typ e <> 0%N.

  Definition conn_do (w : N) (items : list item) : result (list rres) :=
    do_multi_cache (lookup_of w) (srv_of w) (qerr_of w) optin use_lru items.

  (** [r] is what connection [w] alone answers to [it] (in one of the two wire shapes) *)
  Definition answers (w : N) (r : rres) (it : item) : Prop :=
    exists sk r', expected (lookup_of w) (srv_of w) (qerr_of w) optin sk it = Ok r' /\ view r = view r'.

  Lemma conn_do_sub w cmds :
    cmds <> [] -> (forall it, In it cmds -> In it batch) ->
    exists resp, conn_do w cmds = Ok resp /\ Forall2 (answers w) resp cmds.
  Proof.
    intros Hc Hsub. unfold conn_do.
    assert (A2 : existsb it_mget cmds = false).
    { apply not_true_is_false. intro Hex. apply existsb_exists in Hex as [it [Hit Hm]].
      assert (existsb it_mget batch = true) by (apply existsb_exists; exists it; auto). congruence. }
    destruct (do_multi_cache_positional (lookup_of w) (srv_of w) (qerr_of w) optin use_lru cmds Hc A2
                (incl_Forall Hsub Htx) (ck_inj_incl _ _ (incl_map it_argv Hsub) Hinj)
                (Hhit w) (Hwait w) (Hsrv w) (Hqerr w)) as (rs & Hr & Hf).
    exists rs. split; [assumption|]. eapply Forall2_imp; [|exact Hf].
    intros r it (r' & He & Hv). exists (forallb it_static cmds), r'. auto.
  Qed.

  (** mux.DoMultiCache (PipelineMultiplex): any number of wires, any slot assignment, any order in which
      the per-wire batches complete *)
  Theorem mux_positional :
    forall (nwires : N) (slot_of : item -> N) (order : list N),
      let g := fun it => N.land (slot_of it) (nwires - 1) in
      (forall w, In w (distinct_groups (map g batch) []) -> In w order) ->
      exists rs, mux_do_multi_cache conn_do nwires slot_of order batch = Ok rs /\
        Forall2 (fun r it => answers (g it) r it) rs batch.
  Proof.
    intros nwires slot_of order g Hcover.
    apply mux_do_multi_cache_positional with (P := answers); auto.
    intros w cmds Hc Hsub. apply conn_do_sub; [assumption|]. intros it Hit. now apply Hsub.
  Qed.

  Definition asking_do (c : N) (items : list item) : result (list rres) :=
    asking_multi_cache (srv_of c) (qerr_of c) optin items.

  (** [r] is what connection [c] answers to [it], directly (through its cache) or after ASKING *)
  Definition answers_or_asked (c : N) (r : rres) (it : item) : Prop :=
    answers c r it \/ exists sk, r = ask_one (srv_of c) (qerr_of c) sk (it_argv it).

  Lemma asking_do_sub c cmds :
    (forall it, In it cmds -> In it batch) ->
    exists resp, asking_do c cmds = Ok resp /\ Forall2 (answers_or_asked c) resp cmds.
  Proof.
    intro Hsub. unfold asking_do.
    rewrite asking_multi_cache_spec by exact (incl_Forall Hsub Htx). eexists. split; [reflexivity|].
    generalize (forallb it_static cmds) as sk. intro sk. clear. induction cmds as [|it l IH]; cbn [map]; constructor; [|exact IH].
    right. exists sk. reflexivity.
  Qed.

  (** cluster.DoMultiCache: any slot -> connection map, any MOVED / ASK redirections, any map iteration
      orders: a call that returns has at every position an answer to that position's command. *)
  Theorem cluster_positional :
    forall (conn_of : item -> option N) (redirect_of : rres -> redirect) (fuel : nat) (orders : list (list N))
           (maxredir : nat) (rs : list rres),
      (forall g, In g (distinct_groups (map (cl_group conn_of) batch) []) ->
                 In g (match orders with o :: _ => o | [] => distinct_groups (map (cl_group conn_of) batch) [] end)) ->
      cluster_do_multi_cache conn_of conn_do asking_do redirect_of fuel orders maxredir batch = Ok (inl rs) ->
      Forall2 (fun r it => exists c, answers_or_asked c r it) rs batch.
  Proof.
    intros conn_of redirect_of fuel orders maxredir rs Hcover Hrun.
    eapply cluster_do_multi_cache_positional with (R := answers_or_asked) (conn_do := conn_do) (asking_do := asking_do);
      [| |exact Hcover|exact Hrun].
    - intros c cmds Hc Hsub. destruct (conn_do_sub c cmds Hc Hsub) as (resp & Hd & Hf). exists resp. split; [assumption|].
      eapply Forall2_imp; [|exact Hf]. intros r it H. now left.
    - intros c cmds _ Hsub. now apply asking_do_sub.
  Qed.
End PerConn.

(** MGetCache end to end: DoMultiCache over [GET k] commands followed by helper doMultiCache *)
Definition get_item (k : key) : item := mkItem [bs "GET"; k] false false.

Lemma Forall2_map_l {A B C} (R : A -> B -> Prop) (f : C -> A) l1 l2 :
  Forall2 (fun c b => R (f c) b) l1 l2 -> Forall2 R (map f l1) l2.
Proof. induction 1; cbn; constructor; auto. Qed.

Theorem mget_cache_end_to_end lookup srv qerr optin use_lru (keys : list key) :
  keys <> [] ->
  (forall k c v, lookup k c = LHit v -> m_typ v <> 0%N) ->
  (forall k c r, lookup k c = LWait r -> filled r) ->
  (forall a, m_typ (srv a) <> 0%N) ->
  (forall a e, qerr a = Some e -> m_typ e <> 0%N) ->
  (* no position fails at the transport / abort level *)
  (forall k, In k keys -> exists r, expected lookup srv qerr optin false (get_item k) = Ok r /\ r_err r = None) ->
  exists rs m,
    do_multi_cache lookup srv qerr optin use_lru (map get_item keys) = Ok rs /\
    helper_do_multi_cache keys rs [] = Ok (inl m) /\
    (forall k, In k keys -> exists r, expected lookup srv qerr optin false (get_item k) = Ok r /\ kv_get k m = Some (r_val r)) /\
    (forall k, ~ In k keys -> kv_get k m = None).
Proof.
  intros Hne Hhit Hwait Hsrv Hqerr Hok.
  set (batch := map get_item keys).
  assert (Bne : batch <> []) by (unfold batch; destruct keys; [contradiction|discriminate]).
  assert (Bm : existsb it_mget batch = false).
  { unfold batch. clear. induction keys; cbn; auto. }
  assert (Btx : Forall (fun it => not_tx (it_argv it)) batch).
  { unfold batch. apply Forall_forall. intros it Hit. apply in_map_iff in Hit as [k [<- _]]. split; reflexivity. }
  assert (Binj : ck_inj (map it_argv batch)).
  { apply ck_inj_two_words. unfold batch. rewrite map_map. apply Forall_forall. intros a Ha. apply in_map_iff in Ha as [k [<- _]]. reflexivity. }
  assert (Bst : forallb it_static batch = false).
  { unfold batch. destruct keys; [contradiction|reflexivity]. }
  destruct (do_multi_cache_positional_exact lookup srv qerr optin use_lru batch Bne Bm Btx Binj Hhit Hwait Hsrv Hqerr Bst)
    as (rs & Hrs & Hf).
  set (f := fun k => match expected lookup srv qerr optin false (get_item k) with Ok r => r_val r | _ => zero_msg end).
  assert (Hf2 : Forall2 (fun k r => r_err r = None /\ r_val r = f k) keys rs).
  { rewrite <- (map_id keys). apply (Forall2_of_map_r _ _ _ _ _ _ Hf). intros k r Hin Hr.
    destruct (Hok k Hin) as (r' & He & Hn). rewrite He in Hr. injection Hr as <-.
    split; [assumption|]. unfold f. now rewrite He. }
  destruct (helper_do_multi_cache_spec f keys rs [] Hf2) as (m & Hm & H1 & H2).
  exists rs, m. split; [assumption|]. split; [assumption|]. split; [|assumption].
  intros k Hk. destruct (Hok k Hk) as (r & He & Hn). exists r. split; [assumption|]. rewrite H1 by assumption. unfold f. now rewrite He.
Qed.
