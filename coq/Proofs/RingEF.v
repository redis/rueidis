(** Ring LTS: from every state that satisfies the invariants and whose slots beyond 2^k are untouched ([Out]),
    so from every reachable state, there is a
    finite continuation, without new tickets, after which every ticket holder's command has been written and
    completed (AG EF).  A lost wake-up or a lock cycle would falsify it.  Fair termination under a real
    scheduler is a different statement and is not claimed. *)
From Coq Require Import List NArith ZArith Bool Arith Lia Wf_nat.
Require Import RV.Model.Base RV.Model.Ring RV.Proofs.RingBase RV.Proofs.RingInv RV.Proofs.RingTheorems RV.Proofs.RingProgress.
Import ListNotations.
Local Open Scope nat_scope.

Fixpoint sumf (f : nat -> nat) (n : nat) : nat := match n with O => 0 | S m => sumf f m + f m end.

Lemma sumf_ext : forall f g n, (forall j, j < n -> f j = g j) -> sumf f n = sumf g n.
Proof.
  intros f g n. induction n as [|n IH]; intro H; [reflexivity|]. cbn [sumf]. rewrite IH, (H n) by (intros; auto with arith). reflexivity.
Qed.

Lemma sumf_upd : forall f g n s, s < n -> (forall j, j <> s -> g j = f j) -> sumf g n + f s = sumf f n + g s.
Proof.
  intros f g n s. induction n as [|n IH]; intros Hs H; [lia|]. cbn [sumf].
  destruct (Nat.eq_dec s n) as [E|E].
  - rewrite (sumf_ext g f n) by (intros j Hj; apply H; lia). rewrite E. lia.
  - rewrite (H n) by congruence. assert (s < n) by lia. specialize (IH H0 H). lia.
Qed.

Lemma sumf_le : forall f g n, (forall j, j < n -> f j <= g j) -> sumf f n <= sumf g n.
Proof.
  intros f g n. induction n as [|n IH]; intro H; [cbn [sumf]; lia|]. cbn [sumf].
  assert (f n <= g n) by (apply H; lia). assert (sumf f n <= sumf g n) by (apply IH; intros; apply H; lia). lia.
Qed.

Section EF.
Variable k : nat.
Variable start : N.
Notation sof := (sof k start).
Notation cntpos := (cntpos k start).
Notation NS := (2 ^ k).

Lemma sum_cntpos : forall m, sumf (cntpos m) NS = m.
Proof.
  induction m as [|m IH].
  - assert (H : sumf (cntpos 0) NS = sumf (fun _ => 0) NS) by (apply sumf_ext; reflexivity).
    rewrite H. clear. induction NS as [|n IH]; cbn [sumf]; lia.
  - pose proof (sumf_upd (cntpos m) (cntpos (S m)) NS (sof (S m)) (idx_lt k _)) as H.
    rewrite cntpos_succ_same in H. specialize (H ltac:(intros j Hj; apply cntpos_succ_other; exact Hj)). lia.
Qed.

(** slots outside the ring are never touched *)
Definition Out (st : state) : Prop := forall s, NS <= s -> slots st s = slot0.

(** ... because what enables a step on a slot named by a label, or by the writer's or reader's position, is not in [slot0] *)
Lemma out_step : forall st l st', Out st -> rstep k st l st' -> Out st'.
Proof.
  intros st l st' H R.
  assert (Inside : forall s, slots st s <> slot0 -> s < NS).
  { intros s N. destruct (le_lt_dec NS s) as [L|L]; [destruct (N (H s L))|exact L]. }
  assert (Upd : forall s v, s < NS -> forall j, NS <= j -> upd (slots st) s v j = slot0).
  { intros s v Hs j Hj. rewrite upd_other by lia. apply H. exact Hj. }
  destruct R; try exact H; intros j Hj; rst; rewrite ?upd_upd;
    try (apply Upd; [|exact Hj]; first [rewrite Hs; apply idx_lt|apply Inside; rewrite <- Hx; intro X; rewrite X in *; discriminate]).
  (* unlock: the lock was the reader's own *)
  slot_cases j s E; [|apply H; exact Hj]. subst x. rewrite (H s Hj). reflexivity.
Qed.

Lemma out_reachable : forall st, reachable k start st -> Out st.
Proof.
  intros st Hr. eapply reachable_ind; [| |exact Hr].
  - intros s _. reflexivity.
  - intros s0 l s1 H Hl. eapply out_step; [exact H|apply lstep_rstep; exact Hl].
Qed.

Definition nfill (st : state) : nat := sumf (fun s => length (fillseq (slots st s))) NS.
Definition nbc (st : state) : nat := sumf (fun s => length (bc (slots st s))) NS.
(** reader phase: its steps left until it is idle again *)
Definition rph (st : state) : nat :=
  match rpc st with RIdle => 0 | RSig _ => 1 | RHold _ None => 2 | RHold _ (Some _) => 3 end.

(** every progress step takes a ticket nearer to its answer or the reader nearer to idle; the weight 10 lets a fill
    outweigh the broadcast it may add to [nbc] and a completion the three reader steps it starts *)
Definition measure (st : state) : nat :=
  10 * (nw st - nfill st) + 10 * (nw st - n1 st) + 10 * (nw st - n2 st) + nbc st + rph st.

Lemma counts_bounds : forall st, Que k start st -> Tkt k start st -> n2 st <= n1 st /\ n1 st <= nfill st /\ nfill st <= nw st.
Proof.
  intros st Q T. split; [apply (q_le _ _ _ Q)|]. split.
  - rewrite <- (sum_cntpos (n1 st)). apply sumf_le. intros s _.
    pose proof (q_ci _ _ _ Q s) as Hci. unfold CI in Hci. cbv zeta in Hci.
    destruct Hci as [(_ & _ & C3 & _)|[(_ & _ & C3 & _)|(_ & _ & C3 & _)]]; lia.
  - rewrite <- (sum_cntpos (nw st)). apply sumf_le. intros s _.
    rewrite (t_tk _ _ _ T s). unfold pend. lia.
Qed.

Lemma bounds : forall st, reachable k start st -> n2 st <= n1 st /\ n1 st <= nfill st /\ nfill st <= nw st.
Proof. intros st Hr. destruct (inv_reachable _ _ _ Hr) as [_ Q _ T _]. apply counts_bounds; assumption. Qed.

Lemma sumf_slot_upd : forall (g : slot -> nat) st s v, s < NS ->
  sumf (fun j => g (upd (slots st) s v j)) NS + g (slots st s) = sumf (fun j => g (slots st j)) NS + g v.
Proof.
  intros g st s v Hs.
  pose proof (sumf_upd (fun j => g (slots st j)) (fun j => g (upd (slots st) s v j)) NS s Hs) as H.
  cbv beta in H. rewrite upd_same in H. apply H. intros j Hj. rewrite upd_other by exact Hj. reflexivity.
Qed.

Lemma sums_same : forall st st' s v, rewrites st st' s v -> (fillseq v, bc v) = (fillseq (slots st s), bc (slots st s)) ->
  nfill st' = nfill st /\ nbc st' = nbc st.
Proof.
  intros st st' s v Hrw H. pose proof (rewrites_proj _ (fun x => (fillseq x, bc x)) _ _ _ _ Hrw H) as E.
  unfold nfill, nbc. split; apply sumf_ext; intros j _; injection (E j) as E1 E2; congruence.
Qed.

Theorem progress_decreases : forall st l st', Inv k start st -> Out st -> lstep k st l = Some st' -> progress st l st' ->
  measure st' < measure st /\ nw st' = nw st.
Proof.
  intros st l st' I HO Hl Hp.
  destruct (counts_bounds st (inv_q _ _ _ I) (inv_t _ _ _ I)) as (B1 & B2 & B3).
  pose proof (inv_step _ _ _ _ _ I Hl) as I'. destruct (counts_bounds st' (inv_q _ _ _ I') (inv_t _ _ _ I')) as (B1' & B2' & B3').
  clear I I'. apply lstep_rstep in Hl. unfold measure, rph.
  destruct Hl; cbn [progress] in Hp; try contradiction; rst; try lia;
    try (destruct Hl as [->| ->]; cbn [progress] in Hp; try contradiction; try lia);
    try (match goal with |- context [nfill ?st1] =>
           edestruct (sums_same st st1 s) as [F1 F2]; [intro; rst; rewrite ?upd_upd; reflexivity|subst; reflexivity|] end;
         rewrite ?Hrp, F1, F2 in *; split; [lia|reflexivity]).
  - (* a fill: one more filled, at most one more broadcast owed *)
    assert (Hs : s < NS).
    { destruct (le_lt_dec NS s) as [L|L]; [|exact L]. rewrite Hx, (HO s L) in Hp0. discriminate. }
    set (v := filled p m (unwait p x)) in *.
    assert (Vf : length (fillseq v) = length (fillseq x) + 1) by (unfold v, filled, unwait; rst; apply app_length).
    assert (Vb : length (bc v) <= S (length (bc x))).
    { unfold v, filled, unwait. rst. destruct (slept x); rewrite ?app_length; cbn [length]; lia. }
    pose proof (sumf_slot_upd (fun y => length (fillseq y)) st s v Hs) as F1.
    pose proof (sumf_slot_upd (fun y => length (bc y)) st s v Hs) as F2.
    cbv beta in F1, F2. rewrite <- Hx in F1, F2. unfold nfill, nbc in *. rst. split; [lia|reflexivity].
  - (* parking is no progress *)
    rewrite upd_same in Hp. subst x y. unfold unwait in Hp. rst. lia.
  - assert (Hs : s < NS).
    { destruct (le_lt_dec NS s) as [L|L]; [|exact L]. rewrite Hx, (HO s L) in Hp0. discriminate. }
    match goal with |- context [set_slot st s ?w] => set (v := w) in * end.
    assert (Vf : length (fillseq v) = length (fillseq x)) by reflexivity.
    assert (Vb : S (length (bc v)) = length (bc x)) by (apply remove1_length; exact Hp0).
    pose proof (sumf_slot_upd (fun y => length (fillseq y)) st s v Hs) as F1.
    pose proof (sumf_slot_upd (fun y => length (bc y)) st s v Hs) as F2.
    cbv beta in F1, F2. rewrite <- Hx in F1, F2. unfold nfill, nbc in *. rst. split; [lia|reflexivity].
  - edestruct (sums_same st (set_rpc st RIdle) s) as [F1 F2]; [apply rewrites_none; reflexivity|reflexivity|].
    rst. rewrite Hrp, F1, F2 in *. split; [lia|reflexivity].
Qed.

Definition no_ticket (l : label) : bool := match l with PutTicket => false | _ => true end.

Theorem ring_all_answered_EF : forall st, Inv k start st -> Out st ->
  exists sch st', run k sch st = Some st' /\ forallb no_ticket sch = true /\
                  nw st' = nw st /\ n2 st' = nw st' /\ n1 st' = nw st' /\ rpc st' = RIdle.
Proof.
  intros st. remember (measure st) as m eqn:Hm. revert st Hm.
  induction m as [m IH] using lt_wf_ind. intros st Hm I HO.
  destruct (counts_bounds st (inv_q _ _ _ I) (inv_t _ _ _ I)) as (B1 & B2 & B3).
  assert (Done : {n2 st = nw st /\ rpc st = RIdle} + {n2 st < nw st \/ rpc st <> RIdle}).
  { destruct (Nat.eq_dec (n2 st) (nw st)) as [E|E]; [|right; left; lia].
    destruct (rpc st); [left; auto|right; right; discriminate|right; right; discriminate]. }
  destruct Done as [[E Hrp]|Hwork].
  - exists [], st. cbn [run forallb]. repeat split; try assumption; lia.
  - (* a progress step is enabled; it is no ticket and it lowers the measure *)
    destruct (ring_not_stuck k start st I Hwork) as (l & st' & Hl & Hp).
    destruct (progress_decreases st l st' I HO Hl Hp) as [Hd Hn].
    destruct (IH (measure st') ltac:(lia) st' eq_refl (inv_step _ _ _ _ _ I Hl) (out_step _ _ _ HO (lstep_rstep _ _ _ _ Hl)))
      as (sch & st'' & R1 & R2 & R3 & R4 & R5 & R6).
    exists (l :: sch), st''. cbn [run forallb]. rewrite Hl. repeat split; try assumption; try lia.
    rewrite R2. destruct l; try reflexivity. contradiction.
Qed.

End EF.
