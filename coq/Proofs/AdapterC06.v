(** C06 for NewSimpleCacheAdapter: where every value of the SimpleCache comes from, and why a hit is
    never a reply from before an invalidation (for callers that read the clock after it). *)
From Coq Require Import List NArith ZArith Bool Lia.
Require Import RV.Model.Base RV.Model.Lru RV.Model.Adapter RV.Proofs.BytesProofs RV.Proofs.LruBase RV.Proofs.AdapterProofs.
Import ListNotations.
Open Scope Z_scope.

Definition a_lookup_at (o : aop) : option Z :=
  match o with AFlight _ _ _ now | AFlightFast _ _ now | AFlightSlow _ _ _ now => Some now | _ => None end.

(** the value [v] stored under [sk] was committed by the Update at position [u] for command (k, c)
    with k ++ c = sk, and either (A) the command still carries the nil marker and its key was not
    invalidated since, or (B) some later lookup already found the value expired, and the key was not
    invalidated between the commit and that lookup *)
Definition sorigin (ops : list aop) (s : astate) (sk : bytes) (v : msg) : Prop :=
  exists u k c v0,
    nth_error ops u = Some (AUpdate k c v0) /\ sk = k ++ c /\ (exists x, v = set_xat v0 x) /\
    ( (a_row s k c None /\ forall j o, (u < j)%nat -> nth_error ops j = Some o -> ~ a_invalidates k o)
      \/
      (exists q oq now, (u < q)%nat /\ nth_error ops q = Some oq /\ a_lookup_at oq = Some now /\
         m_xat v <= unix_milli now /\
         forall j o, (u < j < q)%nat -> nth_error ops j = Some o -> ~ a_invalidates k o) ).

Lemma set_xat_set v x y : set_xat (set_xat v x) y = set_xat v y.
Proof. destruct v. reflexivity. Qed.

Lemma nth_snoc_old {A : Type} (l : list A) x j y : (j < length l)%nat -> nth_error (l ++ [x]) j = Some y -> nth_error l j = Some y.
Proof. intros H. rewrite nth_error_app1 by exact H. tauto. Qed.

(** a row untouched by the new operation keeps its origin provided case (A) can be re-established *)
Lemma sorigin_extend ops o s s' sk v :
  sorigin ops s sk v ->
  (forall k c, sk = k ++ c -> a_row s k c None ->
     (a_row s' k c None /\ ~ a_invalidates k o) \/ (exists now, a_lookup_at o = Some now /\ m_xat v <= unix_milli now)) ->
  sorigin (ops ++ [o]) s' sk v.
Proof.
  intros [u [k [c [v0 [Hu [Hsk [Hx Hcase]]]]]]] Hstep.
  assert (Hul : (u < length ops)%nat) by (apply nth_error_Some; congruence).
  exists u, k, c, v0. split; [rewrite nth_error_app1; assumption|]. split; [exact Hsk|]. split; [exact Hx|].
  destruct Hcase as [[HA Hinv]|[q [oq [now [Hq [Hoq [Hat [Hexp Hinv]]]]]]]].
  - destruct (Hstep k c Hsk HA) as [[HA' Hno]|[now [Hat Hexp]]].
    + left. split; [exact HA'|exact (none_after_snoc _ ops o u Hinv Hno)].
    + right. exists (length ops), o, now. split; [exact Hul|]. split; [apply nth_snoc_last|].
      split; [exact Hat|]. split; [exact Hexp|]. intros j o' Hj Hn. apply nth_snoc_cases in Hn.
      destruct Hn as [[Hjl Hn]|[Hje _]]; [eapply Hinv; [|exact Hn]; lia|lia].
  - right. assert (Hql : (q < length ops)%nat) by (apply nth_error_Some; congruence).
    exists q, oq, now. split; [exact Hq|]. split; [rewrite nth_error_app1; assumption|]. split; [exact Hat|]. split; [exact Hexp|].
    intros j o' Hj Hn. apply nth_snoc_cases in Hn. destruct Hn as [[Hjl Hn]|[Hje _]]; [eapply Hinv; eassumption|lia].
Qed.

Theorem sorigin_run ops :
  let s := arun ops ainit in
  forall sk v, In (SR sk v) (astore s) -> is_pending_msg v = false -> sorigin ops s sk v.
Proof.
  induction ops as [|o ops IH] using rev_ind; cbv zeta in *; [intros sk v []|].
  rewrite arun_snoc. pose proof (ainv_run ops) as Hi. set (s := arun ops ainit) in *.
  intros sk v Hin Hv. destruct (a_store_step s o sk v Hin) as [Hold|[k [c [v0 [-> [-> [Hx Hm]]]]]]].
  - (* a value that was there: its marker is kept, or a lookup has just found the value expired *)
    apply (sorigin_extend ops o s _ sk v (IH sk v Hold Hv)). intros k c -> Hm.
    destruct (a_row_step s o k c None Hi Hm) as [H1 H2|ttl now _ Ho El|H _|_ _ H].
    + left. split; [exact H1|exact (H2 eq_refl)].
    + right. exists now. split; [destruct Ho as [-> | ->]; reflexivity|].
      rewrite (sget_unique _ _ v (ai_store s Hi) Hold) in El.
      destruct (Z.le_gt_cases (m_xat v) (unix_milli now)) as [L|L]; [exact L|].
      rewrite (proj2 (a_live_spec v now) (conj Hv L)) in El. discriminate.
    + elim (H eq_refl).
    + elim (H v Hin).
  - (* the value just committed *)
    exists (length ops), k, c, v0. split; [apply nth_snoc_last|].
    split; [reflexivity|]. split; [exact Hx|]. left. split; [exact Hm|apply none_after_last].
Qed.

(** A hit for (k1, c1) is a reply committed by an Update of a command (k, c) stored under the same
    identity k ++ c = k1 ++ c1, still unexpired; and whenever the key k was invalidated (or the cache
    flushed / the connection lost) after that commit, some lookup that preceded the invalidation had
    read a later clock than the hit's caller — i.e. that caller did not start after the invalidation. *)
Theorem a_no_stale_hit ops o k1 c1 v :
  In (AHit v) (a_answers k1 c1 o (snd (astep (arun ops ainit) o))) ->
  exists u k c v0 x,
    nth_error ops u = Some (AUpdate k c v0) /\ k ++ c = k1 ++ c1 /\ v = set_xat v0 x /\
    unix_milli (a_now_of o) < m_xat v /\
    forall j oj, (u < j)%nat -> nth_error ops j = Some oj -> a_invalidates k oj ->
      exists q oq nowq, (q < j)%nat /\ nth_error ops q = Some oq /\ a_lookup_at oq = Some nowq /\
                        unix_milli (a_now_of o) < unix_milli nowq.
Proof.
  intro H. apply astep_hit in H. destruct H as [Hin [Hv Hlt]].
  destruct (sorigin_run ops _ v Hin Hv) as [u [k [c [v0 [Hu [Hsk [[x Hx] Hcase]]]]]]].
  exists u, k, c, v0, x. split; [exact Hu|]. split; [symmetry; exact Hsk|]. split; [exact Hx|]. split; [exact Hlt|].
  intros j oj Hj Hn Hinv. destruct Hcase as [[_ Hno]|[q [oq [nowq [Hq [Hoq [Hat [Hexp Hno]]]]]]]].
  - exfalso. eapply Hno; eassumption.
  - exists q, oq, nowq. destruct (Nat.lt_ge_cases q j) as [Hqj|Hqj].
    + split; [exact Hqj|]. split; [exact Hoq|]. split; [exact Hat|]. lia.
    + exfalso. destruct (Nat.eq_dec j q) as [->|Hne].
      * rewrite Hoq in Hn. injection Hn as <-. destruct oq; try discriminate; exact Hinv.
      * eapply (Hno j oj); [lia|exact Hn|exact Hinv].
Qed.
