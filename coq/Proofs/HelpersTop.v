(** Multi-key helpers (helper.go): one theorem for the MGet-like helpers and one for the MSet-like ones, each for
    single and cluster clients alike. *)
From Coq Require Import String Ascii.
From Coq Require Import List Arith NArith ZArith Bool Lia.
Require Import RV.Model.Base RV.Model.CacheBatch RV.Model.Helpers.
Require Import RV.Proofs.CacheBatchBase RV.Proofs.CacheBatchHelper RV.Proofs.HelpersProofs.
Import ListNotations.
Open Scope nat_scope.

(** a Go map given as an association list: exactly the keys [ks], each bound by [f] *)
Definition maps_exactly {B} (m : list (key * B)) (ks : list key) (f : key -> B) : Prop :=
  (forall k, In k ks -> kv_get k m = Some (f k)) /\ (forall k, ~ In k ks -> kv_get k m = None).

Lemma maps_exactly_set_keys {B} (f : key -> B) ks : maps_exactly (set_keys f ks []) ks f.
Proof.
  split; intros k Hk; rewrite set_keys_get; destruct (in_dec key_dec k ks); try reflexivity; contradiction.
Qed.

Lemma maps_exactly_set_all {B} ks (v : B) : maps_exactly (set_all ks v) ks (fun _ => v).
Proof.
  split; intros k Hk; rewrite set_all_get; destruct (in_dec key_dec k ks); try reflexivity; contradiction.
Qed.

(** a list with distinct keys binds each key once (a Go map in some iteration order) *)
Lemma NoDup_fst_eq {A B} (l : list (A * B)) x y : NoDup (map fst l) -> In x l -> In y l -> fst x = fst y -> x = y.
Proof.
  induction l as [|a l IH]; [intros _ []|]. cbn [map In]. intro Hnd. inversion Hnd as [|? ? Hna Hnd']; subst.
  intros [<-|Hx] [<-|Hy] E; auto; exfalso; apply Hna; [rewrite E|rewrite <- E]; now apply in_map.
Qed.

Section Top.
  Variable srv : argv -> msg.
  Variable slot_of : key -> N.
  Variable get : key -> msg.

  (** MGet / JsonMGet on either kind of client, after the grouping loop ([group_by_slot_spec]): [head] is MGET or
      JSON.MGET, [post] the JSON path or nothing, [cmd] the single command of a non-cluster client *)
  Theorem multi_get_spec head post (cluster : bool) keys cmd :
    (forall ks, srv (head :: ks ++ post) = arr (map get ks)) -> srv cmd = arr (map get keys) ->
    let cmds := map (fun c => c ++ post) (map snd (slot_mcmds slot_of head keys)) in
    exists m, (if cluster then collect [] cmds (do_multi srv cmds) else client_mget srv cmd keys) = Ok (inl m) /\
      maps_exactly m keys get.
  Proof.
    intros Hs Hc cmds. destruct cluster; [exact (cluster_collect_spec srv slot_of get head post keys Hs)|].
    rewrite (client_mget_spec srv get) by assumption. eexists. split; [reflexivity|apply maps_exactly_set_keys].
  Qed.

  (** the error every key of a single-command MSET / MSETNX / JSON.MSET / DEL is bound to *)
  Definition mset_err (nx : bool) (kvs : list (key * bytes)) : option err :=
    match as_bool (srv ((if nx then bs "MSETNX" else bs "MSET") :: flat_map (fun kv => [fst kv; snd kv]) kvs)) with
    | inr e => Some e
    | inl true => None
    | inl false => Some e_msetnx_not_set
    end.

  Definition set_cmd (nx : bool) (kv : key * bytes) : argv := [bs "SET"; fst kv; snd kv] ++ (if nx then [bs "NX"] else []).

  Lemma keyed_cmds_ok {A} (mk : A -> argv) (keyf : A -> key) (l : list A) :
    (forall x, nth_error (mk x) 1 = Some (keyf x)) ->
    (forall x y, In x l -> In y l -> keyf x = keyf y -> mk x = mk y) ->
    exists m, do_multi_set srv (map mk l) = Ok m /\
      (forall x, In x l -> kv_get (keyf x) m = Some (msg_error (srv (mk x)))) /\
      (forall k, ~ In k (map keyf l) -> kv_get k m = None).
  Proof.
    intros Hk Hsame.
    assert (Hnth : forall x, nth 1 (mk x) [] = keyf x) by (intro x; apply nth_error_nth, Hk).
    destruct (do_multi_set_spec srv (fun c => nth 1 c []) (map mk l)) as (m & Hm & Hv & Hn).
    - intros c Hc. apply in_map_iff in Hc as [x [<- _]]. now rewrite Hk, Hnth.
    - intros c c' Hc Hc' E. apply in_map_iff in Hc as [x [<- Hx]]. apply in_map_iff in Hc' as [y [<- Hy]].
      apply Hsame; auto. now rewrite <- !Hnth.
    - exists m. split; [assumption|]. split.
      + intros x Hx. rewrite <- (Hnth x). apply Hv. now apply in_map.
      + intros k Hnk. apply Hn. intros c Hc E. apply in_map_iff in Hc as [x [<- Hx]]. apply Hnk. apply in_map_iff.
        exists x. split; [|assumption]. now rewrite <- Hnth.
  Qed.

  (** MSet / MSetNX / JsonMSet / MDel: the elements [l] (pairs or keys) with keys [ks]; a cluster client sends one
      command [mk x] per element, any other client one command for all, whose error [e] every key is bound to *)
  Theorem multi_set_spec {A} (l : list A) (mk : A -> argv) (keyf : A -> key) ks (e : option err) (cluster : bool) :
    map keyf l = ks ->
    (forall x, nth_error (mk x) 1 = Some (keyf x)) ->
    (forall x y, In x l -> In y l -> keyf x = keyf y -> mk x = mk y) ->
    exists m, match l with [] => Ok [] | _ => if cluster then do_multi_set srv (map mk l) else Ok (set_all ks e) end = Ok m /\
      (forall x, In x l -> kv_get (keyf x) m = Some (if cluster then msg_error (srv (mk x)) else e)) /\
      (forall k, ~ In k ks -> kv_get k m = None).
  Proof.
    intros <- Hk Hsame. destruct l as [|x0 l0]; [exists []; split; [reflexivity|split; [intros ? []|reflexivity]]|].
    destruct cluster; [exact (keyed_cmds_ok mk keyf (x0 :: l0) Hk Hsame)|].
    eexists. split; [reflexivity|]. destruct (maps_exactly_set_all (map keyf (x0 :: l0)) e) as [H1 H2].
    split; [intros x Hx; apply H1; now apply in_map|assumption].
  Qed.
End Top.
