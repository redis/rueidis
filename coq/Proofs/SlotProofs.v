(** Proofs for Model/Slot.v: table-driven CRC16 = bitwise CRC16-XMODEM (given a table whose 256
    entries are the bitwise CRC of their index — checked on the regenerated table in BuilderGenProofs.v),
    hash-tag extraction = specification, and the key-slot bookkeeping of the builders. *)
From Coq Require Import List Arith NArith Bool Lia.
Require Import RV.Model.Base RV.Model.Slot.
Import ListNotations.
Open Scope N_scope.

Lemma lt_pow2_bits a n : a < 2 ^ n <-> (forall m, n <= m -> N.testbit a m = false).
Proof.
  split.
  - intros Ha m Hm.
    destruct (N.eq_dec a 0) as [->|Hz]; [apply N.bits_0|].
    apply N.bits_above_log2.
    apply N.log2_lt_pow2 in Ha; lia.
  - intros H.
    destruct (N.eq_dec a 0) as [->|Hz].
    + apply N.neq_0_lt_0, N.pow_nonzero; lia.
    + apply N.log2_lt_pow2; [lia|].
      destruct (N.lt_ge_cases (N.log2 a) n) as [Hl|Hl]; [exact Hl|].
      pose proof (N.bit_log2 a Hz) as Hb. rewrite (H _ Hl) in Hb. discriminate.
Qed.

Lemma lxor_lt_pow2 a b n : a < 2 ^ n -> b < 2 ^ n -> N.lxor a b < 2 ^ n.
Proof.
  rewrite !lt_pow2_bits. intros Ha Hb m Hm.
  rewrite N.lxor_spec, Ha, Hb by exact Hm. reflexivity.
Qed.

Lemma lxor_mod_pow2 a b n : N.lxor a b mod 2 ^ n = N.lxor (a mod 2 ^ n) (b mod 2 ^ n).
Proof.
  apply N.bits_inj. intro m.
  destruct (N.lt_ge_cases m n) as [H|H].
  - rewrite N.lxor_spec, !N.mod_pow2_bits_low, N.lxor_spec by exact H. reflexivity.
  - rewrite N.lxor_spec, !N.mod_pow2_bits_high by exact H. reflexivity.
Qed.

Lemma land_255 a : N.land a 255 = a mod 256.
Proof. change 255 with (N.ones 8). rewrite N.land_ones. reflexivity. Qed.

Lemma land_16383 a : N.land a 16383 = a mod 16384.
Proof. change 16383 with (N.ones 14). rewrite N.land_ones. reflexivity. Qed.

(** * The single-bit step is linear over xor *)

Definition shl1 (x : N) : N := N.shiftl x 1 mod W16.

Lemma shl1_lxor a b : shl1 (N.lxor a b) = N.lxor (shl1 a) (shl1 b).
Proof. unfold shl1, W16. change 65536 with (2 ^ 16). rewrite N.shiftl_lxor. apply lxor_mod_pow2. Qed.

Lemma crc_shift1_lxor a b : crc_shift1 (N.lxor a b) = N.lxor (crc_shift1 a) (crc_shift1 b).
Proof.
  unfold crc_shift1. fold (shl1 a) (shl1 b) (shl1 (N.lxor a b)).
  rewrite N.lxor_spec, shl1_lxor.
  destruct (N.testbit a 15), (N.testbit b 15); cbn [xorb];
    apply N.bits_inj; intro m; rewrite !N.lxor_spec;
    destruct (N.testbit (shl1 a) m), (N.testbit (shl1 b) m), (N.testbit 4129 m); reflexivity.
Qed.

Lemma crc_shiftk_lxor k : forall a b, crc_shiftk k (N.lxor a b) = N.lxor (crc_shiftk k a) (crc_shiftk k b).
Proof.
  induction k as [|k IH]; intros a b; cbn [crc_shiftk]; [reflexivity|].
  rewrite crc_shift1_lxor. apply IH.
Qed.

Lemma crc_shift1_lt x : crc_shift1 x < W16.
Proof.
  unfold crc_shift1, W16. change 65536 with (2 ^ 16).
  assert (H : N.shiftl x 1 mod 2 ^ 16 < 2 ^ 16) by (apply N.mod_lt; discriminate).
  destruct (N.testbit x 15); [|exact H].
  apply lxor_lt_pow2; [exact H|reflexivity].
Qed.

Lemma crc_shiftk_lt k : forall x, x < W16 -> crc_shiftk k x < W16.
Proof.
  induction k as [|k IH]; intros x Hx; cbn [crc_shiftk]; [exact Hx|].
  apply IH, crc_shift1_lt.
Qed.

(** while no set bit reaches position 15, the single-bit step is a plain shift *)
Lemma crc_shiftk_small k : forall x n, x < 2 ^ n -> n + N.of_nat k <= 16 -> crc_shiftk k x = N.shiftl x (N.of_nat k).
Proof.
  induction k as [|k IH]; intros x n Hx Hn; cbn [crc_shiftk]; [now rewrite N.shiftl_0_r|].
  assert (Hs : crc_shift1 x = N.shiftl x 1).
  { unfold crc_shift1. rewrite (proj1 (lt_pow2_bits x n) Hx 15) by lia.
    apply N.mod_small. rewrite N.shiftl_mul_pow2. change W16 with (2 ^ 15 * 2 ^ 1).
    apply N.mul_lt_mono_pos_r; [reflexivity|]. apply (N.lt_le_trans _ _ _ Hx), N.pow_le_mono_r; lia. }
  rewrite Hs, (IH _ (n + 1)), N.shiftl_shiftl; [f_equal; lia| |lia].
  rewrite N.shiftl_mul_pow2, N.pow_add_r. now apply N.mul_lt_mono_pos_r.
Qed.

Definition table_ok (tab : list N) : Prop :=
  forall i, i < 256 -> nth (N.to_nat i) tab 0 = crc_shiftk 8 (N.shiftl i 8).

Lemma crc16_bitwise_single i : crc16_bitwise [i] = crc_shiftk 8 (N.shiftl i 8).
Proof. unfold crc16_bitwise, crc16_bit_step. cbn [fold_left]. now rewrite N.lxor_0_l. Qed.

Lemma In_range256 i : i < 256 -> In i range256.
Proof.
  intros Hi. unfold range256.
  rewrite <- (N2Nat.id i). apply in_map. apply in_seq. lia.
Qed.

Lemma forall_range256 (P : N -> bool) :
  forallb P range256 = true -> forall i, i < 256 -> P i = true.
Proof. intros H i Hi. rewrite forallb_forall in H. apply H, In_range256, Hi. Qed.

Lemma table_okb_ok tab : table_okb tab = true -> table_ok tab.
Proof.
  unfold table_okb. intros H. apply andb_prop in H. destruct H as [_ H].
  intros i Hi. rewrite <- crc16_bitwise_single. apply N.eqb_eq.
  exact (forall_range256 _ H i Hi).
Qed.

Lemma split_hi_lo crc b :
  N.lxor crc (N.shiftl b 8) = N.lxor (N.shiftl (N.lxor (N.shiftr crc 8) b) 8) (N.land crc 255).
Proof.
  apply N.bits_inj. intro m. rewrite !N.lxor_spec, N.land_spec.
  change 255 with (N.ones 8).
  destruct (N.lt_ge_cases m 8) as [H|H].
  - rewrite !N.shiftl_spec_low, N.ones_spec_low by exact H.
    now destruct (N.testbit crc m).
  - rewrite !N.shiftl_spec_high', N.ones_spec_high by exact H.
    rewrite N.lxor_spec, N.shiftr_spec', N.sub_add by exact H.
    now destruct (N.testbit crc m), (N.testbit b (m - 8)).
Qed.

Lemma shl8_mod crc : N.shiftl crc 8 mod W16 = N.shiftl (N.land crc 255) 8.
Proof.
  unfold W16. change 65536 with (2 ^ 16). change 255 with (N.ones 8).
  apply N.bits_inj. intro m.
  destruct (N.lt_ge_cases m 8) as [H8|H8].
  - rewrite N.mod_pow2_bits_low by lia. rewrite !N.shiftl_spec_low by exact H8. reflexivity.
  - rewrite (N.shiftl_spec_high' (N.land _ _)) by exact H8. rewrite N.land_spec.
    destruct (N.lt_ge_cases m 16) as [H16|H16].
    + rewrite N.mod_pow2_bits_low by exact H16. rewrite N.shiftl_spec_high' by exact H8.
      rewrite N.ones_spec_low by lia. now rewrite andb_true_r.
    + rewrite N.mod_pow2_bits_high by exact H16.
      rewrite N.ones_spec_high by lia. now rewrite andb_false_r.
Qed.

Lemma shiftr8_lt crc : crc < W16 -> N.shiftr crc 8 < 256.
Proof.
  unfold W16. intros H. rewrite N.shiftr_div_pow2. change (2 ^ 8) with 256.
  apply N.div_lt_upper_bound; lia.
Qed.

Lemma crc16_step_eq tab crc b :
  table_ok tab -> crc < W16 -> b < 256 ->
  crc16_tab_step tab crc b = crc16_bit_step crc b.
Proof.
  intros T Hc Hb. unfold crc16_tab_step, crc16_bit_step.
  pose proof (shiftr8_lt crc Hc) as Hhi.
  assert (Hx : N.lxor (N.shiftr crc 8) b < 256).
  { change 256 with (2 ^ 8). apply lxor_lt_pow2; assumption. }
  rewrite (N.mod_small (N.shiftr crc 8) 256) by exact Hhi.
  rewrite land_255, (N.mod_small _ 256) by exact Hx.
  rewrite T by exact Hx.
  rewrite split_hi_lo, crc_shiftk_lxor.
  (* the low byte moves up by eight positions unchanged *)
  rewrite (crc_shiftk_small 8 (N.land crc 255) 8); [| |reflexivity].
  2:{ rewrite land_255. apply N.mod_lt. discriminate. }
  rewrite shl8_mod. apply N.lxor_comm.
Qed.

Lemma crc16_bit_step_lt crc b : crc16_bit_step crc b < W16.
Proof. exact (crc_shiftk_lt 7 _ (crc_shift1_lt _)). Qed.

Lemma crc16_fold_eq tab (T : table_ok tab) :
  forall bs crc, crc < W16 -> Forall (fun b => b < 256) bs ->
    fold_left (crc16_tab_step tab) bs crc = fold_left crc16_bit_step bs crc.
Proof.
  induction bs as [|b bs IH]; intros crc Hc Hbs; cbn [fold_left]; [reflexivity|].
  inversion Hbs as [|? ? Hb Hr]; subst.
  rewrite crc16_step_eq by assumption.
  apply IH; [apply crc16_bit_step_lt|exact Hr].
Qed.

Theorem crc16_tab_bitwise tab :
  table_ok tab -> forall bs, Forall (fun b => b < 256) bs -> crc16_tab tab bs = crc16_bitwise bs.
Proof.
  intros T bs Hbs. unfold crc16_tab, crc16_bitwise.
  apply crc16_fold_eq; [exact T|reflexivity|exact Hbs].
Qed.

(** * Hash tag: the loops of slot() compute [hashtag_spec] *)

Lemma find_from_shift c : forall k from, find_from c k from = (from + find_from c k 0)%nat.
Proof.
  induction k as [|x r IH]; intros from; cbn [find_from]; [lia|].
  destruct (x =? c); [lia|]. rewrite (IH (S from)), (IH 1%nat). lia.
Qed.

Lemma find_from_le c k : (find_from c k 0 <= length k)%nat.
Proof.
  induction k as [|x r IH]; cbn [find_from length]; [lia|].
  destruct (x =? c); [lia|]. rewrite find_from_shift. lia.
Qed.

Lemma split_at_find c : forall l,
  split_at c l = (firstn (find_from c l 0) l,
                  if (find_from c l 0 =? length l)%nat then None else Some (skipn (S (find_from c l 0)) l)).
Proof.
  induction l as [|x r IH]; [reflexivity|].
  cbn [split_at find_from]. destruct (x =? c) eqn:E.
  - reflexivity.
  - rewrite IH, (find_from_shift c r 1). cbn [Nat.add firstn length skipn Nat.eqb]. reflexivity.
Qed.

Lemma firstn_nil_iff {A} n (l : list A) : l <> [] -> (firstn n l = [] <-> n = O).
Proof. intros Hl. destruct n, l; cbn; try easy. Qed.

Theorem hashtag_eq_spec k : hashtag k = hashtag_spec k.
Proof.
  unfold hashtag, hashtag_spec, find_idx. change (skipn 0 k) with k.
  rewrite split_at_find.
  set (i := find_from 123 k 0).
  destruct (Nat.eqb_spec i (length k)) as [Hi|Hi]; [reflexivity|].
  pose proof (find_from_le 123 k) as Hle. fold i in Hle.
  set (after := skipn (S i) k).
  rewrite split_at_find.
  rewrite (find_from_shift 125 after (S i)).
  set (j := find_from 125 after 0).
  assert (Hlen : length after = (length k - S i)%nat) by (unfold after; apply skipn_length).
  pose proof (find_from_le 125 after) as Hj. fold j in Hj.
  destruct (Nat.eqb_spec j (length after)) as [Hja|Hja].
  - replace (S i + j =? length k)%nat with true by (symmetry; apply Nat.eqb_eq; lia).
    cbn [orb]. now destruct (firstn j after).
  - replace (S i + j =? length k)%nat with false by (symmetry; apply Nat.eqb_neq; lia).
    cbn [orb].
    assert (Hne : after <> []) by (intro E; rewrite E in *; cbn in *; lia).
    destruct (Nat.eqb_spec (S i + j) (S i)) as [H0|H0].
    + assert (j = O) by lia. replace (firstn j after) with (@nil N) by (subst j; now rewrite H).
      reflexivity.
    + unfold slice. replace (S i + j - S i)%nat with j by lia. fold after.
      destruct (firstn j after) eqn:Ef; [|reflexivity].
      apply firstn_nil_iff in Ef; [lia|exact Hne].
Qed.

Lemma split_at_app c pre post : ~ In c pre -> split_at c (pre ++ c :: post) = (pre, Some post).
Proof.
  induction pre as [|x pre IH]; intros H; cbn [app split_at].
  - now rewrite N.eqb_refl.
  - destruct (N.eqb_spec x c) as [->|_]; [exfalso; apply H; now left|].
    rewrite IH; [reflexivity|]. intro Hin; apply H; now right.
Qed.

Lemma split_at_some c : forall l p s, split_at c l = (p, Some s) -> l = p ++ c :: s /\ ~ In c p.
Proof.
  induction l as [|x r IH]; intros p s H; cbn [split_at] in H; [discriminate|].
  destruct (N.eqb_spec x c) as [->|Hx].
  - inversion H; subst. split; [reflexivity|intros []].
  - destruct (split_at c r) as [p' s'] eqn:E. inversion H; subst.
    destruct (IH p' s eq_refl) as [-> Hn]. split; [reflexivity|].
    intros [Hin|Hin]; [now apply Hx|now apply Hn].
Qed.

Theorem hashtag_spec_tagged pre tag post :
  ~ In 123 pre -> ~ In 125 tag -> tag <> [] ->
  hashtag_spec (pre ++ 123 :: tag ++ 125 :: post) = tag.
Proof.
  intros Hp Ht Hne. unfold hashtag_spec.
  rewrite (split_at_app 123 pre _ Hp), (split_at_app 125 tag post Ht).
  destruct tag; [contradiction|reflexivity].
Qed.

Theorem hashtag_spec_whole k :
  (forall pre tag post, k = pre ++ 123 :: tag ++ 125 :: post -> ~ In 123 pre -> ~ In 125 tag -> tag = []) ->
  hashtag_spec k = k.
Proof.
  intros H. unfold hashtag_spec.
  destruct (split_at 123 k) as [p [after|]] eqn:E1; [|reflexivity].
  destruct (split_at 125 after) as [t [post|]] eqn:E2; [|now destruct t].
  apply split_at_some in E1. destruct E1 as [Ek Hp].
  apply split_at_some in E2. destruct E2 as [Ea Ht].
  subst after. rewrite (H p t post Ek Hp Ht). reflexivity.
Qed.

Lemma slice_incl k a b x : In x (slice k a b) -> In x k.
Proof.
  unfold slice. intros H. rewrite <- (firstn_skipn a k). apply in_or_app. right.
  rewrite <- (firstn_skipn (b - a) (skipn a k)). apply in_or_app. now left.
Qed.

Lemma hashtag_bytes k : Forall (fun b => b < 256) k -> Forall (fun b => b < 256) (hashtag k).
Proof.
  intros H. unfold hashtag.
  destruct (_ =? _)%nat; [exact H|].
  destruct (_ || _); [exact H|].
  rewrite Forall_forall in *. intros x Hx. eapply H, slice_incl, Hx.
Qed.

Theorem slot_eq_spec tab :
  table_ok tab -> forall k, Forall (fun b => b < 256) k -> slot tab k = slot_spec k.
Proof.
  intros T k Hk. unfold slot, slot_spec.
  rewrite land_16383, crc16_tab_bitwise by (auto using hashtag_bytes).
  now rewrite hashtag_eq_spec.
Qed.

Lemma slot_lt tab k : slot tab k < 16384.
Proof. unfold slot. rewrite land_16383. apply N.mod_lt. discriminate. Qed.

Lemma land_NoSlot_small x : x <= 16384 -> N.land x NoSlot =? NoSlot = false.
Proof.
  intros Hx. apply N.eqb_neq. intros E. apply (f_equal (fun n => N.testbit n 15)) in E.
  rewrite N.land_spec, (proj1 (lt_pow2_bits x 15)) in E; [discriminate|change (2 ^ 15) with 32768; lia|lia].
Qed.

Lemma land_lor_NoSlot x : N.land (N.lor NoSlot x) NoSlot = NoSlot.
Proof.
  apply N.bits_inj. intro m. rewrite N.land_spec, N.lor_spec.
  destruct (N.testbit NoSlot m), (N.testbit x m); reflexivity.
Qed.

Definition cluster_ks (ks : N) : Prop := ks = InitSlot \/ ks < 16384.

Lemma cluster_ks_small ks : cluster_ks ks -> N.land ks NoSlot =? NoSlot = false.
Proof. intros [->|H]; apply land_NoSlot_small; unfold InitSlot; lia. Qed.

Lemma check_all_cluster tab : forall keys ks r, ks_check_all tab ks keys = Ok r -> cluster_ks ks -> cluster_ks r.
Proof.
  induction keys as [|k keys IH]; intros ks r H Hc; cbn [ks_check_all] in H.
  - inversion H; subst; exact Hc.
  - unfold check in H. destruct ((ks =? InitSlot) || (ks =? slot tab k)); [|discriminate].
    eapply IH; [exact H|]. right. apply slot_lt.
Qed.

Lemma ks_check_all_app tab : forall l1 l2 ks,
  ks_check_all tab ks (l1 ++ l2) =
  match ks_check_all tab ks l1 with Ok ks' => ks_check_all tab ks' l2 | Err e => Err e | Panic => Panic end.
Proof.
  induction l1 as [|k l1 IH]; intros l2 ks; cbn [app ks_check_all]; [reflexivity|].
  destruct (check ks (slot tab k)); [apply IH|reflexivity|reflexivity].
Qed.

Lemma ks_run_app tab : forall l1 l2 ks,
  ks_run tab ks (l1 ++ l2) =
  match ks_run tab ks l1 with Ok ks' => ks_run tab ks' l2 | Err x => Err x | Panic => Panic end.
Proof.
  induction l1 as [|e l1 IH]; intros l2 ks; cbn [app ks_run]; [reflexivity|].
  destruct (ks_event tab ks e); [apply IH|reflexivity|reflexivity].
Qed.

Lemma cluster_run_flat tab : forall es ks, cluster_ks ks ->
  ks_run tab ks es = ks_check_all tab ks (all_keys es).
Proof.
  induction es as [|e es IH]; intros ks Hc; [reflexivity|].
  cbn [ks_run all_keys flat_map]. fold (all_keys es).
  rewrite ks_check_all_app.
  assert (He : ks_event tab ks e = ks_check_all tab ks (event_keys e)).
  { destruct e as [k|l]; cbn [ks_event event_keys].
    - unfold ks_key. rewrite cluster_ks_small by exact Hc. cbn [ks_check_all].
      now destruct (check ks (slot tab k)).
    - unfold ks_keys. now rewrite cluster_ks_small by exact Hc. }
  rewrite He.
  destruct (ks_check_all tab ks (event_keys e)) as [ks'| |] eqn:E; try reflexivity.
  apply IH. eapply check_all_cluster; eassumption.
Qed.

Lemma check_all_from_slot tab : forall keys s, s <> InitSlot ->
  (Forall (fun k => slot tab k = s) keys -> ks_check_all tab s keys = Ok s) /\
  (~ Forall (fun k => slot tab k = s) keys -> ks_check_all tab s keys = Panic).
Proof.
  induction keys as [|k keys IH]; intros s Hs; cbn [ks_check_all].
  - split; [reflexivity|]. intros H; exfalso; apply H; constructor.
  - unfold check. replace (s =? InitSlot) with false by (symmetry; now apply N.eqb_neq). cbn [orb].
    destruct (N.eqb_spec s (slot tab k)) as [E|E].
    + rewrite <- E. destruct (IH s Hs) as [A B]. split.
      * intros H. inversion H; subst. now apply A.
      * intros H. apply B. intro HF. apply H. constructor; [now symmetry|exact HF].
    + split; [|reflexivity]. intros H. inversion H; subst. congruence.
Qed.

Lemma slot_ne_Init tab k : slot tab k <> InitSlot.
Proof. pose proof (slot_lt tab k). unfold InitSlot. lia. Qed.

Lemma same_slot_cons tab k0 keys :
  same_slot tab (k0 :: keys) <-> Forall (fun k => slot tab k = slot tab k0) keys.
Proof.
  rewrite Forall_forall. split.
  - intros S k Hk. apply S; [now right|now left].
  - intros H k1 k2 [<-|H1] [<-|H2]; auto.
    + symmetry; auto.
    + now rewrite (H _ H1), (H _ H2).
Qed.

Lemma same_slot_dec tab keys : {same_slot tab keys} + {~ same_slot tab keys}.
Proof.
  destruct keys as [|k0 keys]; [left; intros ? ? []|].
  destruct (Forall_dec (fun k => slot tab k = slot tab k0) (fun k => N.eq_dec _ _) keys) as [H|H];
    [left|right]; now rewrite same_slot_cons.
Qed.

Theorem cluster_build tab es :
  (same_slot tab (all_keys es) ->
     ks_run tab InitSlot es = Ok (match all_keys es with [] => InitSlot | k :: _ => slot tab k end)) /\
  (~ same_slot tab (all_keys es) -> ks_run tab InitSlot es = Panic).
Proof.
  rewrite cluster_run_flat by (now left).
  destruct (all_keys es) as [|k0 keys]; cbn [ks_check_all].
  - split; [reflexivity|]. intros H; exfalso; apply H; intros ? ? [].
  - unfold check. rewrite N.eqb_refl, same_slot_cons. cbn [orb].
    exact (check_all_from_slot tab keys (slot tab k0) (slot_ne_Init tab k0)).
Qed.

Lemma deciding_key_some : forall es k, exists k', deciding_key es (Some k) = Some k'.
Proof.
  induction es as [|[k0|[|k0 l]] es IH]; intros k; cbn [deciding_key]; eauto.
Qed.

(** [noslot_build] over the accumulator of [deciding_key]: [ks] is the value the key in [acc] left *)
Lemma noslot_run_acc tab : forall es ks acc,
  N.land ks NoSlot = NoSlot ->
  (forall k, acc = Some k -> ks = N.lor NoSlot (slot tab k)) ->
  ks_run tab ks es = Ok (match deciding_key es acc with None => ks | Some k => N.lor NoSlot (slot tab k) end).
Proof.
  induction es as [|e es IH]; intros ks acc Hn Hacc; cbn [ks_run deciding_key].
  - destruct acc as [k|]; [now rewrite (Hacc k eq_refl)|reflexivity].
  - destruct e as [k|[|k l]]; cbn [ks_event]; unfold ks_key, ks_keys; rewrite Hn, N.eqb_refl.
    2: apply IH; assumption.
    all: rewrite (IH _ (Some k)); [|apply land_lor_NoSlot|intros k' E; now inversion E];
      destruct (deciding_key_some es k) as [k' ->]; reflexivity.
Qed.

Theorem noslot_build tab es :
  ks_run tab NoSlot es = Ok (match deciding_key es None with None => NoSlot | Some k => N.lor NoSlot (slot tab k) end).
Proof. apply (noslot_run_acc tab es NoSlot None); [reflexivity|discriminate]. Qed.
