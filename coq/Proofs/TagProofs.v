(** C32: a closed set of abstract states contains the abstraction of every concrete builder path;
    a rule checked on every state of such a set therefore holds for every completed command. *)
From Coq Require Import List Arith NArith Bool Lia FMapPositive.
Require Import RV.Model.Base RV.Model.Slot RV.Model.BuilderGraph RV.Model.BuilderSem RV.Model.BuilderChecks RV.Model.BuilderTags.
Require Import RV.Proofs.BytesProofs RV.Proofs.BuilderProofs.
Import ListNotations.
Open Scope N_scope.

Lemma astate_eqb_eq x y : astate_eqb x y = true -> x = y.
Proof.
  destruct x, y. unfold astate_eqb. cbn. rewrite !andb_true_iff, !N.eqb_eq, eqb_true_iff.
  now intros [[[-> ->] ->] ->].
Qed.

Lemma smem_In s m : smem s m = true -> exists l, In l m /\ In s l.
Proof.
  unfold smem. destruct (nth_error m (N.to_nat (a_node s))) as [l|] eqn:E; [|discriminate].
  intros H. apply existsb_exists in H. destruct H as (s' & Hin & Heq).
  apply astate_eqb_eq in Heq. subst s'. exists l. split; [eapply nth_error_In; eauto|exact Hin].
Qed.

Lemma closed_step g m s nd e :
  closedb g m = true -> smem s m = true -> get_node g (a_node s) = Some nd -> In e (n_edges nd) ->
  smem (astep s e) m = true.
Proof.
  intros Hc Hs Hn He. unfold closedb in Hc. apply andb_prop in Hc. destruct Hc as [_ Hc].
  destruct (smem_In s m Hs) as (l & Hl & Hsl).
  rewrite forallb_forall in Hc. specialize (Hc l Hl). rewrite forallb_forall in Hc. specialize (Hc s Hsl).
  rewrite Hn in Hc. rewrite forallb_forall in Hc. now apply Hc.
Qed.

Lemma closed_run g m : closedb g m = true -> forall ss s tr,
  smem s m = true -> resolve g (a_node s) ss = Some tr -> smem (arun s tr) m = true.
Proof.
  intros Hc. induction ss as [|[name args] ss IH]; intros s tr Hs Hr; cbn [resolve] in Hr.
  - inversion Hr; subst. exact Hs.
  - destruct (get_node g (a_node s)) as [nd|] eqn:En; [|discriminate].
    destruct (find_edge name (n_edges nd)) as [e|] eqn:Ee; [|discriminate].
    destruct (resolve g (e_tgt e) ss) as [tr'|] eqn:Er; [|discriminate].
    inversion Hr; subst. unfold arun. cbn [fold_left fst].
    apply (IH (astep s e) tr').
    + eapply closed_step; eauto. now apply (find_edge_In name).
    + exact Er.
Qed.

Lemma indexed_In {A} : forall (l : list A) i k x, nth_error l k = Some x -> In (i + N.of_nat k, x) (indexed i l).
Proof.
  induction l as [|y l IH]; intros i k x H; destruct k as [|k]; cbn in H; try discriminate.
  - inversion H; subst. cbn [indexed]. left. f_equal. cbn. lia.
  - cbn [indexed]. right. replace (i + N.of_nat (S k)) with (i + 1 + N.of_nat k) by lia. now apply IH.
Qed.

Lemma closed_root g m k r :
  closedb g m = true -> nth_error (g_roots g) k = Some r -> smem (ainit (N.of_nat k) r) m = true.
Proof.
  intros Hc Hk. unfold closedb in Hc. apply andb_prop in Hc. destruct Hc as [Hc _].
  rewrite forallb_forall in Hc.
  exact (Hc _ (indexed_In (g_roots g) 0 k r Hk)).
Qed.

Lemma arun_proj tr : forall s,
  a_root (arun s tr) = a_root s /\
  a_node (arun s tr) = fold_left (fun _ c => e_tgt (fst c)) tr (a_node s) /\
  a_cf (arun s tr) = fold_left (fun cf c => N.lor cf (e_cf (fst c))) tr (a_cf s) /\
  a_blk (arun s tr) = a_blk s || existsb (fun c => edge_blk (fst c)) tr.
Proof.
  unfold arun. induction tr as [|c tr IH]; intros s; cbn [fold_left existsb].
  - now rewrite orb_false_r.
  - destruct (IH (astep s (fst c))) as (A & B & C & D). rewrite A, B, C, D. cbn [astep a_root a_node a_cf a_blk].
    now rewrite orb_assoc.
Qed.

(** every concrete run from a root stays inside a closed set, and its abstraction agrees with it *)
Theorem run_in_closure g m tab fe init k r ss st :
  closedb g m = true -> nth_error (g_roots g) k = Some r ->
  exec_steps g tab fe (root_state r init) ss = Ok st ->
  exists tr, resolve g (r_node r) ss = Some tr /\
    smem (arun (ainit (N.of_nat k) r) tr) m = true /\
    a_root (arun (ainit (N.of_nat k) r) tr) = N.of_nat k /\
    a_node (arun (ainit (N.of_nat k) r) tr) = b_node st /\
    a_cf (arun (ainit (N.of_nat k) r) tr) = b_cf st /\
    a_blk (arun (ainit (N.of_nat k) r) tr) = existsb (fun c => edge_blk (fst c)) tr.
Proof.
  intros Hc Hk Hrun.
  destruct (exec_steps_spec _ _ _ _ _ _ Hrun) as (tr & Hr & _ & _ & _ & Hcf & Hn).
  cbn [root_state b_node b_cf] in Hr, Hcf, Hn.
  destruct (arun_proj tr (ainit (N.of_nat k) r)) as (A & B & C & D).
  exists tr. split; [exact Hr|].
  split; [exact (closed_run g m Hc ss _ tr (closed_root g m k r Hc Hk) Hr)|].
  rewrite A, B, C, D, Hcf, Hn. repeat split.
Qed.

Lemma In_dedup_bytes x : forall l, In x l -> in_list (dedup_bytes l) x = true.
Proof.
  unfold in_list. induction l as [|y l IH]; intros H; [destruct H|]. cbn [dedup_bytes].
  destruct (existsb (bytes_eqb y) l) eqn:E; destruct H as [->|H]; cbn [existsb]; auto.
  - apply existsb_exists in E. destruct E as (z & Hz & E). apply bytes_eqb_eq in E. subst z. auto.
  - now rewrite bytes_eqb_refl.
  - rewrite IH by exact H. apply orb_true_r.
Qed.

(** Main lemma: a completed command obeys a rule unless its command is one of the rule's [offenders] in a
    closed set. *)
Theorem completed_obeys g tg m rl tab fe init k r ss st t c :
  closedb g m = true ->
  nth_error (g_roots g) k = Some r ->
  exec_steps g tab fe (root_state r init) ss = Ok st ->
  finish g st t = Ok c ->
  exists tr nd, resolve g (r_node r) ss = Some tr /\ get_node g (b_node st) = Some nd /\
    (in_list (offenders tg g rl m) (cmd_name r) = true \/
     rule_ok tg rl (cmd_name r) nd (c_cf c) (existsb (fun x => edge_blk (fst x)) tr) = true).
Proof.
  intros Hc Hk Hrun Hfin.
  destruct (run_in_closure g m tab fe init k r ss st Hc Hk Hrun) as (tr & Hr & Hmem & A & B & C & D).
  destruct (smem_In _ _ Hmem) as (l & Hl & Hsl).
  unfold finish in Hfin.
  destruct (get_node g (b_node st)) as [nd|] eqn:En; [|discriminate].
  destruct (offers nd t) eqn:Eo; [|discriminate].
  inversion Hfin; subst c. cbn [c_cf].
  exists tr, nd. split; [exact Hr|]. split; [reflexivity|].
  assert (Hcomp : completes nd = true).
  { unfold completes. destruct t; cbn [offers] in Eo; rewrite Eo; [reflexivity|apply orb_true_r]. }
  destruct (state_ok tg g rl (arun (ainit (N.of_nat k) r) tr)) eqn:Hok.
  - right. unfold state_ok in Hok. now rewrite A, B, C, D, Nat2N.id, Hk, En, Hcomp in Hok.
  - left. apply In_dedup_bytes. apply in_flat_map. exists l. split; [exact Hl|].
    apply in_flat_map. eexists. split; [exact Hsl|]. rewrite Hok, A, Nat2N.id, Hk. now left.
Qed.

(** [closedb] and [offenders] find the node, the root and the bucket of every state by [nth_error] at [N.to_nat]
    of an index, which is linear in the index, and [cmd_name] divides by 256 for every byte.  The checkers are
    evaluated by [vm_compute] when BuilderGenProofs.v is compiled and again by the kernel's lazy reduction when
    coqchk re-checks it; it is the second that is slow on a graph of a few thousand nodes.  [check_tab] computes both
    with the three lists loaded into binary tries once, and with [unpack] done by shifts. *)

Fixpoint tab_from {A} (k : N) (l : list A) : PositiveMap.t A :=
  match l with
  | [] => PositiveMap.empty A
  | x :: r => PositiveMap.add (N.succ_pos k) x (tab_from (k + 1) r)
  end.
Definition tab_get {A} (t : PositiveMap.t A) (i : N) : option A := PositiveMap.find (N.succ_pos i) t.

Lemma tab_from_get {A} (l : list A) : forall k n, tab_get (tab_from k l) (k + N.of_nat n) = nth_error l n.
Proof.
  unfold tab_get. induction l as [|x l IH]; intros k n; cbn [tab_from].
  - rewrite PositiveMap.gempty. now destruct n.
  - destruct n as [|n]; cbn [nth_error].
    + rewrite N.add_0_r. apply PositiveMap.gss.
    + rewrite PositiveMap.gso.
      * replace (k + N.of_nat (S n)) with (k + 1 + N.of_nat n) by lia. apply IH.
      * intros H. apply (f_equal N.pos) in H. rewrite !N.succ_pos_spec in H. lia.
Qed.

Lemma tab_get_from0 {A} (l : list A) i : tab_get (tab_from 0 l) i = nth_error l (N.to_nat i).
Proof. rewrite <- (N2Nat.id i) at 1. apply (tab_from_get l 0). Qed.

Fixpoint unpack_sh_aux (fuel : nat) (n : N) (acc : bytes) : bytes :=
  match fuel with
  | O => acc
  | S f => if n <=? 1 then acc else unpack_sh_aux f (N.shiftr n 8) (N.land n 255 :: acc)
  end.
Definition cmd_name_sh (r : root) : bytes :=
  join_sp (map (fun n => unpack_sh_aux (N.size_nat n) n []) (r_toks r)).

Lemma unpack_sh_aux_eq fuel : forall n acc, unpack_sh_aux fuel n acc = unpack_aux fuel n acc.
Proof.
  induction fuel as [|f IH]; intros n acc; cbn [unpack_aux unpack_sh_aux]; [reflexivity|].
  rewrite IH. change 255 with (N.ones 8). now rewrite N.shiftr_div_pow2, N.land_ones.
Qed.

Lemma cmd_name_sh_eq r : cmd_name_sh r = cmd_name r.
Proof. unfold cmd_name_sh, cmd_name. f_equal. apply map_ext. intros n. apply unpack_sh_aux_eq. Qed.

Lemma forallb_ext {A} (f f' : A -> bool) : (forall x, f x = f' x) -> forall l, forallb f l = forallb f' l.
Proof. intros H l. induction l as [|x l IH]; cbn [forallb]; [reflexivity|]. now rewrite H, IH. Qed.

(** [closedb g m] and the [offenders] of the rules [rls], with the tables bound once for all of them *)
Definition check_tab (tg : tagset) (g : graph) (m : aset) (rls : list rule) : bool * list (list bytes) :=
  let nodeof := tab_get (tab_from 0 (g_nodes g)) in
  let cmdof := tab_get (tab_from 0 (map cmd_name_sh (g_roots g))) in
  let bucket := tab_get (tab_from 0 m) in
  let mem s := match bucket (a_node s) with Some l => existsb (astate_eqb s) l | None => false end in
  let ok rl s :=
    match cmdof (a_root s), nodeof (a_node s) with
    | Some c, Some nd => negb (completes nd) || rule_ok tg rl c nd (a_cf s) (a_blk s)
    | _, _ => false
    end in
  (forallb (fun ir => mem (ainit (fst ir) (snd ir))) (indexed 0 (g_roots g))
   && forallb (forallb (fun s =>
        match nodeof (a_node s) with
        | Some nd => forallb (fun e => mem (astep s e)) (n_edges nd)
        | None => false
        end)) m,
   map (fun rl => dedup_bytes (flat_map (flat_map (fun s =>
          if ok rl s then [] else match cmdof (a_root s) with Some c => [c] | None => [[]] end)) m)) rls).

Theorem check_tab_eq tg g m rls :
  check_tab tg g m rls = (closedb g m, map (fun rl => offenders tg g rl m) rls).
Proof.
  assert (Hmem : forall s, match tab_get (tab_from 0 m) (a_node s) with
                           | Some l => existsb (astate_eqb s) l | None => false end = smem s m).
  { intros s. unfold smem. now rewrite tab_get_from0. }
  assert (Hcmd : forall i, tab_get (tab_from 0 (map cmd_name_sh (g_roots g))) i
                           = option_map cmd_name (nth_error (g_roots g) (N.to_nat i))).
  { intros i. rewrite tab_get_from0, nth_error_map. destruct (nth_error _ _); cbn; [|reflexivity]. now rewrite cmd_name_sh_eq. }
  unfold check_tab, closedb, offenders. cbv zeta. f_equal; [f_equal|apply map_ext; intros rl; f_equal].
  - apply forallb_ext. intros ir. apply Hmem.
  - apply forallb_ext. intros l. apply forallb_ext. intros s. rewrite tab_get_from0. fold (get_node g (a_node s)).
    destruct (get_node g (a_node s)); [|reflexivity]. apply forallb_ext. intros e. apply Hmem.
  - apply flat_map_ext. intros l. apply flat_map_ext. intros s.
    unfold state_ok, get_node. rewrite Hcmd, tab_get_from0.
    now destruct (nth_error (g_roots g) (N.to_nat (a_root s))).
Qed.
