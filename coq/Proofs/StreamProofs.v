(** Proofs about Model/Stream.v (the recycling half of C29). *)
From Coq Require Import String List Arith NArith ZArith Bool Lia.
Require Import RV.Model.Base RV.Model.PsBase RV.Model.Stream RV.Proofs.PsListProofs.
Import ListNotations.
Open Scope N_scope.
Open Scope list_scope.

Definition proj (r : sres) : N * option serr := (sr_n r, sr_err r).

(** all replies clean: one WriteTo per command, each consuming exactly one reply, then io.EOF and one Store *)
Lemma drain_clean : forall n rs fuel w,
  (0 < n)%nat -> (n <= length rs)%nat -> (n < fuel)%nat -> forallb sr_clean (firstn n rs) = true ->
  drain fuel (mkStream n None w) rs = (mkStream 0 (Some EEOF) w, map proj (firstn n rs), [PStore], skipn n rs).
Proof.
  induction n as [|n IH]; intros rs fuel w Hn Hl Hf Hc; [lia|].
  destruct fuel as [|fuel]; [lia|]. destruct rs as [|r rs]; [cbn in Hl; lia|].
  cbn [firstn forallb] in Hc. apply andb_prop in Hc. destruct Hc as [Hr Hc].
  cbn [drain has_next st_n st_e Nat.eqb negb andb].
  unfold write_to. cbn [st_e st_n st_wire Nat.eqb]. rewrite Hr. cbn [Nat.sub].
  rewrite Nat.sub_0_r. destruct n as [|n].
  - cbn [Nat.eqb]. destruct fuel as [|fuel]; cbn; reflexivity.
  - cbn [Nat.eqb]. rewrite (IH rs fuel w); [reflexivity|lia|cbn in Hl; lia|lia|exact Hc].
Qed.

(** the first unclean reply ends the stream: the wire is closed, then stored *)
Lemma drain_unclean : forall k n rs fuel w r e,
  (k < n)%nat -> (n < fuel)%nat -> nth_error rs k = Some r -> sr_clean r = false -> sr_err r = Some e ->
  forallb sr_clean (firstn k rs) = true ->
  drain fuel (mkStream n None w) rs = (mkStream 0 (Some e) w, map proj (firstn (S k) rs), [PClose; PStore], skipn (S k) rs).
Proof.
  induction k as [|k IH]; intros n rs fuel w r e Hk Hf Hr Hcl He Hc.
  - destruct rs as [|r0 rs]; [discriminate|]. cbn in Hr. injection Hr as ->.
    destruct fuel as [|fuel]; [lia|]. destruct n as [|n]; [lia|].
    cbn [drain has_next st_n st_e Nat.eqb negb andb]. unfold write_to. cbn [st_e st_n st_wire Nat.eqb].
    rewrite Hcl, He. cbn [Nat.sub Nat.eqb]. destruct fuel; cbn; unfold proj; rewrite ?He; reflexivity.
  - destruct rs as [|r0 rs]; [discriminate|]. cbn in Hr.
    cbn [firstn forallb] in Hc. apply andb_prop in Hc. destruct Hc as [Hr0 Hc].
    destruct fuel as [|fuel]; [lia|]. destruct n as [|n]; [lia|].
    cbn [drain has_next st_n st_e Nat.eqb negb andb]. unfold write_to. cbn [st_e st_n st_wire Nat.eqb].
    rewrite Hr0. cbn [Nat.sub]. rewrite Nat.sub_0_r. destruct n as [|n]; [lia|]. cbn [Nat.eqb].
    rewrite (IH (S n) rs fuel w r e); auto; lia.
Qed.

(** a finished stream (or an error stream) does nothing *)
Lemma drain_done : forall fuel s rs, has_next s = false -> drain fuel s rs = (s, [], [], rs).
Proof. intros [|fuel] s rs H; cbn; [reflexivity|]. rewrite H. reflexivity. Qed.

Lemma write_to_done : forall s r, has_next s = false -> exists out, write_to s r = (s, out, false, []).
Proof.
  intros s r H. unfold write_to, has_next in *. destruct (st_e s); [eauto|].
  destruct (st_n s =? 0)%nat; [eauto|discriminate].
Qed.

(** nil and error replies: reported for that reply only; the stream goes on, nothing is closed *)
Lemma write_to_clean_err : forall n w r, (1 < n)%nat -> sr_clean r = true ->
  write_to (mkStream n None w) r = (mkStream (n - 1) None w, (sr_n r, sr_err r), true, []).
Proof.
  intros n w r Hn Hc. unfold write_to. cbn [st_e st_n st_wire]. destruct n as [|[|n]]; try lia.
  cbn [Nat.eqb]. rewrite Hc. cbn. reflexivity.
Qed.

Lemma count_store_app : forall a b, count_store (a ++ b) = (count_store a + count_store b)%nat.
Proof. intros. unfold count_store. rewrite filter_app, app_length. reflexivity. Qed.

(** index of the first unclean reply of the list *)
Fixpoint first_unclean (rs : list sres) : option nat :=
  match rs with
  | [] => None
  | r :: rest => if sr_clean r then option_map S (first_unclean rest) else Some O
  end.

Lemma first_unclean_none : forall rs, first_unclean rs = None -> forallb sr_clean rs = true.
Proof.
  induction rs as [|r rs IH]; cbn; [reflexivity|]. destruct (sr_clean r); [|discriminate].
  destruct (first_unclean rs); [discriminate|]. intros _. apply IH. reflexivity.
Qed.

Lemma first_unclean_some : forall rs k, first_unclean rs = Some k ->
  exists r, nth_error rs k = Some r /\ sr_clean r = false /\ forallb sr_clean (firstn k rs) = true.
Proof.
  induction rs as [|r rs IH]; intros k H; [discriminate|]. cbn in H. destruct (sr_clean r) eqn:E.
  - destruct (first_unclean rs) as [j|] eqn:F; [|discriminate]. injection H as <-.
    destruct (IH j eq_refl) as [x [A [B C]]]. exists x. cbn. rewrite E. auto.
  - injection H as <-. exists r. cbn. auto.
Qed.

Lemma first_unclean_lt : forall rs k, first_unclean rs = Some k -> (k < length rs)%nat.
Proof.
  intros rs k H. destruct (first_unclean_some rs k H) as [r [A _]]. apply nth_error_Some. congruence.
Qed.

(** store exactly once, after the last reply read, closed first iff a reply was not clean *)
Theorem store_once : forall n rs w,
  (0 < n)%nat -> (n <= length rs)%nat -> forallb sres_wf rs = true ->
  let '(s', outs, evs, rem) := drain (S (length rs)) (mkStream n None w) rs in
  count_store evs = 1%nat /\ has_next s' = false /\
  match first_unclean (firstn n rs) with
  | None => evs = [PStore] /\ length outs = n /\ st_e s' = Some EEOF
  | Some k => evs = [PClose; PStore] /\ length outs = S k
  end /\
  outs = map proj (firstn (length outs) rs) /\ rem = skipn (length outs) rs.
Proof.
  intros n rs w Hn Hl Hwf. destruct (first_unclean (firstn n rs)) as [k|] eqn:F.
  - destruct (first_unclean_some _ _ F) as [r [A [B C]]].
    pose proof (first_unclean_lt _ _ F) as Hk. rewrite firstn_length in Hk.
    assert (Hkn : (k < n)%nat) by lia.
    rewrite nth_error_firstn in A by exact Hkn. rewrite firstn_firstn, Nat.min_l in C by lia.
    assert (He : exists e, sr_err r = Some e).
    { rewrite forallb_forall in Hwf. specialize (Hwf r (nth_error_In _ _ A)). unfold sres_wf in Hwf. rewrite B in Hwf. cbn in Hwf.
      destruct (sr_err r); [eauto|discriminate]. }
    destruct He as [e He].
    rewrite (drain_unclean k n rs (S (length rs)) w r e Hkn ltac:(lia) A B He C).
    assert (Hlen : length (map proj (firstn (S k) rs)) = S k) by (rewrite map_length, firstn_length; lia).
    rewrite Hlen. repeat split; reflexivity.
  - pose proof (first_unclean_none _ F) as C.
    rewrite (drain_clean n rs (S (length rs)) w Hn Hl ltac:(lia) C).
    assert (Hlen : length (map proj (firstn n rs)) = n) by (rewrite map_length, firstn_length; lia).
    rewrite Hlen. repeat split; reflexivity.
Qed.

Lemma do_stream_cases : forall c,
  (c_ctx_done c = true /\ do_stream c = Ok (mkStream 0 (Some ECtxDone) false, [PStore], false)) \/
  (c_ctx_done c = false /\ c_state c = 1 /\ do_stream c = Panic) \/
  (c_ctx_done c = false /\ c_state c = 0 /\ c_flush_ok c = true /\ do_stream c = Ok (mkStream (c_ncmd c) None true, [], false)) \/
  (c_ctx_done c = false /\ c_state c = 0 /\ c_flush_ok c = false /\ do_stream c = Ok (mkStream 0 (Some EPipe) false, [PClose; PStore], false)) \/
  (c_ctx_done c = false /\ c_state c <> 0 /\ c_state c <> 1 /\ do_stream c = Ok (mkStream 0 (Some EPipe) false, [PStore], false)).
Proof.
  intros c. unfold do_stream, do_stream_gen. destruct (c_ctx_done c); [left; auto|right].
  destruct (c_state c =? 1) eqn:E1; [left; apply N.eqb_eq in E1; auto|right].
  destruct (c_state c =? 0) eqn:E0.
  - apply N.eqb_eq in E0. destruct (c_flush_ok c); [left|right; left]; auto.
  - right; right. apply N.eqb_neq in E0, E1. auto.
Qed.

(** the paths of a call that returns a stream, with what they do to the pool: the early return on a done context;
    a healthy pipe, flushed (then the drained stream decides) or not; a pipe that is closing *)
Lemma lifetime_cases : forall c rs outs evs leak,
  (0 < c_ncmd c)%nat -> (c_ncmd c <= length rs)%nat -> forallb sres_wf rs = true ->
  lifetime c rs = Ok (outs, evs, leak) ->
  leak = false /\
  ((c_ctx_done c = true /\ outs = [] /\ evs = [PStore]) \/
   (c_ctx_done c = false /\ c_state c = 0 /\
    evs = if c_flush_ok c
          then match first_unclean (firstn (c_ncmd c) rs) with None => [PStore] | Some _ => [PClose; PStore] end
          else [PClose; PStore]) \/
   (c_ctx_done c = false /\ c_state c <> 0 /\ evs = [PStore])).
Proof.
  intros c rs outs evs leak Hn Hl Hwf H. unfold lifetime, lifetime_gen in H. fold (do_stream c) in H.
  destruct (do_stream_cases c) as [[Hc E]|[[Hc [_ E]]|[[Hc [H0 [Hf E]]]|[[Hc [H0 [Hf E]]]|[Hc [H0 [_ E]]]]]]];
    rewrite E in H; try discriminate.
  - rewrite drain_done in H by reflexivity. injection H as <- <- <-. auto.
  - pose proof (store_once (c_ncmd c) rs true Hn Hl Hwf) as HS.
    destruct (drain (S (length rs)) (mkStream (c_ncmd c) None true) rs) as [[[s' o] e] rem]. injection H as <- <- <-.
    destruct HS as [_ [_ [HS _]]]. split; [reflexivity|]. right; left. rewrite Hf. repeat split; auto.
    destruct (first_unclean (firstn (c_ncmd c) rs)); destruct HS as [-> _]; reflexivity.
  - rewrite drain_done in H by reflexivity. injection H as <- <- <-. rewrite Hf. auto 7.
  - rewrite drain_done in H by reflexivity. injection H as <- <- <-. auto 7.
Qed.

(** the connection goes back to the idle list exactly when it is still good: no error latched, and either nothing was
    sent (done context) or everything was flushed and every reply read was consumed cleanly *)
Definition recycled (c : call) (rs : list sres) : bool :=
  negb (wire_err c) &&
  (c_ctx_done c || (c_flush_ok c && match first_unclean (firstn (c_ncmd c) rs) with None => true | Some _ => false end)).

(** [lifetime_orig]: the call without the Store on the done-context return *)
Lemma lifetime_orig_ctx_done : forall c rs, c_ctx_done c = true -> lifetime_orig c rs = Ok ([], [], c_real c).
Proof.
  intros c rs H. unfold lifetime_orig, lifetime_gen, do_stream_gen. rewrite H. rewrite drain_done by reflexivity. reflexivity.
Qed.
