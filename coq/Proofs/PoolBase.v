(** List lemmas, the specification of [eval], and the two case analyses every invariant proof
    starts from: what an evaluation of [Acquire] does ([aeval]) and what one step does ([pstep]). *)
From Coq Require Import List NArith ZArith Bool Arith Lia.
Require Import RV.Model.Base RV.Model.Pool.
Import ListNotations.
Open Scope Z_scope.

(** in the goal, computes every field projection applied to an updated state, e.g. [idle (upd_wires s ...)],
    and unfolds nothing else *)
Ltac pst := cbn [size idle down timer_on tarmed mutex parked woken making exiting entered cancellable armed
                ctxdone bpend held broken nostop used sigs cbc dstores
                upd_threads upd_wires upd_misc set_eval hand_out set_mutex add_making].

Notation cnt := (count_occ Nat.eq_dec).

Lemma memb_In : forall x l, memb x l = true <-> In x l.
Proof.
  intros x l. induction l as [|y r IH]; cbn [memb In].
  - split; [discriminate|tauto].
  - rewrite orb_true_iff, IH, Nat.eqb_eq. split; intros [H|H]; auto.
Qed.

Lemma memb_false_In : forall x l, memb x l = false <-> ~ In x l.
Proof.
  intros x l. rewrite <- memb_In. destruct (memb x l); split; intro H; try discriminate; try reflexivity.
  - exfalso. apply H. reflexivity.
Qed.

Lemma remove1_length : forall x l, In x l -> S (length (remove1 x l)) = length l.
Proof.
  intros x l. rewrite <- memb_In. induction l as [|y r IH]; cbn [memb remove1 length]; [discriminate|].
  intro H. destruct (Nat.eqb x y) eqn:E; [reflexivity|].
  cbn [orb] in H. cbn [length]. rewrite (IH H). reflexivity.
Qed.

Lemma remove1_In : forall x y l, In y (remove1 x l) -> In y l.
Proof.
  intros x y l. induction l as [|z r IH]; cbn [remove1 In]; [tauto|].
  destruct (Nat.eqb x z); cbn [In]; intros H; [right; exact H|].
  destruct H as [H|H]; [left; exact H|right; apply IH; exact H].
Qed.

Lemma remove1_In_other : forall x y l, y <> x -> In y l -> In y (remove1 x l).
Proof.
  intros x y l Hn. induction l as [|z r IH]; cbn [remove1 In]; [tauto|].
  intros [H|H].
  - subst z. destruct (Nat.eqb x y) eqn:E; [apply Nat.eqb_eq in E; congruence|left; reflexivity].
  - destruct (Nat.eqb x z); [exact H|right; apply IH; exact H].
Qed.

Lemma wire_eqb_eq : forall a b, wire_eqb a b = true <-> a = b.
Proof.
  intros a b. destruct a, b; cbn [wire_eqb]; try (split; [discriminate|congruence]); try (split; reflexivity).
  rewrite Nat.eqb_eq. split; congruence.
Qed.

Lemma wmemb_In : forall x l, wmemb x l = true <-> In x l.
Proof.
  intros x l. induction l as [|y r IH]; cbn [wmemb In].
  - split; [discriminate|tauto].
  - rewrite orb_true_iff, IH, wire_eqb_eq. split; intros [H|H]; auto.
Qed.

Lemma count_counted_remove : forall w l, In w l ->
  (count_counted (wremove1 w l) + (if counted w then 1 else 0) = count_counted l)%nat.
Proof.
  intros w l. rewrite <- wmemb_In. induction l as [|y r IH]; cbn [wmemb wremove1 count_counted]; [discriminate|].
  intro H. destruct (wire_eqb w y) eqn:E.
  - apply wire_eqb_eq in E. subst y. lia.
  - cbn [orb] in H. cbn [count_counted]. specialize (IH H). lia.
Qed.

Fixpoint count_ctxdead (l : list wire) : nat :=
  match l with [] => O | CtxDead :: r => S (count_ctxdead r) | _ :: r => count_ctxdead r end.

Lemma count_ctxdead_remove : forall w l, In w l ->
  (count_ctxdead (wremove1 w l) + (if wire_eqb w CtxDead then 1 else 0) = count_ctxdead l)%nat.
Proof.
  intros w l. rewrite <- wmemb_In. induction l as [|y r IH]; cbn [wmemb wremove1 count_ctxdead]; [discriminate|].
  intro H. destruct (wire_eqb w y) eqn:E.
  - apply wire_eqb_eq in E. subst y. destruct w; cbn [wire_eqb count_ctxdead]; lia.
  - cbn [orb] in H. specialize (IH H). destruct y; cbn [count_ctxdead]; lia.
Qed.

Lemma wremove1_In : forall w x l, In x (wremove1 w l) -> In x l.
Proof.
  intros w x l. induction l as [|y r IH]; cbn [wremove1 In]; [tauto|].
  destruct (wire_eqb w y); cbn [In]; intros H; [right; exact H|].
  destruct H as [H|H]; [left; exact H|right; apply IH; exact H].
Qed.

Lemma real_ids_In : forall id l, In id (real_ids l) <-> In (Real id) l.
Proof.
  intros id l. induction l as [|y r IH]; cbn [real_ids In]; [tauto|].
  destruct y; cbn [In]; rewrite IH; intuition congruence.
Qed.

Lemma real_ids_remove_real : forall id l, NoDup (real_ids l) -> In (Real id) l ->
  ~ In id (real_ids (wremove1 (Real id) l)) /\
  (forall x, In x (real_ids (wremove1 (Real id) l)) -> In x (real_ids l)) /\
  NoDup (real_ids (wremove1 (Real id) l)).
Proof.
  intros id l. induction l as [|y r IH]; cbn [real_ids wremove1 In]; [tauto|].
  intros Hnd Hin. destruct (wire_eqb (Real id) y) eqn:E.
  - apply wire_eqb_eq in E. subst y. cbn [real_ids] in Hnd. inversion Hnd as [|a b Hni Hnd']; subst.
    split; [exact Hni|]. split; [intros x Hx; cbn [real_ids In]; right; exact Hx|exact Hnd'].
  - destruct Hin as [Hin|Hin]; [subst y; rewrite (proj2 (wire_eqb_eq _ _) eq_refl) in E; discriminate|].
    destruct y as [j| | |]; cbn [real_ids] in *.
    + inversion Hnd as [|a b Hni Hnd']; subst. destruct (IH Hnd' Hin) as (H1 & H2 & H3).
      assert (Hj : j <> id). { intro; subst j. cbn [wire_eqb] in E. rewrite Nat.eqb_refl in E. discriminate. }
      split; [cbn [In]; intros [H|H]; [congruence|tauto]|].
      split; [intros x [Hx|Hx]; [left; exact Hx|right; apply H2; exact Hx]|].
      constructor; [intro H; apply Hni; apply H2; exact H|exact H3].
    + apply IH; assumption.
    + apply IH; assumption.
    + apply IH; assumption.
Qed.

Lemma real_ids_remove_other : forall w l, (forall id, w <> Real id) -> real_ids (wremove1 w l) = real_ids l.
Proof.
  intros w l Hw. induction l as [|y r IH]; cbn [wremove1 real_ids]; [reflexivity|].
  destruct (wire_eqb w y) eqn:E.
  - apply wire_eqb_eq in E. subst y. destruct w; try reflexivity. exfalso. eapply Hw. reflexivity.
  - destruct y; cbn [real_ids]; rewrite IH; reflexivity.
Qed.

Definition ogot (o : outcome) : list nat := match o with OGot id => [id] | _ => [] end.

Lemma eval_spec : forall cfg dn cd brk ns l sz o l' sz' cl,
  eval cfg dn cd brk ns l sz = (o, l', sz', cl) ->
  l = cl ++ ogot o ++ l' /\
  sz' = sz - Z.of_nat (length cl) + (match o with OMake => 1 | _ => 0 end) /\
  (dn = true \/ cd = true -> cl = []) /\
  match o with
  | OPark => l' = [] /\ sz' = cap cfg /\ dn = false /\ cd = false
  | OCtxDead => cd = true
  | ODown => dn = true /\ cd = false
  | OMake => l' = [] /\ dn = false /\ cd = false /\ sz - Z.of_nat (length cl) <> cap cfg
  | OGot id => dn = false /\ cd = false /\ memb id ns = false /\ memb id brk = false
  end.
Proof.
  intros cfg dn cd brk ns l. induction l as [|w r IH]; intros sz o l' sz' cl H; cbn [eval] in H.
  - destruct cd, dn, (sz =? cap cfg) eqn:E; injection H as <- <- <- <-; cbn [ogot app length];
      rewrite ?Z.eqb_eq, ?Z.eqb_neq in E; repeat split; try reflexivity; try lia; intros [X|X]; discriminate.
  - destruct cd, dn; try (injection H as <- <- <- <-; cbn [ogot app length]; repeat split; try reflexivity; lia).
    destruct (memb w ns || memb w brk) eqn:E.
    + (* [w] is dropped *)
      destruct (eval cfg false false brk ns r (sz - 1)) as [[[o1 l1] sz1] cl1] eqn:E1.
      injection H as <- <- <- <-. destruct (IH _ _ _ _ _ E1) as (I1 & I2 & I3 & I4).
      split; [cbn [app]; rewrite I1; reflexivity|].
      split; [cbn [length]; lia|].
      split; [intros [X|X]; discriminate|].
      destruct o1; try exact I4.
      destruct I4 as (J1 & J2 & J3 & J4). repeat split; try assumption. cbn [length]. lia.
    + injection H as <- <- <- <-. cbn [ogot app length]. apply orb_false_iff in E. destruct E as [E2 E3].
      repeat split; try reflexivity; try lia; try assumption; intros [X|X]; discriminate.
Qed.

(** The five ways [acquire_eval] ends.  Broken and expired idle wires are popped first; a caller parks
    or dials only when that emptied the stack. *)
Inductive aeval (cfg : config) (t : tid) (s : state) : state -> Prop :=
| AE_park : size s - Z.of_nat (length (idle s)) = cap cfg -> down s = false -> ~ In t (ctxdone s) ->
    aeval cfg t s (set_mutex (Some t) (set_eval s [] (cap cfg) (idle s)))
| AE_ctx : In t (ctxdone s) -> aeval cfg t s (hand_out t CtxDead s)
| AE_down : down s = true -> ~ In t (ctxdone s) -> aeval cfg t s (hand_out t DeadDown s)
| AE_make : size s - Z.of_nat (length (idle s)) <> cap cfg -> down s = false -> ~ In t (ctxdone s) ->
    aeval cfg t s (add_making t (set_eval s [] (size s - Z.of_nat (length (idle s)) + 1) (idle s)))
| AE_got cl id l' : idle s = cl ++ id :: l' -> down s = false -> ~ In t (ctxdone s) ->
    ~ In id (nostop s) -> ~ In id (broken s) ->
    aeval cfg t s (hand_out t (Real id) (set_eval s l' (size s - Z.of_nat (length cl)) cl)).

Lemma acquire_eval_spec : forall cfg t s, aeval cfg t s (acquire_eval cfg t s).
Proof.
  intros cfg t s. unfold acquire_eval.
  destruct (eval cfg (down s) (memb t (ctxdone s)) (broken s) (nostop s) (idle s) (size s)) as [[[o l'] sz'] cl] eqn:E.
  apply eval_spec in E. destruct E as (E1 & E2 & E3 & E4).
  destruct o; cbn [ogot app] in E1.
  - destruct E4 as (-> & -> & F3 & F4). rewrite app_nil_r in E1. subst cl. apply memb_false_In in F4.
    apply AE_park; [lia|assumption|assumption].
  - rewrite (E3 (or_intror E4)) in *. cbn [app length] in *. subst l'. replace sz' with (size s) by lia.
    apply memb_In in E4. exact (AE_ctx cfg t s E4).
  - destruct E4 as [F1 F2]. rewrite (E3 (or_introl F1)) in *. cbn [app length] in *. subst l'.
    replace sz' with (size s) by lia. apply memb_false_In in F2. exact (AE_down cfg t s F1 F2).
  - destruct E4 as (-> & F2 & F3 & F4). rewrite app_nil_r in E1. subst cl sz'. apply memb_false_In in F3.
    apply AE_make; assumption.
  - destruct E4 as (F1 & F2 & F3 & F4). replace sz' with (size s - Z.of_nat (length cl)) by lia.
    apply memb_false_In in F2, F3, F4. apply AE_got; assumption.
Qed.

(** [lstep] with its guards read as propositions and its successor states written out, one
    constructor for every way a step is enabled. *)
Inductive pstep (cfg : config) (s : state) : label -> state -> Prop :=
| PS_AcqEnter t c : mutex s = None -> ~ In t (entered s) -> (c = true \/ ~ In t (ctxdone s)) ->
    pstep cfg s (AcqEnter t c)
      (acquire_eval cfg t
         (upd_threads s (parked s) (woken s) (making s) (exiting s) (t :: entered s)
            (if c then t :: cancellable s else cancellable s)
            (if full cfg s && negb (down s) && negb (memb t (ctxdone s)) && c then t :: armed s else armed s)
            (ctxdone s) (bpend s)))
| PS_AcqPark t : mutex s = Some t ->
    pstep cfg s (AcqPark t)
      (set_mutex None (upd_threads s (parked s ++ [t]) (woken s) (making s) (exiting s) (entered s)
                         (cancellable s) (armed s) (ctxdone s) (bpend s)))
| PS_AcqWake t : mutex s = None -> In t (woken s) ->
    pstep cfg s (AcqWake t)
      (acquire_eval cfg t
         (upd_threads s (parked s) (remove1 t (woken s)) (making s) (exiting s) (entered s)
            (cancellable s) (armed s) (ctxdone s) (bpend s)))
| PS_MakeOk t id brk : In t (making s) -> ~ In id (used s) ->
    pstep cfg s (MakeOk t (Some id) brk)
      (upd_wires (upd_threads s (parked s) (woken s) (remove1 t (making s)) (t :: exiting s) (entered s)
                    (cancellable s) (armed s) (ctxdone s) (bpend s))
         (size s) (idle s) (Real id :: held s) (if brk then id :: broken s else broken s) (nostop s) (id :: used s))
| PS_MakeDead t brk : In t (making s) ->
    pstep cfg s (MakeOk t None brk)
      (upd_wires (upd_threads s (parked s) (woken s) (remove1 t (making s)) (t :: exiting s) (entered s)
                    (cancellable s) (armed s) (ctxdone s) (bpend s))
         (size s) (idle s) (DeadMade :: held s) (broken s) (nostop s) (used s))
| PS_MakeBad t id : mutex s = None -> In t (making s) -> ~ In id (used s) ->
    pstep cfg s (MakeBad t id)
      (acquire_eval cfg t
         (upd_wires (upd_threads s (parked s) (woken s) (remove1 t (making s)) (exiting s) (entered s)
                       (cancellable s) (armed s) (ctxdone s) (bpend s))
            (size s - 1) (idle s) (held s) (id :: broken s) (id :: nostop s) (id :: used s)))
| PS_AcqReturn t : In t (exiting s) ->
    pstep cfg s (AcqReturn t)
      (upd_threads s (parked s) (woken s) (making s) (remove1 t (exiting s)) (entered s)
         (cancellable s) (remove1 t (armed s)) (ctxdone s) (bpend s))
| PS_CtxCancel t : ~ In t (ctxdone s) -> (~ In t (entered s) \/ In t (cancellable s)) ->
    pstep cfg s (CtxCancel t)
      (upd_threads s (parked s) (woken s) (making s) (exiting s) (entered s) (cancellable s) (armed s)
         (t :: ctxdone s) (if memb t (armed s) then t :: bpend s else bpend s))
| PS_Bcast t : In t (bpend s) -> (locked_bcast cfg = false \/ mutex s = None) ->
    pstep cfg s (Bcast t)
      (upd_threads s [] (woken s ++ parked s) (making s) (exiting s) (entered s) (cancellable s) (armed s)
         (ctxdone s) (remove1 t (bpend s)))
| PS_StoreIdle id : In (Real id) (held s) -> mutex s = None -> down s = false -> ~ In id (broken s) ->
    pstep cfg s (Store (Real id))
      (let start := cleanup_on cfg && negb (timer_on s) && (min_idle cfg <? length (id :: idle s))%nat in
       upd_misc (upd_wires s (size s) (id :: idle s) (wremove1 (Real id) (held s)) (broken s) (nostop s) (used s))
         (down s) (timer_on s || start) (tarmed s || start) (S (sigs s)) (cbc s) (dstores s))
| PS_StoreDrop w : In w (held s) -> mutex s = None -> (if down s then None else is_real_ok s w) = None ->
    pstep cfg s (Store w)
      (upd_misc (upd_wires s (if skip_uncounted cfg && wire_eqb w CtxDead then size s else size s - 1) (idle s)
                   (wremove1 w (held s)) (match w with Real id => id :: broken s | _ => broken s end)
                   (nostop s) (used s))
         (down s) (timer_on s) (tarmed s) (S (sigs s)) (cbc s)
         (match w with DeadDown => S (dstores s) | _ => dstores s end))
| PS_Signal t k : sigs s = S k -> In t (parked s) ->
    pstep cfg s (Signal (Some t))
      (upd_misc (upd_threads s (remove1 t (parked s)) (woken s ++ [t]) (making s) (exiting s) (entered s)
                   (cancellable s) (armed s) (ctxdone s) (bpend s))
         (down s) (timer_on s) (tarmed s) k (cbc s) (dstores s))
| PS_SignalNone k : sigs s = S k -> parked s = [] ->
    pstep cfg s (Signal None) (upd_misc s (down s) (timer_on s) (tarmed s) k (cbc s) (dstores s))
| PS_CloseCS stopped : mutex s = None ->
    pstep cfg s (CloseCS stopped)
      (upd_misc (upd_wires s (size s) (idle s) (held s) (idle s ++ broken s) (nostop s) (used s))
         true false (tarmed s && negb stopped) (sigs s) (S (cbc s)) (dstores s))
| PS_CloseBcast k : cbc s = S k ->
    pstep cfg s CloseBcast
      (upd_misc (upd_threads s [] (woken s ++ parked s) (making s) (exiting s) (entered s) (cancellable s)
                   (armed s) (ctxdone s) (bpend s))
         (down s) (timer_on s) (tarmed s) (sigs s) k (dstores s))
| PS_IdleCleanup : mutex s = None -> tarmed s = true ->
    pstep cfg s IdleCleanup
      (let n := (length (idle s) - Nat.min (min_idle cfg) (length (idle s)))%nat in
       upd_misc (upd_wires s (size s - Z.of_nat n) (skipn n (idle s)) (held s) (firstn n (idle s) ++ broken s)
                   (nostop s) (used s))
         (down s) false false (sigs s) (cbc s) (dstores s))
| PS_WBreak id : In id (used s) ->
    pstep cfg s (WBreak id) (upd_wires s (size s) (idle s) (held s) (id :: broken s) (nostop s) (used s))
| PS_WExpire id : In id (used s) ->
    pstep cfg s (WExpire id) (upd_wires s (size s) (idle s) (held s) (id :: broken s) (id :: nostop s) (used s)).

Lemma mutex_free_true : forall s, mutex_free s = true -> mutex s = None.
Proof. intros s. unfold mutex_free. destruct (mutex s); [discriminate|reflexivity]. Qed.

Lemma negb_memb : forall x l, negb (memb x l) = true -> ~ In x l.
Proof. intros x l H. apply memb_false_In, negb_true_iff. exact H. Qed.

Lemma if_Some : forall (b : bool) (x y : state), (if b then Some x else None) = Some y -> b = true /\ x = y.
Proof. intros b x y H. destruct b; [inversion H; split; reflexivity|discriminate]. Qed.

Lemma lstep_pstep : forall cfg s l s', lstep cfg s l = Some s' -> pstep cfg s l s'.
Proof.
  intros cfg s l s' H. destruct l; cbn [lstep] in H.
  - apply if_Some in H. destruct H as [G <-].
    apply andb_prop in G. destruct G as [G G3]. apply andb_prop in G. destruct G as [G1 G2].
    apply PS_AcqEnter; [apply mutex_free_true, G1|apply negb_memb, G2|].
    apply orb_prop in G3. destruct G3 as [G3|G3]; [left; exact G3|right; apply negb_memb, G3].
  - destruct (mutex s) as [u|] eqn:Hm; [|discriminate]. apply if_Some in H. destruct H as [G <-].
    apply Nat.eqb_eq in G. subst u. apply PS_AcqPark. exact Hm.
  - apply if_Some in H. destruct H as [G <-]. apply andb_prop in G. destruct G as [G1 G2].
    apply PS_AcqWake; [apply mutex_free_true, G1|apply memb_In, G2].
  - destruct (memb t (making s)) eqn:G; [|discriminate]. apply memb_In in G. destruct id as [id|].
    + destruct (memb id (used s)) eqn:U; [discriminate|]. apply memb_false_In in U. injection H as <-.
      exact (PS_MakeOk cfg s t id brk G U).
    + injection H as <-. exact (PS_MakeDead cfg s t brk G).
  - apply if_Some in H. destruct H as [G <-].
    apply andb_prop in G. destruct G as [G G3]. apply andb_prop in G. destruct G as [G1 G2].
    exact (PS_MakeBad cfg s t id (mutex_free_true s G1) (proj1 (memb_In _ _) G2) (negb_memb _ _ G3)).
  - apply if_Some in H. destruct H as [G <-]. apply PS_AcqReturn. apply memb_In, G.
  - apply if_Some in H. destruct H as [G <-]. apply andb_prop in G. destruct G as [G1 G2].
    apply PS_CtxCancel; [apply negb_memb, G1|].
    apply orb_prop in G2. destruct G2 as [G2|G2]; [left; apply negb_memb, G2|right; apply memb_In, G2].
  - apply if_Some in H. destruct H as [G <-]. apply andb_prop in G. destruct G as [G1 G2].
    apply PS_Bcast; [apply memb_In, G1|].
    apply orb_prop in G2. destruct G2 as [G2|G2]; [left; apply negb_true_iff, G2|right; apply mutex_free_true, G2].
  - destruct (wmemb w (held s) && mutex_free s) eqn:G; [|discriminate].
    apply andb_prop in G. destruct G as [G1 G2]. apply wmemb_In in G1. apply mutex_free_true in G2.
    destruct (if down s then None else is_real_ok s w) as [id|] eqn:E; injection H as <-.
    + assert (Hd : down s = false) by (destruct (down s); [discriminate E|reflexivity]). rewrite Hd in E.
      destruct w as [j| | |]; try discriminate. cbn [is_real_ok] in E.
      destruct (memb j (broken s)) eqn:B; [discriminate|]. injection E as ->. apply memb_false_In in B.
      exact (PS_StoreIdle cfg s id G1 G2 Hd B).
    + exact (PS_StoreDrop cfg s w G1 G2 E).
  - destruct (sigs s) as [|k] eqn:Hs; [discriminate|]. destruct o as [u|]; apply if_Some in H; destruct H as [G <-].
    + apply memb_In in G. exact (PS_Signal cfg s u k Hs G).
    + destruct (parked s) eqn:P; [|discriminate]. exact (PS_SignalNone cfg s k Hs P).
  - apply if_Some in H. destruct H as [G <-]. exact (PS_CloseCS cfg s stopped (mutex_free_true s G)).
  - destruct (cbc s) as [|k] eqn:Hc; [discriminate|]. injection H as <-. exact (PS_CloseBcast cfg s k Hc).
  - apply if_Some in H. destruct H as [G <-]. apply andb_prop in G. destruct G as [G1 G2].
    exact (PS_IdleCleanup cfg s (mutex_free_true s G1) G2).
  - apply if_Some in H. destruct H as [G <-]. apply PS_WBreak. apply memb_In, G.
  - apply if_Some in H. destruct H as [G <-]. apply PS_WExpire. apply memb_In, G.
Qed.
