(** C41: the pipeline model (Model/CompatPipe.v).  The assignment loops hand the i-th result to the i-th
    queued Cmd; one Exec step; histories against the abstract queue [arun]; no panic against a server
    that answers in step. *)
From Coq Require Import List Arith NArith ZArith Bool Lia.
Require Import RV.Model.Base RV.Model.ListUpd RV.Model.CompatPipe RV.Proofs.ListUpdProofs.
Require Import RV.Proofs.ListFacts.
Import ListNotations.
Local Open Scope nat_scope.

(** [set_nth] is [ListUpd.upd] under another name: its lemmas are those of Proofs/ListUpdProofs.v *)
Lemma set_nth_upd : @set_nth = @upd.
Proof. reflexivity. Qed.

(** the first error in a list of Cmd errors, or ENone *)
Fixpoint first_err (l : list cerr) : cerr :=
  match l with
  | [] => ENone
  | ENone :: r => first_err r
  | e :: _ => e
  end.

Definition or_err (acc e : cerr) : cerr := match acc with ENone => e | _ => acc end.

Lemma or_err_first : forall acc l, or_err acc (first_err l) = first_err (acc :: l).
Proof. intros [] l; reflexivity. Qed.

(** one id per queued command, the ids distinct, each inside the store *)
Definition inv (s : pstate) : Prop :=
  length (rets s) = length (queue s) /\ NoDup (rets s) /\ Forall (fun id => id < length (store s)) (rets s).

Lemma inv_init : inv pinit.
Proof. repeat split; simpl; constructor. Qed.

Lemma inv_empty : forall st, inv (mkP st [] []).
Proof. intro st. repeat split; simpl; constructor. Qed.

Lemma ids_below_snoc : forall (st : list cmdobj) c ids,
  Forall (fun id => id < length st) ids -> Forall (fun id => id < length (st ++ [c])) ids.
Proof. intros st c ids H. eapply Forall_impl; [|exact H]. intros x Hx. cbn beta in *. rewrite last_length. lia. Qed.

Lemma inv_push : forall s c a, inv s -> inv (mkP (store s ++ [c]) (queue s ++ [a]) (rets s ++ [length (store s)])).
Proof.
  intros s c a [Hl [Hnd Hlt]]. repeat split; cbn [rets queue store].
  - rewrite !last_length. congruence.
  - apply NoDup_snoc; [exact Hnd|].
    intro Hin. rewrite Forall_forall in Hlt. specialize (Hlt _ Hin). lia.
  - apply Forall_app. split; [apply ids_below_snoc, Hlt|].
    constructor; [|constructor]. rewrite last_length. lia.
Qed.

(** the errors held by the Cmds a list of ids points to *)
Definition err_at (st : list cmdobj) (id : nat) : cerr :=
  match nth_error st id with Some c => cerror c | None => ENone end.
Definition errs_at (st : list cmdobj) (ids : list nat) : list cerr := map (err_at st) ids.

Lemma first_err_or : forall a b l, first_err (or_err a b :: l) = first_err (a :: b :: l).
Proof. intros [] [] l; reflexivity. Qed.

Lemma errs_at_ext : forall st st' ids, (forall id, In id ids -> nth_error st' id = nth_error st id) ->
  errs_at st' ids = errs_at st ids.
Proof.
  intros st st' ids H. unfold errs_at. apply map_ext_in. intros id Hin. unfold err_at. rewrite H by exact Hin. reflexivity.
Qed.

(** [assigned st rs rl st'] : st' is st where the Cmd of the i-th id received the i-th result *)
Definition assigned (st : list cmdobj) (rs : list nat) (rl : list res) (st' : list cmdobj) : Prop :=
  length st' = length st /\
  (forall i id r c, nth_error rs i = Some id -> nth_error rl i = Some r -> nth_error st id = Some c ->
                    nth_error st' id = Some (apply_from c r)) /\
  (forall id, ~ In id rs -> nth_error st' id = nth_error st id).

Lemma assign_ok : forall resp rs st err,
  NoDup rs -> Forall (fun id => id < length st) rs -> length resp = length rs ->
  exists st', assign st rs resp err = (st', Some (first_err (err :: errs_at st' rs))) /\ assigned st rs resp st'.
Proof.
  induction resp as [|r resp IH]; intros rs st err Hnd Hlt Hlen.
  - destruct rs; simpl in Hlen; try lia. exists st. simpl. split.
    + destruct err; reflexivity.
    + split; [reflexivity|]. split; [intros i id r c H; destruct i; discriminate|auto].
  - destruct rs as [|id rs]; simpl in Hlen; try lia.
    inversion Hnd as [|? ? Hnotin Hnd']; subst. inversion Hlt as [|? ? Hid Hlt']; subst.
    destruct (nth_error st id) as [c|] eqn:Hc; [|apply nth_error_None in Hc; lia].
    set (c' := apply_from c r). set (st1 := upd id c' st).
    assert (Hlen1 : length st1 = length st) by apply length_upd.
    assert (Hlt1 : Forall (fun i => i < length st1) rs) by (rewrite Hlen1; exact Hlt').
    destruct (IH rs st1 (or_err err (cerror c')) Hnd' Hlt1 ltac:(lia)) as [st' [Heq [Hl [Hass Hrest]]]].
    assert (Hid' : nth_error st' id = Some c').
    { rewrite (Hrest id Hnotin). unfold st1. apply nth_error_upd_same. exact Hid. }
    exists st'. split.
    + cbn [assign]. rewrite Hc, set_nth_upd. fold c'. fold st1.
      replace (match err with ENone => cerror c' | _ => err end) with (or_err err (cerror c')) by reflexivity.
      rewrite Heq. f_equal. f_equal. rewrite first_err_or.
      unfold errs_at. cbn [map]. f_equal. f_equal. unfold err_at. rewrite Hid'. reflexivity.
    + split; [lia|]. split.
      * intros i j r0 c0 Hi Hr Hc0. destruct i as [|i]; simpl in Hi, Hr.
        -- inversion Hi; inversion Hr; subst. rewrite Hc in Hc0. inversion Hc0; subst. exact Hid'.
        -- assert (j <> id) by (intro E; subst; apply Hnotin; eapply nth_error_In; eauto).
           apply (Hass i j r0 c0 Hi Hr). unfold st1. rewrite nth_error_upd_other by auto. exact Hc0.
      * intros j Hj. rewrite Hrest by (intro E; apply Hj; right; auto).
        unfold st1. apply nth_error_upd_other. intro E; apply Hj; left; auto.
Qed.

(** the assignment loop never shortens or lengthens the store, whatever the replies *)
Lemma assign_length : forall resp rs st err, length (fst (assign st rs resp err)) = length st.
Proof.
  induction resp as [|r resp IH]; intros rs st err; [reflexivity|].
  cbn [assign]. destruct rs as [|id rs]; [reflexivity|].
  destruct (nth_error st id); [|reflexivity]. rewrite IH. apply length_upd.
Qed.

Lemma tx_assign_length : forall results rs st qs err, length (fst (tx_assign st rs results qs err)) = length st.
Proof.
  induction results as [|r results IH]; intros rs st qs err; [reflexivity|].
  cbn [tx_assign]. destruct rs as [|id rs]; [reflexivity|]. destruct qs as [|q qs]; [reflexivity|].
  destruct (nth_error st id); [|reflexivity]. rewrite IH. apply length_upd.
Qed.

Lemma tx_assign_app : forall results rs st qs extra err,
  length qs = length results ->
  tx_assign st rs results (qs ++ extra) err =
  assign st rs (map (fun p => tx_result (fst p) (snd p)) (combine results qs)) err.
Proof.
  induction results as [|r results IH]; intros rs st qs extra err Hlen.
  - destruct qs; simpl in Hlen; try lia. reflexivity.
  - destruct qs as [|q qs]; simpl in Hlen; try lia.
    cbn [app tx_assign combine map assign fst snd]. destruct rs as [|id rs]; [reflexivity|].
    destruct (nth_error st id); [|reflexivity]. apply IH. lia.
Qed.

(** TxPipeline: the i-th element of the EXEC array, paired with the i-th QUEUED result *)
Lemma tx_assign_as_assign : forall results rs st qs err,
  length qs = length results ->
  tx_assign st rs results qs err = assign st rs (map (fun p => tx_result (fst p) (snd p)) (combine results qs)) err.
Proof. intros results rs st qs err Hlen. rewrite <- (app_nil_r qs) at 1. apply tx_assign_app. exact Hlen. Qed.

(** what an Exec sends does not depend on the replies at all *)
Definition sent_of (evs : list ev) : list (list argv) :=
  flat_map (fun e => match e with EvSent b => [b] | _ => [] end) evs.

Definition wrap (tx : bool) (q : list argv) : list argv := if tx then s_MULTI :: q ++ [s_EXEC] else q.

(** Exec on a non-empty pipeline, whatever comes back (even when it panics): one batch goes out, the
    pipeline is empty afterwards and the store keeps its size *)
Lemma exec_shape : forall tx s resp, queue s <> [] ->
  exists st' e, step tx s (OExec resp) = (mkP st' [] [], [EvSent (wrap tx (queue s)); e]) /\
                length st' = length (store s) /\ sent_of [e] = [].
Proof.
  intros tx s resp Hq. cbn [step]. destruct (queue s) eqn:E; [congruence|].
  destruct tx; cbn [wrap].
  - destruct (exec_array _) as [[results err]|]; [|eauto 6].
    pose proof (tx_assign_length results (rets s) (store s) (tl resp) err) as HL.
    destruct (tx_assign _ _ _ _ _) as [st' [e|]]; cbn [fst] in HL; eauto 6.
  - pose proof (assign_length resp (rets s) (store s) ENone) as HL.
    destruct (assign _ _ _ _) as [st' [e|]]; cbn [fst] in HL; eauto 6.
Qed.

Lemma exec_sent : forall tx s resp, queue s <> [] -> sent_of (snd (step tx s (OExec resp))) = [wrap tx (queue s)].
Proof.
  intros tx s resp Hq. destruct (exec_shape tx s resp Hq) as (st' & e & -> & _ & He).
  cbn [snd]. change (sent_of [EvSent (wrap tx (queue s)); e]) with (wrap tx (queue s) :: sent_of [e]). rewrite He. reflexivity.
Qed.

Lemma exec_clears : forall tx s resp, queue s <> [] ->
  queue (fst (step tx s (OExec resp))) = [] /\ rets (fst (step tx s (OExec resp))) = [] /\
  length (store (fst (step tx s (OExec resp)))) = length (store s).
Proof. intros tx s resp Hq. destruct (exec_shape tx s resp Hq) as (st' & e & -> & HL & _). auto. Qed.

(** Exec on an empty pipeline: nothing is sent, (nil, nil) is returned, nothing changes *)
Lemma exec_empty : forall tx s resp, queue s = [] -> step tx s (OExec resp) = (s, [EvRet None ENone]).
Proof. intros tx s resp H. cbn [step]. rewrite H. reflexivity. Qed.

Lemma inv_step : forall tx s o, inv s -> inv (fst (step tx s o)).
Proof.
  intros tx s o Hinv. destruct o as [k a|a|k e| | |resp].
  - apply inv_push. exact Hinv.
  - apply inv_push. exact Hinv.
  - destruct Hinv as [Hl [Hnd Hlt]]. repeat split; cbn [step fst rets queue store]; auto using ids_below_snoc.
  - exact Hinv.
  - apply inv_empty.
  - destruct (queue s) eqn:Hq; [rewrite exec_empty by exact Hq; exact Hinv|].
    destruct (exec_shape tx s resp) as (st' & e & -> & _); [congruence|]. apply inv_empty.
Qed.

Lemma pipe_exec_spec : forall s resp,
  inv s -> queue s <> [] -> length resp = length (queue s) ->
  exists st',
    step false s (OExec resp) =
      (mkP st' [] [], [EvSent (queue s); EvRet (Some (rets s)) (first_err (errs_at st' (rets s)))])
    /\ assigned (store s) (rets s) resp st'.
Proof.
  intros s resp [Hl [Hnd Hlt]] Hq Hlen.
  destruct (assign_ok resp (rets s) (store s) ENone Hnd Hlt ltac:(lia)) as [st' [Heq Hass]].
  exists st'. split; [|exact Hass].
  cbn [step]. destruct (queue s) eqn:E; [congruence|]. rewrite Heq. reflexivity.
Qed.

Lemma last_nth : forall A (l : list A) x, nth_error (l ++ [x]) (length (l ++ [x]) - 1) = Some x.
Proof.
  intros A l x. rewrite app_length. simpl. replace (length l + 1 - 1) with (length l) by lia.
  rewrite nth_error_app2 by lia. rewrite Nat.sub_diag. reflexivity.
Qed.

(** TxPipeline.Exec when EXEC returned an array of the right length *)
Lemma tx_exec_spec : forall s r0 qs results,
  inv s -> queue s <> [] -> length qs = length (queue s) -> length results = length (queue s) ->
  exists st',
    step true s (OExec (r0 :: qs ++ [RMsg (RArr results)])) =
      (mkP st' [] [], [EvSent (s_MULTI :: queue s ++ [s_EXEC]);
                       EvRet (Some (rets s)) (first_err (errs_at st' (rets s)))])
    /\ assigned (store s) (rets s) (map (fun p => tx_result (fst p) (snd p)) (combine results qs)) st'.
Proof.
  intros s r0 qs results [Hl [Hnd Hlt]] Hq Hqs Hres.
  set (rl := map (fun p => tx_result (fst p) (snd p)) (combine results qs)).
  assert (Hrl : length rl = length (rets s)).
  { unfold rl. rewrite map_length, combine_length. lia. }
  destruct (assign_ok rl (rets s) (store s) ENone Hnd Hlt Hrl) as [st' [Heq Hass]].
  exists st'. split; [|exact Hass].
  cbn [step]. destruct (queue s) eqn:E; [congruence|].
  change (r0 :: qs ++ [RMsg (RArr results)]) with ((r0 :: qs) ++ [RMsg (RArr results)]).
  rewrite last_nth. cbn [exec_array app tl].
  rewrite tx_assign_app by lia. fold rl. rewrite Heq. reflexivity.
Qed.

(** TxPipeline.Exec when EXEC did not return an array: nil (WATCH abort) => TxFailedErr, an error reply
    (EXECABORT …) or a connection error => that error; no Cmd is touched *)
Lemma tx_exec_abort : forall s r0 qs last e,
  queue s <> [] -> exec_array (Some last) = Some ([], e) ->
  step true s (OExec (r0 :: qs ++ [last])) =
    (mkP (store s) [] [], [EvSent (s_MULTI :: queue s ++ [s_EXEC]); EvRet (Some (rets s)) e]).
Proof.
  intros s r0 qs last e Hq He. cbn [step]. destruct (queue s) eqn:E; [congruence|].
  change (r0 :: qs ++ [last]) with ((r0 :: qs) ++ [last]). rewrite last_nth. rewrite He.
  reflexivity.
Qed.

(** The abstract queue of a history: [a_next] Cmds created so far, [a_q] the commands queued since the
    last Exec / Discard, [a_ids] their creation numbers; [astep] also returns the batch an Exec sends. *)
Record astate := mkA { a_next : nat; a_q : list argv; a_ids : list nat }.

Definition astep (a : astate) (o : op) : astate * list (list argv) :=
  match o with
  | OQueue _ c | ODo c => (mkA (S (a_next a)) (a_q a ++ [c]) (a_ids a ++ [a_next a]), [])
  | OReject _ _ => (mkA (S (a_next a)) (a_q a) (a_ids a), [])
  | OLen => (a, [])
  | ODiscard => (mkA (a_next a) [] [], [])
  | OExec _ => match a_q a with [] => (a, []) | q => (mkA (a_next a) [] [], [q]) end
  end.

Fixpoint arun (a : astate) (ops : list op) : astate * list (list argv) :=
  match ops with
  | [] => (a, [])
  | o :: r => let (a1, b1) := astep a o in let (a2, b2) := arun a1 r in (a2, b1 ++ b2)
  end.

Definition absrel (s : pstate) (a : astate) : Prop :=
  queue s = a_q a /\ rets s = a_ids a /\ length (store s) = a_next a.

Lemma absrel_step : forall tx s a o, absrel s a ->
  absrel (fst (step tx s o)) (fst (astep a o)) /\
  sent_of (snd (step tx s o)) = map (wrap tx) (snd (astep a o)).
Proof.
  intros tx s a o [Hq [Hr Hn]].
  destruct o as [k c|c|k e| | |resp].
  1-3: cbn [step astep fst snd sent_of flat_map map app]; split; [|reflexivity];
    repeat split; cbn [queue rets store a_q a_ids a_next]; try congruence; rewrite last_length; congruence.
  1-2: cbn [step astep fst snd]; split; [repeat split; auto|reflexivity].
  destruct (queue s) as [|c0 q0] eqn:E.
  - rewrite exec_empty by exact E. cbn [astep]. rewrite <- Hq. cbn [fst snd]. split; [repeat split; auto; congruence|reflexivity].
  - assert (Hne : queue s <> []) by congruence.
    destruct (exec_clears tx s resp Hne) as [H1 [H2 H3]].
    rewrite (exec_sent tx s resp Hne). rewrite E.
    cbn [astep]. rewrite <- Hq. cbn [fst snd map]. split; [|reflexivity].
    repeat split; cbn [a_q a_ids a_next]; auto. lia.
Qed.

Lemma sent_of_app : forall a b, sent_of (a ++ b) = sent_of a ++ sent_of b.
Proof. intros a b. unfold sent_of. apply flat_map_app. Qed.

Lemma run_cons : forall tx s o r,
  run tx s (o :: r) = (fst (run tx (fst (step tx s o)) r), snd (step tx s o) ++ snd (run tx (fst (step tx s o)) r)).
Proof. intros. cbn [run]. destruct (step tx s o) as [s1 e1]. cbn [fst snd]. destruct (run tx s1 r). reflexivity. Qed.

Lemma arun_cons : forall a o r,
  arun a (o :: r) = (fst (arun (fst (astep a o)) r), snd (astep a o) ++ snd (arun (fst (astep a o)) r)).
Proof. intros. cbn [arun]. destruct (astep a o) as [a1 b1]. cbn [fst snd]. destruct (arun a1 r). reflexivity. Qed.

Lemma absrel_run : forall tx ops s a, absrel s a ->
  absrel (fst (run tx s ops)) (fst (arun a ops)) /\
  sent_of (snd (run tx s ops)) = map (wrap tx) (snd (arun a ops)).
Proof.
  induction ops as [|o ops IH]; intros s a Hrel; [split; [exact Hrel|reflexivity]|].
  rewrite run_cons, arun_cons. cbn [fst snd].
  destruct (absrel_step tx s a o Hrel) as [H1 H2]. destruct (IH _ _ H1) as [H3 H4].
  split; [exact H3|]. rewrite sent_of_app, map_app, H2, H4. reflexivity.
Qed.

Lemma inv_run : forall tx ops s, inv s -> inv (fst (run tx s ops)).
Proof.
  induction ops as [|o ops IH]; intros s Hinv; [exact Hinv|].
  rewrite run_cons. apply IH, inv_step, Hinv.
Qed.

(** A server that answers every command once, and whose EXEC array, if any, has one element per
    queued command. *)
Definition wf_resp (tx : bool) (n : nat) (resp : list res) : Prop :=
  if tx then
    exists r0 qs last, resp = r0 :: qs ++ [last] /\ length qs = n /\
                       (forall l, last = RMsg (RArr l) -> length l = n)
  else length resp = n.

Definition wf_op (tx : bool) (s : pstate) (o : op) : Prop :=
  match o with OExec resp => queue s <> [] -> wf_resp tx (length (queue s)) resp | _ => True end.

Fixpoint wf_run (tx : bool) (s : pstate) (ops : list op) : Prop :=
  match ops with
  | [] => True
  | o :: r => wf_op tx s o /\ wf_run tx (fst (step tx s o)) r
  end.

Lemma exec_array_last : forall last,
  (exists l, last = RMsg (RArr l)) \/ (exists e, exec_array (Some last) = Some ([], e)).
Proof. intros [[| | | |l]|]; [right|right|right|right|left|right]; eexists; reflexivity. Qed.

Lemma exec_returns : forall tx s resp, inv s -> queue s <> [] -> wf_resp tx (length (queue s)) resp ->
  exists st' e, step tx s (OExec resp) = (mkP st' [] [], [EvSent (wrap tx (queue s)); EvRet (Some (rets s)) e]).
Proof.
  intros [] s resp Hinv Hq Hwf; cbn [wf_resp wrap] in *.
  - destruct Hwf as (r0 & qs & last & -> & Hqs & Harr).
    destruct (exec_array_last last) as [[l ->]|[e He]].
    + destruct (tx_exec_spec s r0 qs l Hinv Hq Hqs (Harr l eq_refl)) as [st' [H _]]. eauto.
    + do 2 eexists. apply tx_exec_abort; eassumption.
  - destruct (pipe_exec_spec s resp Hinv Hq Hwf) as [st' [H _]]. eauto.
Qed.

Lemma step_no_panic : forall tx s o, inv s -> wf_op tx s o -> ~ In EvPanic (snd (step tx s o)).
Proof.
  intros tx s o Hinv Hwf. destruct o as [k c|c|k e| | |resp]; [cbn; intuition discriminate..|].
  destruct (queue s) as [|c0 q0] eqn:E; [rewrite exec_empty by exact E; cbn; intuition discriminate|].
  assert (Hq : queue s <> []) by congruence.
  destruct (exec_returns tx s resp Hinv Hq (Hwf Hq)) as (st' & e & ->). cbn. intuition discriminate.
Qed.

Lemma run_no_panic : forall tx ops s, inv s -> wf_run tx s ops -> ~ In EvPanic (snd (run tx s ops)).
Proof.
  induction ops as [|o ops IH]; intros s Hinv Hwf Hin; [destruct Hin|]. destruct Hwf as [Hw1 Hw2].
  rewrite run_cons in Hin. apply in_app_or in Hin. destruct Hin as [Hin|Hin].
  - exact (step_no_panic tx s o Hinv Hw1 Hin).
  - exact (IH _ (inv_step tx s o Hinv) Hw2 Hin).
Qed.
