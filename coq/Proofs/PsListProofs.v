(** Lists of records looked up by a numeric key: the wires, clients, hooks and receivers of the session-level models
    are each found by a [Fixpoint] of the same shape ("the first element whose key is [id]") and rewritten by a [map]
    of the same shape.  The facts are proved once over such a [find]; each model instantiates them with [eq_refl]s. *)
From Coq Require Import List Arith NArith Bool Lia.
Require Export RV.Proofs.ListFacts.
Import ListNotations.
Open Scope N_scope.

(** no element has the key: the filter on the key is empty *)
Lemma filter_key_none : forall {A} (key : A -> N) id l, (forall x, In x l -> key x <> id) ->
  filter (fun x => key x =? id) l = [].
Proof.
  intros A key id l. induction l as [|x l IH]; intros H; [reflexivity|]. cbn.
  destruct (key x =? id) eqn:E.
  - apply N.eqb_eq in E. destruct (H x (or_introl eq_refl) E).
  - apply IH. intros y Hy. apply H. right. exact Hy.
Qed.

(** in a list without duplicate keys, the key determines the element *)
Lemma keyed_unique : forall {A} (key : A -> N) l x y,
  NoDup (map key l) -> In x l -> In y l -> key x = key y -> x = y.
Proof.
  induction l as [|a l IH]; intros x y Hnd Hx Hy E; [contradiction|].
  inversion Hnd as [|? ? Ha Hnd']; subst.
  destruct Hx as [<-|Hx], Hy as [<-|Hy]; auto; exfalso; apply Ha.
  - rewrite E. apply in_map. exact Hy.
  - rewrite <- E. apply in_map. exact Hx.
Qed.

Section Keyed.
  Context {A : Type} (key : A -> N) (find : N -> list A -> option A).
  Hypothesis find_nil : forall id, find id [] = None.
  Hypothesis find_cons : forall id x l, find id (x :: l) = if key x =? id then Some x else find id l.

  Lemma find_in : forall id l x, find id l = Some x -> In x l /\ key x = id.
  Proof.
    induction l as [|y l IH]; intros x H; [rewrite find_nil in H; discriminate|]. rewrite find_cons in H.
    destruct (key y =? id) eqn:E.
    - injection H as <-. split; [left; reflexivity|apply N.eqb_eq; exact E].
    - destruct (IH x H). split; [right|]; assumption.
  Qed.

  Lemma find_none : forall id l, find id l = None -> forall x, In x l -> key x <> id.
  Proof.
    induction l as [|y l IH]; intros H x Hin; [contradiction|]. rewrite find_cons in H.
    destruct (key y =? id) eqn:E; [discriminate|]. destruct Hin as [<-|Hin]; [apply N.eqb_neq; exact E|apply IH; assumption].
  Qed.

  Lemma find_some : forall id l x, NoDup (map key l) -> In x l -> key x = id -> find id l = Some x.
  Proof.
    intros id l x Hnd Hin Hid. destruct (find id l) as [y|] eqn:F.
    - destruct (find_in _ _ _ F) as [Hy Ey]. f_equal. apply (keyed_unique key l); congruence.
    - destruct (find_none _ _ F x Hin Hid).
  Qed.

  Lemma find_app : forall id l1 l2,
    find id (l1 ++ l2) = match find id l1 with Some x => Some x | None => find id l2 end.
  Proof.
    induction l1 as [|x l1 IH]; intros l2; cbn [app]; [rewrite find_nil; reflexivity|].
    rewrite !find_cons. destruct (key x =? id); [reflexivity|apply IH].
  Qed.

  (** rewriting the element with key [id0] by a function that keeps the key *)
  Lemma find_upd : forall f id id0 l, (forall x, key (f x) = key x) ->
    find id (map (fun x => if key x =? id0 then f x else x) l) =
    if id =? id0 then option_map f (find id l) else find id l.
  Proof.
    intros f id id0 l Hf. induction l as [|x l IH]; cbn [map]; [rewrite !find_nil; destruct (id =? id0); reflexivity|].
    rewrite !find_cons. destruct (key x =? id0) eqn:E0; [rewrite Hf|]; destruct (key x =? id) eqn:E; try exact IH.
    - apply N.eqb_eq in E0, E. rewrite <- E, E0, N.eqb_refl. reflexivity.
    - apply N.eqb_eq in E. apply N.eqb_neq in E0. rewrite <- E. apply N.eqb_neq in E0. rewrite E0. reflexivity.
  Qed.
End Keyed.
