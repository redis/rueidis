(** C43: from the finite check of the delegation table to statements about every wrapper value,
    hence about every client derived through Dedicated / Dedicate / Nodes, at any depth. *)
From Coq Require Import List NArith Bool.
Require Import RV.Model.Base RV.Model.Hook.
Import ListNotations.
Open Scope N_scope.

Section Table.
Variable tbl : list entry.
Hypothesis Hok : table_ok tbl = true.

(** Each conjunct of [table_ok] pins down one [lookup]; the theorems below only rewrite with these equations. *)

Lemma via_hook_lookup t m : via_hook_ok tbl t m = true -> lookup tbl t m = Some (BDeleg OHook m true true true).
Proof.
  unfold via_hook_ok. destruct (lookup tbl t m) as [[[|] c [|] [|] [|]| | | |]|]; try discriminate.
  intros H. apply N.eqb_eq in H. now subst.
Qed.

Lemma passthrough_lookup t m :
  passthrough_ok tbl t m = true -> exists f, lookup tbl t m = Some (BDeleg OInner m f true true).
Proof.
  unfold passthrough_ok. destruct (lookup tbl t m) as [[[|] c f [|] [|]| | | |]|]; try discriminate.
  intros H. apply N.eqb_eq in H. subst. now exists f.
Qed.

Lemma ok_parts :
  (forall m, In m client_requests -> via_hook_ok tbl WHookclient m = true) /\
  (forall m, In m dedicated_requests -> via_hook_ok tbl WDedicated m = true) /\
  (forall m, In m client_passthrough -> passthrough_ok tbl WHookclient m = true) /\
  (forall m, In m dedicated_passthrough -> passthrough_ok tbl WDedicated m = true) /\
  lookup tbl WHookclient mDedicated = Some (BWrapCallback mDedicated WDedicated true true true) /\
  lookup tbl WHookclient mDedicate = Some (BWrapResult mDedicate WDedicated true true true) /\
  lookup tbl WHookclient mNodes = Some (BWrapMap mNodes WHookclient true true).
Proof.
  pose proof Hok as H. unfold table_ok in H. rewrite !andb_true_iff in H.
  destruct H as [[[[[[[[H1 H2] H3] H4] H5] H6] H7] _] _].
  rewrite forallb_forall in H1, H2, H3, H4. repeat split; try assumption.
  - destruct (lookup tbl WHookclient mDedicated) as [[| c [| |] [|] [|] [|] | | |]|]; try discriminate.
    apply N.eqb_eq in H5. now subst.
  - destruct (lookup tbl WHookclient mDedicate) as [[| | c [| |] [|] [|] [|] | |]|]; try discriminate.
    apply N.eqb_eq in H6. now subst.
  - destruct (lookup tbl WHookclient mNodes) as [[| | | c [| |] [|] [|] |]|]; try discriminate.
    apply N.eqb_eq in H7. now subst.
Qed.

(** every request entry point of every wrapper value goes through the hook exactly once, the hook is handed
    the underlying (un-hooked) client, and the caller receives the hook's result *)
Theorem request_once en v m :
  In m (requests_of v) -> call tbl en v m = Some ([EvHook m (inner_of v)], [], true).
Proof.
  intros Hin. destruct ok_parts as (A & B & _). unfold call.
  rewrite via_hook_lookup; [reflexivity|]. destruct v; [now apply A|now apply B].
Qed.

Theorem dedicated_wrapped en i :
  call tbl en (HC i) mDedicated = Some ([EvInner mDedicated i], [HD (env_dedicate en i)], true) /\
  call tbl en (HC i) mDedicate = Some ([EvInner mDedicate i], [HD (env_dedicate en i)], true).
Proof.
  destruct ok_parts as (_ & _ & _ & _ & C & D & _). unfold call. cbn [wtype_of]. now rewrite C, D.
Qed.

Lemma all_some_wrap_HC l : all_some_w (map (wrap WHookclient) l) = Some (map HC l).
Proof. induction l as [|x l IH]; cbn; [reflexivity|]. now rewrite IH. Qed.

Theorem nodes_wrapped en i :
  call tbl en (HC i) mNodes = Some ([EvInner mNodes i], map HC (env_nodes en i), true).
Proof.
  destruct ok_parts as (_ & _ & _ & _ & _ & _ & E). unfold call. cbn [wtype_of inner_of].
  now rewrite E, all_some_wrap_HC.
Qed.

(** the derivations never fail on a hooked client: Dedicated / Dedicate give a hooked dedicated client,
    Nodes gives hooked clients for every node *)
Theorem derive_defined en i :
  derive1 tbl en (HC i) DDedicated = Some (HD (env_dedicate en i)) /\
  derive1 tbl en (HC i) DDedicate = Some (HD (env_dedicate en i)) /\
  forall k, derive1 tbl en (HC i) (DNode k) = nth_error (map HC (env_nodes en i)) k.
Proof.
  destruct (dedicated_wrapped en i) as [A B]. unfold derive1. rewrite A, B, (nodes_wrapped en i). repeat split.
Qed.

(** pass-through methods reach the underlying client directly, with no hook event *)
Theorem passthrough_direct en v m :
  In m (match v with HC _ => client_passthrough | HD _ => dedicated_passthrough end) ->
  exists a, call tbl en v m = Some ([EvInner m (inner_of v)], [], true) \/ call tbl en v m = Some ([EvInner m (inner_of v)], [], a).
Proof.
  intros Hin. exists true. left. destruct ok_parts as (_ & _ & P & Q & _).
  destruct (passthrough_lookup (wtype_of v) m) as [f Hl]; [destruct v; [now apply P|now apply Q]|].
  unfold call. now rewrite Hl.
Qed.

(** every hook of the stack sees the request exactly once, outermost first, then the underlying client *)
Theorem stack_once : forall ls i m, In m client_requests ->
  scall tbl (stack ls i) m = Some (map (fun l => SHook l m) ls ++ [SInner m i]).
Proof.
  intros ls i m Hin. destruct ok_parts as (A & _). pose proof (via_hook_lookup _ _ (A m Hin)) as Hl.
  induction ls as [|l ls IH]; [reflexivity|].
  cbn [stack fold_right scall]. fold (stack ls i). rewrite Hl, IH. reflexivity.
Qed.

Theorem dstack_once : forall ls j m, In m dedicated_requests ->
  sdcall tbl (dstack ls j) m = Some (map (fun l => SHook l m) ls ++ [SInner m j]).
Proof.
  intros ls j m Hin. destruct ok_parts as (_ & B & _). pose proof (via_hook_lookup _ _ (B m Hin)) as Hl.
  induction ls as [|l ls IH]; [reflexivity|].
  cbn [dstack fold_right sdcall]. fold (dstack ls j). rewrite Hl, IH. reflexivity.
Qed.

(** the derived clients of a stack are stacks of the same hooks over the derived underlying clients *)
Theorem stack_dedicate en : forall ls i,
  sdedicate tbl en mDedicate (stack ls i) = Some (dstack ls (env_dedicate en i)) /\
  sdedicate tbl en mDedicated (stack ls i) = Some (dstack ls (env_dedicate en i)).
Proof.
  destruct ok_parts as (_ & _ & _ & _ & C & D & _).
  induction ls as [|l ls IH]; intros i; [split; reflexivity|].
  destruct (IH i) as [I1 I2]. cbn [stack fold_right sdedicate dstack]. fold (stack ls i).
  now rewrite C, D, !N.eqb_refl, I1, I2.
Qed.

Theorem stack_nodes en : forall ls i,
  snodes tbl en (stack ls i) = Some (map (stack ls) (env_nodes en i)).
Proof.
  destruct ok_parts as (_ & _ & _ & _ & _ & _ & E).
  induction ls as [|l ls IH]; intros i; [reflexivity|].
  cbn [stack fold_right snodes]. fold (stack ls i).
  rewrite E, N.eqb_refl, IH. cbn [option_map]. now rewrite map_map.
Qed.

(** any chain of derivations from a stack ends in a stack of the same hooks (over the derived underlying client) *)
Theorem stack_derive en : forall p ls i x,
  sderive tbl en (stack ls i) p = Some x ->
  (exists j, x = inl (stack ls j)) \/ (exists j, x = inr (dstack ls j)).
Proof.
  induction p as [|d p IH]; intros ls i x H; cbn [sderive] in H.
  - inversion H; subst. left. eauto.
  - destruct d as [| |k].
    + destruct (stack_dedicate en ls i) as [_ E]. rewrite E in H. inversion H; subst. right. eauto.
    + destruct (stack_dedicate en ls i) as [E _]. rewrite E in H. inversion H; subst. right. eauto.
    + rewrite stack_nodes in H.
      destruct (nth_error (map (stack ls) (env_nodes en i)) k) as [c'|] eqn:En; [|discriminate].
      apply nth_error_In in En. apply in_map_iff in En. destruct En as (j & <- & _).
      exact (IH ls j x H).
Qed.

End Table.
