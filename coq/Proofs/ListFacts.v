(** Facts about standard-library lists that several families use and Coq 8.16 does not provide. *)
From Coq Require Import List Arith Lia.
Import ListNotations.

Lemma In_firstn {A} (l : list A) n x : In x (firstn n l) -> In x l.
Proof. intro H. rewrite <- (firstn_skipn n l). apply in_or_app. now left. Qed.

Lemma In_skipn {A} (l : list A) n x : In x (skipn n l) -> In x l.
Proof. intro H. rewrite <- (firstn_skipn n l). apply in_or_app. now right. Qed.

Lemma nth_error_firstn {A} (l : list A) : forall n k, k < n -> nth_error (firstn n l) k = nth_error l k.
Proof.
  induction l as [|x l IH]; intros n k H; destruct n, k; cbn; try reflexivity; try lia.
  apply IH. lia.
Qed.

Lemma nth_error_skipn {A} (l : list A) : forall s k, nth_error (skipn s l) k = nth_error l (s + k).
Proof. induction l as [|x l IH]; intros [|s] k; cbn; try reflexivity; [now destruct k|apply IH]. Qed.

Lemma NoDup_snoc {A} (l : list A) x : NoDup l -> ~ In x l -> NoDup (l ++ [x]).
Proof.
  intros Hnd Hx. rewrite <- (rev_involutive l). change (NoDup (rev (x :: rev l))).
  apply NoDup_rev. constructor; [rewrite <- in_rev; exact Hx|apply NoDup_rev, Hnd].
Qed.

Lemma NoDup_map_filter {A B} (f : A -> B) (p : A -> bool) l : NoDup (map f l) -> NoDup (map f (filter p l)).
Proof.
  induction l as [|x l IH]; cbn [filter map]; intros H; [constructor|].
  inversion H as [|? ? Hn Hr]; subst. destruct (p x); [|apply IH, Hr].
  cbn [map]. constructor; [|apply IH, Hr].
  intro Hin. apply Hn. apply in_map_iff in Hin as (y & <- & Hy). apply in_map, (proj1 (filter_In p y l) Hy).
Qed.

Lemma div2_double_le n : 2 * Nat.div2 n <= n.
Proof. pose proof (Nat.div2_odd n). destruct (Nat.odd n); cbn [Nat.b2n] in *; lia. Qed.
