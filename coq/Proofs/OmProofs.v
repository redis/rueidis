(** Proofs for the object-mapping model (Model/Om.v): decimal round trip, hash algebra,
    the save script on the arguments toExec sends, field round trip, and optimistic locking over
    all save histories (proved once for an abstract versioned register, then for both repositories). *)
From Coq Require Import List Arith NArith ZArith Bool Lia ZifyN ZifyNat ZifyBool.
From Coq Require Decimal DecimalN DecimalPos.
Require Import RV.Model.Base RV.Proofs.BytesProofs RV.Model.Binary RV.Proofs.BinaryProofs RV.Model.Om.
Import ListNotations.
Open Scope N_scope.

Lemma uint_of_bytes_of_uint u : uint_of_bytes (bytes_of_uint u) = Some u.
Proof. induction u; cbn [bytes_of_uint uint_of_bytes]; try reflexivity; rewrite IHu; reflexivity. Qed.

Lemma N_to_uint_nonnil n : N.to_uint n <> Decimal.Nil.
Proof. destruct n; cbn; [discriminate|apply DecimalPos.Unsigned.to_uint_nonnil]. Qed.

Lemma bytes_of_uint_nonnil u : u <> Decimal.Nil -> bytes_of_uint u <> [].
Proof. destruct u; cbn; congruence. Qed.

Lemma parse_print_N n : parse_N (print_N n) = Some n.
Proof.
  unfold parse_N, print_N.
  destruct (bytes_of_uint (N.to_uint n)) eqn:E.
  - exfalso. eapply bytes_of_uint_nonnil; [apply N_to_uint_nonnil|exact E].
  - rewrite <- E, uint_of_bytes_of_uint, DecimalN.Unsigned.of_to. reflexivity.
Qed.

(** a printed natural starts with a digit, neither '-' nor '+': ParseInt reads it as unsigned *)
Lemma parse_int64_print_N n : parse_int64 (print_N n) = if n <? 2 ^ 63 then Some (Z.of_N n) else None.
Proof.
  pose proof (parse_print_N n) as P. pose proof (N_to_uint_nonnil n) as H. unfold print_N in *.
  destruct (N.to_uint n); [congruence|..]; cbn [bytes_of_uint] in *; unfold parse_int64; rewrite P; reflexivity.
Qed.

Lemma parse_print_Z z : int64_ok z = true -> parse_int64 (print_Z z) = Some z.
Proof.
  unfold int64_ok, print_Z. intros H.
  destruct (z <? 0)%Z eqn:Hz.
  - unfold parse_int64. rewrite parse_print_N.
    destruct (Z.abs_N z <=? 2 ^ 63) eqn:E; [f_equal; lia|lia].
  - rewrite parse_int64_print_N.
    destruct (Z.to_N z <? 2 ^ 63) eqn:E; [f_equal; lia|lia].
Qed.

Lemma print_Z_inj a b : int64_ok a = true -> int64_ok b = true -> print_Z a = print_Z b -> a = b.
Proof.
  intros Ha Hb E. apply parse_print_Z in Ha. apply parse_print_Z in Hb. rewrite E in Ha. congruence.
Qed.

Lemma lua_ver_ok_int64 z : lua_ver_ok z = true -> int64_ok z = true /\ int64_ok (z + 1) = true.
Proof. unfold lua_ver_ok, int64_ok. lia. Qed.

Lemma lua_incr_print z : lua_ver_ok z = true -> lua_incr (print_Z z) = Some (print_Z (z + 1)).
Proof.
  intros H. unfold lua_incr. destruct (lua_ver_ok_int64 z H) as [H1 _].
  rewrite (parse_print_Z z H1), H. reflexivity.
Qed.

Lemma hget_hset h k v k2 : hget (hset h k v) k2 = if bytes_eqb k k2 then Some v else hget h k2.
Proof.
  induction h as [|[k' v'] h IH]; cbn [hset hget]; [reflexivity|].
  destruct (bytes_eqb k' k) eqn:E; cbn [hget].
  - apply bytes_eqb_eq in E. subst k'. destruct (bytes_eqb k k2); reflexivity.
  - rewrite IH. destruct (bytes_eqb k k2) eqn:E2; [|reflexivity].
    apply bytes_eqb_eq in E2. subst k2. rewrite E. reflexivity.
Qed.

Lemma hget_hdel h k k2 : hget (hdel h k) k2 = if bytes_eqb k k2 then None else hget h k2.
Proof.
  induction h as [|[k' v'] h IH]; cbn [hdel hget]; [destruct (bytes_eqb k k2); reflexivity|].
  destruct (bytes_eqb k' k) eqn:E; cbn [hget]; rewrite IH.
  - apply bytes_eqb_eq in E. subst k'. destruct (bytes_eqb k k2); reflexivity.
  - destruct (bytes_eqb k k2) eqn:E2; [|reflexivity].
    apply bytes_eqb_eq in E2. subst k2. rewrite E. reflexivity.
Qed.

Lemma hget_hdel_all h ks k :
  hget (hdel_all h ks) k = if mem_bytes k ks then None else hget h k.
Proof.
  unfold hdel_all. revert h. induction ks as [|x ks IH]; intros h; cbn [fold_left mem_bytes]; [reflexivity|].
  rewrite IH, hget_hdel, (bytes_eqb_sym k x).
  destruct (mem_bytes k ks); [rewrite orb_true_r|rewrite orb_false_r]; reflexivity.
Qed.

(** keys of a flat [k; v; k; v; …] list *)
Fixpoint pair_keys (l : list bytes) : list bytes :=
  match l with
  | k :: _ :: r => k :: pair_keys r
  | _ => []
  end.

Lemma list_pair_ind {A} (P : list A -> Prop) :
  P [] -> (forall x, P [x]) -> (forall x y r, P r -> P (x :: y :: r)) -> forall l, P l.
Proof. intros H0 H1 H2. fix F 1. intros [|x [|y r]]; [exact H0|apply H1|apply H2, F]. Qed.

Lemma hset_pairs_even l : forall h, Nat.even (length l) = true -> exists h', hset_pairs h l = Some h'.
Proof.
  induction l as [|x|k v r IH] using list_pair_ind; intros h E.
  - eexists; reflexivity.
  - cbn in E. discriminate.
  - cbn [hset_pairs]. apply IH. cbn [length] in E. exact E.
Qed.

Lemma mem_bytes_in x l : mem_bytes x l = true <-> In x l.
Proof.
  induction l as [|y l IH]; cbn [mem_bytes In]; [split; [discriminate|tauto]|].
  rewrite orb_true_iff, IH, bytes_eqb_eq. split; intros [H|H]; auto.
Qed.

Lemma mem_bytes_rev x l : mem_bytes x (List.rev l) = mem_bytes x l.
Proof. apply eq_true_iff_eq. rewrite !mem_bytes_in. symmetry. apply in_rev. Qed.

(** The script reads ARGV from its end: the count of names to clear, then the names. *)
Lemma split_dels_app body dels :
  split_dels (body ++ dels ++ [print_N (N.of_nat (length dels))]) = Some (body, rev dels).
Proof.
  unfold split_dels. rewrite app_assoc, rev_app_distr. cbn [rev app].
  rewrite parse_print_N, Nat2N.id, rev_app_distr, <- (rev_length dels).
  rewrite skipn_app_exact, firstn_app_exact, rev_involutive.
  replace (_ <? _)%nat with false; [reflexivity|].
  symmetry. apply Nat.ltb_ge. rewrite app_length. apply Nat.le_add_r.
Qed.

(** the optional trailing exat, as toExec appends it *)
Definition ext_arg (ext : Z) : list bytes := if (ext =? 0)%Z then [] else [print_Z ext].
(** the script's [e]: that argument, or nil *)
Definition ext_opt (ext : Z) : option bytes := if (ext =? 0)%Z then None else Some (print_Z ext).

Lemma split_exat_ext l ext : Nat.even (length l) = true ->
  split_exat (l ++ ext_arg ext) = (l, ext_opt ext).
Proof.
  intros E. unfold split_exat, ext_arg, ext_opt. destruct (ext =? 0)%Z.
  - rewrite app_nil_r, <- Nat.negb_even, E. reflexivity.
  - rewrite app_length, Nat.add_1_r, Nat.odd_succ, E, removelast_last, last_last. reflexivity.
Qed.

Definition old_fields (st : option hrec) : hash := match st with Some r => h_fields r | None => [] end.
Definition old_px (st : option hrec) : Z := match st with Some r => h_pxat r | None => 0%Z end.

Lemma do_hset_pairs st l h : l <> [] -> hset_pairs (old_fields st) l = Some h ->
  do_hset st l = Some (Some {| h_fields := h; h_pxat := old_px st |}).
Proof.
  intros NE H. unfold do_hset. destruct l; [congruence|].
  destruct st; cbn [old_fields old_px] in *; rewrite H; reflexivity.
Qed.

(** [if #d > 0 then redis.call('HDEL',KEYS[1],unpack(d)) end] *)
Lemma do_hdel_opt h px dels : hdel_all h dels <> [] ->
  match dels with
  | [] => Some {| h_fields := h; h_pxat := px |}
  | _ => do_hdel (Some {| h_fields := h; h_pxat := px |}) dels
  end = Some {| h_fields := hdel_all h dels; h_pxat := px |}.
Proof.
  intros NE. destruct dels as [|d dels]; [reflexivity|].
  unfold do_hdel. cbn [h_fields h_pxat]. destruct (hdel_all h (d :: dels)); [congruence|reflexivity].
Qed.

Lemma do_pexpireat_print now r t : int64_ok t = true ->
  do_pexpireat now (Some r) (print_Z t) =
  Some (if (t <=? now)%Z then None else Some {| h_fields := h_fields r; h_pxat := t |}).
Proof. intros H. unfold do_pexpireat. rewrite (parse_print_Z t H). destruct (t <=? now)%Z; reflexivity. Qed.

(** the tests an exat in the future passes (PEXPIREAT keeps the key, the key is live) *)
Lemma ext_future_tests now ext : (ext = 0 \/ now < ext)%Z -> (ext =? 0)%Z = false ->
  (ext <=? now)%Z = false /\ (now <? ext)%Z = true.
Proof. lia. Qed.

Lemma live_idem now st : live now (live now st) = live now st.
Proof.
  destruct st as [r|]; cbn [live]; [|reflexivity].
  destruct ((h_pxat r =? 0) || (now <? h_pxat r))%Z eqn:E; cbn [live]; [rewrite E|]; reflexivity.
Qed.

(** toExec sends, for every name, either a string (an HSET pair) or nothing (a nil pointer: the
    name is cleared by HDEL).  The script's effect is stated over that association list:
    [opt_pairs] is what HSET gets, [opt_dels] what HDEL gets, [hset_opts] what the HSET leaves. *)

Fixpoint opt_pairs (l : list (bytes * option bytes)) : list bytes :=
  match l with
  | [] => []
  | (n, Some s) :: r => n :: s :: opt_pairs r
  | (n, None) :: r => opt_pairs r
  end.

Fixpoint opt_dels (l : list (bytes * option bytes)) : list bytes :=
  match l with
  | [] => []
  | (n, Some _) :: r => opt_dels r
  | (n, None) :: r => n :: opt_dels r
  end.

Fixpoint hset_opts (h : hash) (l : list (bytes * option bytes)) : hash :=
  match l with
  | [] => h
  | (n, Some s) :: r => hset_opts (hset h n s) r
  | (n, None) :: r => hset_opts h r
  end.

Lemma opt_pairs_even l : Nat.even (length (opt_pairs l)) = true.
Proof. induction l as [|[n [s|]] l IH]; [reflexivity|exact IH..]. Qed.

Lemma hset_opt_pairs l : forall h, hset_pairs h (opt_pairs l) = Some (hset_opts h l).
Proof. induction l as [|[n [s|]] l IH]; intros h; [reflexivity|apply IH..]. Qed.

Lemma hset_opts_absent l k : ~ In k (map fst l) -> forall h,
  hget (hset_opts h l) k = hget h k /\ mem_bytes k (opt_dels l) = false.
Proof.
  induction l as [|[n o] l IH]; cbn [map fst In]; intros H h; [split; reflexivity|].
  assert (N : bytes_eqb n k = false) by (apply bytes_eqb_neq; tauto).
  destruct o as [s|]; cbn [hset_opts opt_dels mem_bytes].
  - destruct (IH (fun X => H (or_intror X)) (hset h n s)) as [-> M].
    rewrite hget_hset, N. split; [reflexivity|exact M].
  - rewrite bytes_eqb_sym, N. apply IH. tauto.
Qed.

Lemma hset_opts_present l : NoDup (map fst l) -> forall h n o, In (n, o) l ->
  (if mem_bytes n (opt_dels l) then None else hget (hset_opts h l) n) = o.
Proof.
  induction l as [|[n' o'] l IH]; cbn [map fst]; intros ND h n o HIn; [destruct HIn|].
  apply NoDup_cons_iff in ND as [Hn ND]. destruct HIn as [E|HIn].
  - injection E as -> ->. destruct o as [s|]; cbn [hset_opts opt_dels mem_bytes].
    + destruct (hset_opts_absent l n Hn (hset h n s)) as [-> ->]. rewrite hget_hset, bytes_eqb_refl. reflexivity.
    + rewrite bytes_eqb_refl. reflexivity.
  - destruct o' as [s'|]; cbn [hset_opts opt_dels mem_bytes]; [exact (IH ND _ n o HIn)|].
    replace (bytes_eqb n n') with false; [exact (IH ND h n o HIn)|].
    symmetry. apply bytes_eqb_neq. intros ->. apply Hn, (in_map fst _ _ HIn).
Qed.

Definition new_hash (st : option hrec) (l : list (bytes * option bytes)) : hash :=
  hdel_all (hset_opts (old_fields st) l) (rev (opt_dels l)).

Lemma hget_written st l : NoDup (map fst l) -> forall n o, In (n, o) l -> hget (new_hash st l) n = o.
Proof.
  intros ND n o H. unfold new_hash. rewrite hget_hdel_all, mem_bytes_rev. exact (hset_opts_present l ND _ n o H).
Qed.

(** the state a successful script run leaves *)
Definition written (now : Z) (st : option hrec) (l : list (bytes * option bytes)) (ext : Z) : option hrec :=
  if (ext =? 0)%Z then Some {| h_fields := new_hash st l; h_pxat := old_px st |}
  else if (ext <=? now)%Z then None
  else Some {| h_fields := new_hash st l; h_pxat := ext |}.

Lemma write_tail_spec now st l ext :
  opt_pairs l <> [] -> new_hash st l <> [] -> int64_ok ext = true ->
  write_tail now st (opt_pairs l) (rev (opt_dels l)) (ext_opt ext) =
  Some (written now st l ext).
Proof.
  intros NE NH Hext. unfold write_tail, written, new_hash, ext_opt in *.
  rewrite (do_hset_pairs st _ _ NE (hset_opt_pairs l _)), (do_hdel_opt _ (old_px st) _ NH).
  destruct (ext =? 0)%Z; [reflexivity|].
  rewrite (do_pexpireat_print now _ ext Hext). cbn [h_fields]. destruct (ext <=? now)%Z; reflexivity.
Qed.

Lemma written_live now st l ext : NoDup (map fst l) -> (ext = 0 \/ now < ext)%Z -> live now st = st ->
  exists r, written now st l ext = Some r /\ live now (Some r) = Some r /\
            forall n o, In (n, o) l -> hget (h_fields r) n = o.
Proof.
  intros ND F L. unfold written. pose proof (hget_written st l ND) as G.
  destruct (ext =? 0)%Z eqn:E0.
  - eexists. split; [reflexivity|]. split; [|exact G]. cbn [live h_pxat].
    destruct st as [r0|]; [|reflexivity]. cbn [live old_px] in *.
    destruct ((h_pxat r0 =? 0) || (now <? h_pxat r0))%Z; [reflexivity|discriminate].
  - destruct (ext_future_tests now ext F E0) as [-> E2].
    eexists. split; [reflexivity|]. split; [|exact G]. cbn [live h_pxat].
    rewrite E2, orb_true_r. reflexivity.
Qed.

(** ARGV: the version pair, the other pairs, the optional exat, the names to clear and their count *)
Definition sent_args (vn vv : bytes) (l : list (bytes * option bytes)) (ext : Z) : list bytes :=
  (vn :: vv :: opt_pairs l ++ ext_arg ext) ++ opt_dels l ++ [print_N (N.of_nat (length (opt_dels l)))].

Lemma script_verless_sent now st n s l ext a2 : NoDup (n :: map fst l) -> int64_ok ext = true ->
  script_verless now st (n :: s :: opt_pairs l ++ ext_arg ext) (rev (opt_dels l)) a2 =
  (written now st ((n, Some s) :: l) ext, SStr a2).
Proof.
  intros ND Hext. unfold script_verless.
  change (n :: s :: opt_pairs l ++ ext_arg ext) with (opt_pairs ((n, Some s) :: l) ++ ext_arg ext).
  change (opt_dels l) with (opt_dels ((n, Some s) :: l)).
  rewrite (split_exat_ext _ ext (opt_pairs_even _)).
  rewrite write_tail_spec; [reflexivity|discriminate| |exact Hext].
  intros E. pose proof (hget_written st ((n, Some s) :: l) ND n _ (or_introl eq_refl)) as H. rewrite E in H. discriminate.
Qed.

Definition ver_pass (st : option hrec) (vn vv : bytes) : bool :=
  match hget (old_fields st) vn with None => true | Some s => bytes_eqb s vv end.

(** the version-checking branch is the check, then the other branch on the incremented ARGV[2] *)
Lemma script_ver_verless now st argv dels a1 a2 :
  script_ver now st argv dels a1 a2 =
  if ver_pass st a1 a2 then
    match lua_incr a2 with
    | Some a2' => script_verless now st (set_second argv a2') dels a2'
    | None => (st, SOutOfRange)
    end
  else (st, SNil).
Proof. unfold script_ver, ver_pass. destruct st; reflexivity. Qed.

(** hashSaveScript on such an ARGV, without and with a version field *)
Lemma script_sent_verless now st0 vv l ext : NoDup ([] :: map fst l) -> int64_ok ext = true ->
  hash_save_script now st0 (sent_args [] vv l ext) = (written now (live now st0) (([], Some vv) :: l) ext, SStr vv).
Proof.
  intros ND Hext. unfold hash_save_script, sent_args. rewrite split_dels_app.
  apply script_verless_sent; assumption.
Qed.

Lemma script_sent_ver now st0 vn vv l ext : vn <> [] -> NoDup (vn :: map fst l) -> int64_ok ext = true ->
  hash_save_script now st0 (sent_args vn vv l ext) =
  if ver_pass (live now st0) vn vv then
    match lua_incr vv with
    | Some vv' => (written now (live now st0) ((vn, Some vv') :: l) ext, SStr vv')
    | None => (live now st0, SOutOfRange)
    end
  else (live now st0, SNil).
Proof.
  intros NE ND Hext. unfold hash_save_script, sent_args. rewrite split_dels_app.
  destruct vn as [|c vn]; [congruence|]. cbn [app]. rewrite script_ver_verless.
  destruct (ver_pass (live now st0) (c :: vn) vv); [|reflexivity].
  destruct (lua_incr vv) as [vv'|]; [|reflexivity].
  apply script_verless_sent; assumption.
Qed.

(** the version the key stores under the field [vn], if it is an int64 numeral *)
Definition stored (vn : bytes) (st : option hrec) (n : Z) : Prop :=
  hget (old_fields st) vn = Some (print_Z n) /\ int64_ok n = true.

(** Optimistic locking on an abstract versioned register.  A state may store an integer version.
    [won o b = Some c] says that operation [o] was a save carrying version [c] and that its answer
    [b] reports success.  [register_step]: a save that wins
    found nothing stored but its own version and leaves that version plus one; every other step
    keeps what is stored.  Hence the stored version only grows, and of the saves that carry one
    version at most one wins.  Both repositories are instances ([hash_register], [json_register]). *)
Section Register.
  Variables St Op Ob : Type.
  Variable step : St -> Op -> St * Ob.
  Variable stored_ver : St -> Z -> Prop.
  Variable won : Op -> Ob -> option Z.
  Variable inv : St -> Prop.            (* kept by every step *)
  Variable ok : St -> Op -> Prop.       (* asked of every step of a quiet history *)
  Variable good : Op -> Ob -> Prop.     (* the answers a step may give *)

  Definition register_step (st : St) (o : Op) : Prop :=
    forall st' b, step st o = (st', b) -> inv st -> ok st o ->
    inv st' /\ good o b /\
    match won o b with
    | Some c => (forall n, stored_ver st n -> n = c) /\ stored_ver st' (c + 1)
    | None => forall n, stored_ver st n -> stored_ver st' n
    end.

  Hypothesis step_spec : forall st o, register_step st o.

  Fixpoint answers (st : St) (ops : list Op) : list Ob :=
    match ops with
    | [] => []
    | o :: r => snd (step st o) :: answers (fst (step st o)) r
    end.

  Fixpoint all_ok (st : St) (ops : list Op) : Prop :=
    match ops with
    | [] => True
    | o :: r => ok st o /\ all_ok (fst (step st o)) r
    end.

  Fixpoint wins_of (v : Z) (ops : list Op) (bs : list Ob) : nat :=
    match ops, bs with
    | o :: r, b :: r' =>
      match won o b with Some c => if (c =? v)%Z then 1 else 0 | None => 0 end + wins_of v r r'
    | _, _ => O
    end.

  (** The second half is what the induction needs: once a version above [v] is stored, no save
      carrying [v] wins any more. *)
  Theorem register_one_winner v : forall ops st, inv st -> all_ok st ops ->
    (wins_of v ops (answers st ops) <= 1)%nat /\
    ((exists n, stored_ver st n /\ (v < n)%Z) -> wins_of v ops (answers st ops) = O).
  Proof.
    induction ops as [|o ops IH]; intros st I Q; [split; [apply Nat.le_0_l|reflexivity]|].
    destruct Q as [K Q]. cbn [answers wins_of].
    destruct (step_spec st o _ _ (surjective_pairing _) I K) as (I' & _ & H).
    destruct (IH _ I' Q) as [B Z0].
    destruct (won o (snd (step st o))) as [c|].
    - destruct H as [U S]. destruct (Z.eqb_spec c v) as [->|N].
      + rewrite Z0 by (exists (v + 1)%Z; split; [exact S|apply Z.lt_succ_diag_r]).
        split; [apply le_n|]. intros (n & Hn & Hlt). apply U in Hn. subst n. destruct (Z.lt_irrefl _ Hlt).
      + split; [exact B|]. intros (n & Hn & Hlt). apply Z0.
        exists (c + 1)%Z. split; [exact S|]. apply U in Hn. subst n. apply Z.lt_lt_succ_r, Hlt.
    - split; [exact B|]. intros (n & Hn & Hlt). apply Z0. exists n. split; [apply H, Hn|exact Hlt].
  Qed.

  Theorem register_answers : forall ops st, inv st -> all_ok st ops -> Forall2 good ops (answers st ops).
  Proof.
    induction ops as [|o ops IH]; intros st I Q; [constructor|].
    destruct Q as [K Q]. destruct (step_spec st o _ _ (surjective_pairing _) I K) as (I' & G & _).
    constructor; [exact G|apply IH; assumption].
  Qed.
End Register.

Arguments register_step {St Op Ob}.
Arguments answers {St Op Ob}.
Arguments all_ok {St Op Ob}.
Arguments wins_of {Op Ob}.
Arguments register_one_winner {St Op Ob step stored_ver won inv ok good}.
Arguments register_answers {St Op Ob step stored_ver won inv ok good}.

Lemma kind_eqb_eq a b : kind_eqb a b = true -> a = b.
Proof. destruct a, b; first [reflexivity|discriminate]. Qed.

Section ConvProofs.
  Variable J : Type.
  Variable jprint : J -> bytes.

  Notation fval := (fval J).
  Notation entity := (entity J).
  Notation to_string := (to_string J jprint).
  Notation field_pairs := (field_pairs J jprint).
  Notation field_dels := (field_dels J jprint).
  Notation exec_args := (exec_args J jprint).
  Notation save := (save J jprint).
  Notation wf := (wf J).
  Notation val_ok := (val_ok J).

  (** what is sent for the fields of an entity *)
  Definition strs (fs : list (bytes * fval)) : list (bytes * option bytes) :=
    map (fun p => (fst p, to_string (snd p))) fs.

  Lemma field_pairs_strs fs : field_pairs fs = opt_pairs (strs fs).
  Proof.
    induction fs as [|[n v] fs IH]; [reflexivity|].
    cbn [Om.field_pairs strs map opt_pairs fst snd]. rewrite IH. reflexivity.
  Qed.

  Lemma field_dels_strs fs : field_dels fs = opt_dels (strs fs).
  Proof.
    induction fs as [|[n v] fs IH]; [reflexivity|].
    cbn [Om.field_dels strs map opt_dels fst snd]. rewrite IH. reflexivity.
  Qed.

  Lemma strs_names fs : map fst (strs fs) = map fst fs.
  Proof. unfold strs. rewrite map_map. reflexivity. Qed.

  Lemma fields_ok_names (fs : list (bytes * fval)) ks : fields_ok J fs ks = true -> map fst fs = map fst ks.
  Proof.
    revert ks. induction fs as [|[n v] fs IH]; intros [|[n' k] ks] H; cbn [fields_ok] in H; try discriminate; [reflexivity|].
    apply andb_true_iff in H as [H H2]. apply andb_true_iff in H as [H1 _]. apply bytes_eqb_eq in H1. subst.
    cbn [map fst]. f_equal. apply IH, H2.
  Qed.

  Section OneSchema.
    Variable sc : schema.

    Definition ver_in_range (e : entity) : Prop :=
      match s_ver sc with Some _ => lua_ver_ok (e_ver J e) = true | None => True end.

    Lemma ver_name_some vn : s_ver sc = Some vn -> ver_name sc = vn.
    Proof. intros H. unfold ver_name. rewrite H. reflexivity. Qed.

    (** toExec: everything but the version pair *)
    Definition sent (e : entity) : list (bytes * option bytes) :=
      (s_key sc, Some (e_key J e)) :: strs (e_fields J e).

    Lemma exec_args_sent e :
      exec_args sc e =
      sent_args (ver_name sc) (match s_ver sc with Some _ => print_Z (e_ver J e) | None => [] end) (sent e) (e_ext J e).
    Proof.
      unfold Om.exec_args, sent_args, sent, ext_arg. cbn [opt_pairs opt_dels app].
      rewrite <- field_pairs_strs, <- field_dels_strs, <- app_assoc. reflexivity.
    Qed.

    Lemma wf_sent_names e vv : wf sc e -> NoDup (map fst ((ver_name sc, Some vv) :: sent e)).
    Proof.
      intros W. unfold sent. cbn [map fst]. rewrite strs_names, (fields_ok_names _ _ (wf_fields _ _ _ W)).
      pose proof (wf_names _ _ _ W) as N.
      apply NoDup_cons_iff in N as [K N]. apply NoDup_cons_iff in N as [V N]. cbn [In] in K.
      repeat constructor; [intros [E|H]; [symmetry in E|]; tauto|tauto|exact N].
    Qed.

    Lemma saved_live now st e vv : wf sc e -> ext_future J now e -> live now st = st ->
      exists r, written now st ((ver_name sc, Some vv) :: sent e) (e_ext J e) = Some r /\
                live now (Some r) = Some r /\
                forall n o, In (n, o) ((ver_name sc, Some vv) :: sent e) -> hget (h_fields r) n = o.
    Proof. intros W. apply written_live, wf_sent_names, W. Qed.

    (** HashRepository.Save, with and without a version field *)
    Lemma save_versioned now st0 e vn : s_ver sc = Some vn -> wf sc e -> lua_ver_ok (e_ver J e) = true ->
      save sc now st0 e =
      if ver_pass (live now st0) vn (print_Z (e_ver J e))
      then (written now (live now st0) ((ver_name sc, Some (print_Z (e_ver J e + 1))) :: sent e) (e_ext J e),
            SaveOk (e_ver J e + 1))
      else (live now st0, SaveMismatch).
    Proof.
      intros Hv W R. pose proof (wf_sent_names e [] W) as ND.
      unfold Om.save. rewrite exec_args_sent, (ver_name_some vn Hv) in *. rewrite Hv.
      rewrite script_sent_ver; [|intros ->; apply (wf_ver_name _ _ _ W); exact Hv|exact ND|apply (wf_ext _ _ _ W)].
      rewrite (lua_incr_print _ R).
      destruct (ver_pass (live now st0) vn (print_Z (e_ver J e))); [|reflexivity].
      rewrite parse_print_Z by (apply lua_ver_ok_int64, R). reflexivity.
    Qed.

    Lemma save_verless now st0 e : s_ver sc = None -> wf sc e ->
      save sc now st0 e = (written now (live now st0) ((ver_name sc, Some []) :: sent e) (e_ext J e), SaveOk (e_ver J e)).
    Proof.
      intros Hv W. pose proof (wf_sent_names e [] W) as ND.
      unfold Om.save. rewrite exec_args_sent. unfold ver_name in *. rewrite Hv in *.
      rewrite script_sent_verless; [reflexivity|exact ND|apply (wf_ext _ _ _ W)].
    Qed.

    (** A successful save reports the version it stored, and unless the entity is already expired
        it leaves a live key that reads back, name by name, what was sent. *)
    Lemma save_ok_spec now st0 e st' v' : wf sc e -> ver_in_range e -> save sc now st0 e = (st', SaveOk v') ->
      exists vv,
        match s_ver sc with
        | Some _ => v' = (e_ver J e + 1)%Z /\ vv = print_Z v' /\ int64_ok v' = true
        | None => True
        end /\
        (ext_future J now e -> exists r, st' = Some r /\ live now (Some r) = Some r /\
           forall n o, In (n, o) ((ver_name sc, Some vv) :: sent e) -> hget (h_fields r) n = o).
    Proof.
      intros W R S. unfold ver_in_range in R. destruct (s_ver sc) as [vn|] eqn:Hv.
      - rewrite (save_versioned now st0 e vn Hv W R) in S.
        destruct (ver_pass (live now st0) vn (print_Z (e_ver J e))); [|discriminate].
        injection S as <- <-. eexists. split.
        + split; [reflexivity|]. split; [reflexivity|apply lua_ver_ok_int64, R].
        + intros F. exact (saved_live now _ e _ W F (live_idem now st0)).
      - rewrite (save_verless now st0 e Hv W) in S. injection S as <- <-.
        eexists. split; [exact I|]. intros F. exact (saved_live now _ e _ W F (live_idem now st0)).
    Qed.

    Section WithParse.
      Variable jparse : bytes -> option J.
      Variable jzero : bytes -> J.
      Notation of_string := (of_string J jparse).
      Notation zero_of := (zero_of J jzero).
      Notation fetch := (fetch J jparse jzero).
      Notation from_fields := (from_fields J jparse jzero).

    Notation quiet := (quiet J jprint).
    Notation wins := (wins J).
    Notation saves_wf := (saves_wf J).
    Notation run := (run J jprint jparse jzero).

    Definition save_won (o : op J) (b : obs J) : option Z :=
      match o, b with OSave _ _ e, BSave _ (SaveOk _) => Some (e_ver J e) | _, _ => None end.

    Definition step_ok (st : option hrec) (o : op J) : Prop :=
      match o with
      | OSave _ now e => live now st = st /\ ext_future J now e /\ wf sc e /\ lua_ver_ok (e_ver J e) = true
      | OFetch _ _ => True
      | _ => False
      end.

    Definition save_good (o : op J) (b : obs J) : Prop :=
      match o with
      | OSave _ _ e => b = BSave J (SaveOk (e_ver J e + 1)) \/ b = BSave J SaveMismatch
      | _ => True
      end.

    (** the key of a versioned schema is a register; a history of [run] is a history of the register *)
    Lemma hash_register vn : s_ver sc = Some vn -> forall st o,
      register_step (step J jprint jparse jzero sc) (stored vn) save_won (fun _ => True) step_ok save_good st o.
    Proof.
      intros Hv st o st' b E _ K. destruct o as [now e|now| |now f x]; cbn [step_ok] in K; try contradiction.
      - destruct K as (L & F & W & R). cbn [Om.step] in E.
        rewrite (save_versioned now st e vn Hv W R), L in E.
        destruct (ver_pass st vn (print_Z (e_ver J e))) eqn:P; injection E as <- <-.
        + split; [exact I|]. split; [left; reflexivity|]. split.
          * intros n [G Hn]. unfold ver_pass in P. rewrite G in P. apply bytes_eqb_eq in P.
            exact (print_Z_inj n _ Hn (proj1 (lua_ver_ok_int64 _ R)) P).
          * destruct (saved_live now st e (print_Z (e_ver J e + 1)) W F L) as (r & -> & _ & G).
            split; [|apply lua_ver_ok_int64, R]. rewrite <- (ver_name_some vn Hv). apply G. left. reflexivity.
        + split; [exact I|]. split; [right; reflexivity|]. intros n Hn. exact Hn.
      - injection E as <- <-. split; [exact I|]. split; [exact I|]. intros n Hn. exact Hn.
    Qed.

    Lemma run_answers ops : forall st, snd (run sc st ops) = answers (step J jprint jparse jzero sc) st ops.
    Proof.
      induction ops as [|o ops IH]; intros st; [reflexivity|].
      cbn [Om.run answers]. rewrite <- IH.
      destruct (step J jprint jparse jzero sc st o) as [st1 b]. cbn [fst snd]. destruct (run sc st1 ops). reflexivity.
    Qed.

    Lemma quiet_all_ok ops : forall st, saves_wf sc ops -> quiet sc st ops ->
      all_ok (step J jprint jparse jzero sc) step_ok st ops.
    Proof.
      induction ops as [|o ops IH]; intros st W Q; [exact I|].
      inversion W as [|? ? Wo Wr]; subst.
      destruct o as [now e|now| |now f x]; cbn [Om.quiet] in Q; try contradiction.
      - destruct Q as (L & F & Q). split; [cbn [step_ok]; tauto|].
        apply IH; [exact Wr|]. cbn [Om.step]. destruct (save sc now st e). exact Q.
      - split; [exact I|]. apply IH; assumption.
    Qed.

    Lemma wins_wins_of v ops : forall bs, wins v ops bs = wins_of save_won v ops bs.
    Proof.
      induction ops as [|o ops IH]; intros bs; [destruct bs; reflexivity|].
      destruct bs as [|b bs]; [destruct o; reflexivity|].
      cbn [wins_of]. rewrite <- IH. destruct o as [now e|now| |now f x], b as [[]| |]; reflexivity.
    Qed.

      Section WithLaw.
        Hypothesis jroundtrip : forall j, jparse (jprint j) = Some j.

        Lemma bool_str_roundtrip b : bytes_eqb (bool_str b) str_t = b.
        Proof. destruct b; reflexivity. Qed.

        (** per-value round trip of converter.ValueToString / StringToValue *)
        Lemma of_to_string v s : val_ok v -> to_string v = Some s -> of_string (kind_of J v) s = Ok v.
        Proof.
          destruct v as [z|x|b|[z|]|[x|]|[b|]|x|ws|ws|j]; cbn [Om.to_string kind_of Om.of_string Om.val_ok]; intros Hv E;
            try discriminate; injection E as <-; try reflexivity.
          - rewrite (parse_print_Z z Hv). reflexivity.
          - rewrite bool_str_roundtrip. reflexivity.
          - rewrite (parse_print_Z z Hv). reflexivity.
          - rewrite bool_str_roundtrip. reflexivity.
          - rewrite (to_vector_top_roundtrip 4 ws); [reflexivity|repeat constructor|exact Hv].
          - rewrite (to_vector_top_roundtrip 8 ws); [reflexivity|repeat constructor|exact Hv].
          - rewrite jroundtrip. reflexivity.
        Qed.

        (** a value without string form is the zero value of its kind (a nil pointer) *)
        Lemma zero_of_none n v : to_string v = None -> zero_of n (kind_of J v) = v.
        Proof.
          destruct v as [z|x|b|[z|]|[x|]|[b|]|x|ws|ws|j]; cbn [Om.to_string kind_of Om.zero_of]; intros E;
            try discriminate; reflexivity.
        Qed.

        Lemma from_fields_roundtrip h : forall fs ks, fields_ok J fs ks = true ->
          Forall (fun p => val_ok (snd p)) fs ->
          (forall n v, In (n, v) fs -> hget h n = to_string v) ->
          from_fields h ks = Ok fs.
        Proof.
          induction fs as [|[n v] fs IH]; intros [|[n' k] ks] Hok Hv Hget; cbn [fields_ok] in Hok; try discriminate; [reflexivity|].
          apply andb_true_iff in Hok as [Hok Hrest]. apply andb_true_iff in Hok as [Hn Hk].
          apply bytes_eqb_eq in Hn. apply kind_eqb_eq in Hk. subst n' k.
          inversion Hv as [|? ? Hv1 Hv2]; subst.
          cbn [Om.from_fields]. rewrite (Hget n v (or_introl eq_refl)).
          rewrite (IH ks Hrest Hv2 (fun n0 v0 H => Hget n0 v0 (or_intror H))).
          destruct (to_string v) eqn:Ev.
          - rewrite (of_to_string v b Hv1 Ev). reflexivity.
          - rewrite (zero_of_none n v Ev). reflexivity.
        Qed.

    Lemma fetch_sent now' r e vv z : wf sc e -> live now' (Some r) = Some r ->
      (forall n o, In (n, o) ((ver_name sc, Some vv) :: sent e) -> hget (h_fields r) n = o) ->
      match s_ver sc with Some _ => vv = print_Z z /\ int64_ok z = true | None => True end ->
      exists e', fetch sc now' (Some r) = Ok e' /\ e_key J e' = e_key J e /\ e_fields J e' = e_fields J e
        /\ e_ver J e' = match s_ver sc with Some _ => z | None => 0%Z end.
    Proof.
      intros W L G Hvv. unfold Om.fetch. rewrite L.
      pose proof (G _ _ (or_intror (or_introl eq_refl))) as Hk.
      destruct (h_fields r) as [|p h] eqn:Hh; [discriminate|]. rewrite <- Hh in *. clear Hh p h.
      rewrite Hk.
      rewrite (from_fields_roundtrip _ _ _ (wf_fields _ _ _ W) (wf_vals _ _ _ W)
                 (fun n v H => G n _ (or_intror (or_intror (in_map (fun p => (fst p, to_string (snd p))) _ _ H))))).
      unfold ver_name in G. destruct (s_ver sc) as [vn|].
      - rewrite (G vn _ (or_introl eq_refl)). destruct Hvv as [-> Hz]. rewrite (parse_print_Z z Hz).
        eexists; repeat split; reflexivity.
      - eexists; repeat split; reflexivity.
    Qed.

      End WithLaw.
    End WithParse.
  End OneSchema.
End ConvProofs.

(** The JSON repository (om/json.go): the same optimistic locking, the document store abstracted. *)
Section JsonProofs.
  Variable doc : Type.
  Variable jset : bytes -> option doc.
  Variable jget : doc -> bytes -> option bytes.
  Variable jincr : doc -> bytes -> option (doc * bytes).
  Variable jroot : doc -> bytes.
  Variable ent : Type.
  Variable jenc : ent -> bytes.
  Variable jdec : bytes -> option ent.
  Variable ent_ver : ent -> Z.
  Variable ent_set_ver : ent -> Z -> ent.
  Variable ent_ext : ent -> Z.
  Variable vn : bytes.                      (* name of the version field *)
  Hypothesis vn_nonempty : vn <> [].

  (** assumed of RedisJSON and encoding/json (exercised by the tie on a fake JSON store):
      storing an encoded entity yields a document whose version path prints the entity's version
      and whose root decodes to the entity; NUMINCRBY by 1 adds one to that number and to nothing else *)
  Hypothesis jset_enc : forall e, exists d, jset (jenc e) = Some d /\
      jget d vn = Some (print_Z (ent_ver e)) /\ jdec (jroot d) = Some e.
  Hypothesis jincr_spec : forall d z, jget d vn = Some (print_Z z) -> exists d',
      jincr d vn = Some (d', print_Z (z + 1)) /\ jget d' vn = Some (print_Z (z + 1)) /\
      (forall e, jdec (jroot d) = Some e -> jdec (jroot d') = Some (ent_set_ver e (z + 1))).

  Notation jrec := (jrec doc).
  Notation jsave := (jsave doc jset jget jincr ent jenc ent_ver ent_ext vn).
  Notation jfetch := (jfetch doc jroot ent jdec).
  Notation jlive := (jlive doc).

  Definition ent_ok (e : ent) : Prop := int64_ok (ent_ver e) = true /\ int64_ok (ent_ver e + 1) = true /\ int64_ok (ent_ext e) = true.
  Definition jext_future (now : Z) (e : ent) : Prop := (ent_ext e = 0 \/ now < ent_ext e)%Z.

  (** the stored document carries an integer version *)
  Definition doc_ok (st : option jrec) : Prop :=
    match st with
    | Some r => exists n, int64_ok n = true /\ jget (j_doc _ r) vn = Some (print_Z n)
    | None => True
    end.

  Definition jstored (st : option jrec) : option Z -> Prop :=
    fun o => match st, o with
             | Some r, Some n => int64_ok n = true /\ jget (j_doc _ r) vn = Some (print_Z n)
             | None, None => True
             | _, _ => False
             end.

  Definition jwritten (now : Z) (st : option jrec) (e : ent) (d' : doc) : option jrec :=
    let px := match st with Some r => j_pxat _ r | None => 0%Z end in
    if (ent_ext e =? 0)%Z then Some (Build_jrec d' px)
    else if (ent_ext e <=? now)%Z then None else Some (Build_jrec d' (ent_ext e)).

  Lemma json_script_ver now st0 a2 a3 ext :
    json_save_script doc jset jget jincr now st0 (vn :: a2 :: a3 :: ext_arg ext) =
    jscript_ver doc jset jget jincr now (jlive now st0) vn a2 a3 (ext_opt ext).
  Proof.
    unfold json_save_script, ext_arg, ext_opt. destruct vn eqn:E; [congruence|]. rewrite <- E.
    destruct (ext =? 0)%Z; reflexivity.
  Qed.

  Lemma jexpire_print now d px ext : int64_ok ext = true ->
    jexpire doc now (Some (Build_jrec d px)) (ext_opt ext) =
    Some (if (ext =? 0)%Z then Some (Build_jrec d px)
          else if (ext <=? now)%Z then None else Some (Build_jrec d ext)).
  Proof.
    intros H. unfold jexpire, ext_opt. destruct (ext =? 0)%Z; [reflexivity|].
    rewrite (parse_print_Z _ H). cbn [j_doc]. destruct (ext <=? now)%Z; reflexivity.
  Qed.

  Definition jpass (st : option jrec) (vv : bytes) : bool :=
    match st with
    | Some r => match jget (j_doc _ r) vn with Some s => bytes_eqb s vv | None => false end
    | None => true
    end.

  (** jsonSaveScript on an encoded entity, by the two laws *)
  Lemma jscript_ver_enc now st e d d' nv : doc_ok st -> int64_ok (ent_ext e) = true ->
    jset (jenc e) = Some d -> jincr d vn = Some (d', nv) ->
    jscript_ver doc jset jget jincr now st vn (print_Z (ent_ver e)) (jenc e) (ext_opt (ent_ext e)) =
    if jpass st (print_Z (ent_ver e)) then (jwritten now st e d', SStr nv) else (st, SNil).
  Proof.
    intros D Hx Hd Hi. unfold jscript_ver, jpass, jwritten. cbv zeta.
    rewrite Hd, Hi, (jexpire_print now d' _ _ Hx).
    destruct st as [r|]; [|reflexivity]. destruct D as (n & _ & ->). reflexivity.
  Qed.

  (** JSONRepository.Save *)
  Lemma jsave_spec now st0 e : ent_ok e -> doc_ok (jlive now st0) ->
    exists d', jget d' vn = Some (print_Z (ent_ver e + 1)) /\
               jdec (jroot d') = Some (ent_set_ver e (ent_ver e + 1)) /\
               jsave now st0 e =
               if jpass (jlive now st0) (print_Z (ent_ver e))
               then (jwritten now (jlive now st0) e d', JSaveOk (ent_ver e + 1))
               else (jlive now st0, JSaveMismatch).
  Proof.
    intros (Hv & Hv1 & Hx) D.
    destruct (jset_enc e) as (d & Hd & Hg & Hdec).
    destruct (jincr_spec d _ Hg) as (d' & Hi & Hg' & Hdec').
    exists d'. split; [exact Hg'|]. split; [apply Hdec', Hdec|].
    unfold Om.jsave. rewrite (json_script_ver now st0 _ _ (ent_ext e)), (jscript_ver_enc now _ e d d' _ D Hx Hd Hi).
    destruct (jpass (jlive now st0) (print_Z (ent_ver e))); [|reflexivity].
    rewrite (parse_print_Z _ Hv1). destruct vn; [congruence|reflexivity].
  Qed.

  Lemma jlive_idem now st : jlive now (jlive now st) = jlive now st.
  Proof.
    destruct st as [r|]; cbn [Om.jlive]; [|reflexivity].
    destruct ((j_pxat _ r =? 0) || (now <? j_pxat _ r))%Z eqn:E; cbn [Om.jlive]; [rewrite E|]; reflexivity.
  Qed.

  Lemma jwritten_live now st e d' : jext_future now e -> jlive now st = st ->
    exists px, jwritten now st e d' = Some (Build_jrec d' px) /\ jlive now (Some (Build_jrec d' px)) = Some (Build_jrec d' px).
  Proof.
    intros F L. unfold jwritten. destruct (ent_ext e =? 0)%Z eqn:E0.
    - eexists; split; [reflexivity|]. cbn [Om.jlive j_pxat]. destruct st as [r|]; [|reflexivity].
      cbn [Om.jlive] in L. destruct ((j_pxat _ r =? 0) || (now <? j_pxat _ r))%Z; [reflexivity|discriminate].
    - destruct (ext_future_tests now (ent_ext e) F E0) as [-> E2].
      eexists; split; [reflexivity|]. cbn [Om.jlive j_pxat].
      rewrite E2, orb_true_r. reflexivity.
  Qed.

  (** A successful save reports version + 1, and unless the entity is already expired it leaves a
      live key whose document carries that version and decodes to the entity with that version. *)
  Lemma jsave_ok_spec now st0 e st' v' : ent_ok e -> doc_ok (jlive now st0) ->
    jsave now st0 e = (st', JSaveOk v') ->
    v' = (ent_ver e + 1)%Z /\
    (jext_future now e -> exists d' px, st' = Some (Build_jrec d' px) /\ jlive now st' = st' /\
       jget d' vn = Some (print_Z v') /\ jdec (jroot d') = Some (ent_set_ver e v')).
  Proof.
    intros He D S. destruct (jsave_spec now st0 e He D) as (d' & Hg & Hdec & Hs). rewrite Hs in S.
    destruct (jpass (jlive now st0) (print_Z (ent_ver e))); [|discriminate].
    injection S as <- <-. split; [reflexivity|]. intros F.
    destruct (jwritten_live now (jlive now st0) e d' F (jlive_idem now st0)) as (px & -> & L).
    exists d', px. split; [reflexivity|]. split; [exact L|]. split; [exact Hg|exact Hdec].
  Qed.

  Fixpoint jhist (st : option jrec) (ops : list (Z * ent)) : list jsave_res :=
    match ops with
    | [] => []
    | (now, e) :: r => snd (jsave now st e) :: jhist (fst (jsave now st e)) r
    end.

  (** the key neither expires nor is removed during the history; no save writes an expired object *)
  Fixpoint jquiet (st : option jrec) (ops : list (Z * ent)) : Prop :=
    match ops with
    | [] => True
    | (now, e) :: r => jlive now st = st /\ jext_future now e /\ ent_ok e /\ jquiet (fst (jsave now st e)) r
    end.

  Fixpoint jwins (v : Z) (ops : list (Z * ent)) (rs : list jsave_res) : nat :=
    match ops, rs with
    | (_, e) :: r, JSaveOk _ :: r' => (if (ent_ver e =? v)%Z then 1 else 0) + jwins v r r'
    | _ :: r, _ :: r' => jwins v r r'
    | _, _ => O
    end.

  Definition jstep (st : option jrec) (o : Z * ent) : option jrec * jsave_res := jsave (fst o) st (snd o).
  Definition jwon (o : Z * ent) (r : jsave_res) : option Z :=
    match r with JSaveOk _ => Some (ent_ver (snd o)) | _ => None end.
  Definition jstep_ok (st : option jrec) (o : Z * ent) : Prop :=
    jlive (fst o) st = st /\ jext_future (fst o) (snd o) /\ ent_ok (snd o).
  Definition jgood (o : Z * ent) (r : jsave_res) : Prop := r = JSaveOk (ent_ver (snd o) + 1) \/ r = JSaveMismatch.

  Lemma json_register st o : register_step jstep (fun st n => jstored st (Some n)) jwon doc_ok jstep_ok jgood st o.
  Proof.
    destruct o as [now e]. intros st' b E D (L & F & He). unfold jstep, jwon, jgood in *. cbn [fst snd] in *.
    destruct (jsave_spec now st e He) as (d' & Hg & _ & Hs); rewrite L in *; [exact D|].
    rewrite Hs in E. destruct (jpass st (print_Z (ent_ver e))) eqn:P; injection E as <- <-.
    - destruct (jwritten_live now st e d' F L) as (px & -> & _).
      assert (S : jstored (Some (Build_jrec d' px)) (Some (ent_ver e + 1)%Z)) by (split; [apply He|exact Hg]).
      split; [exists (ent_ver e + 1)%Z; exact S|]. split; [left; reflexivity|]. split; [|exact S].
      intros n Hn. destruct st as [r|]; [|destruct Hn]. destruct Hn as [Hn G]. cbn [jpass] in P.
      rewrite G in P. apply bytes_eqb_eq in P. exact (print_Z_inj n _ Hn (proj1 He) P).
    - split; [exact D|]. split; [right; reflexivity|]. intros n Hn. exact Hn.
  Qed.

  Lemma jhist_answers ops : forall st, jhist st ops = answers jstep st ops.
  Proof. induction ops as [|[now e] ops IH]; intros st; [reflexivity|]. cbn [jhist]. rewrite IH. reflexivity. Qed.

  Lemma jquiet_all_ok ops : forall st, jquiet st ops -> all_ok jstep jstep_ok st ops.
  Proof.
    induction ops as [|[now e] ops IH]; intros st Q; [exact I|].
    destruct Q as (L & F & He & Q). split; [exact (conj L (conj F He))|apply IH, Q].
  Qed.

  Lemma jwins_wins_of v ops : forall rs, jwins v ops rs = wins_of jwon v ops rs.
  Proof.
    induction ops as [|[now e] ops IH]; intros [|r rs]; try reflexivity.
    cbn [wins_of]. rewrite <- IH. destruct r; reflexivity.
  Qed.

End JsonProofs.
