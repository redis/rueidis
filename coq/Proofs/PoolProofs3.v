(** Pool LTS: every call is in at most one place, a waiting cancellable caller has its cancellation
    goroutine armed, and a parked caller whose context is done has a pending broadcast (C05, pool half). *)
From Coq Require Import List ZArith Bool Arith Lia.
Require Import RV.Model.Base RV.Model.Pool RV.Proofs.PoolBase RV.Proofs.PoolProofs.
Import ListNotations.
Open Scope Z_scope.

Definition ind (a x : nat) : nat := if Nat.eq_dec a x then 1%nat else 0%nat.

Lemma ind_refl : forall a, ind a a = 1%nat.
Proof. intro a. unfold ind. destruct (Nat.eq_dec a a); [reflexivity|congruence]. Qed.

Lemma ind_neq : forall a x, a <> x -> ind a x = 0%nat.
Proof. intros a x H. unfold ind. destruct (Nat.eq_dec a x); [congruence|reflexivity]. Qed.

(** case split on [a = x], then rewrite every [ind a x] of the goal to 1 or 0 *)
Ltac case_ind a x := destruct (Nat.eq_dec a x) as [?E|?E]; [subst x; rewrite ?ind_refl|rewrite ?(ind_neq a x) by assumption].

Lemma cnt_cons : forall a l x, cnt (a :: l) x = (ind a x + cnt l x)%nat.
Proof. intros a l x. unfold ind. cbn [count_occ]. destruct (Nat.eq_dec a x); reflexivity. Qed.

Lemma cnt_snoc : forall a l x, cnt (l ++ [a]) x = (cnt l x + ind a x)%nat.
Proof. intros a l x. rewrite count_occ_app, cnt_cons. cbn [count_occ]. lia. Qed.

Lemma In_cnt : forall a l, In a l <-> (1 <= cnt l a)%nat.
Proof. intros a l. rewrite (count_occ_In Nat.eq_dec). lia. Qed.

Lemma notIn_cnt : forall a l, ~ In a l -> cnt l a = 0%nat.
Proof. intros a l H. apply (count_occ_not_In Nat.eq_dec) in H. exact H. Qed.

Lemma cnt_remove1 : forall a l, In a l -> forall x, (cnt (remove1 a l) x + ind a x = cnt l x)%nat.
Proof.
  intros a l H x. induction l as [|y r IH]; [destruct H|]. cbn [remove1]. destruct (Nat.eqb_spec a y) as [<-|N].
  - rewrite cnt_cons. lia.
  - destruct H as [H|H]; [congruence|]. rewrite !cnt_cons, <- (IH H). lia.
Qed.

Definition mx (s : state) (t : nat) : nat :=
  match mutex s with Some u => ind u t | None => 0%nat end.

Lemma mx_none : forall s x, mutex s = None -> mx s x = 0%nat.
Proof. intros s x H. unfold mx. rewrite H. reflexivity. Qed.

(** how often [t] occurs among the calls that are inside [Acquire] *)
Definition places (s : state) (t : nat) : nat :=
  (mx s t + cnt (parked s) t + cnt (woken s) t + cnt (making s) t + cnt (exiting s) t)%nat.

(** A conjunction, not a record: a step that leaves the thread fields alone preserves it by conversion. *)
Definition InvT (s : state) : Prop :=
  (* a call is in at most one place *)
  (forall t, (places s t <= 1)%nat) /\
  (* only calls that entered Acquire are in a place *)
  (forall t, (1 <= places s t)%nat -> In t (entered s)) /\
  (* a context is known to be cancellable only once its call has entered *)
  (forall t, In t (cancellable s) -> In t (entered s)) /\
  (* a cancellable call that waits for the condition (between check and Wait, parked, or woken) has its
     cancellation goroutine armed *)
  (forall t, (1 <= mx s t + cnt (parked s) t + cnt (woken s) t)%nat -> In t (cancellable s) -> In t (armed s)) /\
  (* a call about to park or parked whose context is done has its broadcast pending *)
  (forall t, (1 <= mx s t + cnt (parked s) t)%nat -> In t (ctxdone s) -> In t (bpend s)).

Lemma invT_init : InvT init.
Proof.
  repeat split; cbn; try tauto; lia.
Qed.

(** A thread [t] that is in none of the places runs an evaluation.  If it parks, it must be armed
    when its context can be cancelled. *)
Lemma invT_acquire_eval : forall cfg t s, InvT s -> mutex s = None -> In t (entered s) -> places s t = 0%nat ->
  (size s - Z.of_nat (length (idle s)) = cap cfg -> down s = false -> ~ In t (ctxdone s) ->
     In t (cancellable s) -> In t (armed s)) ->
  InvT (acquire_eval cfg t s).
Proof.
  intros cfg t s (IP & IE & ISub & IA & IW) Hm He H0 Harm.
  assert (HP : forall x, (places s x + ind t x <= 1)%nat /\ ((1 <= places s x + ind t x)%nat -> In x (entered s))).
  { intro x. specialize (IP x). specialize (IE x). case_ind t x; [rewrite H0|]; split; try lia; intro H; [exact He|apply IE; lia]. }
  clear IP IE H0. unfold places, mx in HP, IA, IW. rewrite Hm in HP, IA, IW.
  (* the thread fields do not depend on which wire is handed out *)
  assert (Hout : InvT (hand_out t CtxDead s)).
  { unfold InvT, places, mx; pst. repeat split; try assumption; intro x; rewrite cnt_cons.
    - specialize (HP x). lia.
    - intro H. apply HP. lia. }
  destruct (acquire_eval_spec cfg t s) as [F1 F2 F3|_|_ _|_ _ _|cl id l' _ _ _ _ _]; try exact Hout; clear Hout;
    unfold InvT, places, mx; pst; repeat split; try assumption; intro x; specialize (HP x); rewrite ?cnt_cons.
  - lia.
  - intro H. apply HP. lia.
  - case_ind t x; [intros _; exact (Harm F1 F2 F3)|apply IA].
  - case_ind t x; [intros _ H; destruct (F3 H)|apply IW].
  - lia.
  - intro H. apply HP. lia.
Qed.

(** Threads move between the places and nothing else changes: it is enough that none of the three
    sums the clauses speak of grows. *)
Lemma invT_move : forall s s', InvT s ->
  entered s' = entered s -> cancellable s' = cancellable s -> armed s' = armed s ->
  ctxdone s' = ctxdone s -> bpend s' = bpend s ->
  (forall x, (mx s' x + cnt (parked s') x <= mx s x + cnt (parked s) x /\
              mx s' x + cnt (parked s') x + cnt (woken s') x <= mx s x + cnt (parked s) x + cnt (woken s) x /\
              places s' x <= places s x)%nat) ->
  InvT s'.
Proof.
  intros s s' (IP & IE & ISub & IA & IW) E1 E2 E3 E4 E5 H. unfold InvT. rewrite E1, E2, E3, E4, E5.
  repeat split; try assumption; intro x; destruct (H x) as (H1 & H2 & H3).
  - specialize (IP x). lia.
  - intro X. apply IE. lia.
  - intro X. apply IA. lia.
  - intro X. apply IW. lia.
Qed.

Lemma invT_step : forall cfg s l s', locked_bcast cfg = true -> Inv1 cfg s ->
  InvT s -> lstep cfg s l = Some s' -> InvT s'.
Proof.
  intros cfg s l s' Hlb [I1 I2 _ _] I Hl. assert (Hsz : size s <= cap cfg) by lia. clear I1 I2.
  destruct (lstep_pstep _ _ _ _ Hl) as [t c Hm He _|t Hm|t Hm Hw|t id brk Ht _|t brk Ht|t id Hm Ht _|t He|t Hn Hc|t Hb Hl'
                                       | | |t k _ Hp| | |k _| | |]; clear Hl.
  (* steps that leave the thread fields and the mutex alone *)
  all: try exact I.
  (* PS_MakeOk, PS_MakeDead: from making to exiting *)
  4,5: apply (invT_move s _ I); try reflexivity; intro x; pose proof (cnt_remove1 _ _ Ht x);
    unfold places, mx; pst; rewrite cnt_cons; lia.
  all: pose proof I as (IP & IE & ISub & IA & IW); unfold places, mx in IP, IE, IA, IW.
  - (* AcqEnter *)
    assert (H0 : places s t = 0%nat). { pose proof (fun X => He (IE t X)). unfold places, mx. lia. }
    apply invT_acquire_eval; [unfold InvT, places, mx; pst; repeat split|exact Hm|left; reflexivity|exact H0|pst].
    + exact IP.
    + intros x H. right. apply IE, H.
    + intros x Hx. destruct c; [destruct Hx as [<-|Hx]; [left; reflexivity|]|]; right; apply ISub, Hx.
    + intros x Hx Hcx. assert (Hxt : x <> t). { intros ->. unfold places, mx in H0. lia. }
      assert (In x (armed s)). { apply IA; [exact Hx|]. destruct c; [destruct Hcx as [X|X]; [congruence|exact X]|exact Hcx]. }
      destruct (full cfg s && negb (down s) && negb (memb t (ctxdone s)) && c); [right|]; assumption.
    + exact IW.
    + (* a caller that parks saw a full pool, so it armed its goroutine if it could *)
      intros F1 F2 F3 Hct. assert (Hi : idle s = []) by (apply length_zero_iff_nil; lia).
      assert (Hf : full cfg s = true). { unfold full. rewrite Hi in *. apply Z.eqb_eq. cbn [length] in F1. lia. }
      rewrite Hf, F2, (proj2 (memb_false_In _ _) F3).
      destruct c; [left; reflexivity|destruct (He (ISub _ Hct))].
  - (* AcqPark *)
    apply (invT_move s _ I); try reflexivity. intro x. unfold places, mx; pst. rewrite Hm, cnt_snoc. lia.
  - (* AcqWake *)
    assert (Hc1 : (1 <= cnt (woken s) t)%nat) by (apply In_cnt, Hw).
    pose proof (cnt_remove1 _ _ Hw) as Hr.
    apply invT_acquire_eval; [|exact Hm| | |].
    + apply (invT_move s _ I); try reflexivity. intro x. specialize (Hr x). unfold places, mx; pst. lia.
    + apply IE. lia.
    + specialize (IP t). specialize (Hr t). rewrite ind_refl in Hr. unfold places, mx. pst. lia.
    + intros _ _ _. apply IA. lia.
  - (* MakeBad *)
    assert (Hc1 : (1 <= cnt (making s) t)%nat) by (apply In_cnt, Ht).
    pose proof (cnt_remove1 _ _ Ht) as Hr.
    apply invT_acquire_eval; [|exact Hm| | |pst].
    + apply (invT_move s _ I); try reflexivity. intro x. specialize (Hr x). unfold places, mx; pst. lia.
    + apply IE. lia.
    + specialize (IP t). specialize (Hr t). rewrite ind_refl in Hr. unfold places, mx. pst. lia.
    + (* the slot just given back keeps the retry from parking *) intros F1. exfalso. lia.
  - (* AcqReturn *)
    assert (Hc1 : (1 <= cnt (exiting s) t)%nat) by (apply In_cnt, He).
    pose proof (cnt_remove1 _ _ He) as Hr.
    unfold InvT, places, mx; pst; repeat split; try assumption; intro x; specialize (Hr x).
    + specialize (IP x). lia.
    + intro H. apply IE. lia.
    + intros H Hcx. apply remove1_In_other; [|apply IA; assumption]. intros ->. specialize (IP t). lia.
  - (* CtxCancel *)
    unfold InvT, places, mx; pst; repeat split; try assumption.
    + intros x Hx [<-|Hd].
      * assert (Ha : In t (armed s)). { apply IA; [lia|]. destruct Hc as [Hc|Hc]; [|exact Hc]. destruct Hc. apply IE. lia. }
        rewrite (proj2 (memb_In _ _) Ha). left. reflexivity.
      * destruct (memb t (armed s)); [right|]; apply IW; assumption.
  - (* Bcast, under the mutex *)
    assert (Hm : mutex s = None) by (destruct Hl' as [X|X]; [congruence|exact X]).
    unfold InvT, places, mx; pst; repeat split; try assumption; intro x; rewrite ?count_occ_app; cbn [count_occ]; rewrite Hm in *.
    + specialize (IP x). lia.
    + intro H. apply IE. lia.
    + intro H. apply IA. lia.
    + intro H. exfalso. lia.
  - (* Signal *)
    apply (invT_move s _ I); try reflexivity. intro x. pose proof (cnt_remove1 _ _ Hp x).
    unfold places, mx; pst. rewrite cnt_snoc. lia.
  - (* CloseBcast *)
    apply (invT_move s _ I); try reflexivity. intro x. unfold places, mx; pst. rewrite count_occ_app. cbn [count_occ]. lia.
Qed.
