(** What the three transition systems (ring, flow buffer, pool) share: running a schedule.  Each model has its
    own [run]; it is given here by its two equations, which hold by computation. *)
From Coq Require Import List.
Import ListNotations.

Section Run.
Variables (S L : Type) (step : S -> L -> option S) (run : list L -> S -> option S).
Hypothesis run_nil : forall s, run [] s = Some s.
Hypothesis run_cons : forall l r s, run (l :: r) s = match step s l with Some s' => run r s' | None => None end.

Lemma run_app : forall a b s, run (a ++ b) s = match run a s with Some s' => run b s' | None => None end.
Proof.
  induction a as [|l r IH]; intros b s; cbn [app]; rewrite ?run_nil, ?run_cons; [reflexivity|].
  destruct (step s l); [apply IH|reflexivity].
Qed.

(** what holds initially and is preserved by every step holds after every schedule *)
Lemma run_ind : forall (P : S -> Prop) s0,
  P s0 -> (forall s l s', P s -> step s l = Some s' -> P s') -> forall sch s, run sch s0 = Some s -> P s.
Proof.
  intros P s0 H0 Hs sch. induction sch as [|l r IH] using rev_ind; intros s Hr.
  - rewrite run_nil in Hr. injection Hr as <-. exact H0.
  - rewrite run_app in Hr. destruct (run r s0) as [s1|] eqn:E; [|discriminate].
    rewrite run_cons in Hr. destruct (step s1 l) as [s2|] eqn:E2; [|discriminate].
    rewrite run_nil in Hr. injection Hr as <-. exact (Hs _ _ _ (IH _ eq_refl) E2).
Qed.

End Run.
