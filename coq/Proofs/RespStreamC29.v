(** streamTo (C29, byte level) on every kind of reply: what goes through readNextMessage (simple strings,
    doubles, big numbers, integers, booleans, nulls, errors, pushes, aggregates), RESP2 nulls of string
    type, and the statements over [payload] and the top-level [stream]. *)
From Coq Require Import List Arith NArith ZArith Bool Lia ZifyN ZifyNat ZifyBool.
Require Import RV.Model.Base RV.Model.RespWrite RV.Model.RespStream.
Require Import RV.Proofs.RespIOProofs RV.Proofs.RespScalarProofs RV.Proofs.RespRoundtrip RV.Proofs.RespStreamChunks.
Import ListNotations.
Open Scope N_scope.

(** what streamTo writes is what a normal read returns: the string of the message, or the numeral of its integer *)
Lemma payload_is_read v p : payload v = Some p ->
  (m_typ (abs v) <> tInteger /\ m_typ (abs v) <> tBool /\ p = m_str (abs v)) \/
  ((m_typ (abs v) = tInteger \/ m_typ (abs v) = tBool) /\ p = decZ (m_ival (abs v))).
Proof.
  destruct v as [t s|t cs|t s|i|b|t|t st l|kvs st x]; cbn [payload abs m_typ m_str m_ival]; try discriminate.
  - destruct ((t =? tBlobString) || (t =? tVerbatim)) eqn:E; [|discriminate]. intros H; inversion H; subst. left.
    apply orb_true_iff in E as [E|E]; apply N.eqb_eq in E; subst; repeat split; discriminate.
  - destruct ((t =? tBlobString) || (t =? tVerbatim)) eqn:E; [|discriminate]. intros H; inversion H; subst. left.
    apply orb_true_iff in E as [E|E]; apply N.eqb_eq in E; subst; repeat split; discriminate.
  - destruct ((t =? tSimpleString) || (t =? tFloat) || (t =? tBigNumber)) eqn:E; [|discriminate]. intros H; inversion H; subst. left.
    repeat (apply orb_true_iff in E; destruct E as [E|E]); apply N.eqb_eq in E; subst; repeat split; discriminate.
  - intros H; inversion H; subst. right. auto.
  - intros H; inversion H; subst. right. split; [auto|]. destruct b; reflexivity.
Qed.

Section C29.
Variable B : nat.
Hypothesis HB : (32 <= B)%nat.

(** +simple, ,double, (big number: the line is written *)
Theorem stream_line f t s rest w :
  (t = tSimpleString \/ t = tFloat \/ t = tBigNumber) -> no_lf s = true ->
  runw B (stream_to (S f)) (enc (VLine t s) ++ rest) w = (wres w s, rest, snd (w_write w s)).
Proof.
  intros Ht Hs.
  assert (Hwf : wf (VLine t s) = true) by (cbn [wf]; rewrite Hs; destruct Ht as [->|[->| ->]]; reflexivity).
  rewrite (runw_stream_default B HB f (VLine t s) t (s ++ crlf) rest w Hwf);
    [|cbn; lia|reflexivity|destruct Ht as [->|[->| ->]]; reflexivity].
  assert (E : stream_msg (stream_to f) (Ok (abs (VLine t s))) = write_out s)
    by (destruct Ht as [->|[->| ->]]; reflexivity).
  rewrite E. apply runw_write_out.
Qed.

(** :integer and #bool: the decimal numeral of the value is written *)
Theorem stream_int f i rest w : in_i64 i ->
  runw B (stream_to (S f)) (enc (VInt i) ++ rest) w = (wres w (decZ i), rest, snd (w_write w (decZ i))).
Proof.
  intros Hi.
  assert (Hwf : wf (VInt i) = true) by (cbn [wf]; unfold in_i64b, in_i64 in *; lia).
  rewrite (runw_stream_default B HB f (VInt i) tInteger (decZ i ++ crlf) rest w Hwf); [|cbn; lia|reflexivity|reflexivity].
  change (stream_msg (stream_to f) (Ok (abs (VInt i)))) with (write_out (decZ i)). apply runw_write_out.
Qed.

Theorem stream_bool f (b : bool) rest w :
  let d := if b then [49] else [48] in
  runw B (stream_to (S f)) (enc (VBool b) ++ rest) w = (wres w d, rest, snd (w_write w d)).
Proof.
  cbv zeta.
  rewrite (runw_stream_default B HB f (VBool b) tBool ([if b then 116 else 102] ++ crlf) rest w eq_refl);
    [|cbn; lia|reflexivity|reflexivity].
  destruct b; apply runw_write_out.
Qed.

(** nulls of every encoding become rueidis.Nil; nothing is written; the reply is consumed *)
Theorem stream_null f t rest w : is_null_type t = true ->
  runw B (stream_to (S f)) (enc (VNull t) ++ rest) w = ((0%Z, SNil, true), rest, w).
Proof.
  intros Ht.
  destruct (k_stream_blob t) eqn:Hk.
  - (* $-1 and =-1 are seen by streamTo itself *)
    assert (Hne : (t =? tNull) = false).
    { unfold is_null_type in Ht. repeat (apply orb_true_iff in Ht; destruct Ht as [Ht|Ht]); apply N.eqb_eq in Ht; subst; try discriminate Hk; reflexivity. }
    cbn [enc]. rewrite Hne. change (([t; 45; 49] ++ crlf) ++ rest) with (t :: [45; 49] ++ crlf ++ rest).
    rewrite runw_stream_cons_blob by assumption.
    rewrite (runw_bind_eq B _ _ _ _ _ _ _ (runw_read_i_minus1 B rest w HB)). reflexivity.
  - destruct (enc_cons (VNull t)) as (t0 & s0 & E0).
    assert (Et : t0 = t) by (cbn [enc] in E0; destruct (t =? tNull) eqn:En; [apply N.eqb_eq in En; subst|]; cbn [app] in E0; congruence).
    subst t0.
    rewrite (runw_stream_default B HB f (VNull t) t s0 rest w Ht); [reflexivity|cbn; lia|assumption|assumption].
Qed.

(** -error and !blob error (counted or streamed) become a RedisError carrying the decoded message *)
Theorem stream_error f v rest w : wf v = true -> (cost v <= S f)%nat ->
  (m_typ (abs v) = tSimpleErr \/ m_typ (abs v) = tBlobErr) ->
  (forall t s, enc v = t :: s -> k_stream_blob t = false) ->
  runw B (stream_to (S f)) (enc v ++ rest) w = ((0%Z, SRedis (abs v), true), rest, w).
Proof.
  intros Hwf Hf Ht Hk. destruct (enc_cons v) as (t0 & s0 & E0).
  rewrite (runw_stream_default B HB f v t0 s0 rest w Hwf Hf E0 (Hk _ _ E0)).
  unfold stream_msg. destruct Ht as [-> | ->]; reflexivity.
Qed.

(** pushes are skipped *)
Theorem stream_push f st l s w : wf (VAgg tPush st l) = true -> (cost (VAgg tPush st l) <= S f)%nat ->
  runw B (stream_to (S f)) (enc (VAgg tPush st l) ++ s) w = runw B (stream_to f) s w.
Proof.
  intros Hwf Hf. destruct (enc_cons (VAgg tPush st l)) as (t0 & s0 & E0).
  assert (Et : t0 = tPush) by (cbn [enc] in E0; rewrite (agg_header_cons tPush st (length l)) in E0; cbn [app] in E0; congruence).
  subst t0.
  rewrite (runw_stream_default B HB f _ tPush s0 s w Hwf Hf E0 eq_refl). reflexivity.
Qed.

(** any other aggregate is refused, but consumed completely *)
Theorem stream_aggregate f t st l rest w : (t = tArray \/ t = tSet \/ t = tMap) ->
  wf (VAgg t st l) = true -> (cost (VAgg t st l) <= S f)%nat ->
  runw B (stream_to (S f)) (enc (VAgg t st l) ++ rest) w = ((0%Z, SErr eUnsupported, true), rest, w).
Proof.
  intros Ht Hwf Hf. destruct (enc_cons (VAgg t st l)) as (t0 & s0 & E0).
  assert (Et : t0 = t) by (cbn [enc] in E0; rewrite (agg_header_cons t st (length l)) in E0; cbn [app] in E0; congruence).
  subst t0.
  rewrite (runw_stream_default B HB f _ t s0 rest w Hwf Hf E0); [|destruct Ht as [->|[->| ->]]; reflexivity].
  destruct Ht as [->|[->| ->]]; reflexivity.
Qed.


(** the replies that are copied with a single Write / io.Copy *)
Definition single_copy (v : rv) : bool :=
  match v with VBlobStream _ _ => false | _ => true end.

(** such a reply with ANY writer: the payload is offered once, what the writer accepts of it is written,
    the writer's error (if any) is returned, and the reply is consumed exactly (clean) *)
Theorem stream_single v p f rest w :
  wf v = true -> payload v = Some p -> single_copy v = true -> (cost v <= S f)%nat ->
  exists w', runw B (stream_to (S f)) (enc v ++ rest) w = (wres w p, rest, w') /\ w_out w' = w_out w ++ accepted w p.
Proof.
  intros Hwf Hp Hsc Hf.
  destruct v as [t s|t cs|t s|i|b|t|t st l|kvs st x]; cbn [payload] in Hp; try discriminate.
  - destruct ((t =? tBlobString) || (t =? tVerbatim)) eqn:E; [|discriminate]. inversion Hp; subst p.
    assert (Ht : t = tBlobString \/ t = tVerbatim) by (apply orb_true_iff in E as [E|E]; apply N.eqb_eq in E; auto).
    cbn [wf] in Hwf. apply andb_true_iff in Hwf as [_ Hs]. apply blob_ok_spec in Hs.
    apply runw_stream_counted; [assumption..|]. unfold max_alloc, two63 in *. lia.
  - destruct ((t =? tSimpleString) || (t =? tFloat) || (t =? tBigNumber)) eqn:E; [|discriminate]. inversion Hp; subst p.
    assert (Ht : t = tSimpleString \/ t = tFloat \/ t = tBigNumber).
    { repeat (apply orb_true_iff in E; destruct E as [E|E]); apply N.eqb_eq in E; auto. }
    cbn [wf] in Hwf. apply andb_true_iff in Hwf as [_ Hs].
    rewrite (stream_line f t s rest w Ht Hs). eauto using out_after_write.
  - inversion Hp; subst p. cbn [wf] in Hwf.
    rewrite (stream_int f i rest w) by (unfold in_i64b, in_i64 in *; lia). eauto using out_after_write.
  - inversion Hp; subst p. rewrite (stream_bool f b rest w). eauto using out_after_write.
Qed.

(** every streamable reply, with a writer that does not fail: exactly the payload is written, the
    reply is consumed exactly *)
Theorem stream_payload v p f rest w :
  wf v = true -> payload v = Some p -> unlimited w -> (cost v <= S f)%nat ->
  exists w', runw B (stream_to (S f)) (enc v ++ rest) w = ((zlen p, SNone, true), rest, w') /\ w_out w' = w_out w ++ p.
Proof.
  intros Hwf Hp Hw Hf. destruct (single_copy v) eqn:Hsc.
  - destruct (stream_single v p f rest w Hwf Hp Hsc Hf) as (w' & E & Eo).
    destruct (unlimited_write w p Hw) as (Ea & Ef & _). unfold wres in E. rewrite Ea, Ef in E. rewrite Ea in Eo. eauto.
  - destruct v as [|t cs| | | | | |]; try discriminate Hsc. cbn [payload] in Hp.
    destruct ((t =? tBlobString) || (t =? tVerbatim)) eqn:E; [|discriminate]. inversion Hp; subst p.
    assert (Ht : t = tBlobString \/ t = tVerbatim) by (apply orb_true_iff in E as [E|E]; apply N.eqb_eq in E; auto).
    cbn [wf] in Hwf. apply andb_true_iff in Hwf as [_ Hcs].
    change (cost (VBlobStream t cs)) with (length cs + 2)%nat in Hf.
    apply (runw_stream_streamed B HB f t cs rest w Ht Hcs Hw). lia.
Qed.

(** the same at the entry point [stream] (fuel computed from the input) *)
Theorem stream_payload_top v p rest : wf v = true -> payload v = Some p ->
  stream B None (enc v ++ rest) = ((zlen p, SNone, true), rest, p).
Proof.
  intros Hwf Hp. unfold stream.
  assert (Hfuel : exists f, fuel_for (length (enc v ++ rest)) = S f /\ (cost v <= S f)%nat).
  { unfold fuel_for. rewrite app_length. pose proof (cost_le_enc v).
    exists (2 * (length (enc v) + length rest) + 3)%nat. split; lia. }
  destruct Hfuel as (f & -> & Hf).
  destruct (stream_payload v p f rest (w_init None) Hwf Hp eq_refl Hf) as (w' & E & Eo).
  rewrite E. cbn [w_init w_out app] in Eo. now rewrite Eo.
Qed.

(** a writer that fails after k bytes: the first k payload bytes are written *)
Theorem stream_writer_fails v p f rest (k : N) out :
  wf v = true -> payload v = Some p -> single_copy v = true -> (cost v <= S f)%nat ->
  let w := {| w_budget := Some k; w_out := out; w_failed := false |} in
  let d := firstn (Nat.min (N.to_nat k) (length p)) p in
  exists w',
    runw B (stream_to (S f)) (enc v ++ rest) w =
      ((zlen d, (if k <? blen p then SErr eWriter else SNone), true), rest, w') /\
    w_out w' = out ++ d.
Proof.
  intros Hwf Hp Hsc Hf w d.
  destruct (stream_single v p f rest w Hwf Hp Hsc Hf) as (w' & E & Eo).
  pose proof (w_write_spec (Some k) out false p) as (H1 & _ & H3). cbv zeta in H1, H3. fold w in H1, H3.
  unfold wres, accepted in E. unfold accepted in Eo. rewrite H1, H3 in E. rewrite H1 in Eo. eauto.
Qed.

End C29.
