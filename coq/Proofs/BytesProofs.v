(** Facts about Model/Base.v: the equality test on byte strings, [repeat_n]. *)
From Coq Require Import List NArith Bool Lia.
Require Import RV.Model.Base.
Import ListNotations.
Open Scope N_scope.

Lemma bytes_eqb_refl (a : bytes) : bytes_eqb a a = true.
Proof.
  unfold bytes_eqb. induction a as [|x a IH]; cbn [list_eqb]; [reflexivity|].
  rewrite N.eqb_refl, IH. reflexivity.
Qed.

Lemma bytes_eqb_eq (a b : bytes) : bytes_eqb a b = true <-> a = b.
Proof.
  split; [|intros ->; apply bytes_eqb_refl].
  unfold bytes_eqb. revert b. induction a as [|x a IH]; intros [|y b]; cbn [list_eqb]; try discriminate; [reflexivity|].
  intros H. apply andb_true_iff in H as [H1 H2]. apply N.eqb_eq in H1. subst. f_equal. apply IH, H2.
Qed.

Lemma bytes_eqb_neq (a b : bytes) : bytes_eqb a b = false <-> a <> b.
Proof.
  split.
  - intros H E. apply bytes_eqb_eq in E. congruence.
  - intros H. destruct (bytes_eqb a b) eqn:E; [apply bytes_eqb_eq in E; contradiction|reflexivity].
Qed.

Lemma bytes_eqb_sym (a b : bytes) : bytes_eqb a b = bytes_eqb b a.
Proof.
  destruct (bytes_eqb a b) eqn:E.
  - apply bytes_eqb_eq in E. subst. symmetry. apply bytes_eqb_refl.
  - symmetry. apply bytes_eqb_neq. apply bytes_eqb_neq in E. congruence.
Qed.

Lemma repeat_n_length {A} (x : A) n : length (repeat_n x n) = n.
Proof. induction n; cbn; auto. Qed.

Lemma repeat_n_nth {A} (x : A) n k : (k < n)%nat -> nth_error (repeat_n x n) k = Some x.
Proof. revert k. induction n; intros [|k] H; cbn; try lia; auto. apply IHn. lia. Qed.

Lemma repeat_n_nth_inv {A} (x y : A) n : forall k, nth_error (repeat_n x n) k = Some y -> y = x.
Proof. induction n; intros [|k] H; cbn in H; try discriminate; [congruence|eauto]. Qed.
