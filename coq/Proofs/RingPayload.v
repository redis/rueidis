(** Ring LTS: the (one, multi, resps) fields of a slot.  PutOne writes [n.one] only, PutMulti writes
    [n.multi] and [n.resps] only, NextResultCh resets all three when it frees the slot.  Invariant: a free
    slot holds the zero tuple, an occupied slot holds exactly what its occupant supplied - so the writer and
    the reader are handed the putter's own payload, for every schedule, ring size and lap (wrap-around). *)
From Coq Require Import List NArith ZArith Bool Arith Lia.
Require Import RV.Model.Base RV.Model.Ring RV.Proofs.RingBase RV.Proofs.RingTheorems.
Import ListNotations.
Local Open Scope nat_scope.

Definition tuple := (option nat * option nat * option nat)%type.

(** what putter p supplies: PutOne(cmd p) or PutMulti(multi p, resps p) *)
Definition own (p : nat) (m : bool) : tuple := if m then (None, Some p, Some p) else (Some p, None, None).
Definition trip (x : slot) : tuple := (c_one x, c_multi x, c_resps x).

Definition slot_ok (x : slot) : Prop :=
  (mark x = 0 -> trip x = (None, None, None)) /\
  (mark x <> 0 -> exists p, payload x = Some p /\ trip x = own p (pm x)).

Lemma trip_none : forall x, trip x = (None, None, None) -> c_one x = None /\ c_multi x = None /\ c_resps x = None.
Proof.
  intros x H. unfold trip in H. split; [exact (f_equal (fun t => fst (fst t)) H)|].
  split; [exact (f_equal (fun t => snd (fst t)) H)|exact (f_equal (fun t => snd t) H)].
Qed.

Definition InvP (st : state) : Prop := forall s, slot_ok (slots st s).

Lemma invp_init : forall start, InvP (init start).
Proof. intros start s. unfold slot_ok, trip. cbn. split; [reflexivity|intro H; exfalso; apply H; reflexivity]. Qed.

Definition pay_fp (x : slot) := (mark x, payload x, pm x, trip x).

Lemma slot_ok_fp : forall x y, pay_fp y = pay_fp x -> slot_ok x -> slot_ok y.
Proof. intros x y H. injection H as A B C D1 D2 D3. unfold slot_ok, trip. rewrite A, B, C, D1, D2, D3. auto. Qed.

Lemma slot_ok_taken : forall x, mark x = 1 -> slot_ok x -> slot_ok (sl_mark x 2 (payload x)).
Proof.
  intros x Hm [_ B]. destruct B as (p & B1 & B2); [lia|]. split; [discriminate|]. intros _. exists p. auto.
Qed.

Theorem invp_step : forall k st l st', InvP st -> lstep k st l = Some st' -> InvP st'.
Proof.
  intros k st l st' I Hl. apply lstep_rstep in Hl.
  destruct Hl; try exact I; intro j; rst; try pose proof (I s) as Is; try rewrite <- Hx in Is;
    try (slot_cases j s E; [|apply I]); try (apply (slot_ok_fp x); [subst; reflexivity|exact Is]).
  - (* a fill stores what the putter supplies in a slot that held the zero tuple *)
    destruct Is as [A _]. destruct (trip_none _ (A Hm)) as (A1 & A2 & A3).
    unfold slot_ok, trip, own, filled, unwait. rst. rewrite A1, A2, A3.
    split; [discriminate|]. intros _. exists p. destruct m; auto.
  - apply slot_ok_taken; assumption.
  - subst y. apply (slot_ok_taken (sl_writer x false false false) Hm). apply (slot_ok_fp x); [reflexivity|exact Is].
  - split; [reflexivity|]. intro X. destruct (X eq_refl).
Qed.

Theorem invp_reachable : forall k start st, reachable k start st -> InvP st.
Proof.
  intros k start st Hr. eapply reachable_ind; [apply invp_init| |exact Hr].
  intros s0 l s1 I Hl. eapply invp_step; eassumption.
Qed.

Section Handout.
Variable k : nat.

(** a fill stores exactly what the putter supplies and records its kind *)
Theorem fill_supplies : forall st p s m st', InvP st -> lstep k st (PutLock p s m) = Some st' ->
  length (fillseq (slots st' s)) = S (length (fillseq (slots st s))) ->
  payload (slots st' s) = Some p /\ pm (slots st' s) = m /\ trip (slots st' s) = own p m /\
  fillseq (slots st' s) = fillseq (slots st s) ++ [p].
Proof.
  intros st p s m st' I Hl Hlen. destruct (I s) as [A _]. apply lstep_rstep in Hl.
  rstep_inv Hl; rst; rewrite upd_same in *.
  - destruct (trip_none _ (A Hm)) as (A1 & A2 & A3). unfold trip, own, filled, unwait. rst. rewrite A1, A2, A3.
    destruct m; auto.
  - unfold unwait in Hlen. rst. lia.
Qed.

(** the reader is handed the own tuple of the item it completes *)
Theorem reader_handout_own : forall st st' s i, InvP st -> lstep k st RNext = Some st' ->
  rpc st' = RHold s (Some i) ->
  s = idx k (u32 (read2 st + 1)) /\ payload (slots st s) = Some i /\ handed k st RNext = own i (pm (slots st s)) /\
  trip (slots st' s) = (None, None, None).
Proof.
  intros st st' s i I Hl Hh. apply lstep_rstep in Hl.
  rstep_inv Hl; rst; [|discriminate]. injection Hh as <- Hi.
  destruct (I (idx k (u32 (read2 st + 1)))) as [_ B]. destruct B as (p & B1 & B2); [lia|].
  rewrite B1 in *. subst p. rewrite upd_same. auto.
Qed.

(** the writer is handed the own (one, multi) of the item it dequeues *)
Theorem writer_handout_own : forall st l st', InvP st ->
  (l = WNext \/ l = WWaitEnter \/ l = WWaitRetry) -> lstep k st l = Some st' -> n1 st' = S (n1 st) ->
  exists s i, payload (slots st s) = Some i /\ wseq st' = wseq st ++ [i] /\
    fst (handed k st l) = fst (own i (pm (slots st s))).
Proof.
  intros st l st' I Hlab Hl Hn. apply lstep_rstep in Hl.
  assert (Key : forall s, mark (slots st s) = 1 -> exists i, payload (slots st s) = Some i /\
            (c_one (slots st s), c_multi (slots st s)) = fst (own i (pm (slots st s)))).
  { intros s Hm. destruct (I s) as [_ B]. destruct B as (p & B1 & B2); [lia|]. exists p. split; [exact B1|].
    unfold trip in B2. destruct (own p (pm (slots st s))) as [[a b] c]. injection B2 as -> -> _. reflexivity. }
  destruct Hl; unfold taken in Hn; rst; try lia; try (exfalso; intuition discriminate).
  - subst x. destruct (Key s Hm) as (i & K1 & K2). exists s, i. rewrite K1. split; [reflexivity|]. split; [reflexivity|].
    destruct Hl as [->| ->]; cbn [handed fst]; rewrite <- Hs; exact K2.
  - subst x y. rst. destruct (Key s Hm) as (i & K1 & K2). exists s, i. rewrite K1. split; [reflexivity|]. split; [reflexivity|].
    cbn [handed fst]. rewrite Hw. exact K2.
Qed.

End Handout.
