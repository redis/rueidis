(** Multi-key helpers: every key maps to its own reply, the key set is exact (C31). *)
From Coq Require Import String Ascii.
From Coq Require Import List Arith NArith ZArith Bool Lia.
Require Import RV.Model.Base RV.Model.CacheBatch RV.Model.Helpers.
Require Import RV.Proofs.BytesProofs RV.Proofs.CacheBatchBase RV.Proofs.CacheBatchHelper.
Require Import RV.Proofs.ListFacts.
Import ListNotations.
Open Scope nat_scope.

Definition key_dec : forall a b : key, {a = b} + {a <> b} := list_eq_dec N.eq_dec.

Lemma map_app_nil {A} (l : list (list A)) : map (fun c => c ++ []) l = l.
Proof. rewrite <- (map_id l) at 2. apply map_ext, app_nil_r. Qed.

Lemma assoc_N_map_snd {B C} (f : B -> C) s (m : list (N * B)) :
  assoc_N s (map (fun sc => (fst sc, f (snd sc))) m) = option_map f (assoc_N s m).
Proof. induction m as [|[t c] m IH]; cbn; [reflexivity|]. destruct (N.eqb s t); [reflexivity|exact IH]. Qed.

Lemma flat_map_single {A} (l : list A) : flat_map (fun x => [x]) l = l.
Proof. induction l; cbn; congruence. Qed.

Definition set_keys {B} (f : key -> B) (ks : list key) (m : list (key * B)) : list (key * B) :=
  fold_left (fun m k => kv_set k (f k) m) ks m.

Lemma set_keys_get {B} (f : key -> B) ks : forall m k,
  kv_get k (set_keys f ks m) = if in_dec key_dec k ks then Some (f k) else kv_get k m.
Proof.
  induction ks as [|x ks IH]; intros m k; [reflexivity|].
  cbn [set_keys fold_left]. fold (set_keys f ks (kv_set x (f x) m)). rewrite IH.
  destruct (in_dec key_dec k ks) as [Hi|Hn]; destruct (in_dec key_dec k (x :: ks)) as [Hi'|Hn']; try reflexivity.
  - exfalso. apply Hn'. now right.
  - destruct Hi' as [->|Hi']; [apply kv_get_set_same|contradiction].
  - apply kv_get_set_other. intro E; subst. apply Hn'. now left.
Qed.

Lemma set_all_get {B} ks (v : B) k : kv_get k (set_all ks v) = if in_dec key_dec k ks then Some v else None.
Proof. unfold set_all. exact (set_keys_get (fun _ => v) ks [] k). Qed.

Lemma array_to_kv_spec (f : key -> msg) keys : forall m,
  array_to_kv m (map f keys) keys = Ok (set_keys f keys m).
Proof. induction keys as [|k keys IH]; intro m; cbn [map array_to_kv set_keys fold_left]; [reflexivity|apply IH]. Qed.

(** more results than keys is the only way to panic; fewer leave the remaining keys unbound *)
Lemma array_to_kv_no_panic arr : forall keys m, length arr <= length keys -> array_to_kv m arr keys <> Panic.
Proof.
  induction arr as [|v arr IH]; intros keys m Hl; cbn [array_to_kv]; [discriminate|].
  destruct keys as [|k keys]; [cbn in Hl; lia|]. apply IH. cbn in Hl. lia.
Qed.

Section Single.
  Variable srv : argv -> msg.
  Variable get : key -> msg.

  Lemma client_mget_spec cmd keys :
    srv cmd = arr (map get keys) ->
    client_mget srv cmd keys = Ok (inl (set_keys get keys [])).
  Proof.
    intro H. unfold client_mget, do_cmd, to_array. cbn [r_err new_result r_val]. rewrite H.
    cbn [arr m_typ m_vals]. cbn [N.eqb tArr Pos.eqb orb]. now rewrite array_to_kv_spec.
  Qed.
End Single.

Section Slots.
  Variable slot_of : key -> N.
  Variable head : bytes.

  Definition in_slot (s : N) (k : key) : bool := N.eqb (slot_of k) s.

  Lemma assoc_cmd_append s t a m :
    assoc_N s (cmd_append t head a m)
    = if N.eqb s t then Some (match assoc_N t m with Some c => c ++ a | None => head :: a end) else assoc_N s m.
  Proof.
    induction m as [|[u c] m IH]; cbn [cmd_append assoc_N].
    - destruct (N.eqb s t); reflexivity.
    - destruct (N.eqb_spec t u) as [->|Htu]; cbn [assoc_N]; destruct (N.eqb_spec s u) as [->|Hsu];
        rewrite ?N.eqb_refl; try reflexivity.
      + destruct (N.eqb_spec u t); [congruence|reflexivity].
      + exact IH.
  Qed.

  Lemma cmd_append_keys t a m : In t (map fst m) -> map fst (cmd_append t head a m) = map fst m.
  Proof.
    induction m as [|[u c] m IH]; [intros []|]. cbn [cmd_append map fst].
    destruct (N.eqb_spec t u) as [->|Hne]; [reflexivity|]. intros [E|H]; [cbn in E; congruence|].
    cbn [map fst]. f_equal. now apply IH.
  Qed.

  Lemma cmd_append_new t a m : ~ In t (map fst m) -> cmd_append t head a m = m ++ [(t, head :: a)].
  Proof.
    induction m as [|[u c] m IH]; intro Hn; [reflexivity|]. cbn [cmd_append].
    destruct (N.eqb_spec t u) as [->|Hne]; [exfalso; apply Hn; now left|].
    cbn [app]. f_equal. apply IH. intro H. apply Hn. now right.
  Qed.

  Lemma cmd_append_nodup t a m : NoDup (map fst m) -> NoDup (map fst (cmd_append t head a m)).
  Proof.
    intro Hnd. destruct (in_dec N.eq_dec t (map fst m)) as [Hi|Hn].
    - now rewrite cmd_append_keys.
    - rewrite cmd_append_new by assumption. rewrite map_app. cbn [map fst]. now apply NoDup_snoc.
  Qed.

  (** the builders fold [cmd_append] over their input; [sl x] is the slot of an element, [enc x] the words it adds.
      The command of slot [s] then holds exactly the elements of that slot, in input order, multiplicities kept *)
  Lemma slot_fold_gen {A} (sl : A -> N) (enc : A -> list bytes) xs : forall m s,
    assoc_N s (fold_left (fun m x => cmd_append (sl x) head (enc x) m) xs m)
    = match assoc_N s m with
      | Some c => Some (c ++ flat_map enc (filter (fun x => N.eqb (sl x) s) xs))
      | None => if existsb (fun x => N.eqb (sl x) s) xs
                then Some (head :: flat_map enc (filter (fun x => N.eqb (sl x) s) xs)) else None
      end.
  Proof.
    induction xs as [|x xs IH]; intros m s.
    - cbn. destruct (assoc_N s m); [now rewrite app_nil_r|reflexivity].
    - cbn [fold_left filter existsb]. rewrite IH, assoc_cmd_append, (N.eqb_sym (sl x) s).
      destruct (N.eqb_spec s (sl x)) as [E|Hne].
      + rewrite E. destruct (assoc_N (sl x) m); cbn [orb flat_map]; [now rewrite <- app_assoc|reflexivity].
      + destruct (assoc_N s m); reflexivity.
  Qed.

  Lemma slot_mcmds_spec keys s :
    assoc_N s (slot_mcmds slot_of head keys)
    = if existsb (in_slot s) keys then Some (head :: filter (in_slot s) keys) else None.
  Proof.
    unfold slot_mcmds. rewrite (slot_fold_gen slot_of (fun k => [k])). cbn [assoc_N].
    now rewrite flat_map_single.
  Qed.

  Lemma slot_mcmds_nodup keys : NoDup (map fst (slot_mcmds slot_of head keys)).
  Proof.
    unfold slot_mcmds. assert (H : NoDup (map fst (@nil (N * argv)))) by constructor.
    revert H. generalize (@nil (N * argv)). induction keys as [|k keys IH]; intros m H; [exact H|].
    cbn [fold_left]. apply IH. now apply cmd_append_nodup.
  Qed.

  Lemma assoc_N_in {B} s (c : B) m : NoDup (map fst m) -> (In (s, c) m <-> assoc_N s m = Some c).
  Proof.
    induction m as [|[t d] m IH]; intro Hnd; cbn [In assoc_N]; [split; [intros []|discriminate]|].
    inversion Hnd as [|? ? Hnt Hnd']; subst. destruct (N.eqb_spec s t) as [->|Hne].
    - split; [intros [E|H]; [now inversion E|]|intro E; left; congruence].
      exfalso. apply Hnt. apply in_map_iff. exists (t, c). auto.
    - rewrite <- IH by assumption. split; [intros [E|H]; [inversion E; congruence|assumption]|auto].
  Qed.

  Lemma slot_mcmds_in keys s c :
    In (s, c) (slot_mcmds slot_of head keys) ->
    c = head :: filter (in_slot s) keys /\ existsb (in_slot s) keys = true.
  Proof.
    intro H. apply assoc_N_in in H; [|apply slot_mcmds_nodup]. rewrite slot_mcmds_spec in H.
    destruct (existsb (in_slot s) keys); [|discriminate]. split; [congruence|reflexivity].
  Qed.

  Fixpoint index_of (s : N) (l : list N) : option nat :=
    match l with
    | [] => None
    | t :: r => if N.eqb s t then Some 0 else option_map S (index_of s r)
    end.

  Lemma index_of_none s l : index_of s l = None <-> ~ In s l.
  Proof.
    induction l as [|t l IH]; cbn [index_of In]; [split; auto|].
    destruct (N.eqb_spec s t) as [E|Hne].
    - split; [discriminate|]. intro H. exfalso. apply H. left. congruence.
    - split.
      + intro H. destruct (index_of s l) eqn:E; [discriminate|]. intros [E'|Hin]; [congruence|].
        exact (proj1 IH eq_refl Hin).
      + intro H. assert (Hn : ~ In s l) by tauto. apply IH in Hn. now rewrite Hn.
  Qed.

  Lemma index_of_app_new s l t : ~ In t l ->
    index_of s (l ++ [t]) = match index_of s l with Some i => Some i | None => if N.eqb s t then Some (length l) else None end.
  Proof.
    intro Hn. induction l as [|u l IH]; cbn [app index_of length].
    - destruct (N.eqb s t); reflexivity.
    - destruct (N.eqb_spec s u) as [->|Hne]; [reflexivity|].
      rewrite IH by (intro H; apply Hn; now right).
      destruct (index_of s l); cbn [option_map]; [reflexivity|]. destruct (N.eqb s t); reflexivity.
  Qed.

  Lemma append_at_index s a sc : forall i,
    index_of s (map fst sc) = Some i ->
    exists c, nth_error (map snd sc) i = Some c /\
      map snd (cmd_append s head a sc) = upd i (c ++ a) (map snd sc).
  Proof.
    induction sc as [|[t c] sc IH]; intros i Hi; [discriminate|].
    cbn [map fst snd index_of cmd_append] in *.
    destruct (N.eqb_spec s t) as [->|Hne].
    - injection Hi as <-. exists c. split; reflexivity.
    - destruct (index_of s (map fst sc)) as [j|] eqn:Ej; [|discriminate]. cbn in Hi. injection Hi as <-.
      destruct (IH j eq_refl) as (c' & Hn & Hm). exists c'. split; [exact Hn|]. cbn [map snd upd]. now rewrite Hm.
  Qed.

  Definition grp_rel (st : list (N * nat) * list argv) (sc : list (N * argv)) : Prop :=
    snd st = map snd sc /\ NoDup (map fst sc) /\ forall t, slot_find t (fst st) = index_of t (map fst sc).

  (** the grouping loop of clusterMGet builds the commands of [slot_mcmds], slots in order of first occurrence *)
  Lemma group_by_slot_spec keys :
    group_by_slot slot_of head keys = Ok (map snd (slot_mcmds slot_of head keys)).
  Proof.
    unfold group_by_slot, slot_mcmds.
    assert (H : grp_rel ([], []) []) by (split; [reflexivity|split; [constructor|intro; reflexivity]]).
    revert H. generalize (@nil (N * argv)) as sc. generalize (@nil (N * nat), @nil argv) as st.
    induction keys as [|k keys IH]; intros [idx cmds] sc (Hc & Hnd & Hidx); cbn [fst snd] in *.
    - cbn [fold_left]. now rewrite Hc.
    - cbn [fold_left]. rewrite Hidx.
      destruct (index_of (slot_of k) (map fst sc)) as [i|] eqn:Ei.
      + destruct (append_at_index (slot_of k) [k] sc i Ei) as (c & Hn & Hm).
        rewrite Hc, Hn. apply IH. split; [|split]; cbn [fst snd].
        * now rewrite Hm.
        * now apply cmd_append_nodup.
        * intro t. rewrite Hidx. rewrite cmd_append_keys; [reflexivity|].
          destruct (in_dec N.eq_dec (slot_of k) (map fst sc)) as [Hi|Hn']; [assumption|].
          apply index_of_none in Hn'. congruence.
      + apply index_of_none in Ei. apply IH. split; [|split]; cbn [fst snd].
        * rewrite cmd_append_new by assumption. rewrite map_app, Hc. reflexivity.
        * now apply cmd_append_nodup.
        * intro t. rewrite cmd_append_new by assumption. rewrite map_app. cbn [map fst].
          rewrite index_of_app_new by assumption. cbn [slot_find]. rewrite Hidx, Hc, map_length.
          rewrite <- (map_length fst sc).
          destruct (N.eqb_spec t (slot_of k)) as [->|Hne].
          -- apply index_of_none in Ei. now rewrite Ei.
          -- destruct (index_of t (map fst sc)); reflexivity.
  Qed.
End Slots.

(** the slot test of the pair-taking builders (MSets, MSetNXs, JsonMSets), whose commands [slot_fold_gen] describes
    with [sl := fun kv => slot_of (fst kv)] and [enc kv] = [k; v] or [k; path; v] *)
Section SlotPairs.
  Variable slot_of : key -> N.

  Definition pair_in_slot (s : N) (kv : key * bytes) : bool := N.eqb (slot_of (fst kv)) s.
End SlotPairs.

Section Cluster.
  Variable srv : argv -> msg.
  Variable slot_of : key -> N.
  Variable get : key -> msg.

  Lemma collect_one_spec ks : forall pre post ret,
    pre <> [] ->
    collect_one ret (pre ++ ks ++ post) (length pre - 1) (map get ks) = Ok (set_keys get ks ret).
  Proof.
    induction ks as [|k ks IH]; intros pre post ret Hp; [reflexivity|].
    cbn [map collect_one].
    assert (El : S (length pre - 1) = length pre) by (destruct pre; [contradiction|cbn; lia]).
    rewrite El, nth_error_app2, Nat.sub_diag by lia. cbn [app nth_error].
    assert (E2 : length pre = length (pre ++ [k]) - 1) by (rewrite app_length; cbn; lia).
    assert (E3 : pre ++ k :: ks ++ post = (pre ++ [k]) ++ ks ++ post) by now rewrite <- app_assoc.
    rewrite E2, E3. rewrite IH by (destruct pre; discriminate). reflexivity.
  Qed.

  (** commands [head :: ks ++ post] answered elementwise *)
  Lemma collect_spec head post (groups : list (list key)) : forall ret,
    (forall ks, srv (head :: ks ++ post) = arr (map get ks)) ->
    collect ret (map (fun ks => head :: ks ++ post) groups) (do_multi srv (map (fun ks => head :: ks ++ post) groups))
    = Ok (inl (fold_left (fun m ks => set_keys get ks m) groups ret)).
  Proof.
    intros ret Hs. revert ret. induction groups as [|ks groups IH]; intro ret; [reflexivity|].
    cbn [map do_multi collect fold_left]. unfold do_cmd at 1, to_array. cbn [r_err new_result r_val].
    rewrite Hs. cbn [arr m_typ m_vals]. cbn [N.eqb tArr Pos.eqb orb].
    pose proof (collect_one_spec ks [head] post ret) as H1. cbn [app length Nat.sub] in H1.
    rewrite H1 by discriminate. apply IH.
  Qed.

  Lemma set_keys_concat (groups : list (list key)) : forall ret,
    fold_left (fun m ks => set_keys get ks m) groups ret = set_keys get (concat groups) ret.
  Proof.
    induction groups as [|ks groups IH]; intro ret; cbn [fold_left concat]; [reflexivity|].
    rewrite IH. unfold set_keys. now rewrite fold_left_app.
  Qed.

  (** the key groups of the commands built by the grouping loop *)
  Definition groups_of (head : bytes) (keys : list key) : list (list key) :=
    map (fun sc => tl (snd sc)) (slot_mcmds slot_of head keys).

  Lemma groups_cover head keys k : In k (concat (groups_of head keys)) <-> In k keys.
  Proof.
    unfold groups_of. rewrite in_concat. split.
    - intros (ks & Hks & Hk). apply in_map_iff in Hks as ([s c] & <- & Hin).
      apply slot_mcmds_in in Hin as [-> _]. cbn [snd tl] in Hk. apply filter_In in Hk. tauto.
    - intro Hk. exists (filter (in_slot slot_of (slot_of k)) keys). split.
      + apply in_map_iff. exists (slot_of k, head :: filter (in_slot slot_of (slot_of k)) keys). split; [reflexivity|].
        apply assoc_N_in; [apply slot_mcmds_nodup|]. rewrite slot_mcmds_spec.
        assert (E : existsb (in_slot slot_of (slot_of k)) keys = true).
        { apply existsb_exists. exists k. split; [assumption|apply N.eqb_refl]. }
        now rewrite E.
      + apply filter_In. split; [assumption|apply N.eqb_refl].
  Qed.

  Lemma groups_maps head keys ret :
    ret = fold_left (fun m ks => set_keys get ks m) (groups_of head keys) [] ->
    (forall k, In k keys -> kv_get k ret = Some (get k)) /\ (forall k, ~ In k keys -> kv_get k ret = None).
  Proof.
    intros ->. split; intros k Hk; rewrite set_keys_concat, set_keys_get;
      destruct (in_dec key_dec k (concat (groups_of head keys))) as [H|H]; try reflexivity; exfalso.
    - apply H. now apply groups_cover.
    - apply Hk. now apply groups_cover in H.
  Qed.

  (** all keys of one command share its slot (what lets a cluster node accept the command) *)
  Lemma groups_same_slot head keys c :
    In c (map snd (slot_mcmds slot_of head keys)) -> exists s, forall k, In k (tl c) -> slot_of k = s.
  Proof.
    intro H. apply in_map_iff in H as ([s c'] & <- & Hin). exists s.
    apply slot_mcmds_in in Hin as [-> _]. cbn [snd tl]. intros k Hk. apply filter_In in Hk as [_ Hk]. now apply N.eqb_eq.
  Qed.

  (** clusterMGet / clusterJsonMGet after the grouping loop: one command [head :: keys of the slot ++ post] per
      slot ([post] = the JSON path, or nothing), each answered elementwise, collected into one map *)
  Theorem cluster_collect_spec head post keys :
    (forall ks, srv (head :: ks ++ post) = arr (map get ks)) ->
    let cmds := map (fun c => c ++ post) (map snd (slot_mcmds slot_of head keys)) in
    exists m, collect [] cmds (do_multi srv cmds) = Ok (inl m) /\
      (forall k, In k keys -> kv_get k m = Some (get k)) /\ (forall k, ~ In k keys -> kv_get k m = None).
  Proof.
    intros Hs cmds.
    assert (E : cmds = map (fun ks => head :: ks ++ post) (groups_of head keys)).
    { unfold cmds, groups_of. rewrite !map_map. apply map_ext_in. intros [s c] Hin.
      now apply slot_mcmds_in in Hin as [-> _]. }
    rewrite E, collect_spec by assumption. eexists. split; [reflexivity|]. now apply (groups_maps head).
  Qed.
End Cluster.

Section Sets.
  Variable srv : argv -> msg.

  (** doMultiSet over commands whose second word is the key; commands for the same key are the same command *)
  Lemma do_multi_set_go_spec (keyf : argv -> key) (cmds : list argv) : forall ret,
    (forall c, In c cmds -> nth_error c 1 = Some (keyf c)) ->
    do_multi_set_go ret cmds (do_multi srv cmds)
    = Ok (fold_left (fun m c => kv_set (keyf c) (msg_error (srv c)) m) cmds ret).
  Proof.
    induction cmds as [|c cmds IH]; intros ret Hk; [reflexivity|].
    cbn [do_multi map do_multi_set_go fold_left]. rewrite (Hk c (or_introl eq_refl)).
    unfold do_cmd at 1. unfold res_error. cbn [r_err new_result r_val]. apply IH. intros; apply Hk; now right.
  Qed.

  Lemma fold_cmds_get (keyf : argv -> key) (cmds : list argv) : forall ret k,
    (forall c c', In c cmds -> In c' cmds -> keyf c = keyf c' -> c = c') ->
    kv_get k (fold_left (fun m c => kv_set (keyf c) (msg_error (srv c)) m) cmds ret)
    = match find (fun c => bytes_eqb (keyf c) k) cmds with
      | Some c => Some (msg_error (srv c))
      | None => kv_get k ret
      end.
  Proof.
    induction cmds as [|c cmds IH]; intros ret k Hsame; [reflexivity|].
    cbn [fold_left find]. rewrite IH by (intros; apply Hsame; auto using in_cons).
    destruct (find (fun c0 => bytes_eqb (keyf c0) k) cmds) as [c'|] eqn:Ef.
    - apply find_some in Ef as [Hin Hk]. apply bytes_eqb_eq in Hk.
      destruct (bytes_eqb (keyf c) k) eqn:Ec; [|reflexivity]. apply bytes_eqb_eq in Ec.
      assert (c = c') by (apply Hsame; [now left|now right|congruence]). now subst.
    - destruct (bytes_eqb (keyf c) k) eqn:Ec.
      + apply bytes_eqb_eq in Ec. subst k. apply kv_get_set_same.
      + apply kv_get_set_other. intro E. rewrite E, bytes_eqb_refl in Ec. discriminate.
  Qed.

  (** every key of a per-key command list is bound to the error (or nil) of its own command's reply *)
  Theorem do_multi_set_spec (keyf : argv -> key) (cmds : list argv) :
    (forall c, In c cmds -> nth_error c 1 = Some (keyf c)) ->
    (forall c c', In c cmds -> In c' cmds -> keyf c = keyf c' -> c = c') ->
    exists m, do_multi_set srv cmds = Ok m /\
      (forall c, In c cmds -> kv_get (keyf c) m = Some (msg_error (srv c))) /\
      (forall k, (forall c, In c cmds -> keyf c <> k) -> kv_get k m = None).
  Proof.
    intros Hk Hsame. unfold do_multi_set. rewrite (do_multi_set_go_spec keyf) by assumption.
    eexists. split; [reflexivity|]. split.
    - intros c Hc. rewrite fold_cmds_get by assumption.
      destruct (find (fun c0 => bytes_eqb (keyf c0) (keyf c)) cmds) as [c'|] eqn:Ef.
      + apply find_some in Ef as [Hin He]. apply bytes_eqb_eq in He.
        assert (c' = c) by (apply Hsame; auto). now subst.
      + exfalso. apply (find_none _ _ Ef c) in Hc. now rewrite bytes_eqb_refl in Hc.
    - intros k Hn. rewrite fold_cmds_get by assumption.
      destruct (find (fun c0 => bytes_eqb (keyf c0) k) cmds) as [c'|] eqn:Ef; [|reflexivity].
      apply find_some in Ef as [Hin He]. apply bytes_eqb_eq in He. exfalso. eapply Hn; eauto.
  Qed.
End Sets.

Section DecodeProof.
  Variable T : Type.
  Variable zero : T.
  Variable dec : msg -> T + err.

  Definition elem_ok (v : msg) (t : T) : Prop :=
    (m_typ v = tNull /\ t = zero) \/ (m_typ v <> tNull /\ dec v = inl t) \/ (m_typ v <> tNull /\ dec v = inr ENil /\ t = zero).

  Lemma decode_elems_positional vs : forall ts, decode_elems T zero dec vs = inl ts -> Forall2 elem_ok vs ts.
  Proof.
    induction vs as [|v vs IH]; intros ts H; cbn [decode_elems] in H; [injection H as <-; constructor|].
    destruct (N.eqb_spec (m_typ v) tNull) as [Hn|Hn].
    - destruct (decode_elems T zero dec vs) as [ts'|] eqn:E; [|discriminate]. injection H as <-.
      constructor; [left; auto|now apply IH].
    - destruct (dec v) as [t|e] eqn:Ed.
      + destruct (decode_elems T zero dec vs) as [ts'|] eqn:E; [|discriminate]. injection H as <-.
        constructor; [right; left; auto|now apply IH].
      + destruct e; try discriminate.
        destruct (decode_elems T zero dec vs) as [ts'|] eqn:E; [|discriminate]. injection H as <-.
        constructor; [right; right; auto|now apply IH].
  Qed.
End DecodeProof.
