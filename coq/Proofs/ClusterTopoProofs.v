(** Proofs about Model/ClusterTopo.v: equality of addresses and the [assoc_get] / [assoc_set] algebra; [rfold] /
    [rfold_map], the one loop both parsers are (also the engine of ClusterSpecProofs); the parsers never fail and keep
    every group headed by its key, keys distinct ([wf]); the slot table ([last_owner], [wslot], [rslot], [pick_slot]);
    which nodes parseShards keeps ([shard_nodes_kept]). *)
From Coq Require Import List Arith NArith ZArith Bool Lia Permutation.
Require Import RV.Model.Base RV.Model.ClusterTopo RV.Proofs.BytesProofs.
Require Export RV.Proofs.ListFacts.
Import ListNotations.
Open Scope Z_scope.

Lemma addr_eqb_spec : forall a b : addr, addr_eqb a b = true <-> a = b.
Proof.
  intros [h1 p1] [h2 p2]. unfold addr_eqb. cbn [fst snd]. rewrite andb_true_iff, bytes_eqb_eq, Z.eqb_eq.
  split; [intros [-> ->]; reflexivity|intro H; inversion H; auto].
Qed.

Lemma addr_eqb_refl a : addr_eqb a a = true.
Proof. now apply addr_eqb_spec. Qed.

Lemma addr_eqb_neq a b : addr_eqb a b = false <-> a <> b.
Proof.
  split; intro H.
  - intro E. apply addr_eqb_spec in E. congruence.
  - destruct (addr_eqb a b) eqn:E; [apply addr_eqb_spec in E; contradiction|reflexivity].
Qed.

Lemma mem_addr_In a l : mem_addr a l = true <-> In a l.
Proof.
  induction l as [|x l IH]; cbn [mem_addr In]; [split; [discriminate|tauto]|].
  rewrite orb_true_iff, IH, addr_eqb_spec. split; intros [H|H]; auto.
Qed.

Lemma idx_ok {A} (l : list A) i : (i < length l)%nat -> exists x, idx l i = Ok x /\ nth_error l i = Some x.
Proof.
  intro H. unfold idx. destruct (nth_error l i) eqn:E; [eauto|].
  apply nth_error_None in E. lia.
Qed.

Lemma bind_not_panic {A B} (r : result A) (f : A -> result B) :
  r <> Panic -> (forall a, r = Ok a -> f a <> Panic) -> bind r f <> Panic.
Proof. destruct r; cbn; intros H1 H2; auto; congruence. Qed.

Definition keys (gs : groups) : list addr := map fst gs.

Lemma assoc_get_set_same a g gs : assoc_get a (assoc_set a g gs) = Some g.
Proof.
  induction gs as [|[k g0] r IH]; cbn [assoc_set assoc_get].
  - now rewrite addr_eqb_refl.
  - destruct (addr_eqb a k) eqn:E; cbn [assoc_get]; rewrite E; auto.
Qed.

Lemma assoc_get_set_other a b g gs : a <> b -> assoc_get b (assoc_set a g gs) = assoc_get b gs.
Proof.
  intro N. induction gs as [|[k g0] r IH]; cbn [assoc_set assoc_get].
  - assert (addr_eqb b a = false) as -> by (apply addr_eqb_neq; congruence). reflexivity.
  - destruct (addr_eqb a k) eqn:E; cbn [assoc_get].
    + apply addr_eqb_spec in E. subst k.
      assert (addr_eqb b a = false) as -> by (apply addr_eqb_neq; congruence). reflexivity.
    + now rewrite IH.
Qed.

Lemma assoc_get_In a g gs : assoc_get a gs = Some g -> In (a, g) gs.
Proof.
  induction gs as [|[k g0] r IH]; cbn [assoc_get]; [discriminate|].
  destruct (addr_eqb a k) eqn:E; intro H.
  - apply addr_eqb_spec in E. inversion H; subst. now left.
  - right; auto.
Qed.

Lemma In_assoc_get a g gs : NoDup (keys gs) -> In (a, g) gs -> assoc_get a gs = Some g.
Proof.
  unfold keys. induction gs as [|[k g0] r IH]; cbn [map In assoc_get fst]; [tauto|].
  intros ND [H|H].
  - inversion H; subst. now rewrite addr_eqb_refl.
  - inversion ND as [|? ? Hn ND']; subst.
    destruct (addr_eqb a k) eqn:E.
    + apply addr_eqb_spec in E. subst. exfalso. apply Hn. apply in_map_iff. exists (k, g). auto.
    + auto.
Qed.

Lemma In_assoc_set a g gs k g' :
  In (k, g') (assoc_set a g gs) -> (k = a /\ g' = g) \/ In (k, g') gs.
Proof.
  induction gs as [|[k0 g0] r IH]; cbn [assoc_set In].
  - intros [H|[]]. inversion H; auto.
  - destruct (addr_eqb a k0) eqn:E; cbn [In].
    + apply addr_eqb_spec in E. subst k0. intros [H|H]; [inversion H; auto|auto].
    + intros [H|H]; [auto|]. destruct (IH H); auto.
Qed.

Lemma assoc_set_NoDup a g gs : NoDup (keys gs) -> NoDup (keys (assoc_set a g gs)).
Proof.
  unfold keys. induction gs as [|[k g0] r IH]; cbn [assoc_set map fst]; [repeat constructor; auto|].
  intro H. inversion H as [|? ? Hn ND]; subst. destruct (addr_eqb a k) eqn:E; cbn [map fst]; constructor; auto.
  intro Hin. apply in_map_iff in Hin. destruct Hin as [[k' g'] [<- Hin]]. apply In_assoc_set in Hin. destruct Hin as [[-> _]|Hin].
  - rewrite addr_eqb_refl in E. discriminate.
  - apply Hn. apply in_map_iff. exists (k', g'). auto.
Qed.

Definition group_headed (kg : addr * group) : Prop := hd_error (g_nodes (snd kg)) = Some (fst kg).
Definition wf (gs : groups) : Prop := Forall group_headed gs /\ NoDup (keys gs).

Lemma wf_nil : wf [].
Proof. split; constructor. Qed.

Lemma wf_assoc_set a g gs : hd_error (g_nodes g) = Some a -> wf gs -> wf (assoc_set a g gs).
Proof.
  intros Hh [F ND]. split; [|now apply assoc_set_NoDup]. rewrite Forall_forall in *.
  intros [k g'] Hin. apply In_assoc_set in Hin. destruct Hin as [[-> ->]|Hin]; [exact Hh|exact (F _ Hin)].
Qed.

(** both parsers are the same loop over the reply's elements *)
Fixpoint rfold (step : msg -> groups -> result groups) (vs : list msg) (acc : groups) : result groups :=
  match vs with
  | [] => Ok acc
  | v :: r => do acc' <- step v acc; rfold step r acc'
  end.

Lemma parse_slots_loop_rfold dh vs : forall acc, parse_slots_loop dh vs acc = rfold (parse_slots_entry dh) vs acc.
Proof. induction vs as [|v r IH]; intro acc; cbn; [reflexivity|]. destruct (parse_slots_entry dh v acc); cbn; auto. Qed.

Lemma parse_shards_loop_rfold dh tls vs : forall acc, parse_shards_loop dh tls vs acc = rfold (parse_shards_entry dh tls) vs acc.
Proof. induction vs as [|v r IH]; intro acc; cbn; [reflexivity|]. destruct (parse_shards_entry dh tls v acc); cbn; auto. Qed.

(** the loop over a reply whose elements encode [xs]: an invariant [I] of (elements done, groups so far) that
    every step re-establishes holds at the end, and the loop does not fail *)
Lemma rfold_map {X} (step : msg -> groups -> result groups) (enc : X -> msg) (I : list X -> groups -> Prop) :
  (forall done acc x, I done acc -> exists acc', step (enc x) acc = Ok acc' /\ I (done ++ [x]) acc') ->
  forall xs done acc, I done acc -> exists gs, rfold step (map enc xs) acc = Ok gs /\ I (done ++ xs) gs.
Proof.
  intro Hs. induction xs as [|x r IH]; intros done acc Hi; cbn [map rfold].
  - exists acc. now rewrite app_nil_r.
  - destruct (Hs done acc x Hi) as [acc' [-> Hi']]. cbn [bind].
    destruct (IH _ _ Hi') as [gs [E Hg]]. exists gs. now rewrite <- app_assoc in Hg.
Qed.

Lemma rfold_wf step : (forall v acc, wf acc -> exists acc', step v acc = Ok acc' /\ wf acc') ->
  forall vs, exists gs, rfold step vs [] = Ok gs /\ wf gs.
Proof.
  intros Hs vs. destruct (rfold_map step (fun v => v) (fun _ acc => wf acc) (fun _ acc v => Hs v acc) vs [] [] wf_nil) as [gs H].
  rewrite map_id in H. eauto.
Qed.

Lemma slot_nodes_ok dh es : exists ns, slot_nodes dh es = Ok ns.
Proof.
  induction es as [|e r [ns IH]]; cbn [slot_nodes]; [eauto|].
  destruct (Nat.ltb_spec (length (values e)) 2) as [H|H]; [eauto|].
  destruct (idx_ok (values e) 0 ltac:(lia)) as [h [-> _]].
  destruct (idx_ok (values e) 1 ltac:(lia)) as [p [-> _]].
  rewrite IH. cbn [bind]. destruct (parse_endpoint dh (mstring h) (intlen p)); eauto.
Qed.

Lemma skipn2_cons {A} (l : list A) x : nth_error l 2 = Some x -> exists r, skipn 2 l = x :: r.
Proof.
  destruct l as [|a [|b [|c r]]]; cbn; try discriminate. intro H; inversion H; eauto.
Qed.

Lemma parse_slots_entry_wf dh v acc : wf acc -> exists acc', parse_slots_entry dh v acc = Ok acc' /\ wf acc'.
Proof.
  intros W. unfold parse_slots_entry.
  destruct (Nat.ltb_spec (length (values v)) 3) as [H|H]; [eauto|].
  destruct (idx_ok (values v) 2 ltac:(lia)) as [m2 [-> Hm2]]. cbn [bind].
  destruct (Nat.ltb_spec (length (values m2)) 2) as [H2|H2]; [eauto|].
  destruct (idx_ok (values m2) 0 ltac:(lia)) as [h [Eh Hh]].
  destruct (idx_ok (values m2) 1 ltac:(lia)) as [p [Ep Hp]]. rewrite Eh, Ep. cbn [bind].
  destruct (parse_endpoint dh (mstring h) (intlen p)) as [master|] eqn:PE; [|eauto].
  destruct (idx_ok (values v) 0 ltac:(lia)) as [lo [-> _]].
  destruct (idx_ok (values v) 1 ltac:(lia)) as [hi [-> _]]. cbn [bind].
  destruct (assoc_get master acc) as [g|] eqn:G.
  - eexists. split; [reflexivity|]. apply wf_assoc_set; [|exact W].
    destruct W as [F _]. rewrite Forall_forall in F. exact (F _ (assoc_get_In _ _ _ G)).
  - (* a new group: its node list starts with the element's own first node, the master *)
    destruct (skipn2_cons _ _ Hm2) as [rest ->]. cbn [slot_nodes].
    destruct (Nat.ltb_spec (length (values m2)) 2) as [?|_]; [lia|]. rewrite Eh, Ep. cbn [bind].
    destruct (slot_nodes_ok dh rest) as [ns ->]. cbn [bind]. rewrite PE. cbn [bind].
    eexists. split; [reflexivity|]. now apply wf_assoc_set.
Qed.

Lemma parse_slots_wf dh m : exists gs, parse_slots dh m = Ok gs /\ wf gs.
Proof. unfold parse_slots. rewrite parse_slots_loop_rfold. apply rfold_wf. apply parse_slots_entry_wf. Qed.

Lemma shard_slots_ok : forall fuel sl, (2 * fuel <= length sl)%nat -> exists rs, shard_slots fuel sl = Ok rs.
Proof.
  induction fuel as [|f IH]; intros sl H; cbn [shard_slots]; [eauto|].
  destruct sl as [|a [|b r]]; cbn [length] in H; try lia.
  destruct (IH r ltac:(lia)) as [rs ->]. cbn [bind]. eauto.
Qed.

Lemma shard_nodes_bound dh tls ns : forall acc m nodes k,
  (forall j, m = Some j -> (j < length acc)%nat) ->
  shard_nodes dh tls ns acc m = (nodes, Some k) -> (k < length nodes)%nat.
Proof.
  induction ns as [|n r IH]; intros acc m nodes k Hm; cbn [shard_nodes].
  - intro E; inversion E; subst. auto.
  - destruct (negb _); [apply IH; exact Hm|].
    destruct (parse_endpoint _ _ _) as [a|]; [|apply IH; exact Hm].
    apply IH. intros j. rewrite app_length. destruct (bytes_eqb _ s_master).
    + intro E; inversion E; subst. cbn. lia.
    + intro E. specialize (Hm j E). lia.
Qed.

Lemma swap0_ok l m : (m < length l)%nat -> exists l', swap0 l m = Ok l' /\ l' <> [] /\ nth_error l' 0 = nth_error l m.
Proof.
  intro H. unfold swap0.
  destruct (idx_ok l 0 ltac:(lia)) as [x0 [-> H0]].
  destruct (idx_ok l m H) as [xm [-> Hm]]. cbn [bind].
  destruct m as [|k].
  - exists l. split; [reflexivity|]. split; [destruct l; [cbn in H; lia|discriminate]|reflexivity].
  - eexists. split; [reflexivity|]. split; [discriminate|]. symmetry. exact Hm.
Qed.

Lemma parse_shards_entry_wf dh tls v acc : wf acc -> exists acc', parse_shards_entry dh tls v acc = Ok acc' /\ wf acc'.
Proof.
  intros W. unfold parse_shards_entry.
  set (sl := values (omap_get k_slots (as_map v))).
  destruct (shard_slots_ok (Nat.div2 (length sl)) sl (div2_double_le _)) as [slots ->]. cbn [bind].
  destruct (shard_nodes dh tls (values (omap_get k_nodes (as_map v))) [] None) as [nodes [m|]] eqn:E; [|eauto].
  assert (Hb : (m < length nodes)%nat) by (eapply shard_nodes_bound; [|exact E]; discriminate).
  destruct (swap0_ok nodes m Hb) as [l' [-> [Hne H0]]]. cbn [bind].
  destruct l' as [|x r]; [congruence|]. cbn [idx nth_error bind].
  eexists. split; [reflexivity|]. now apply wf_assoc_set.
Qed.

Lemma parse_shards_wf dh tls m : exists gs, parse_shards dh tls m = Ok gs /\ wf gs.
Proof. unfold parse_shards. rewrite parse_shards_loop_rfold. apply rfold_wf. apply parse_shards_entry_wf. Qed.

(** parsed groups always have a primary, in any iteration order: the rebuild does not panic *)
Lemma headed_groups_ok gs : Forall group_headed gs -> forall l, Permutation (map snd gs) l -> groups_ok l = true.
Proof.
  intros F l P. unfold groups_ok. apply forallb_forall. intros g Hg.
  apply Permutation_sym in P. apply (Permutation_in _ P) in Hg.
  apply in_map_iff in Hg. destruct Hg as [[k g'] [<- Hin]].
  rewrite Forall_forall in F. specialize (F _ Hin). unfold group_headed in F. cbn [fst snd] in *.
  destruct (g_nodes g'); [discriminate|reflexivity].
Qed.

Lemma rebuild_ok c gs t : rebuild c gs = Ok t ->
  t = mkTable (wslot c gs) (rslot c gs) (rslots_init c gs) (match t_kind c with CfgReadNodeSelector => true | _ => false end).
Proof. unfold rebuild. destruct (groups_ok gs); [|discriminate]. now intros [= <-]. Qed.

Lemma last_owner_In gs s g : last_owner gs s = Some g -> In g gs /\ lists g s = true.
Proof.
  induction gs as [|g0 r IH]; cbn [last_owner]; [discriminate|].
  destruct (last_owner r s) as [g'|] eqn:E.
  - intro H; inversion H; subst. destruct (IH eq_refl). split; [now right|assumption].
  - destruct (lists g0 s) eqn:L; [|discriminate]. intro H; inversion H; subst. split; [now left|assumption].
Qed.

Lemma last_owner_None gs s : last_owner gs s = None <-> forall g, In g gs -> lists g s = false.
Proof.
  induction gs as [|g0 r IH]; cbn [last_owner In]; [split; [tauto|reflexivity]|].
  destruct (last_owner r s) as [g'|] eqn:E.
  - split; [discriminate|]. intro H. destruct (last_owner_In _ _ _ E) as [Hin Hl].
    rewrite (H g' (or_intror Hin)) in Hl. discriminate.
  - destruct (lists g0 s) eqn:L.
    + split; [discriminate|]. intro H. rewrite (H g0 (or_introl eq_refl)) in L. discriminate.
    + split; [|reflexivity]. intros _ g [<-|Hin]; [exact L|]. now apply IH.
Qed.

(** when exactly one group lists the slot, it owns it — in every iteration order *)
Lemma last_owner_unique gs s g :
  In g gs -> lists g s = true -> (forall g', In g' gs -> lists g' s = true -> g' = g) ->
  last_owner gs s = Some g.
Proof.
  intros Hin Hl Hu. destruct (last_owner gs s) as [g'|] eqn:E.
  - destruct (last_owner_In _ _ _ E) as [Hin' Hl']. f_equal. now apply Hu.
  - rewrite last_owner_None in E. rewrite (E g Hin) in Hl. discriminate.
Qed.

(** unless the client is ReplicaOnly, the write table holds the primary of the group that owns the slot *)
Lemma wslot_default c gs s : t_kind c <> CfgReplicaOnly ->
  wslot c gs s = match last_owner gs s with Some g => primary g | None => None end.
Proof.
  intro Hk. unfold wslot, primary. destruct (last_owner gs s) as [g|]; [|reflexivity].
  destruct (g_nodes g) as [|p reps]; [reflexivity|]. destruct (t_kind c); try reflexivity. congruence.
Qed.

Lemma wslot_default_unique c gs s g p :
  t_kind c <> CfgReplicaOnly ->
  In g gs -> lists g s = true -> (forall g', In g' gs -> lists g' s = true -> g' = g) ->
  primary g = Some p -> wslot c gs s = Some p.
Proof. intros Hk Hin Hl Hu Hp. now rewrite (wslot_default c gs s Hk), (last_owner_unique gs s g Hin Hl Hu). Qed.

Lemma wslot_none c gs s : (forall g, In g gs -> lists g s = false) -> wslot c gs s = None.
Proof. intro H. unfold wslot. apply last_owner_None in H. now rewrite H. Qed.

(** ReplicaOnly with replicas: the slot goes to one of the group's replicas *)
Lemma wslot_replicaonly c gs s g a :
  t_kind c = CfgReplicaOnly -> last_owner gs s = Some g -> (1 < length (g_nodes g))%nat ->
  wslot c gs s = Some a -> In a (tl (g_nodes g)).
Proof.
  intros Hk Ho Hl. unfold wslot. rewrite Ho, Hk.
  destruct (g_nodes g) as [|p [|x reps]]; cbn [length] in Hl; try lia.
  cbn [tl]. intro H. apply nth_error_In in H. exact H.
Qed.

(** a group with a single node gets that node in every configuration (so a ReplicaOnly client falls back to it) *)
Lemma wslot_replicaonly_single c gs s g p :
  last_owner gs s = Some g -> g_nodes g = [p] -> wslot c gs s = Some p.
Proof. intros Ho Hn. unfold wslot. rewrite Ho, Hn. destruct (t_kind c); reflexivity. Qed.

Lemma wslot_in_shard c gs s g a : last_owner gs s = Some g -> wslot c gs s = Some a -> In a (g_nodes g).
Proof.
  intro Ho. unfold wslot. rewrite Ho. destruct (g_nodes g) as [|p reps]; [discriminate|].
  destruct (t_kind c), reps; intro H; try (injection H as <-; now left). right. exact (nth_error_In _ _ H).
Qed.

Lemma rslot_in_shard c gs s g a : last_owner gs s = Some g -> In a (rslot c gs s) -> In a (g_nodes g).
Proof.
  intro Ho. unfold rslot. rewrite Ho. destruct (t_kind c); try (intros []); [|exact (fun H => H)].
  destruct (g_nodes g) as [|p [|x r]]; [intros []|exact (fun H => H)|].
  destruct (_ && _); [destruct (nth_error (x :: r) _) eqn:E|]; intros [<-|[]]; try (now left).
  right. exact (nth_error_In _ _ E).
Qed.

Lemma pick_slot_in_shard c gs t s to_replica nsel a g :
  rebuild c gs = Ok t -> last_owner gs s = Some g -> pick_slot t s to_replica nsel = Some a -> In a (g_nodes g).
Proof.
  intros R Ho. rewrite (rebuild_ok _ _ _ R). unfold pick_slot. cbn [tb_rinit tb_r tb_readsel tb_w].
  destruct (to_replica && _); [|now apply wslot_in_shard].
  destruct (rslot c gs s) as [|n ns] eqn:E; [discriminate|]. intro H. apply nth_error_In in H. rewrite <- E in H.
  exact (rslot_in_shard c gs s g a Ho H).
Qed.

Lemma covers_spec r s : covers r s = true <-> 0 <= fst r /\ fst r <= s <= snd r /\ s < 16384.
Proof. unfold covers. rewrite !andb_true_iff, !Z.leb_le, Z.ltb_lt. lia. Qed.

(** the nodes parseShards keeps: health "online" and a known endpoint *)
Definition shard_node_addr (dh : bytes) (tls : bool) (n : msg) : option addr :=
  let d := as_map n in
  let port0 := intlen (omap_get k_port d) in
  let port := if tls && (0 <? intlen (omap_get k_tlsport d)) then intlen (omap_get k_tlsport d) else port0 in
  parse_endpoint dh (mstring (omap_get k_endpoint d)) port.

Definition shard_node_online (n : msg) : bool := bytes_eqb (mstring (omap_get k_health (as_map n))) online.

Lemma shard_nodes_kept dh tls ns : forall acc m nodes m',
  shard_nodes dh tls ns acc m = (nodes, m') ->
  forall a, In a nodes -> In a acc \/ exists n, In n ns /\ shard_node_online n = true /\ shard_node_addr dh tls n = Some a.
Proof.
  induction ns as [|n r IH]; intros acc m nodes m' H a Ha; cbn [shard_nodes] in H.
  - inversion H; subst. now left.
  - destruct (bytes_eqb (mstring (omap_get k_health (as_map n))) online) eqn:On; cbn [negb] in H.
    2:{ destruct (IH _ _ _ _ H a Ha) as [?|[n' [? ?]]]; [now left|right; exists n'; cbn; auto]. }
    fold (shard_node_addr dh tls n) in H.
    destruct (shard_node_addr dh tls n) as [b|] eqn:Ad.
    + destruct (IH _ _ _ _ H a Ha) as [Hin|[n' [? ?]]].
      * apply in_app_or in Hin. destruct Hin as [?|[<-|[]]]; [now left|]. right. exists n. cbn. auto.
      * right; exists n'; cbn; auto.
    + destruct (IH _ _ _ _ H a Ha) as [?|[n' [? ?]]]; [now left|right; exists n'; cbn; auto].
Qed.
