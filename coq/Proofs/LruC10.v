(** C10: accounted size = sum of the retained completed entries <= max, over all histories;
    eviction takes a minimal prefix of the completed entries in list order; in-flight entries stay. *)
From Coq Require Import List NArith ZArith Bool Lia Permutation.
Require Import RV.Model.Base RV.Model.Lru RV.Proofs.LruBase RV.Proofs.LruSteps.
Import ListNotations.
Open Scope Z_scope.

Definition done (e : entry) : bool := negb (pending e).
Definition sum_done (l : list entry) : Z := sum_sizes (filter done l).

Lemma approx_nonneg mss : 0 <= mss -> forall m, 0 <= approx mss m.
Proof.
  intro H. fix IH 1. intros [t i s vs x k]. cbn [approx].
  assert (Hvs : 0 <= (fix go (l : list msg) : Z := match l with [] => 0 | x :: r => approx mss x + go r end) vs).
  { clear -IH. revert vs. fix IHl 1. intros [|v r]; [lia|]. pose proof (IH v). pose proof (IHl r). lia. }
  lia.
Qed.

Lemma entry_size_nonneg g k c v : 0 <= cbase g -> 0 <= cmss g -> 0 <= entry_size g k c v.
Proof. intros Hb Hm. unfold entry_size. pose proof (approx_nonneg (cmss g) Hm v). lia. Qed.

Definition nonneg (s : state) : Prop := forall e, In e (order s) -> 0 <= esize e.

Lemma nonneg_step g s o :
  0 <= cbase g -> 0 <= cmss g -> inv s -> nonneg s -> nonneg (fst (step g s o)).
Proof.
  intros Hb Hm Hi Hn e' He'.
  destruct (step_prov g s o e' Hi He') as [H|[[it [_ [_ [_ [H _]]]]]|[e [v [_ [_ [_ ->]]]]]]]; [apply Hn; exact H|lia|].
  unfold completed. cbn [esize]. apply entry_size_nonneg; assumption.
Qed.

Lemma sum_nonneg l : (forall e, In e l -> 0 <= esize e) -> 0 <= sum_sizes l.
Proof.
  induction l as [|e r IH]; intro H; [cbn; lia|]. rewrite sum_cons.
  pose proof (H e (or_introl eq_refl)). assert (0 <= sum_sizes r) by (apply IH; intros x Hx; apply H; right; exact Hx). lia.
Qed.

Lemma sum_done_eq l : (forall e, In e l -> pending e = true -> esize e = 0) -> sum_done l = sum_sizes l.
Proof.
  intro H. unfold sum_done. rewrite (sum_filter_split done l), (sum_zero (filter (fun e => negb (done e)) l)); [lia|].
  intros e He. apply filter_In in He. destruct He as [He Hd]. apply H; [exact He|].
  unfold done in Hd. rewrite negb_involutive in Hd. exact Hd.
Qed.

(** the accounted size of an open store is within CacheSizeEachConn ([size] is not maintained after Close) *)
Definition bounded (g : cfg) (s : state) : Prop := closed s = false -> size s <= cmax g.

Lemma path_size now items s s' :
  lookup_path now items s s' -> inv s -> inv s' /\ (nonneg s -> nonneg s' /\ size s' <= size s).
Proof.
  apply (lookup_path_rel now items (fun s s' => nonneg s -> nonneg s' /\ size s' <= size s)).
  - intros s0 s1 _ [Hp [Hs _]] Hn. split; [|lia]. intros e He. apply Hn. eapply Permutation_in; eassumption.
  - intros s0 it Hi _ _ Hn. split.
    + intros e' He'. destruct (slow_one_prov _ _ _ _ _ e' Hi He') as [H|[_ [_ [H _]]]]; [apply Hn; exact H|lia].
    + unfold slow_one. destruct (lookup _ _ (order s0)) as [e|] eqn:El; [destruct (live (eval e) now)|]; cbn; try lia.
      apply lookup_some in El. pose proof (Hn e (proj1 El)). lia.
  - intros s1 s2 s3 H1 H2 Hn. destruct (H1 Hn) as [Hn2 L1]. destruct (H2 Hn2) as [Hn3 L2]. split; [exact Hn3|lia].
Qed.

Lemma bounded_step g s o :
  0 <= cmax g -> wf_op o -> inv s -> nonneg s -> bounded g s -> bounded g (fst (step g s o)).
Proof.
  intros Hmax Hw Hi Hn Hb.
  assert (Hmono : forall s', closed s' = closed s -> size s' <= size s -> bounded g s').
  { intros s' Hc Hs Hc'. rewrite Hc in Hc'. specialize (Hb Hc'). lia. }
  destruct (step_cases g s o Hi) as [Hp|Hm].
  - apply Hmono; [apply (path_quiet _ _ _ _ Hp Hi)|apply (proj2 (path_size _ _ _ _ Hp Hi) Hn)].
  - destruct o; try contradiction; cbn [step fst].
    + (* Update: the walk stops below the limit, or only in-flight entries (of size 0) are left *)
      rewrite update_state_eq. destruct (lookup k c (order s)) as [e|] eqn:El; [|exact Hb].
      intro Hc. rewrite (proj1 (after_evict_frame g _)) in Hc. apply (after_evict_spec g); [|exact Hc|exact Hmax].
      destruct (pending e) eqn:Ep; [apply inv_commit; assumption|exact Hi].
    + rewrite cancel_spec. destruct (lookup k c (order s)) as [e|]; [|exact Hb].
      destruct (pending e); [|exact Hb]. apply Hmono; cbn; [reflexivity|lia].
    + assert (Hp : forall p, bounded g (purge_if p s)); [|destruct keys; apply Hp].
      intro p. apply Hmono; [reflexivity|]. unfold purge_if. cbn [size].
      assert (0 <= sum_sizes (filter (fun e => p e && negb (pending e)) (order s))); [|lia].
      apply sum_nonneg. intros e He. apply filter_In in He. apply Hn. apply He.
    + intro H. discriminate.
Qed.

Lemma all_run g ops : 0 <= cmax g -> 0 <= cbase g -> 0 <= cmss g ->
  forall s, Forall wf_op ops -> inv s -> nonneg s -> bounded g s ->
  inv (run g ops s) /\ nonneg (run g ops s) /\ bounded g (run g ops s).
Proof.
  intros Hmax Hb Hm. induction ops as [|o r IH]; intros s Hw Hi Hn Hbd; [tauto|].
  inversion Hw; subst. rewrite run_cons. apply IH; [assumption| | |].
  - apply inv_step; assumption.
  - apply nonneg_step; assumption.
  - apply bounded_step; assumption.
Qed.

(** the store as Update leaves it before the eviction walk *)
Definition pre_evict (g : cfg) (s : state) (k c : bytes) (v : msg) : option state :=
  match lookup k c (order s) with
  | Some e => Some (if pending e then commit g s k c v e else s)
  | None => None
  end.

Theorem update_lru_first g s k c v s1 :
  pre_evict g s k c v = Some s1 ->
  exists l1 l2, order s1 = l1 ++ l2 /\
    order (fst (update g s k c v)) = filter pending l1 ++ l2 /\
    size (fst (update g s k c v)) = size s1 - sum_sizes (filter done l1) /\
    (forall a e b, l1 = a ++ e :: b -> cmax g < size s1 - sum_sizes (filter done a)) /\
    (size (fst (update g s k c v)) <= cmax g \/ l2 = []).
Proof.
  unfold pre_evict. intro H. rewrite update_state_eq. destruct (lookup k c (order s)) as [e|]; [|discriminate].
  injection H as <-. set (s1 := if pending e then commit g s k c v e else s).
  unfold after_evict. destruct (evict (cmax g) (size s1) (order s1)) as [[z keep] ev] eqn:Ee.
  destruct (evict_lru_first _ _ _ _ _ _ Ee) as [l1 [l2 [A [B [C [D [E F]]]]]]].
  exists l1, l2. cbn [order size]. subst ev. repeat split; assumption.
Qed.
