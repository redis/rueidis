(** helper.go doMultiCache: the key -> reply map built from positional results. *)
From Coq Require Import String Ascii.
From Coq Require Import List Arith NArith ZArith Bool Lia.
Require Import RV.Model.Base RV.Model.CacheBatch RV.Proofs.BytesProofs RV.Proofs.CacheBatchBase.
Import ListNotations.
Open Scope nat_scope.

Lemma kv_get_set_same {B} k (v : B) m : kv_get k (kv_set k v m) = Some v.
Proof.
  induction m as [|[k' v'] m IH]; cbn [kv_set kv_get]; [now rewrite bytes_eqb_refl|].
  destruct (bytes_eqb k k') eqn:E; cbn [kv_get]; [now rewrite bytes_eqb_refl|]. now rewrite E.
Qed.

Lemma kv_get_set_other {B} k k' (v : B) m : k <> k' -> kv_get k' (kv_set k v m) = kv_get k' m.
Proof.
  intro Hne. induction m as [|[k2 v2] m IH]; cbn [kv_set kv_get].
  - destruct (bytes_eqb k' k) eqn:E; [apply bytes_eqb_eq in E; congruence|reflexivity].
  - destruct (bytes_eqb k k2) eqn:E; cbn [kv_get].
    + apply bytes_eqb_eq in E. subst k2.
      destruct (bytes_eqb k' k) eqn:E2; [apply bytes_eqb_eq in E2; congruence|reflexivity].
    + destruct (bytes_eqb k' k2); [reflexivity|exact IH].
Qed.

(** [f k] is the value every position of key [k] carries (positional results: the same command gets the
    same reply): the map then has exactly the input keys, each bound to its value. *)
Lemma helper_do_multi_cache_spec (f : key -> msg) : forall keys resps ret,
  Forall2 (fun k r => r_err r = None /\ r_val r = f k) keys resps ->
  exists m, helper_do_multi_cache keys resps ret = Ok (inl m) /\
    (forall k, In k keys -> kv_get k m = Some (f k)) /\
    (forall k, ~ In k keys -> kv_get k m = kv_get k ret).
Proof.
  intros keys resps ret H. revert ret. induction H as [|k r keys resps [He Hv] _ IH]; intro ret.
  - exists ret. cbn. split; [reflexivity|]. split; [intros k []|auto].
  - cbn [helper_do_multi_cache]. rewrite He.
    destruct (IH (kv_set k (r_val r) ret)) as (m & Hm & Hin & Hout).
    exists m. split; [assumption|]. split.
    + intros k' [<-|Hk']; [|now apply Hin].
      destruct (in_dec (list_eq_dec N.eq_dec) k keys) as [Hi|Hni]; [now apply Hin|].
      rewrite Hout by assumption. now rewrite kv_get_set_same, Hv.
    + intros k' Hn. rewrite Hout by (intro; apply Hn; now right).
      apply kv_get_set_other. intro; subst; apply Hn; now left.
Qed.

(** a transport-level error in any position makes the helper return that error and no map *)
Lemma helper_do_multi_cache_error : forall keys resps ret i r e,
  length keys = length resps -> nth_error resps i = Some r -> r_err r = Some e ->
  exists e', helper_do_multi_cache keys resps ret = Ok (inr e').
Proof.
  induction keys as [|k keys IH]; intros [|r0 resps] ret i r e Hl Hn He; try discriminate.
  - destruct i; discriminate.
  - cbn [helper_do_multi_cache]. destruct (r_err r0) as [e0|] eqn:E0; [eauto|].
    destruct i as [|i]; [cbn in Hn; injection Hn as ->; congruence|].
    cbn in Hn. eapply IH; eauto.
Qed.
