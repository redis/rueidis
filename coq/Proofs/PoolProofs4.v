(** Pool LTS: the lost-wake-up invariant, and all invariants of the repaired code together. *)
From Coq Require Import List ZArith Bool Arith Lia.
Require Import RV.Model.Base RV.Model.Pool RV.Proofs.PoolBase RV.Proofs.PoolProofs RV.Proofs.PoolProofs3.
Import ListNotations.
Open Scope Z_scope.

(** pending wakers: signals not yet delivered, threads already woken, and dead pipes of cancelled
    callers that are still to be stored (every caller stores what it acquired, and Store signals) *)
Definition wakers (s : state) : nat := (sigs s + length (woken s) + count_ctxdead (held s))%nat.

Definition InvL (cfg : config) (s : state) : Prop :=
  (down s = false -> parked s <> [] -> free cfg s <= Z.of_nat (wakers s)) /\
  (down s = true -> parked s = [] \/ (1 <= cbc s)%nat).

(** An evaluation takes at most one unit of free capacity, or none and leaves a dead pipe to store;
    each of the three steps that evaluate has just gained one unit or used up one waker. *)
Lemma invL_acquire_eval : forall cfg t s,
  (down s = false -> parked s <> [] -> free cfg s <= Z.of_nat (wakers s) + 1) ->
  (down s = true -> parked s = [] \/ (1 <= cbc s)%nat) -> InvL cfg (acquire_eval cfg t s).
Proof.
  intros cfg t s LW LD. unfold free, wakers in LW.
  destruct (acquire_eval_spec cfg t s) as [F1 F2 F3|F|F1 F2|F1 F2 F3|cl id l' F1 F2 F3 F4 F5];
    (split; [|exact LD]); unfold free, wakers; pst; cbn [count_ctxdead length]; intros Hd Hp; specialize (LW Hd Hp).
  - lia.
  - lia.
  - congruence.
  - lia.
  - rewrite F1, app_length in LW. cbn [length] in LW. lia.
Qed.

Lemma invL_step : forall cfg s l s', skip_uncounted cfg = true -> Inv1 cfg s ->
  InvL cfg s -> lstep cfg s l = Some s' -> InvL cfg s'.
Proof.
  intros cfg s l s' Hskip [_ _ _ J4] I Hl.
  destruct (lstep_pstep _ _ _ _ Hl) as [t c _ _ _|t Hm|t _ Hw| | |t id _ _ _| | | |id Hw _ Hd _|w Hw _ _|t k Hs Hp|k Hs Hp| | | | |];
    clear Hl.
  (* steps that leave size, idle, down, parked, woken, sigs, cbc and the dead pipes in held alone *)
  all: try exact I.
  all: destruct I as [LW LD]; unfold free, wakers in LW.
  - (* AcqEnter *) apply invL_acquire_eval; [|exact LD]. intros Hd Hp. specialize (LW Hd Hp). unfold free, wakers. pst. lia.
  - (* AcqPark: the caller saw no free capacity *)
    destruct (J4 _ Hm) as (K1 & K2 & K3). split; unfold free; pst; [rewrite K1; cbn [length]; lia|congruence].
  - (* AcqWake *) pose proof (remove1_length _ _ Hw).
    apply invL_acquire_eval; [|exact LD]. intros Hd Hp. specialize (LW Hd Hp). unfold free, wakers. pst. lia.
  - (* MakeBad *)
    apply invL_acquire_eval; [|exact LD]. intros Hd Hp. specialize (LW Hd Hp). unfold free, wakers. pst. lia.
  - (* Bcast *) split; pst; [intros _ X; destruct (X eq_refl)|left; reflexivity].
  - (* Store, wire becomes idle *)
    pose proof (count_ctxdead_remove _ _ Hw) as Hc. cbn [wire_eqb] in Hc.
    split; unfold free, wakers; pst; [|congruence]. intros _ Hp. specialize (LW Hd Hp). cbn [length]. lia.
  - (* Store, wire dropped: a dead pipe of a done context keeps its slot count and turns into a signal *)
    pose proof (count_ctxdead_remove _ _ Hw) as Hc. rewrite Hskip. cbn [andb].
    split; unfold free, wakers; pst; [|exact LD]. intros Hd Hp. specialize (LW Hd Hp). destruct (wire_eqb w CtxDead); lia.
  - (* Signal *)
    assert (Hp0 : parked s <> []) by (intro X; rewrite X in Hp; exact Hp).
    split; unfold free, wakers; pst.
    + intros Hd _. specialize (LW Hd Hp0). rewrite app_length. cbn [length]. lia.
    + intro Hd. destruct (LD Hd) as [X|X]; [destruct (Hp0 X)|right; exact X].
  - (* Signal, nobody parked *) split; pst; [intros _ X; destruct (X Hp)|left; exact Hp].
  - (* CloseCS *) split; pst; [discriminate|right; lia].
  - (* CloseBcast *) split; pst; [intros _ X; destruct (X eq_refl)|left; reflexivity].
  - (* IdleCleanup *)
    split; unfold free, wakers; pst; [|exact LD]. intros Hd Hp. specialize (LW Hd Hp). rewrite skipn_length. lia.
Qed.

Record Inv (cfg : config) (s : state) : Prop := {
  inv_1 : Inv1 cfg s;
  inv_t : InvT s;
  inv_l : InvL cfg s
}.

Definition repaired (cfg : config) : Prop := skip_uncounted cfg = true /\ locked_bcast cfg = true /\ 1 <= cap cfg.

Theorem inv_reachable : forall cfg s, repaired cfg -> reachable cfg s -> Inv cfg s.
Proof.
  intros cfg s (H1 & H2 & H3) Hr. eapply reachable_ind; [| |exact Hr].
  - constructor; [apply inv1_init; lia|apply invT_init|split; [intros _ X; destruct (X eq_refl)|discriminate]].
  - intros s0 l s1 [A B C] Hl. constructor.
    + eapply inv1_step; eassumption.
    + eapply invT_step; eassumption.
    + eapply invL_step; eassumption.
Qed.
