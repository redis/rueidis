(** Model/LuaExec.v (C30).  [exec_eq]: Exec = optional SCRIPT LOAD, then the attempt; [exec_spec]: the commands one call
    sends follow the grammar [ladder] and the body runs at most twice; [exec_multi_eq], [lrun_known] for ExecMulti and histories. *)
From Coq Require Import List NArith Bool Lia.
Require Import RV.Model.Base RV.Model.LuaExec.
Import ListNotations.
Open Scope N_scope.

(** At the server the run log grows by at most the command's tag, and never for SCRIPT LOAD.  When the body ran,
    a NOSCRIPT error reply can only be the body's own reply, delivered un-faulted. *)
Lemma serve_runs : forall s e c t,
  runs (fst (serve s e c t)) = runs s \/
  runs (fst (serve s e c t)) = runs s ++ [t] /\ is_load c = false /\
    (is_noscript (snd (serve s e c t)) = true -> body e = BErr ENoScript /\ flt e = FNone).
Proof.
  intros s e c t. unfold serve.
  set (s0 := if flush_before e then _ else s).
  replace (runs s) with (runs s0) by (subst s0; destruct (flush_before e); reflexivity). clearbody s0.
  destruct (flt e) as [|err|]; [|left; reflexivity|];
    (destruct c; [destruct (cached s0)|destruct (cached s0)| | |]); cbn [fst snd runs is_load]; auto; right;
    (split; [reflexivity|split; [reflexivity|]]); try discriminate.
  all: intros H; split; [|reflexivity]; destruct (body e) as [k|[]]; try discriminate H; reflexivity.
Qed.

(** some command of the environment runs an un-faulted body that itself replies with a NOSCRIPT error *)
Definition forged (env : list env_step) : Prop := exists e, In e env /\ body e = BErr ENoScript /\ flt e = FNone.

Lemma send_spec : forall x c t x' r, send x c t = (x', r) ->
  known x' = known x /\ envq x' = tl (envq x) /\ trace x' = trace x ++ [(c, t, r)] /\
  exists l, runs (server x') = runs (server x) ++ l /\
    (l = [] \/ l = [t] /\ is_load c = false /\
       (is_noscript r = true -> forged (envq x))).
Proof.
  intros x c t x' r. unfold send.
  assert (next_env (envq x) = (hd quiet (envq x), tl (envq x))) as -> by (destruct (envq x); reflexivity).
  pose proof (serve_runs (server x) (hd quiet (envq x)) c t) as H.
  destruct (serve (server x) (hd quiet (envq x)) c t) as [s' r']. cbn [fst snd] in H.
  intros [= <- <-]. cbn [known envq trace server].
  split; [reflexivity|]. split; [reflexivity|]. split; [reflexivity|].
  destruct H as [H|(H & Hc & Hn)].
  - exists []. rewrite app_nil_r. auto.
  - exists [t]. split; [exact H|]. right. split; [reflexivity|]. split; [exact Hc|].
    intros Hr. exists (hd quiet (envq x)). split; [|exact (Hn Hr)].
    destruct (Hn Hr) as [Hb _]. destruct (envq x); [discriminate Hb|left; reflexivity].
Qed.

Lemma send_load : forall x x' r, send x CScriptLoad 0 = (x', r) ->
  known x' = known x /\ envq x' = tl (envq x) /\ trace x' = trace x ++ [(CScriptLoad, 0, r)] /\
  runs (server x') = runs (server x).
Proof.
  intros x x' r E. destruct (send_spec _ _ _ _ _ E) as (Hk & He & Ht & l & Hl & Hc).
  destruct Hc as [->|(_ & H & _)]; [|discriminate H]. rewrite app_nil_r in Hl. auto.
Qed.

(** the client stores the SHA-1 after a successful SCRIPT LOAD *)
Definition learn (x : xstate) : xstate := {| known := true; server := server x; envq := envq x; trace := trace x |}.

(** steps 2 and 3 of Lua.Exec: EVAL for NoSha scripts, else EVALSHA, and EVAL after a NOSCRIPT error *)
Definition attempt (o : opts) (x : xstate) (tag : N) : xstate * reply :=
  if nosha o then send x (eval_cmd o) tag
  else if known x then
    let '(x', r) := send x (sha_cmd o) tag in
    if is_noscript r then send x' (eval_cmd o) tag else (x', r)
  else (x, RErr ERedis).

Lemma exec_eq : forall o x tag, exec o x tag =
  if loadsha o && negb (known x) then
    let '(x', r) := send x CScriptLoad 0 in
    if is_ok r then attempt o (learn x') tag else (x', r)
  else attempt o x tag.
Proof.
  intros o x tag. unfold exec, attempt, learn.
  destruct (loadsha o && negb (known x)); [destruct (send x CScriptLoad 0) as [x' r]; destruct (is_ok r); [|reflexivity]|];
  cbn [known]; destruct (nosha o); cbn [negb andb orb]; try reflexivity.
  - destruct (send _ (sha_cmd o) tag) as [x2 r2]. destruct (is_noscript r2); reflexivity.
  - destruct (known x); [|reflexivity]. destruct (send x (sha_cmd o) tag) as [x2 r2]. destruct (is_noscript r2); reflexivity.
Qed.

(** a trace entry: command kind, tag of the LuaExec it carries, reply *)
Definition ckind (p : cmdk * N * reply) : cmdk := fst (fst p).
Definition ctag (p : cmdk * N * reply) : N := snd (fst p).
Definition crep (p : cmdk * N * reply) : reply := snd p.

Definition is_cmd (c : cmdk) (t : N) (p : cmdk * N * reply) : bool := cmdk_eqb (ckind p) c && (ctag p =? t).

(** the decision tree of Exec, as a grammar over the commands one call sends (with their replies):
      [SCRIPT LOAD]?  then  EVAL                    (NoSha scripts)
                         |  EVALSHA                 (reply is not a NOSCRIPT error)
                         |  EVALSHA EVAL            (EVALSHA's reply is a NOSCRIPT error)
    SCRIPT LOAD is sent iff loadSha1 is on and the SHA-1 is not known yet; when it fails nothing else is sent *)
Definition shape_b (o : opts) (kn : bool) (tag : N) (added : list (cmdk * N * reply)) (res : reply) (kn' : bool) : bool :=
  let after (rest : list (cmdk * N * reply)) (kn1 : bool) : bool :=
    Bool.eqb kn' kn1 &&
    match rest with
    | [p] => (nosha o && is_cmd (eval_cmd o) tag p && reply_eqb res (crep p))
             || (negb (nosha o) && kn1 && is_cmd (sha_cmd o) tag p && negb (is_noscript (crep p)) && reply_eqb res (crep p))
    | [p; q] => negb (nosha o) && kn1 && is_cmd (sha_cmd o) tag p && is_noscript (crep p)
                && is_cmd (eval_cmd o) tag q && reply_eqb res (crep q)
    | _ => false
    end in
  if loadsha o && negb kn then
    match added with
    | p :: rest =>
      is_cmd CScriptLoad 0 p &&
      (if is_ok (crep p) then after rest true
       else match rest with [] => reply_eqb res (crep p) && negb kn' | _ => false end)
    | [] => false
    end
  else after added kn.

(** what the constructors can build: the NoSha constructors take no options (never NoSha + LoadSHA1), and a Lua
    value without SHA-1 is either NoSha or LoadSHA1 *)
Definition consistent (o : opts) (kn : bool) : bool := negb (nosha o && loadsha o) && (nosha o || loadsha o || kn).

(** the same grammar as a relation, for reading facts off it by inversion: the attempts ([by_nothing]: no
    SHA-1 and no way to get one, which no constructor builds) ... *)
Inductive attempted (o : opts) (tag : N) (kn : bool) : list (cmdk * N * reply) -> reply -> Prop :=
| by_eval : forall r, nosha o = true -> attempted o tag kn [(eval_cmd o, tag, r)] r
| by_sha : forall r, nosha o = false -> kn = true -> is_noscript r = false ->
    attempted o tag kn [(sha_cmd o, tag, r)] r
| by_fallback : forall r, nosha o = false -> kn = true ->
    attempted o tag kn [(sha_cmd o, tag, RErr ENoScript); (eval_cmd o, tag, r)] r
| by_nothing : nosha o = false -> kn = false -> attempted o tag kn [] (RErr ERedis).

(** ... after no SCRIPT LOAD, a failed one, or a successful one ([kn], [kn']: is the SHA-1 known before / after) *)
Inductive ladder (o : opts) (tag : N) (kn : bool) : list (cmdk * N * reply) -> reply -> bool -> Prop :=
| no_load : forall added r, loadsha o && negb kn = false -> attempted o tag kn added r -> ladder o tag kn added r kn
| load_failed : forall r, loadsha o && negb kn = true -> is_ok r = false -> ladder o tag kn [(CScriptLoad, 0, r)] r kn
| loaded : forall r0 added r, loadsha o && negb kn = true -> is_ok r0 = true -> attempted o tag true added r ->
    ladder o tag kn ((CScriptLoad, 0, r0) :: added) r true.

(** the body runs at most twice, the run log only grows by this call's tag, and twice happens only through a body
    that replied NOSCRIPT, was not faulted, and found the script cached *)
Definition ran (tag : N) (env : list env_step) (l : list N) : Prop :=
  l = [] \/ l = [tag] \/ l = [tag; tag] /\ forged env.

Lemma attempt_spec : forall o x tag,
  known (fst (attempt o x tag)) = known x /\
  exists added l, trace (fst (attempt o x tag)) = trace x ++ added /\
    attempted o tag (known x) added (snd (attempt o x tag)) /\
    runs (server (fst (attempt o x tag))) = runs (server x) ++ l /\ ran tag (envq x) l.
Proof.
  intros o x tag. unfold attempt, ran. destruct (nosha o) eqn:Hn.
  - destruct (send x (eval_cmd o) tag) as [x1 r1] eqn:E1.
    destruct (send_spec _ _ _ _ _ E1) as (Hk1 & _ & Ht1 & l & Hl & Hc).
    split; [exact Hk1|]. exists [(eval_cmd o, tag, r1)], l. split; [exact Ht1|]. split; [apply by_eval, Hn|].
    split; [exact Hl|]. destruct Hc as [->|[-> _]]; auto.
  - destruct (known x) eqn:Hk.
    2: { split; [exact Hk|]. exists [], []. rewrite !app_nil_r. split; [reflexivity|]. split; [apply by_nothing; auto|auto]. }
    destruct (send x (sha_cmd o) tag) as [x1 r1] eqn:E1.
    destruct (send_spec _ _ _ _ _ E1) as (Hk1 & _ & Ht1 & l1 & Hl1 & Hc1).
    destruct (is_noscript r1) eqn:En.
    + (* the second run needs the EVALSHA to have run the body and still to have answered NOSCRIPT *)
      destruct (send x1 (eval_cmd o) tag) as [x2 r2] eqn:E2.
      destruct (send_spec _ _ _ _ _ E2) as (Hk2 & _ & Ht2 & l2 & Hl2 & Hc2). cbn [fst snd].
      split; [congruence|]. eexists _, (l1 ++ l2). split; [rewrite Ht2, Ht1, <- app_assoc; reflexivity|].
      split; [destruct r1 as [|[]]; try discriminate En; apply by_fallback; auto|].
      split; [rewrite Hl2, Hl1, app_assoc; reflexivity|].
      destruct Hc1 as [->|(-> & _ & Hw)], Hc2 as [->|[-> _]]; cbn [app]; auto.
    + cbn [fst snd]. split; [congruence|]. eexists _, l1. split; [exact Ht1|]. split; [apply by_sha; auto|].
      split; [exact Hl1|]. destruct Hc1 as [->|[-> _]]; auto.
Qed.

Theorem exec_spec : forall o x tag,
  exists added l, trace (fst (exec o x tag)) = trace x ++ added /\
    ladder o tag (known x) added (snd (exec o x tag)) (known (fst (exec o x tag))) /\
    runs (server (fst (exec o x tag))) = runs (server x) ++ l /\ ran tag (envq x) l.
Proof.
  intros o x tag. rewrite exec_eq. destruct (loadsha o && negb (known x)) eqn:El.
  - destruct (send x CScriptLoad 0) as [x1 r1] eqn:E1.
    destruct (send_load _ _ _ E1) as (Hk1 & He & Ht1 & Hl1). destruct (is_ok r1) eqn:Eok.
    + destruct (attempt_spec o (learn x1) tag) as (Hk & added & l & Ht & Ha & Hl & Hr).
      rewrite Hk. cbn [learn known trace server envq] in *. exists ((CScriptLoad, 0, r1) :: added), l.
      split; [rewrite Ht, Ht1, <- app_assoc; reflexivity|]. split; [apply loaded; assumption|].
      split; [rewrite Hl, Hl1; reflexivity|].
      (* the environment step that forged the NOSCRIPT comes after the one SCRIPT LOAD consumed *)
      destruct Hr as [H|[H|(H & e & Hin & Hw)]]; unfold ran; auto.
      right. right. split; [exact H|]. exists e. split; [|exact Hw].
      rewrite He in Hin. destruct (envq x); [exact Hin|right; exact Hin].
    + cbn [fst snd]. exists [(CScriptLoad, 0, r1)], []. rewrite app_nil_r, Hk1. unfold ran.
      split; [exact Ht1|]. split; [apply load_failed; assumption|]. split; [exact Hl1|auto].
  - destruct (attempt_spec o x tag) as (Hk & added & l & Ht & Ha & Hl & Hr).
    exists added, l. rewrite Hk. split; [exact Ht|]. split; [apply no_load; assumption|]. split; assumption.
Qed.

Lemma is_cmd_refl : forall c t r, is_cmd c t (c, t, r) = true.
Proof. intros c t r. unfold is_cmd, ckind, ctag. cbn [fst snd]. rewrite N.eqb_refl. destruct c; reflexivity. Qed.

Lemma reply_eqb_refl : forall r, reply_eqb r r = true.
Proof. intros [v []|[]]; cbn [reply_eqb okind_eqb errk_eqb]; rewrite ?N.eqb_refl; reflexivity. Qed.

Lemma ladder_shape : forall o tag kn added res kn', consistent o kn = true ->
  ladder o tag kn added res kn' -> shape_b o kn tag added res kn' = true.
Proof.
  intros o tag kn added res kn' Hc H. unfold consistent in Hc. unfold shape_b.
  destruct H as [added r El Ha|r El Hok|r0 added r El Hok Ha]; rewrite El.
  - destruct Ha as [r Hn|r Hn -> En|r Hn ->|Hn ->]; rewrite Hn in *; cbn [crep snd];
      rewrite ?En, ?eqb_reflx, ?is_cmd_refl, ?reply_eqb_refl; try reflexivity.
    destruct (loadsha o); discriminate.
  - cbn [crep snd]. rewrite is_cmd_refl, Hok, reply_eqb_refl. destruct kn; [rewrite andb_false_r in El; discriminate|reflexivity].
  - cbn [crep snd]. rewrite is_cmd_refl, Hok.
    destruct Ha as [r Hn|r Hn _ En|r Hn _|_ [=]]; rewrite Hn; cbn [crep snd];
      rewrite ?En, !is_cmd_refl, reply_eqb_refl; reflexivity.
Qed.

Inductive subseq {A : Type} : list A -> list A -> Prop :=
| sub_nil : subseq [] []
| sub_skip : forall x l m, subseq l m -> subseq l (x :: m)
| sub_take : forall x l m, subseq l m -> subseq (x :: l) (x :: m).

Lemma send_all_spec : forall tags x c,
  length (snd (send_all x c tags)) = length tags /\
  known (fst (send_all x c tags)) = known x /\
  trace (fst (send_all x c tags)) = trace x ++ map (fun p => (c, fst p, snd p)) (combine tags (snd (send_all x c tags))) /\
  exists l, runs (server (fst (send_all x c tags))) = runs (server x) ++ l /\ subseq l tags.
Proof.
  induction tags as [|t r IH]; intros x c; cbn [send_all].
  - cbn [fst snd length combine map]. rewrite app_nil_r. repeat split. exists []. rewrite app_nil_r. split; [reflexivity|constructor].
  - destruct (send x c t) as [x1 rp] eqn:E. destruct (send_spec _ _ _ _ _ E) as (Hk & _ & Ht & l1 & Hr & Hc).
    specialize (IH x1 c). destruct (send_all x1 c r) as [x2 rs]. cbn [fst snd] in *.
    destruct IH as (Hl & Hk2 & Ht2 & l & Hr2 & Hs). cbn [length combine map fst snd].
    split; [f_equal; exact Hl|]. split; [congruence|]. split.
    + rewrite Ht2, Ht, <- app_assoc. reflexivity.
    + exists (l1 ++ l). split; [rewrite Hr2, Hr, app_assoc; reflexivity|].
      destruct Hc as [->|[-> _]]; constructor; exact Hs.
Qed.

Definition load_ok (p : cmdk * N * reply) : bool := is_load (ckind p) && is_ok (crep p).

(** Lua.ExecMulti = SCRIPT LOAD (unless NoSha), then the whole batch by EVALSHA (by EVAL for NoSha scripts).  After a
    successful load the SHA-1 is known with or without LoadSHA1 (without it the constructors computed it), so the
    state is [learn x'] in both cases. *)
Lemma exec_multi_eq : forall o x tags, consistent o (known x) = true ->
  exec_multi o x tags =
  if nosha o then send_all x (eval_cmd o) tags
  else let '(x', r) := send x CScriptLoad 0 in
       if is_ok r then send_all (learn x') (sha_cmd o) tags else (x', map (fun _ => r) tags).
Proof.
  intros o x tags Hc. unfold exec_multi, consistent in *. destruct (nosha o); cbn [negb andb orb] in *; [reflexivity|].
  destruct (send x CScriptLoad 0) as [x' r] eqn:E. destruct (send_load _ _ _ E) as (Hk & _).
  destruct r; [|reflexivity]. cbn [is_ok]. destruct (loadsha o); [reflexivity|].
  cbn [orb] in Hc. rewrite <- Hk in Hc. rewrite Hc. destruct x' as [k1 s1 e1 t1]. cbn [known] in Hc. subst k1. reflexivity.
Qed.

Lemma consistent_mono : forall o kn b, consistent o kn = true -> consistent o (kn || b) = true.
Proof. unfold consistent. intros o [] b H; [exact H|]. destruct b; [|exact H]. rewrite !orb_true_r, andb_true_r in *. apply andb_prop in H. apply H. Qed.

Lemma ladder_loads : forall o tag kn added r kn', ladder o tag kn added r kn' ->
  existsb (fun p => is_load (ckind p)) added = loadsha o && negb kn /\ kn' = kn || existsb load_ok added.
Proof.
  intros o tag kn added r kn' [added' r' El Ha|r' El Hok|r0 added' r' El Hok Ha]; try destruct Ha; rewrite El;
  unfold load_ok, ckind, crep, sha_cmd, eval_cmd; cbn [existsb fst snd is_load andb orb]; rewrite ?Hok;
  destruct (readonly o); cbn [is_load andb orb]; rewrite ?orb_false_r, ?orb_true_r; split; reflexivity.
Qed.

(** a non-error reply to EVALSHA, whatever its text, is never followed by EVAL *)
Lemma ladder_no_fallback : forall o tag kn added r kn', ladder o tag kn added r kn' ->
  existsb (fun p => is_sha (ckind p) && is_ok (crep p)) added = true ->
  existsb (fun p => cmdk_eqb (ckind p) (eval_cmd o)) added = false.
Proof.
  intros o tag kn added r kn' [added' r' El Ha|r' El Hok|r0 added' r' El Hok Ha]; try destruct Ha;
  unfold ckind, crep, sha_cmd, eval_cmd; cbn [existsb fst snd]; destruct (readonly o); cbn;
  intros Hsha; first [discriminate Hsha|reflexivity].
Qed.

Lemma load_ok_batch : forall c (l : list (N * reply)), is_load c = false ->
  existsb load_ok (map (fun p => (c, fst p, snd p)) l) = false.
Proof.
  intros c l Hc. induction l as [|q l IH]; [reflexivity|].
  cbn [map existsb]. unfold load_ok at 1, ckind. cbn [fst]. rewrite Hc. exact IH.
Qed.

Lemma lstep_known : forall o x p, consistent o (known x) = true ->
  exists added, trace (fst (lstep o x p)) = trace x ++ added /\
    known (fst (lstep o x p)) = known x || existsb load_ok added.
Proof.
  intros o x p Hc. destruct p as [t|ts]; cbn [lstep].
  - destruct (exec_spec o x t) as (added & _ & Ht & Hl & _).
    destruct (exec o x t) as [x' r]. cbn [fst snd] in *. exists added. split; [exact Ht|]. apply (ladder_loads _ _ _ _ _ _ Hl).
  - replace (fst (let '(x', rs) := exec_multi o x ts in (x', OMany rs))) with (fst (exec_multi o x ts))
      by (destruct (exec_multi o x ts); reflexivity).
    rewrite (exec_multi_eq o x ts Hc).
    assert (He : is_load (eval_cmd o) = false) by (unfold eval_cmd; destruct (readonly o); reflexivity).
    assert (Hs : is_load (sha_cmd o) = false) by (unfold sha_cmd; destruct (readonly o); reflexivity).
    destruct (nosha o) eqn:Hn.
    + destruct (send_all_spec ts x (eval_cmd o)) as (_ & Hk & Ht & _). eexists. split; [exact Ht|].
      rewrite Hk, load_ok_batch by exact He. symmetry. apply orb_false_r.
    + destruct (send x CScriptLoad 0) as [x1 r] eqn:E. destruct (send_load _ _ _ E) as (Hk & _ & Ht & _).
      destruct (is_ok r) eqn:Hok.
      * destruct (send_all_spec ts (learn x1) (sha_cmd o)) as (_ & Hk2 & Ht2 & _). cbn [learn known trace] in Hk2, Ht2.
        eexists. split; [rewrite Ht2, Ht, <- app_assoc; reflexivity|].
        cbn [app existsb]. unfold load_ok at 1, crep. cbn [ckind fst snd is_load andb].
        rewrite Hok, orb_true_r. exact Hk2.
      * cbn [fst]. exists [(CScriptLoad, 0, r)]. split; [exact Ht|].
        cbn [existsb load_ok ckind crep fst snd is_load andb]. rewrite Hok, Hk, !orb_false_r. reflexivity.
Qed.

Lemma lrun_known : forall o ps x, consistent o (known x) = true ->
  known x = existsb load_ok (trace x) ->
  let x' := fst (lrun o x ps) in
  consistent o (known x') = true /\ known x' = existsb load_ok (trace x') /\ (known x = true -> known x' = true).
Proof.
  intros o ps. induction ps as [|p r IH]; intros x Hc Hinv; cbn [lrun].
  - cbn [fst]. auto.
  - destruct (lstep_known o x p Hc) as (added & Ht & Hk).
    destruct (lstep o x p) as [x1 v]. cbn [fst] in *.
    assert (Hc1 : consistent o (known x1) = true) by (rewrite Hk; apply consistent_mono, Hc).
    assert (Hinv1 : known x1 = existsb load_ok (trace x1)) by (rewrite Ht, existsb_app, <- Hinv; exact Hk).
    specialize (IH x1 Hc1 Hinv1). destruct (lrun o x1 r) as [x2 vs]. cbn [fst] in *.
    destruct IH as (H1 & H2 & H3). split; [exact H1|]. split; [exact H2|].
    intros Hx. apply H3. rewrite Hk, Hx. reflexivity.
Qed.
