(** C05: context deadlines and cancellation in the pipe LTS and in the auxiliary waits. *)
From Coq Require Import List NArith ZArith Bool Arith Lia.
Require Import RV.Model.Base RV.Model.PipeQueue RV.Model.Pipe RV.Model.PipeLts RV.Model.PipeWait.
Require Import RV.Proofs.PipeLtsBasics RV.Proofs.PipeExclusive.
Import ListNotations.
Open Scope N_scope.

Lemma calls_bg_same x t c : p_calls (set_call (do_background x) t c) t = c.
Proof. unfold do_background. destruct (p_bg x); cbn; apply upd_same. Qed.

(** a synchronous call can always fail (its connection deadline, derived from the context's deadline, has passed, or
    the connection broke): the failure step is enabled, then the caller's own non-blocking steps make it return
    that error for every command *)
Lemma syncfail_returns g s t ctxerr :
  sync_user (p_calls s t) = true ->
  (ctxerr = true -> k_ctx (p_calls s t) = CtxDeadline /\ k_done (p_calls s t) = true) ->
  exists s1, pstep g s (LSyncFail t ctxerr) = Some s1 /\ k_pc (p_calls s1 t) = PDecr true /\
             k_res (p_calls s1 t) = errs_for (p_calls s t) (if ctxerr then ECtx else EConn) /\
             exists path s2, (path = [LDecr t] \/ path = [LDecr t; LBgAfter t; LDecr t]) /\
                             prun g path s1 = Some s2 /\
                             k_ret (p_calls s2 t) = Some (errs_for (p_calls s t) (if ctxerr then ECtx else EConn)).
Proof.
  intros Hs Hc. unfold sync_user in Hs.
  set (e := if ctxerr then ECtx else EConn).
  set (c1 := with_pc (with_res (p_calls s t) (errs_for (p_calls s t) e)) (PDecr true)).
  set (s1 := set_call (do_background (set_wire (latch s e true) [] [])) t c1).
  assert (E1 : pstep g s (LSyncFail t ctxerr) = Some s1).
  { cbn [pstep]. rewrite Hs. destruct ctxerr; [destruct (Hc eq_refl) as [-> ->]|]; reflexivity. }
  assert (Ec : p_calls s1 t = c1) by apply calls_bg_same.
  exists s1. split; [exact E1|]. rewrite Ec. split; [reflexivity|split; [reflexivity|]].
  destruct (negb (Nat.eqb (p_waits s1) 1)) eqn:Ew.
  - (* others are counted: background() (a no-op here, LSyncFail has called it), then the plain decrement *)
    exists [LDecr t; LBgAfter t; LDecr t]. eexists. split; [now right|].
    cbn [prun pstep]. rewrite Ec. cbn [k_pc with_pc c1]. rewrite Ew. cbn [andb].
    cbn [p_calls set_call set_calls]. rewrite upd_same. cbn [k_pc with_pc].
    rewrite calls_bg_same. cbn [k_pc with_pc andb].
    split; [reflexivity|]. cbn. rewrite upd_same. reflexivity.
  - exists [LDecr t]. eexists. split; [now left|].
    cbn [prun pstep]. rewrite Ec. cbn [k_pc with_pc c1]. rewrite Ew. cbn [andb].
    split; [reflexivity|]. cbn. rewrite upd_same. reflexivity.
Qed.

Lemma select_ctx_enabled cancellable done ready :
  cancellable && done = true -> In WCtxErr (select_outcomes cancellable done ready).
Proof. intros H. unfold select_outcomes. rewrite H. now left. Qed.

(** C05_done_ctx_sends_nothing: a call whose context is already done sends nothing *)
(** the call has started and its context was not done when it did *)
Definition live (c : crec) : Prop := k_donestart c = false /\ k_pc c <> PIncr /\ k_pc c <> PIdle.

Record InvS (s : pstate) : Prop := mkInvS {
  s_start : forall t, k_donestart (p_calls s t) = true -> k_pc (p_calls s t) = PRet;
  s_sent : forall t, In t (p_sent s) -> live (p_calls s t);
  s_queue : forall sl, In sl (q_pend (p_q s) ++ q_wr (p_q s)) -> live (p_calls s (s_owner sl))
}.

Lemma donestart_false s t : InvS s -> k_pc (p_calls s t) <> PRet -> k_donestart (p_calls s t) = false.
Proof. intros IS K. destruct (k_donestart (p_calls s t)) eqn:E; [destruct (K (s_start s IS t E))|reflexivity]. Qed.

Lemma invs_init g : InvS (p_init g).
Proof. constructor; cbn; intros; try discriminate; contradiction. Qed.

Lemma invs_call s s' t c' :
  InvS s -> p_sent s' = p_sent s -> p_q s' = p_q s ->
  (forall u, p_calls s' u = upd (p_calls s) t c' u) ->
  (k_donestart c' = true -> k_pc c' = PRet) ->
  (live (p_calls s t) -> live c') ->
  InvS s'.
Proof.
  intros [s1 s2 s3] e1 e2 e3 H1 H2. constructor; rewrite ?e1, ?e2.
  - intros u. rewrite e3. unfold upd. destruct (N.eqb u t); auto.
  - intros u Hu. rewrite e3. unfold upd. destruct (N.eqb u t) eqn:E; [apply N.eqb_eq in E; subst u; apply H2; apply s2; exact Hu|apply s2; exact Hu].
  - intros sl Hsl. rewrite e3. unfold upd. destruct (N.eqb (s_owner sl) t) eqn:E.
    + apply N.eqb_eq in E. apply H2. rewrite <- E. apply s3. exact Hsl.
    + apply s3. exact Hsl.
Qed.

Lemma invs_same s s' :
  InvS s -> p_sent s' = p_sent s ->
  (forall sl, In sl (q_pend (p_q s') ++ q_wr (p_q s')) -> In sl (q_pend (p_q s) ++ q_wr (p_q s))) ->
  (forall u, k_donestart (p_calls s' u) = k_donestart (p_calls s u) /\ k_pc (p_calls s' u) = k_pc (p_calls s u)) ->
  InvS s'.
Proof.
  intros [s1 s2 s3] e1 e2 e3. constructor; rewrite ?e1.
  - intros u. destruct (e3 u) as [-> ->]. auto.
  - intros u Hu. unfold live. destruct (e3 u) as [-> ->]. apply s2, Hu.
  - intros sl Hsl. unfold live. destruct (e3 (s_owner sl)) as [-> ->]. apply s3, e2, Hsl.
Qed.

(* [live c -> live c'] when c' differs from c in the pc ([Epc] is the old one) and in results only *)
Ltac live_solve Epc := let L1 := fresh in let L2 := fresh in let L3 := fresh in
  intros (L1&L2&L3); unfold live; cbn; rewrite ?Epc in *; repeat split; auto; try discriminate; try congruence.

Lemma apply_act_queue_sub o m s a sl :
  In sl (q_pend (p_q (apply_act o m s a)) ++ q_wr (p_q (apply_act o m s a))) -> In sl (q_pend (p_q s) ++ q_wr (p_q s)).
Proof.
  destruct a as [k v|got|i c|i mg|i x|x|w|]; cbn [apply_act]; auto.
  - destruct got; auto. unfold q_next_result. destruct (q_wr (p_q s)) as [|y r] eqn:E.
    + rewrite E. auto.
    + cbn. intros H. apply in_app_or in H as [H|H]; apply in_or_app; [now left|right; apply in_cons; exact H].
  - destruct m; cbn; auto.
Qed.

Lemma fold_apply_queue_sub o m acts : forall s sl,
  In sl (q_pend (p_q (fold_left (apply_act o m) acts s)) ++ q_wr (p_q (fold_left (apply_act o m) acts s))) ->
  In sl (q_pend (p_q s) ++ q_wr (p_q s)).
Proof.
  induction acts as [|a acts IH]; intros s sl H; cbn [fold_left] in H; [exact H|].
  apply IH in H. eapply apply_act_queue_sub; eauto.
Qed.

Lemma invs_step g s l s' : InvA s -> InvS s -> pstep g s l = Some s' -> InvS s'.
Proof.
  intros IA IS H.
  pose proof (fun t => donestart_false s t IS) as Hst.
  pose proof (fun t => fresh_idle s t IA) as Hnew.
  assert (Hbg : forall x, InvS x -> InvS (do_background x)).
  { intros x Ix. apply (invs_same x); rewrite ?do_background_eq; auto. }
  destruct (pstep_inv g s l s' H); subst; try (apply (invs_same s); auto; fail);
    try (eapply (invs_call s _ t); [exact IS|reflexivity|reflexivity|intros u; reflexivity| |]).
  - (* LCall *) discriminate.
  - (* LCall *) intros (_&_&K). destruct (K (Hnew t Hfr)).
  - (* LCtxDone *) apply (s_start s IS t).
  - (* LCtxDone *) intros L. exact L.
  - (* LIncr *) reflexivity.
  - (* LIncr *) intros (_&K&_); contradiction.
  - (* LIncr *) cbn. rewrite Hst by congruence. discriminate.
  - (* LIncr *) intros (_&K&_); contradiction.
  - (* LLoad *) cbn. rewrite Hst by congruence. discriminate.
  - (* LLoad *) destruct Hx; live_solve Epc.
  - (* LBg *)
    eapply (invs_call (do_background s) _ t); [apply Hbg, IS|reflexivity|reflexivity|intros u; reflexivity| |].
    + cbn. rewrite Hst by congruence. discriminate.
    + rewrite do_background_eq. live_solve Epc.
  - (* LSyncW *)
    assert (Hds : k_donestart (p_calls s t) = false) by (apply Hst; congruence).
    destruct IS as [s1 s2 s3]. constructor; cbn.
    + intros u. unfold upd. destruct (N.eqb u t) eqn:E1; cbn; auto. intros K. congruence.
    + intros u [<-|Hu]; unfold upd.
      * rewrite N.eqb_refl. cbn. repeat split; auto; discriminate.
      * destruct (N.eqb u t) eqn:E1; [cbn; repeat split; auto; discriminate|auto].
    + intros sl Hsl. unfold upd. destruct (N.eqb (s_owner sl) t) eqn:E1; [cbn; repeat split; auto; discriminate|auto].
  - (* LSyncR *) cbn. rewrite Hst by congruence. discriminate.
  - (* LSyncR *) destruct k; live_solve Epc.
  - (* LSyncFail *)
    unfold sync_user in Hsy.
    eapply (invs_call (do_background (set_wire (latch s (if ctxerr then ECtx else EConn) true) [] [])) _ t);
      [apply Hbg, (invs_same s); auto|reflexivity|reflexivity|intros u; reflexivity| |]; rewrite ?do_background_eq; cbn.
    + rewrite Hst; [discriminate|]. intros K. rewrite K in Hsy. discriminate.
    + intros (L1&L2&L3). unfold live; cbn. repeat split; auto; discriminate.
  - (* LErr *) cbn. rewrite Hst by congruence. discriminate.
  - (* LErr *) live_solve Epc.
  - (* LDecr *) cbn. rewrite Hst by congruence. discriminate.
  - (* LDecr *) live_solve Epc.
  - (* LDecr *) reflexivity.
  - (* LDecr *) live_solve Epc.
  - (* LBgAfter *)
    eapply (invs_call (do_background s) _ t); [apply Hbg, IS|reflexivity|reflexivity|intros u; reflexivity| |].
    + cbn. rewrite Hst by congruence. discriminate.
    + rewrite do_background_eq. live_solve Epc.
  - (* LPut *)
    unfold q_put in Eq. destruct (q_can_put (p_q s)); [|discriminate]. inversion Eq; subst; clear Eq.
    assert (Hds : k_donestart (p_calls s t) = false) by (apply Hst; congruence).
    destruct IS as [s1 s2 s3]. constructor; cbn.
    + intros u. unfold upd. destruct (N.eqb u t) eqn:E1; cbn; auto. intros K. congruence.
    + intros u Hu. unfold upd. destruct (N.eqb u t) eqn:E1; [cbn; repeat split; auto; discriminate|auto].
    + intros sl Hsl. rewrite <- app_assoc in Hsl. apply in_app_or in Hsl as [Hsl|[<-|Hsl]].
      * unfold upd. destruct (N.eqb (s_owner sl) t) eqn:E1; [cbn; repeat split; auto; discriminate|apply s3; apply in_or_app; now left].
      * cbn. rewrite upd_same. cbn. repeat split; auto; discriminate.
      * unfold upd. destruct (N.eqb (s_owner sl) t) eqn:E1; [cbn; repeat split; auto; discriminate|apply s3; apply in_or_app; now right].
  - (* LPutFail *) reflexivity.
  - (* LPutFail *) live_solve Epc.
  - (* LRecv *) cbn. rewrite Hst by congruence. discriminate.
  - (* LRecv *) live_solve Epc.
  - (* LAbort *) reflexivity.
  - (* LAbort *) live_solve Epc.
  - (* LFin *) reflexivity.
  - (* LFin *) live_solve Epc.
  - (* LDrainRecv *) apply (s_start s IS t).
  - (* LDrainRecv *) intros L; exact L.
  - (* LDrainFin *) apply (s_start s IS t).
  - (* LDrainFin *) intros L; exact L.
  - (* LWNext *)
    unfold q_next_write in Eq. destruct (q_pend (p_q s)) as [|x p] eqn:Ep; [discriminate|]. inversion Eq; subst; clear Eq.
    destruct IS as [s1 s2 s3]. constructor; cbn; auto.
    + intros u [<-|Hu]; [|auto]. apply s3. rewrite Ep. now left.
    + intros sl0 Hsl. apply s3. rewrite Ep. apply in_app_or in Hsl as [K|K]; [right; apply in_or_app; now left|].
      apply in_app_or in K as [K|[<-|[]]]; [right; apply in_or_app; now right|now left].
  - (* LRStep *)
    destruct (fold_apply_frame (r_owner r') (r_resps r') acts (set_wire s (p_c2s s) rest)) as (q'&cs&dl&E&Kc).
    apply (invs_same s); [exact IS| | |].
    + cbn [p_sent set_b]. rewrite E. reflexivity.
    + intros sl Hsl. cbn in Hsl. apply fold_apply_queue_sub in Hsl. exact Hsl.
    + intros u. cbn [p_calls set_b]. rewrite E. cbn. destruct (Kc u) as (r0&b0&->). auto.
  - (* LRFail *)
    destruct complete; apply (invs_same s); cbn; auto.
    intros u. unfold upd. destruct (N.eqb u (r_owner r)) eqn:E1; [apply N.eqb_eq in E1; subst; auto|auto].
  - (* LPostPing *)
    eapply (invs_call s _ t'); [exact IS|reflexivity|reflexivity|intros u; reflexivity|discriminate|].
    intros (_&_&K). destruct (K (Hnew t' Hfr)).
  - (* LCleanNW *)
    unfold q_next_write in Eq. destruct (q_pend (p_q s)) as [|x p] eqn:Ep; [discriminate|]. inversion Eq; subst; clear Eq.
    apply (invs_same s); cbn; auto.
    intros sl0 Hsl. rewrite Ep. apply in_app_or in Hsl as [K|K]; [right; apply in_or_app; now left|].
    apply in_app_or in K as [K|[<-|[]]]; [right; apply in_or_app; now right|now left].
  - (* LCleanNR *)
    unfold q_next_result in Eq. destruct (q_wr (p_q s)) as [|sl0 wr'] eqn:Ew; [discriminate|]. inversion Eq; subst; clear Eq.
    apply (invs_same s); cbn; auto.
    + intros sl0 Hsl. rewrite Ew. apply in_app_or in Hsl as [K|K]; apply in_or_app; [now left|right; now right].
    + intros u. unfold upd. destruct (N.eqb u (s_owner sl)) eqn:E1; [apply N.eqb_eq in E1; subst; auto|auto].
  - (* LClose3, background() *) rewrite do_background_set_closer. apply Hbg, (invs_same s); auto.
  - (* LClose4 *)
    eapply (invs_call s _ t'); [exact IS|reflexivity|reflexivity|intros u; reflexivity|discriminate|].
    intros (_&_&K). destruct (K (Hnew t' Hfr)).
Qed.

Theorem invs_run g sched : forall s s', InvA s -> InvS s ->
  prun g sched s = Some s' -> InvA s' /\ InvS s'.
Proof.
  intros s s' IA IS. apply (prun_inv g (fun x => InvA x /\ InvS x)); [|auto].
  intros x l x' [A S] E. split; [eapply inva_step|eapply invs_step]; eauto.
Qed.

