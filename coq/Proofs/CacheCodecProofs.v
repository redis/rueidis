(** C17: [um] (unmarshalView) undoes [serialize] node by node, at any offset of any buffer: the round trip
    (um_roundtrip), every strict prefix is rejected (um_trunc), sizes, the expiry field. *)
From Coq Require Import List NArith ZArith Bool Lia Arith ZifyN ZifyNat ZifyBool.
Require Import RV.Model.Base RV.Model.Binary RV.Model.CacheCodec.
Require Import RV.Proofs.BinaryProofs RV.Proofs.RespBaseProofs RV.Proofs.RespMsgProofs.
Import ListNotations.
Open Scope N_scope.

Lemma be_bytes_length k w : length (be_bytes k w) = k.
Proof. induction k as [|k IH]; cbn [be_bytes length]; [reflexivity|now rewrite IH]. Qed.

Lemma of_be_aux k : forall w acc,
  fold_left (fun a b => a * 256 + b) (be_bytes k w) acc = acc * 256 ^ N.of_nat k + w mod 256 ^ N.of_nat k.
Proof.
  induction k as [|k IH]; intros w acc.
  - cbn. rewrite N.mod_1_r. lia.
  - cbn [be_bytes fold_left]. rewrite IH.
    rewrite Nat2N.inj_succ, N.pow_succ_r'.
    set (p := 256 ^ N.of_nat k).
    assert (Hp : p <> 0) by (unfold p; apply N.pow_nonzero; lia).
    rewrite (N.mul_comm 256 p).
    rewrite (N.mod_mul_r w p 256) by lia.
    lia.
Qed.

Lemma of_be_be_bytes k w : w < 256 ^ N.of_nat k -> of_be (be_bytes k w) = w.
Proof. intros H. unfold of_be. rewrite of_be_aux. rewrite N.mod_small by assumption. lia. Qed.

Lemma wrap64_to_u64 v : in_i64 v -> wrap64 (Z.of_N (to_u64 v)) = v.
Proof.
  unfold in_i64, wrap64, to_u64, two63, two64. intros H.
  rewrite Z2N.id by (apply Z.mod_pos_bound; lia).
  rewrite Z.mod_mod by lia.
  destruct (Z.ltb_spec v 0) as [Hn|Hp].
  - assert (E : (v mod 18446744073709551616 = v + 18446744073709551616)%Z).
    { symmetry. apply (Z.mod_unique v _ (-1)); lia. }
    rewrite E. destruct (Z.ltb_spec (v + 18446744073709551616) 9223372036854775808); lia.
  - rewrite Z.mod_small by lia. destruct (Z.ltb_spec v 9223372036854775808); lia.
Qed.

Lemma to_u64_bound v : to_u64 v < 256 ^ N.of_nat 8.
Proof.
  unfold to_u64, two64.
  pose proof (Z.mod_pos_bound v 18446744073709551616 ltac:(lia)).
  change (256 ^ N.of_nat 8) with 18446744073709551616. lia.
Qed.

Lemma zlen_nonneg {A} (a : list A) : (0 <= zlen a)%Z.
Proof. unfold zlen. lia. Qed.

Lemma to_nat_zlen {A} (a : list A) : Z.to_nat (zlen a) = length a.
Proof. unfold zlen. lia. Qed.

Lemma slice_mid pre mid post : slice (pre ++ mid ++ post) (zlen pre) (length mid) = mid.
Proof. unfold slice. rewrite to_nat_zlen, skipn_app_exact. apply firstn_app_exact. Qed.

Lemma nth_mid pre (x : N) post d : nth (Z.to_nat (zlen pre)) (pre ++ x :: post) d = x.
Proof. rewrite to_nat_zlen. rewrite app_nth2 by lia. now rewrite Nat.sub_diag. Qed.

(** buffers are Go slices: their length is far below 2^63; the codec needs much less *)
Definition buf_bound : Z := 35184372088832%Z.   (* 2^45 *)

(** [serialize m] = the 9-byte header [hdr (m_typ m) (word m)] followed by [body m] *)
Definition hdr (t w : N) : bytes := t :: be_bytes 8 w.

Lemma hdr_length t w : length (hdr t w) = 9%nat.
Proof. unfold hdr. cbn [length]. now rewrite be_bytes_length. Qed.

Lemma zlen_hdr t w : zlen (hdr t w) = 9%Z.
Proof. unfold zlen. now rewrite hdr_length. Qed.

Definition body (m : msg) : bytes :=
  match m with
  | Msg t s i a _ =>
    if is_intlike t then [] else if is_agg t then flat_map serialize a else s
  end.

Definition word (m : msg) : N :=
  match m with
  | Msg t s i a _ =>
    if is_intlike t then to_u64 i else if is_agg t then N.of_nat (length a) else blen s
  end.

Lemma serialize_split m : serialize m = hdr (m_typ m) (word m) ++ body m.
Proof.
  destruct m as [t s i a at']. cbn [serialize m_typ word body hdr app].
  destruct (is_intlike t); [now rewrite app_nil_r|]. destruct (is_agg t); reflexivity.
Qed.

Lemma serialize_length_ge m : (9 <= length (serialize m))%nat.
Proof. rewrite serialize_split, app_length, hdr_length. lia. Qed.

Lemma flat_serialize_length_ge l : (9 * length l <= length (flat_map serialize l))%nat.
Proof.
  induction l as [|x r IH]; cbn [flat_map length]; [lia|].
  rewrite app_length. pose proof (serialize_length_ge x). lia.
Qed.

Lemma um_S f c buf : um (S f) c buf =
    if (zlen buf <? c + 9)%Z then Err eCacheUnmarshal
    else
      let typ := nth (Z.to_nat c) buf 0 in
      let size := wrap64 (Z.of_N (of_be (slice buf (c + 1) 8))) in
      let c := (c + 9)%Z in
      if is_intlike typ then Ok (Msg typ [] size [] None, c)
      else if is_agg typ then
        if ((size <? 0) || (max_msgs <? size))%Z then Panic
        else
          match um_list f (Z.to_N size) c buf with
          | Ok (l, c') => Ok (Msg typ [] size l None, c')
          | Err e => Err e
          | Panic => Panic
          end
      else
        let e := wrap64 (c + size) in
        if (zlen buf <? e)%Z then Err eCacheUnmarshal
        else if (e <? c)%Z then Panic
        else Ok (Msg typ (slice buf c (Z.to_nat size)) size [] None, e).
Proof. reflexivity. Qed.

Lemma um_list_S f n c buf : um_list (S f) n c buf =
    if n =? 0 then Ok ([], c)
    else
      match um f c buf with
      | Ok (m, c1) =>
        match um_list f (n - 1) c1 buf with
        | Ok (l, c2) => Ok (m :: l, c2)
        | Err e => Err e
        | Panic => Panic
        end
      | Err e => Err e
      | Panic => Panic
      end.
Proof. reflexivity. Qed.

(** reading the 9-byte header that [serialize] wrote *)
Lemma header_read pre t w rest :
  w < 256 ^ N.of_nat 8 ->
  let buf := pre ++ hdr t w ++ rest in
  (zlen buf <? zlen pre + 9)%Z = false /\
  nth (Z.to_nat (zlen pre)) buf 0 = t /\
  of_be (slice buf (zlen pre + 1) 8) = w.
Proof.
  intros Hw buf. subst buf. repeat split.
  - rewrite !zlen_app_b. unfold zlen at 2. rewrite hdr_length. pose proof (zlen_nonneg rest). lia.
  - unfold hdr. cbn [app]. apply nth_mid.
  - unfold hdr. cbn [app].
    replace (pre ++ t :: be_bytes 8 w ++ rest) with ((pre ++ [t]) ++ be_bytes 8 w ++ rest)
      by (rewrite <- app_assoc; reflexivity).
    replace (zlen pre + 1)%Z with (zlen (pre ++ [t])) by (rewrite zlen_app_b; reflexivity).
    rewrite <- (be_bytes_length 8 w) at 2. rewrite slice_mid. now apply of_be_be_bytes.
Qed.

(** fuel that suffices for [um] on [serialize m]: two per node, one more per element *)
Fixpoint cost (m : msg) : nat :=
  match m with
  | Msg _ _ _ a _ =>
    S (S ((fix cl (l : list msg) : nat := match l with [] => O | x :: r => (S (cost x) + cl r)%nat end) a))
  end.

Definition cost_l (l : list msg) : nat := fold_right (fun x acc => S (cost x) + acc)%nat O l.

Lemma cost_eq t s i a at' : cost (Msg t s i a at') = S (S (cost_l a)).
Proof.
  cbn [cost]. apply f_equal. apply f_equal.
  induction a as [|x r IH]; [reflexivity|]. cbn [cost_l fold_right]. fold (cost_l r). now rewrite <- IH.
Qed.

Lemma cacheable_inv t s i a at' : cacheable (Msg t s i a at') = true ->
  at' = None /\
  (if is_intlike t then in_i64 i /\ s = [] /\ a = []
   else if is_agg t then i = zlen a /\ s = [] /\ Forall (fun x => cacheable x = true) a
   else i = zlen s /\ a = []).
Proof.
  cbn [cacheable]. intros H.
  apply andb_true_iff in H as [Hat H].
  split; [destruct at'; [discriminate|reflexivity]|].
  destruct (is_intlike t).
  - apply andb_true_iff in H as [H Ha]. apply andb_true_iff in H as [Hi Hs].
    split; [|split].
    + unfold in_i64b in Hi. unfold in_i64. lia.
    + destruct s; [reflexivity|discriminate].
    + destruct a; [reflexivity|discriminate].
  - destruct (is_agg t).
    + apply andb_true_iff in H as [H Ha]. apply andb_true_iff in H as [Hi Hs].
      split; [lia|]. split; [destruct s; [reflexivity|discriminate]|].
      apply Forall_forall. intros x Hx. rewrite forallb_forall in Ha. now apply Ha.
    + apply andb_true_iff in H as [Hi Ha]. split; [lia|destruct a; [reflexivity|discriminate]].
Qed.

Lemma cost_le_length : forall m, cacheable m = true -> (cost m + 1 <= length (serialize m))%nat.
Proof.
  induction m as [t s i a at' IHa _] using msg_ind'. intros Hc.
  apply cacheable_inv in Hc as [_ Hc].
  rewrite cost_eq, serialize_split, app_length, hdr_length. cbn [body m_typ].
  destruct (is_intlike t).
  - destruct Hc as (_ & _ & ->). cbn. lia.
  - destruct (is_agg t).
    + destruct Hc as (_ & _ & Hall).
      assert (cost_l a <= length (flat_map serialize a))%nat.
      { clear - IHa Hall. induction a as [|x r IH]; cbn [cost_l fold_right flat_map length]; [lia|].
        inversion IHa; inversion Hall; subst. rewrite app_length. fold (cost_l r).
        specialize (IH ltac:(assumption) ltac:(assumption)). specialize (H1 ltac:(assumption)). lia. }
      lia.
    + destruct Hc as (_ & ->). cbn. lia.
Qed.

(** one node: [um] where [serialize] wrote a header *)
Lemma um_header f pre t w rest : w < 256 ^ N.of_nat 8 ->
  um (S f) (zlen pre) (pre ++ hdr t w ++ rest) =
  let buf := pre ++ hdr t w ++ rest in
  let size := wrap64 (Z.of_N w) in
  let c := (zlen pre + 9)%Z in
  if is_intlike t then Ok (Msg t [] size [] None, c)
  else if is_agg t then
    if ((size <? 0) || (max_msgs <? size))%Z then Panic
    else
      match um_list f (Z.to_N size) c buf with
      | Ok (l, c') => Ok (Msg t [] size l None, c')
      | Err e => Err e
      | Panic => Panic
      end
  else
    let e := wrap64 (c + size) in
    if (zlen buf <? e)%Z then Err eCacheUnmarshal
    else if (e <? c)%Z then Panic
    else Ok (Msg t (slice buf c (Z.to_nat size)) size [] None, e).
Proof.
  intros Hw. destruct (header_read pre t w rest Hw) as (H1 & H2 & H3). rewrite um_S, H1, H2, H3. reflexivity.
Qed.

Lemma um_int_node f pre t i rest : is_intlike t = true -> in_i64 i ->
  um (S f) (zlen pre) (pre ++ hdr t (to_u64 i) ++ rest) = Ok (Msg t [] i [] None, (zlen pre + 9)%Z).
Proof. intros Ht Hi. rewrite um_header by apply to_u64_bound. cbv zeta. now rewrite Ht, wrap64_to_u64. Qed.

(** an element count that fits a buffer below [buf_bound] is accepted by makeslice *)
Lemma um_agg_node f pre t k rest : is_intlike t = false -> is_agg t = true -> (9 * Z.of_nat k < buf_bound)%Z ->
  um (S f) (zlen pre) (pre ++ hdr t (N.of_nat k) ++ rest) =
  match um_list f (N.of_nat k) (zlen pre + 9) (pre ++ hdr t (N.of_nat k) ++ rest) with
  | Ok (l, c') => Ok (Msg t [] (Z.of_nat k) l None, c')
  | Err e => Err e
  | Panic => Panic
  end.
Proof.
  intros Hi Ha Hk. unfold buf_bound in Hk.
  rewrite um_header by (change (256 ^ N.of_nat 8) with 18446744073709551616; lia). cbv zeta. rewrite Hi, Ha.
  rewrite nat_N_Z, wrap64_small_z by (unfold two63; lia).
  destruct (Z.ltb_spec (Z.of_nat k) 0); [lia|]. destruct (Z.ltb_spec max_msgs (Z.of_nat k)) as [Hbig|_].
  { change max_msgs with 7036874417766%Z in Hbig. lia. }
  cbn [orb]. replace (Z.to_N (Z.of_nat k)) with (N.of_nat k) by lia. reflexivity.
Qed.

(** a string node: the declared length is compared with what the buffer still holds *)
Lemma um_str_node f pre t (s rest : bytes) : is_intlike t = false -> is_agg t = false ->
  (zlen pre + 9 + zlen s < buf_bound)%Z ->
  um (S f) (zlen pre) (pre ++ hdr t (blen s) ++ rest) =
  if (zlen rest <? zlen s)%Z then Err eCacheUnmarshal
  else Ok (Msg t (slice (pre ++ hdr t (blen s) ++ rest) (zlen pre + 9) (length s)) (zlen s) [] None,
           (zlen pre + 9 + zlen s)%Z).
Proof.
  intros Hi Ha Hb. unfold buf_bound in Hb. pose proof (zlen_nonneg pre). pose proof (zlen_nonneg s).
  rewrite um_header by (change (256 ^ N.of_nat 8) with 18446744073709551616; unfold blen, zlen in *; lia).
  cbv zeta. rewrite Hi, Ha.
  replace (Z.of_N (blen s)) with (zlen s) by (unfold blen, zlen; lia).
  rewrite (wrap64_small_z (zlen s)), (wrap64_small_z (zlen pre + 9 + zlen s)) by (unfold two63; lia).
  rewrite !zlen_app_b, zlen_hdr, to_nat_zlen.
  destruct (Z.ltb_spec (zlen pre + (9 + zlen rest)) (zlen pre + 9 + zlen s)), (Z.ltb_spec (zlen rest) (zlen s)); try lia;
    [reflexivity|].
  destruct (Z.ltb_spec (zlen pre + 9 + zlen s) (zlen pre + 9)); [lia|reflexivity].
Qed.

(** [m], serialized anywhere inside a buffer, is read back, whatever follows it *)
Definition rt_P (m : msg) : Prop :=
  cacheable m = true -> forall pre post fuel,
    (cost m <= fuel)%nat ->
    (zlen (pre ++ serialize m ++ post) < buf_bound)%Z ->
    um fuel (zlen pre) (pre ++ serialize m ++ post) = Ok (m, (zlen pre + zlen (serialize m))%Z).

Lemma um_list_roundtrip : forall l, Forall rt_P l -> Forall (fun x => cacheable x = true) l ->
  forall pre post fuel,
    (S (cost_l l) <= fuel)%nat ->
    (zlen (pre ++ flat_map serialize l ++ post) < buf_bound)%Z ->
    um_list fuel (N.of_nat (length l)) (zlen pre) (pre ++ flat_map serialize l ++ post) =
    Ok (l, (zlen pre + zlen (flat_map serialize l))%Z).
Proof.
  induction l as [|x r IH]; intros HP Hc pre post fuel Hf Hb.
  - destruct fuel as [|f]; [lia|]. rewrite um_list_S. cbn. f_equal. f_equal. unfold zlen. cbn. lia.
  - destruct fuel as [|f]; [lia|]. rewrite um_list_S.
    inversion HP as [|? ? HPx HPr]; inversion Hc as [|? ? Hcx Hcr]; subst.
    cbn [length]. destruct (N.eqb_spec (N.of_nat (S (length r))) 0) as [E|_]; [lia|].
    cbn [flat_map] in *. rewrite <- app_assoc in *.
    cbn [cost_l fold_right] in Hf. fold (cost_l r) in Hf.
    rewrite (HPx Hcx pre (flat_map serialize r ++ post) f) by (try lia; assumption).
    replace (N.of_nat (S (length r)) - 1) with (N.of_nat (length r)) by lia.
    rewrite <- zlen_app_b.
    replace (pre ++ serialize x ++ flat_map serialize r ++ post)
      with ((pre ++ serialize x) ++ flat_map serialize r ++ post) in * by (now rewrite <- app_assoc).
    rewrite (IH HPr Hcr (pre ++ serialize x) post f) by (try lia; assumption).
    f_equal. f_equal. rewrite !zlen_app_b. lia.
Qed.

Lemma um_roundtrip : forall m, rt_P m.
Proof.
  induction m as [t s i a at' IHa _] using msg_ind'. intros Hc pre post fuel Hf Hb.
  pose proof (cacheable_inv _ _ _ _ _ Hc) as [-> Hshape].
  rewrite cost_eq in Hf. destruct fuel as [|f]; [lia|].
  rewrite serialize_split in *. cbn [m_typ word body] in *. rewrite <- app_assoc in *.
  rewrite !zlen_app_b, zlen_hdr in Hb. pose proof (zlen_nonneg pre). pose proof (zlen_nonneg post).
  destruct (is_intlike t) eqn:Eint; [|destruct (is_agg t) eqn:Eagg].
  - destruct Hshape as (Hi & -> & ->). rewrite um_int_node by assumption. now rewrite app_nil_r, zlen_hdr.
  - destruct Hshape as (-> & -> & Hall). pose proof (flat_serialize_length_ge a) as Hge.
    rewrite um_agg_node by (assumption || (unfold buf_bound, zlen in *; lia)).
    replace (zlen pre + 9)%Z with (zlen (pre ++ hdr t (N.of_nat (length a)))) by (rewrite zlen_app_b, zlen_hdr; lia).
    rewrite (app_assoc pre).
    rewrite (um_list_roundtrip a IHa Hall) by (lia || (rewrite !zlen_app_b, zlen_hdr; lia)).
    f_equal. f_equal. rewrite !zlen_app_b, zlen_hdr. lia.
  - destruct Hshape as (-> & ->). rewrite um_str_node by (assumption || lia).
    rewrite zlen_app_b. destruct (Z.ltb_spec (zlen s + zlen post) (zlen s)); [lia|].
    rewrite (app_assoc pre). replace (zlen pre + 9)%Z with (zlen (pre ++ hdr t (blen s))) by (rewrite zlen_app_b, zlen_hdr; lia).
    rewrite slice_mid. f_equal. f_equal. rewrite !zlen_app_b, zlen_hdr. lia.
Qed.

Lemma serialize_length : forall m, N.of_nat (length (serialize m)) = cachesize m.
Proof.
  induction m as [t s i a at' IHa _] using msg_ind'.
  cbn [serialize cachesize length].
  destruct (is_intlike t); [rewrite be_bytes_length; lia|].
  destruct (is_agg t).
  - rewrite app_length, be_bytes_length.
    assert (N.of_nat (length (flat_map serialize a)) = fold_right (fun x acc => cachesize x + acc) 0 a).
    { clear - IHa. induction IHa as [|x r Hx Hr IH]; cbn [flat_map fold_right length]; [reflexivity|].
      rewrite app_length. lia. }
    lia.
  - rewrite app_length, be_bytes_length. unfold blen. lia.
Qed.

Lemma firstn_app_ge {A} (l1 l2 : list A) j : (length l1 <= j)%nat ->
  firstn j (l1 ++ l2) = l1 ++ firstn (j - length l1) l2.
Proof. intros H. rewrite firstn_app. now rewrite firstn_all2 by lia. Qed.

(** a buffer that ends inside the serialization of [m] is rejected *)
Definition tr_P (m : msg) : Prop :=
  cacheable m = true -> forall pre j fuel,
    (j < length (serialize m))%nat ->
    (j + 2 <= fuel)%nat ->
    (zlen (pre ++ serialize m) < buf_bound)%Z ->
    um fuel (zlen pre) (pre ++ firstn j (serialize m)) = Err eCacheUnmarshal.

Lemma um_short pre rest fuel : (length rest < 9)%nat -> (1 <= fuel)%nat ->
  um fuel (zlen pre) (pre ++ rest) = Err eCacheUnmarshal.
Proof.
  intros H Hf. destruct fuel as [|f]; [lia|]. rewrite um_S.
  rewrite zlen_app_b. destruct (Z.ltb_spec (zlen pre + zlen rest) (zlen pre + 9)) as [_|Hx]; [reflexivity|].
  unfold zlen in Hx. lia.
Qed.

Lemma um_list_trunc : forall l, Forall tr_P l -> Forall (fun x => cacheable x = true) l ->
  forall pre j fuel,
    (j < length (flat_map serialize l))%nat ->
    (j + 3 <= fuel)%nat ->
    (zlen (pre ++ flat_map serialize l) < buf_bound)%Z ->
    um_list fuel (N.of_nat (length l)) (zlen pre) (pre ++ firstn j (flat_map serialize l)) = Err eCacheUnmarshal.
Proof.
  induction l as [|x r IH]; intros HP Hc pre j fuel Hj Hf Hb.
  - cbn in Hj. lia.
  - destruct fuel as [|f]; [lia|]. rewrite um_list_S.
    inversion HP as [|? ? HPx HPr]; inversion Hc as [|? ? Hcx Hcr]; subst.
    cbn [length]. destruct (N.eqb_spec (N.of_nat (S (length r))) 0) as [E|_]; [lia|].
    cbn [flat_map] in *.
    destruct (Nat.lt_ge_cases j (length (serialize x))) as [Hlt|Hge].
    + rewrite firstn_app_short by lia.
      rewrite (HPx Hcx pre j f); [reflexivity|lia|lia|].
      rewrite app_assoc, zlen_app_b in Hb. pose proof (zlen_nonneg (flat_map serialize r)). lia.
    + rewrite firstn_app_ge by lia.
      pose proof (cost_le_length x Hcx) as Hcost.
      pose proof (serialize_length_ge x) as H9.
      rewrite (um_roundtrip x Hcx pre (firstn (j - length (serialize x)) (flat_map serialize r)) f).
      * replace (N.of_nat (S (length r)) - 1) with (N.of_nat (length r)) by lia.
        rewrite <- zlen_app_b. rewrite app_assoc.
        rewrite (IH HPr Hcr (pre ++ serialize x) (j - length (serialize x))%nat f); [reflexivity| |lia|].
        -- rewrite app_length in Hj. lia.
        -- now rewrite <- app_assoc.
      * lia.
      * eapply Z.le_lt_trans; [|exact Hb]. rewrite !zlen_app_b.
        unfold zlen. rewrite firstn_length. lia.
Qed.

Lemma um_trunc : forall m, tr_P m.
Proof.
  induction m as [t s i a at' IHa _] using msg_ind'. intros Hc pre j fuel Hj Hf Hb.
  pose proof (cacheable_inv _ _ _ _ _ Hc) as [-> Hshape].
  rewrite serialize_split in *. cbn [m_typ word body] in *.
  rewrite app_length, hdr_length in Hj.
  destruct (Nat.lt_ge_cases j 9) as [Hlt|Hge].
  { apply um_short; [|lia]. rewrite firstn_length. lia. }
  rewrite firstn_app_ge by (rewrite hdr_length; lia). rewrite hdr_length.
  destruct fuel as [|f]; [lia|].
  rewrite !zlen_app_b, zlen_hdr in Hb. pose proof (zlen_nonneg pre) as Hpre.
  destruct (is_intlike t) eqn:Eint; [cbn in Hj; lia|destruct (is_agg t) eqn:Eagg].
  - destruct Hshape as (-> & -> & Hall). pose proof (flat_serialize_length_ge a) as Hge9.
    rewrite um_agg_node by (assumption || (unfold buf_bound, zlen in *; lia)).
    replace (zlen pre + 9)%Z with (zlen (pre ++ hdr t (N.of_nat (length a)))) by (rewrite zlen_app_b, zlen_hdr; lia).
    rewrite app_assoc, (um_list_trunc a IHa Hall); try lia; [reflexivity|].
    rewrite !zlen_app_b, zlen_hdr. lia.
  - destruct Hshape as (-> & ->). rewrite um_str_node by (assumption || lia).
    destruct (Z.ltb_spec (zlen (firstn (j - 9) s)) (zlen s)) as [_|Hx]; [reflexivity|].
    unfold zlen in Hx. rewrite firstn_length in Hx. lia.
Qed.

Lemma expire_roundtrip pxat : get_expire_at (set_expire_at pxat) = (pxat mod two56)%Z.
Proof.
  unfold get_expire_at, set_expire_at.
  rewrite of_le_le_bytes.
  - rewrite Z2N.id; [reflexivity|]. apply Z.mod_pos_bound. reflexivity.
  - pose proof (Z.mod_pos_bound pxat two56 ltac:(reflexivity)) as H.
    change (256 ^ N.of_nat 7) with 72057594037927936. unfold two56 in *. lia.
Qed.

Lemma set_expire_length pxat : length (set_expire_at pxat) = 7%nat.
Proof. apply le_bytes_length. Qed.

Lemma cache_marshal_length m ttl : length ttl = 7%nat ->
  N.of_nat (length (cache_marshal m ttl)) = cache_size m.
Proof.
  intros H. unfold cache_marshal, cache_size. rewrite app_length, H. rewrite <- serialize_length. lia.
Qed.

Lemma cache_roundtrip m ttl : cacheable m = true -> length ttl = 7%nat ->
  (zlen (cache_marshal m ttl) < buf_bound)%Z ->
  cache_unmarshal_view (cache_marshal m ttl) = Ok (m, get_expire_at ttl).
Proof.
  intros Hc Ht Hb. unfold cache_unmarshal_view, cache_marshal in *.
  rewrite app_length, Ht.
  destruct (Nat.ltb_spec (7 + length (serialize m)) 7) as [Hx|_]; [lia|].
  replace 7%Z with (zlen ttl) by (unfold zlen; rewrite Ht; reflexivity).
  rewrite <- (app_nil_r (serialize m)) at 2.
  rewrite (um_roundtrip m Hc ttl []).
  - rewrite <- Ht. now rewrite firstn_app_exact.
  - pose proof (cost_le_length m Hc). lia.
  - now rewrite app_nil_r.
Qed.

Lemma cache_truncation m ttl k : cacheable m = true -> length ttl = 7%nat ->
  (zlen (cache_marshal m ttl) < buf_bound)%Z ->
  (k < length (cache_marshal m ttl))%nat ->
  cache_unmarshal_view (firstn k (cache_marshal m ttl)) = Err eCacheUnmarshal.
Proof.
  intros Hc Ht Hb Hk. unfold cache_unmarshal_view, cache_marshal in *.
  rewrite app_length, Ht in Hk.
  destruct (Nat.lt_ge_cases k 7) as [Hlt|Hge].
  - rewrite firstn_length, app_length, Ht.
    destruct (Nat.ltb_spec (Nat.min k (7 + length (serialize m))) 7) as [_|Hx]; [reflexivity|lia].
  - rewrite firstn_app_ge by lia. rewrite Ht.
    rewrite app_length, Ht, firstn_length.
    destruct (Nat.ltb_spec (7 + Nat.min (k - 7) (length (serialize m))) 7) as [Hx|_]; [lia|].
    replace 7%Z with (zlen ttl) by (unfold zlen; rewrite Ht; reflexivity).
    rewrite (um_trunc m Hc ttl (k - 7)%nat); [reflexivity|lia|lia|assumption].
Qed.

Lemma serialize_strip : forall m, serialize (strip_attrs m) = serialize m.
Proof.
  induction m as [t s i a at' IHa _] using msg_ind'.
  cbn [strip_attrs serialize]. rewrite map_length.
  assert (E : flat_map serialize (map strip_attrs a) = flat_map serialize a).
  { clear - IHa. induction IHa as [|x r Hx Hr IH]; cbn [map flat_map]; [reflexivity|]. now rewrite Hx, IH. }
  now rewrite E.
Qed.

Lemma cachesize_strip m : cachesize (strip_attrs m) = cachesize m.
Proof. now rewrite <- !serialize_length, serialize_strip. Qed.
