(** Proofs for the cache-aside model (Model/Aside.v): the step function characterised once ([ashape]), then
    one invariant per property of C39, each preserved by every shape of step. *)
From Coq Require Import List Arith NArith ZArith Bool Lia.
Require Import RV.Model.Base RV.Proofs.BytesProofs RV.Model.ListUpd RV.Proofs.ListUpdProofs RV.Model.Aside.
Import ListNotations.
Open Scope nat_scope.

Lemma sget_In st k v : sget st k = Some v -> exists e, In (k, (v, e)) st.
Proof.
  induction st as [|[k' [v' e']] st IH]; cbn [sget]; [discriminate|].
  destruct (bytes_eqb k' k) eqn:E.
  - intros H. injection H as ->. apply bytes_eqb_eq in E. subst. exists e'. left. reflexivity.
  - intros H. destruct (IH H) as (e & He). exists e. right. exact He.
Qed.

Lemma In_sdel st k x : In x (sdel st k) -> In x st.
Proof.
  induction st as [|[k' y] st IH]; cbn [sdel]; [tauto|].
  destruct (bytes_eqb k' k); cbn [In]; intuition.
Qed.

Lemma In_sset st k v e x : In x (sset st k v e) -> x = (k, (v, e)) \/ In x st.
Proof. unfold sset. cbn [In]. intros [H|H]; [left; auto|right; eapply In_sdel; eauto]. Qed.

Lemma In_expire now st x : In x (expire now st) -> In x st.
Proof. unfold expire. intros H. apply filter_In in H. tauto. Qed.

Lemma sget_sdel_same st k : sget (sdel st k) k = None.
Proof.
  induction st as [|[k' [v e]] st IH]; cbn [sdel sget]; [reflexivity|].
  destruct (bytes_eqb k' k) eqn:E; [exact IH|]. cbn [sget]. rewrite E. exact IH.
Qed.

Lemma sget_sdel_other st k k2 : k <> k2 -> sget (sdel st k) k2 = sget st k2.
Proof.
  intros N. induction st as [|[k' [v e]] st IH]; cbn [sdel sget]; [reflexivity|].
  destruct (bytes_eqb k' k) eqn:E.
  - apply bytes_eqb_eq in E. subst k'. apply bytes_eqb_neq in N. rewrite N. exact IH.
  - cbn [sget]. rewrite IH. reflexivity.
Qed.

Lemma sget_sset_same st k v e : sget (sset st k v e) k = Some v.
Proof. unfold sset. cbn [sget]. rewrite bytes_eqb_refl. reflexivity. Qed.

Lemma sget_sset_other st k v e k2 : k <> k2 -> sget (sset st k v e) k2 = sget st k2.
Proof.
  intros N. unfold sset. cbn [sget]. pose proof N as N'. apply bytes_eqb_neq in N'. rewrite N'.
  apply sget_sdel_other, N.
Qed.

Definition uniq (st : store) : Prop := NoDup (map fst st).

Lemma In_map_fst_sdel st k x : In x (map fst (sdel st k)) -> In x (map fst st) /\ x <> k.
Proof.
  induction st as [|[k' y] st IH]; cbn [sdel map fst In]; [tauto|].
  destruct (bytes_eqb k' k) eqn:E.
  - intros H. destruct (IH H). split; auto.
  - cbn [map fst In]. intros [H|H].
    + subst. split; [auto|]. apply bytes_eqb_neq in E. exact E.
    + destruct (IH H). split; auto.
Qed.

Lemma uniq_sdel st k : uniq st -> uniq (sdel st k).
Proof.
  unfold uniq. induction st as [|[k' y] st IH]; cbn [sdel map fst]; intros H; [constructor|].
  inversion H as [|? ? Hn Hr]; subst.
  destruct (bytes_eqb k' k); [apply IH, Hr|].
  cbn [map fst]. constructor; [|apply IH, Hr].
  intros Hin. apply In_map_fst_sdel in Hin. tauto.
Qed.

Lemma uniq_sset st k v e : uniq st -> uniq (sset st k v e).
Proof.
  intros H. unfold uniq, sset. cbn [map fst]. constructor; [|apply uniq_sdel, H].
  intros Hin. apply In_map_fst_sdel in Hin. destruct Hin as [_ N]. congruence.
Qed.

Lemma sget_uniq_In st k v e : uniq st -> In (k, (v, e)) st -> sget st k = Some v.
Proof.
  unfold uniq. induction st as [|[k' [v' e']] st IH]; cbn [map fst sget In]; intros H HI; [destruct HI|].
  inversion H as [|? ? Hn Hr]; subst.
  destruct HI as [E|HI].
  - injection E as -> -> ->. rewrite bytes_eqb_refl. reflexivity.
  - destruct (bytes_eqb k' k) eqn:E.
    + apply bytes_eqb_eq in E. subst. exfalso. apply Hn. apply (in_map fst) in HI. exact HI.
    + apply IH; assumption.
Qed.

Lemma sget_filter f st k v : uniq st -> sget (filter f st) k = Some v -> sget st k = Some v.
Proof.
  intros U H. destruct (sget_In _ _ _ H) as (e & He). apply filter_In in He.
  eapply sget_uniq_In; [exact U|apply He].
Qed.

Lemma mem_key_In x l : mem_key x l = true <-> In x l.
Proof.
  induction l as [|y l IH]; cbn [mem_key In]; [split; [discriminate|tauto]|].
  rewrite orb_true_iff, IH, bytes_eqb_eq. split; intros [H|H]; auto.
Qed.

Lemma sget_expire now st k v : uniq st -> sget st k = Some v ->
  sget (expire now st) k = Some v \/ mem_key k (gone_keys st (expire now st)) = true.
Proof.
  intros U H. destruct (sget (expire now st) k) as [w|] eqn:E.
  - left. apply (sget_filter _ _ _ _ U) in E. congruence.
  - right. apply mem_key_In. unfold gone_keys. apply in_map_iff.
    destruct (sget_In _ _ _ H) as (e & He). exists (k, (v, e)). split; [reflexivity|].
    apply filter_In. split; [exact He|]. cbn [fst]. rewrite E. reflexivity.
Qed.

Lemma srv_setkey_false now st k id v ttl st' : srv_setkey now st k id v ttl = (st', false) -> st' = st.
Proof. unfold srv_setkey. destruct (sget st k) as [x|]; [destruct (bytes_eqb x id)|]; intros H; inversion H; reflexivity. Qed.

Lemma srv_setkey_true now st k id v ttl st' : srv_setkey now st k id v ttl = (st', true) -> st' = sset st k v (now + ttl).
Proof. unfold srv_setkey. destruct (sget st k) as [x|]; [destruct (bytes_eqb x id)|]; intros H; inversion H; reflexivity. Qed.

Lemma srv_delkey_false st k id st' : srv_delkey st k id = (st', false) -> st' = st.
Proof. unfold srv_delkey. destruct (sget st k) as [x|]; [destruct (bytes_eqb x id)|]; intros H; inversion H; reflexivity. Qed.

Lemma srv_delkey_true st k id st' : srv_delkey st k id = (st', true) -> st' = sdel st k.
Proof. unfold srv_delkey. destruct (sget st k) as [x|]; [destruct (bytes_eqb x id)|]; intros H; inversion H; reflexivity. Qed.

Lemma is_ph_nil : is_ph [] = false.
Proof. reflexivity. Qed.

Lemma is_ph_neq a b : is_ph a = true -> is_ph b = false -> a <> b.
Proof. intros Ha Hb E. subst. congruence. Qed.

Lemma In_cremove {B} (l : list (bytes * B)) ks x : In x (cremove l ks) -> In x l.
Proof. unfold cremove. intros H. apply filter_In in H. tauto. Qed.

Lemma In_ckeep {B} (l : list (bytes * B)) ks x : In x (ckeep l ks) -> In x l.
Proof. unfold ckeep. intros H. apply filter_In in H. tauto. Qed.

Lemma clookup_In {B} (l : list (bytes * B)) k b : clookup l k = Some b -> In (k, b) l.
Proof.
  induction l as [|[k' b'] l IH]; cbn [clookup]; [discriminate|].
  destruct (bytes_eqb k' k) eqn:E.
  - intros H. injection H as ->. apply bytes_eqb_eq in E. subst. left. reflexivity.
  - intros H. right. apply IH, H.
Qed.

Lemma pair_eqb_eq a b : pair_eqb a b = true <-> a = b.
Proof.
  destruct a as [c k], b as [c' k']. unfold pair_eqb. cbn [fst snd]. rewrite andb_true_iff, Nat.eqb_eq, bytes_eqb_eq.
  split; [intros [-> ->]; reflexivity|intros E; injection E; auto].
Qed.

Lemma mem_pair_In x l : mem_pair x l = true <-> In x l.
Proof.
  induction l as [|y l IH]; cbn [mem_pair In]; [split; [discriminate|tauto]|].
  rewrite orb_true_iff, IH, pair_eqb_eq. split; intros [H|H]; auto.
Qed.

Definition set_cls (s : astate) (cls : list client) : astate :=
  {| a_now := a_now s; a_store := a_store s; a_track := a_track s; a_infl := a_infl s; a_cls := cls;
     a_gets := a_gets s; a_loaded := a_loaded s; a_ext := a_ext s; a_lock := a_lock s |}.

Definition set_gets (s : astate) (gets : list get) : astate :=
  {| a_now := a_now s; a_store := a_store s; a_track := a_track s; a_infl := a_infl s; a_cls := a_cls s;
     a_gets := gets; a_loaded := a_loaded s; a_ext := a_ext s; a_lock := a_lock s |}.

Definition set_lock (s : astate) (lk : list (bytes * nat)) : astate :=
  {| a_now := a_now s; a_store := a_store s; a_track := a_track s; a_infl := a_infl s; a_cls := a_cls s;
     a_gets := a_gets s; a_loaded := a_loaded s; a_ext := a_ext s; a_lock := lk |}.

Definition add_loaded (s : astate) (kv : bytes * bytes) : astate :=
  {| a_now := a_now s; a_store := a_store s; a_track := a_track s; a_infl := a_infl s; a_cls := a_cls s;
     a_gets := a_gets s; a_loaded := kv :: a_loaded s; a_ext := a_ext s; a_lock := a_lock s |}.

Definition add_ext (s : astate) (kv : bytes * bytes) : astate :=
  {| a_now := a_now s; a_store := a_store s; a_track := a_track s; a_infl := a_infl s; a_cls := a_cls s;
     a_gets := a_gets s; a_loaded := a_loaded s; a_ext := kv :: a_ext s; a_lock := a_lock s |}.

(** a script or command on key k: when it acts ([ok]) the key gets the value [ov] ([None]: it is deleted), its
    trackers are told and its ghost lock entry goes.  A record, so that the fields it leaves alone compute. *)
Definition put (s : astate) (k : bytes) (ov : option (bytes * Z)) (ok : bool) : astate :=
  let w := write s (match ov with Some (v, e) => sset (a_store s) k v e | None => sdel (a_store s) k end) k true in
  {| a_now := a_now s; a_store := if ok then a_store w else a_store s; a_track := if ok then a_track w else a_track s;
     a_infl := if ok then a_infl w else a_infl s; a_cls := a_cls s; a_gets := a_gets s; a_loaded := a_loaded s;
     a_ext := a_ext s; a_lock := if ok then a_lock w else a_lock s |}.

(** a SET that leaves the ghost lock alone: a liveness key, or the placeholder taken by SET NX *)
Definition mark (s : astate) (k v : bytes) (e : Z) : astate := write s (sset (a_store s) k v e) k false.

(** Get [gi] is past its setkey / delkey script *)
Definition unlock_get (s : astate) (gi : nat) : astate :=
  set_lock s (filter (fun e => negb (Nat.eqb (snd e) gi)) (a_lock s)).

Definition holding (st : gstate) (id : bytes) : Prop :=
  st = GSLoad id \/ (exists v, st = GSStore id v) \/ (exists v e, st = GSUnlock id v e).

(** [holding] as a function: the C39 statements say [holding], the invariants compute with [holder] *)
Definition holder (st : gstate) : option bytes :=
  match st with GSLoad id | GSStore id _ | GSUnlock id _ _ => Some id | _ => None end.

Lemma holding_holder st id : holding st id <-> holder st = Some id.
Proof.
  split.
  - intros [->|[[v ->]|[v [e ->]]]]; reflexivity.
  - destruct st; cbn [holder]; intros E; try discriminate; injection E as ->; unfold holding; eauto.
Qed.

(** states after the read of the key: the key's channel is registered and guards what was read *)
Definition after_read (st : gstate) : bool := match st with GSRead | GSDone _ => false | _ => true end.

(** One constructor per kind of state change.  A failed round trip and a cancelled wait end the Get the same
    way ([sh_err]); so do the two ways keepalive hands over an id that is already installed ([sh_lock_id]);
    setkey, delkey, DEL and a foreign SET all go through [put].  The case analyses over it ([vinv_step] and the
    others) have one bullet per constructor, in this order. *)
Inductive ashape (cttl : Z) (s : astate) : alabel -> astate -> Prop :=
| sh_new_client :
    ashape cttl s ANewClient
      (set_cls s (a_cls s ++ [{| cl_id := None; cl_closed := false; cl_cache := []; cl_prev := [] |}]))
| sh_start_get c key ttl fn :
    ashape cttl s (AStartGet c key ttl fn)
      (set_gets s (a_gets s ++ [{| g_cl := c; g_key := key; g_ttl := ttl; g_fn := fn; g_st := GSRead;
                                   g_wait_closed := false; g_ph_closed := false |}]))
| sh_err l gi g e
    (Hg : nth_error (a_gets s) gi = Some g) (Hh : holder (g_st g) = None) :
    ashape cttl s l (with_get s gi (enter g (GSDone (RErr [] e))))
| sh_read gi g cl hit v s1 stale
    (Hg : nth_error (a_gets s) gi = Some g) (Est : g_st g = GSRead) (Hc : nth_error (a_cls s) (g_cl g) = Some cl)
    (Ecr : cached_read s (g_cl g) cl (g_key g) hit = Some (v, s1, stale)) :
    ashape cttl s (ARead gi hit false)
      (with_get s1 gi (enter (set_flags g (g_wait_closed g || stale) (g_ph_closed g))
                             (match v with
                              | Some x => after_value x
                              | None => if g_fn g then GSKeep else GSDone (RErr [] ENil)
                              end)))
| sh_probe gi g ph cl hit v s1 stale
    (Hg : nth_error (a_gets s) gi = Some g) (Est : g_st g = GSProbe ph) (Hc : nth_error (a_cls s) (g_cl g) = Some cl)
    (Ecr : cached_read s (g_cl g) cl ph hit = Some (v, s1, stale)) :
    ashape cttl s (AProbe gi hit false)
      (with_get s1 gi (set_st (set_flags g (g_wait_closed g) (g_ph_closed g || stale))
                              (match v with None => GSRelease ph | Some _ => GSWait ph end)))
| sh_keep gi g newid
    (Hg : nth_error (a_gets s) gi = Some g) (Est : g_st g = GSKeep) :
    ashape cttl s (AKeep gi newid false) (with_get (mark s newid [] (a_now s + cttl)) gi (enter g (GSInstall newid)))
| sh_lock_id l gi g cl id
    (Hg : nth_error (a_gets s) gi = Some g) (Hh : holder (g_st g) = None) (Har : after_read (g_st g) = true)
    (Hc : nth_error (a_cls s) (g_cl g) = Some cl) (Hid : cl_id cl = Some id) :
    ashape cttl s l (with_get s gi (enter g (GSLock id)))
| sh_install gi g newid cl
    (Hg : nth_error (a_gets s) gi = Some g) (Est : g_st g = GSInstall newid)
    (Hc : nth_error (a_cls s) (g_cl g) = Some cl) (Hid : cl_id cl = None) :
    ashape cttl s (AInstall gi)
      (with_get (set_cls s (upd (g_cl g) {| cl_id := Some newid; cl_closed := cl_closed cl; cl_cache := cl_cache cl;
                                            cl_prev := cl_prev cl |} (a_cls s)))
                gi (enter g (GSLock newid)))
| sh_lock_busy gi g id x
    (Hg : nth_error (a_gets s) gi = Some g) (Est : g_st g = GSLock id) (Hx : sget (a_store s) (g_key g) = Some x) :
    ashape cttl s (ALock gi false) (with_get s gi (enter g (after_value x)))
| sh_lock_free gi g id
    (Hg : nth_error (a_gets s) gi = Some g) (Est : g_st g = GSLock id) (Hx : sget (a_store s) (g_key g) = None) :
    ashape cttl s (ALock gi false)
      (set_lock (with_get (mark s (g_key g) id (a_now s + g_ttl g)) gi (enter g (GSLoad id))) ((g_key g, gi) :: a_lock s))
| sh_load gi g id v
    (Hg : nth_error (a_gets s) gi = Some g) (Est : g_st g = GSLoad id) :
    ashape cttl s (ALoad gi (Some v)) (with_get (add_loaded s (g_key g, v)) gi (enter g (GSStore id v)))
| sh_load_err gi g id
    (Hg : nth_error (a_gets s) gi = Some g) (Est : g_st g = GSLoad id) :
    ashape cttl s (ALoad gi None) (with_get s gi (enter g (GSUnlock id [] ELoader)))
| sh_store gi g id v ok exe rp
    (Hg : nth_error (a_gets s) gi = Some g) (Est : g_st g = GSStore id v) :
    ashape cttl s (AStore gi exe rp)
      (with_get (unlock_get (put s (g_key g) (Some (v, a_now s + g_ttl g)%Z) ok) gi) gi (enter g (after_value v)))
| sh_store_err gi g id v ok exe rp
    (Hg : nth_error (a_gets s) gi = Some g) (Est : g_st g = GSStore id v) :
    ashape cttl s (AStore gi exe rp)
      (with_get (put s (g_key g) (Some (v, a_now s + g_ttl g)%Z) ok) gi (enter g (GSUnlock id v ENet)))
| sh_unlock gi g id v e ok exe
    (Hg : nth_error (a_gets s) gi = Some g) (Est : g_st g = GSUnlock id v e) :
    ashape cttl s (AUnlock gi exe) (with_get (unlock_get (put s (g_key g) None ok) gi) gi (enter g (GSDone (RErr v e))))
| sh_release gi g ph ok exe
    (Hg : nth_error (a_gets s) gi = Some g) (Est : g_st g = GSRelease ph) :
    ashape cttl s (ARelease gi exe) (with_get (put s (g_key g) None ok) gi (enter g GSRead))
| sh_wake gi g ph
    (Hg : nth_error (a_gets s) gi = Some g) (Est : g_st g = GSWait ph) :
    ashape cttl s (AWake gi) (with_get s gi (enter g GSRead))
| sh_inval c ks cl
    (Hc : nth_error (a_cls s) c = Some cl) :
    ashape cttl s (AInval c ks)
      {| a_now := a_now s; a_store := a_store s; a_track := a_track s; a_infl := rm_keys c ks (a_infl s);
         a_cls := upd c {| cl_id := cl_id cl; cl_closed := cl_closed cl; cl_cache := cremove (cl_cache cl) ks;
                           cl_prev := ckeep (cl_cache cl) ks ++ cl_prev cl |} (a_cls s);
         a_gets := map (close_waits c ks) (a_gets s);
         a_loaded := a_loaded s; a_ext := a_ext s; a_lock := a_lock s |}
| sh_del key ok : ashape cttl s (ADel key) (put s key None ok)
| sh_set key v ttl :
    ashape cttl s (ASet key v ttl)
      (put (add_ext s (key, v)) key (Some (v, if (ttl =? 0)%Z then 0%Z else (a_now s + ttl)%Z)) true)
| sh_tick dt tr infl
    (Ett : touch_all (a_track s) (a_infl s) (gone_keys (a_store s) (expire (a_now s + dt) (a_store s))) = (tr, infl)) :
    ashape cttl s (ATick dt)
      {| a_now := (a_now s + dt)%Z; a_store := expire (a_now s + dt) (a_store s); a_track := tr; a_infl := infl;
         a_cls := a_cls s; a_gets := a_gets s; a_loaded := a_loaded s; a_ext := a_ext s;
         a_lock := filter (fun e => negb (mem_key (fst e) (gone_keys (a_store s) (expire (a_now s + dt) (a_store s)))))
                          (a_lock s) |}
| sh_close c cl
    (Hc : nth_error (a_cls s) c = Some cl) :
    ashape cttl s (AClose c)
      (set_cls s (upd c {| cl_id := cl_id cl; cl_closed := true; cl_cache := cl_cache cl; cl_prev := cl_prev cl |} (a_cls s)))
| sh_lost c cl
    (Hc : nth_error (a_cls s) c = Some cl) :
    ashape cttl s (ALost c)
      (set_gets (set_cls s (upd c {| cl_id := None; cl_closed := cl_closed cl; cl_cache := []; cl_prev := [] |} (a_cls s)))
                (map (close_all_waits c) (a_gets s)))
| sh_refresh c cl id
    (Hc : nth_error (a_cls s) c = Some cl) (Hid : cl_id cl = Some id) :
    ashape cttl s (ARefresh c) (mark s id [] (a_now s + cttl)).

Lemma put_false s k ov : put s k ov false = s.
Proof. destruct s. reflexivity. Qed.

Lemma put_true s k ov :
  put s k ov true = write s (match ov with Some (v, e) => sset (a_store s) k v e | None => sdel (a_store s) k end) k true.
Proof. reflexivity. Qed.

Lemma setkey_put s k id v ttl (exe : bool) st' ok :
  (if exe then srv_setkey (a_now s) (a_store s) k id v ttl else (a_store s, false)) = (st', ok) ->
  (if ok then write s st' k true else s) = put s k (Some (v, a_now s + ttl)%Z) ok.
Proof.
  destruct ok; [|rewrite put_false; reflexivity]. destruct exe; [|discriminate].
  intros H. rewrite (srv_setkey_true _ _ _ _ _ _ _ H). reflexivity.
Qed.

Lemma delkey_put s k id (exe : bool) st' ok :
  (if exe then srv_delkey (a_store s) k id else (a_store s, false)) = (st', ok) ->
  (if ok then write s st' k true else s) = put s k None ok.
Proof.
  destruct ok; [|rewrite put_false; reflexivity]. destruct exe; [|discriminate].
  intros H. rewrite (srv_delkey_true _ _ _ _ H). reflexivity.
Qed.

Lemma astep_shape cttl s l s' : astep cttl s l = Some s' -> ashape cttl s l s'.
Proof.
  unfold astep. destruct (astep_r cttl s l) as [[s1 o]|] eqn:H; [|discriminate]. intros E. injection E as <-.
  destruct l; cbn [astep_r] in H.
  - injection H as <- _. constructor.
  - destruct (nth_error (a_cls s) c); [|discriminate]. injection H as <- _. constructor.
  - apply bind_some in H as (gg & Hg & H).
    destruct (g_st gg) eqn:Est; try discriminate.
    apply bind_some in H as (cl & Hc & H).
    destruct fail.
    + injection H as <- _. apply sh_err; [exact Hg|rewrite Est; reflexivity].
    + destruct (cached_read s (g_cl gg) cl (g_key gg) hit) as [[[v s2] stale]|] eqn:Ecr; [|discriminate].
      injection H as <- _. exact (sh_read cttl s g gg cl hit v s2 stale Hg Est Hc Ecr).
  - apply bind_some in H as (gg & Hg & H).
    destruct (g_st gg) eqn:Est; try discriminate.
    destruct fail; injection H as <- _.
    + apply sh_err; [exact Hg|rewrite Est; reflexivity].
    + exact (sh_keep cttl s g gg newid Hg Est).
  - apply bind_some in H as (gg & Hg & H).
    destruct (g_st gg) eqn:Est; try discriminate.
    destruct fail.
    + injection H as <- _. apply sh_err; [exact Hg|rewrite Est; reflexivity].
    + unfold srv_lock in H. destruct (sget (a_store s) (g_key gg)) as [x|] eqn:Ex; injection H as <- _.
      * exact (sh_lock_busy cttl s g gg id x Hg Est Ex).
      * exact (sh_lock_free cttl s g gg id Hg Est Ex).
  - apply bind_some in H as (gg & Hg & H).
    destruct (g_st gg) eqn:Est; try discriminate.
    destruct res as [v|]; injection H as <- _.
    + exact (sh_load cttl s g gg id v Hg Est).
    + exact (sh_load_err cttl s g gg id Hg Est).
  - apply bind_some in H as (gg & Hg & H).
    destruct (g_st gg) eqn:Est; try discriminate.
    destruct (if executed then _ else _) as [st' ok] eqn:E. cbv beta iota zeta in H.
    rewrite (setkey_put _ _ _ _ _ _ _ _ E) in H.
    destruct (executed && replied); injection H as <- _.
    + exact (sh_store cttl s g gg id v ok executed replied Hg Est).
    + exact (sh_store_err cttl s g gg id v ok executed replied Hg Est).
  - apply bind_some in H as (gg & Hg & H).
    destruct (g_st gg) eqn:Est; try discriminate.
    destruct (if executed then _ else _) as [st' ok] eqn:E. cbv beta iota zeta in H.
    rewrite (delkey_put _ _ _ _ _ _ E) in H. injection H as <- _.
    exact (sh_unlock cttl s g gg id v e ok executed Hg Est).
  - apply bind_some in H as (gg & Hg & H).
    destruct (g_st gg) eqn:Est; try discriminate.
    apply bind_some in H as (cl & Hc & H).
    destruct fail.
    + injection H as <- _. apply sh_err; [exact Hg|rewrite Est; reflexivity].
    + destruct (cached_read s (g_cl gg) cl ph hit) as [[[v s2] stale]|] eqn:Ecr; [|discriminate].
      injection H as <- _. exact (sh_probe cttl s g gg ph cl hit v s2 stale Hg Est Hc Ecr).
  - apply bind_some in H as (gg & Hg & H).
    destruct (g_st gg) eqn:Est; try discriminate.
    destruct (if executed then _ else _) as [st' ok] eqn:E. cbv beta iota zeta in H.
    rewrite (delkey_put _ _ _ _ _ _ E) in H. injection H as <- _.
    exact (sh_release cttl s g gg ph ok executed Hg Est).
  - apply bind_some in H as (gg & Hg & H).
    destruct (g_st gg) eqn:Est; try discriminate.
    destruct (g_wait_closed gg || g_ph_closed gg); [|discriminate]. injection H as <- _.
    exact (sh_wake cttl s g gg ph Hg Est).
  - apply bind_some in H as (gg & Hg & H).
    destruct (g_st gg) eqn:Est; try discriminate. injection H as <- _.
    apply sh_err; [exact Hg|rewrite Est; reflexivity].
  - apply bind_some in H as (cl & Hc & H).
    destruct (forallb _ ks); [|discriminate]. injection H as <- _. exact (sh_inval cttl s c ks cl Hc).
  - destruct (sget (a_store s) key); injection H as <- _.
    + exact (sh_del cttl s key true).
    + rewrite <- (put_false s key None) at 2. exact (sh_del cttl s key false).
  - injection H as <- _. exact (sh_set cttl s key v ttl).
  - destruct (dt <? 0)%Z; [discriminate|].
    destruct (touch_all _ _ _) as [tr infl] eqn:E. injection H as <- _. exact (sh_tick cttl s dt tr infl E).
  - apply bind_some in H as (cl & Hc & H). injection H as <- _. exact (sh_close cttl s c cl Hc).
  - apply bind_some in H as (cl & Hc & H). injection H as <- _. exact (sh_lost cttl s c cl Hc).
  - apply bind_some in H as (cl & Hc & H).
    destruct (cl_id cl) as [id|] eqn:Eid; [|discriminate]. injection H as <- _. exact (sh_refresh cttl s c cl id Hc Eid).
  - apply bind_some in H as (gg & Hg & H).
    destruct (g_st gg) eqn:Est; try discriminate.
    apply bind_some in H as (cl & Hc & H).
    destruct (cl_id cl) as [id|] eqn:Eid; [|discriminate]. injection H as <- _.
    apply (sh_lock_id cttl s _ g gg cl id Hg); [rewrite Est; reflexivity|rewrite Est; reflexivity|exact Hc|exact Eid].
  - apply bind_some in H as (gg & Hg & H).
    destruct (g_st gg) eqn:Est; try discriminate.
    apply bind_some in H as (cl & Hc & H).
    destruct (cl_id cl) as [id|] eqn:Eid; injection H as <- _.
    + apply (sh_lock_id cttl s _ g gg cl id Hg); [rewrite Est; reflexivity|rewrite Est; reflexivity|exact Hc|exact Eid].
    + exact (sh_install cttl s g gg newid cl Hg Est Hc Eid).
Qed.

Lemma enter_key g st : g_key (enter g st) = g_key g.
Proof. destruct st; reflexivity. Qed.

Lemma enter_cl g st : g_cl (enter g st) = g_cl g.
Proof. destruct st; reflexivity. Qed.

Lemma enter_st g st : g_st (enter g st) = st.
Proof. destruct st; reflexivity. Qed.

Lemma close_waits_fields c ks g :
  g_key (close_waits c ks g) = g_key g /\ g_st (close_waits c ks g) = g_st g /\ g_cl (close_waits c ks g) = g_cl g.
Proof. unfold close_waits. destruct (Nat.eqb (g_cl g) c); cbn; auto. Qed.

Lemma close_all_fields c g :
  g_key (close_all_waits c g) = g_key g /\ g_st (close_all_waits c g) = g_st g /\ g_cl (close_all_waits c g) = g_cl g.
Proof. unfold close_all_waits. destruct (Nat.eqb (g_cl g) c); cbn; auto. Qed.

(** a real read (not served from the client's cache): the reply is cached, the key tracked for the client *)
Definition read_through (s : astate) (c : nat) (cl : client) (k : bytes) : astate :=
  {| a_now := a_now s; a_store := a_store s; a_track := track (a_track s) c k; a_infl := a_infl s;
     a_cls := upd c {| cl_id := cl_id cl; cl_closed := cl_closed cl;
                       cl_cache := (k, sget (a_store s) k) :: cremove (cl_cache cl) [k];
                       cl_prev := cremove (cl_prev cl) [k] |} (a_cls s);
     a_gets := a_gets s; a_loaded := a_loaded s; a_ext := a_ext s; a_lock := a_lock s |}.

(** the three ways a cached GET is answered: from the cache, from an entry an invalidation removed while the
    read was under way (then the caller's channel is closed), from the server *)
Lemma cached_read_cases {s c cl k hit v s1 stale} : cached_read s c cl k hit = Some (v, s1, stale) ->
  s1 = s /\ (In (k, v) (cl_cache cl) /\ stale = false \/ In (k, v) (cl_prev cl) /\ stale = true) \/
  s1 = read_through s c cl k /\ v = sget (a_store s) k /\ stale = false.
Proof.
  unfold cached_read. destruct hit; [|intros H; inversion H; auto].
  destruct (clookup (cl_cache cl) k) eqn:E1; [intros H; inversion H; subst; apply clookup_In in E1; auto|].
  destruct (clookup (cl_prev cl) k) eqn:E2; [intros H; inversion H; subst; apply clookup_In in E2; auto|discriminate].
Qed.

Lemma cached_read_frame {s c cl k hit v s1 stale} : cached_read s c cl k hit = Some (v, s1, stale) ->
  a_store s1 = a_store s /\ a_lock s1 = a_lock s /\ a_gets s1 = a_gets s /\ a_now s1 = a_now s /\
  a_loaded s1 = a_loaded s /\ a_ext s1 = a_ext s.
Proof. intros H. destruct (cached_read_cases H) as [[-> _]|[-> _]]; auto 6. Qed.

Lemma arun_inv (P : astate -> Prop) (ok : alabel -> Prop) cttl :
  (forall s l s', P s -> ok l -> astep cttl s l = Some s' -> P s') ->
  forall ls s s', P s -> Forall ok ls -> arun cttl s ls = Some s' -> P s'.
Proof.
  intros Hstep. induction ls as [|l ls IH]; intros s s' HP HL HR; cbn [arun] in HR.
  - injection HR as <-. exact HP.
  - inversion HL; subst. destruct (astep cttl s l) as [s1|] eqn:E; [|discriminate]. eauto.
Qed.

Definition origin (ld ext : list (bytes * bytes)) (k v : bytes) : Prop := In (k, v) ld \/ In (k, v) ext.

(** what the state of a Get for key k may carry: ids are placeholder-shaped; values are not, and were loaded for
    k or written from outside *)
Definition st_ok (ld ext : list (bytes * bytes)) (k : bytes) (st : gstate) : Prop :=
  match st with
  | GSLock id | GSLoad id | GSInstall id => is_ph id = true
  | GSStore id v => is_ph id = true /\ is_ph v = false /\ In (k, v) ld
  | GSUnlock id v _ => is_ph id = true /\ is_ph v = false
  | GSDone (ROk v) => is_ph v = false /\ origin ld ext k v
  | GSDone (RErr v _) => is_ph v = false
  | _ => True
  end.

Definition get_ok (ld ext : list (bytes * bytes)) (g : get) : Prop :=
  is_ph (g_key g) = false /\ st_ok ld ext (g_key g) (g_st g).

Definition cl_ok (ld ext : list (bytes * bytes)) (cl : client) : Prop :=
  (forall id, cl_id cl = Some id -> is_ph id = true) /\
  (forall k v, In (k, Some v) (cl_cache cl) \/ In (k, Some v) (cl_prev cl) ->
               is_ph k = false -> is_ph v = false -> origin ld ext k v).

Definition store_ok (ld ext : list (bytes * bytes)) (st : store) : Prop :=
  forall k v e, In (k, (v, e)) st -> is_ph k = false -> is_ph v = false -> origin ld ext k v.

(** where returned values come from (C39_no_placeholder_returned, C39_value_origin) *)
Record vinv (s : astate) : Prop := {
  v_store : store_ok (a_loaded s) (a_ext s) (a_store s);
  v_cls : Forall (cl_ok (a_loaded s) (a_ext s)) (a_cls s);
  v_gets : Forall (get_ok (a_loaded s) (a_ext s)) (a_gets s) }.

Lemma origin_mono ld ext ld' ext' k v : incl ld ld' -> incl ext ext' -> origin ld ext k v -> origin ld' ext' k v.
Proof. intros H1 H2 [H|H]; [left; apply H1, H|right; apply H2, H]. Qed.

Lemma get_ok_mono ld ext ld' ext' g : incl ld ld' -> incl ext ext' -> get_ok ld ext g -> get_ok ld' ext' g.
Proof.
  intros H1 H2 [Hk H]. split; [exact Hk|]. unfold st_ok in *.
  destruct (g_st g) as [| | | | | | | | |[v|v e]|]; auto.
  - destruct H as (A & B & C). auto.
  - destruct H as (A & B). split; [exact A|]. eapply origin_mono; eauto.
Qed.

Lemma vinv_mono s s' : vinv s -> a_store s' = a_store s -> a_cls s' = a_cls s -> a_gets s' = a_gets s ->
  incl (a_loaded s) (a_loaded s') -> incl (a_ext s) (a_ext s') -> vinv s'.
Proof.
  intros [H1 H2 H3] E1 E2 E3 I1 I2. constructor; rewrite ?E1, ?E2, ?E3.
  - intros k v e Hin Hk Hv. eapply origin_mono; eauto.
  - eapply Forall_impl; [|exact H2]. intros cl [A B]. split; [exact A|].
    intros k v Hin Hk Hv. eapply origin_mono; eauto.
  - eapply Forall_impl; [|exact H3]. intros g. apply get_ok_mono; assumption.
Qed.

Lemma vinv_set_cls s cls : vinv s -> Forall (cl_ok (a_loaded s) (a_ext s)) cls -> vinv (set_cls s cls).
Proof. intros [H1 H2 H3] H. constructor; assumption. Qed.

Lemma vinv_set_gets s gets : vinv s -> Forall (get_ok (a_loaded s) (a_ext s)) gets -> vinv (set_gets s gets).
Proof. intros [H1 H2 H3] H. constructor; assumption. Qed.

Lemma vinv_set_lock s lk : vinv s -> vinv (set_lock s lk).
Proof. intros [H1 H2 H3]. constructor; assumption. Qed.

Lemma vinv_write s st' k u : vinv s -> store_ok (a_loaded s) (a_ext s) st' -> vinv (write s st' k u).
Proof. intros [H1 H2 H3] H. constructor; assumption. Qed.

Lemma store_ok_sset ld ext st k v e : store_ok ld ext st ->
  (is_ph k = false -> is_ph v = false -> origin ld ext k v) -> store_ok ld ext (sset st k v e).
Proof.
  intros H Hn k' v' e' Hin Hk Hv. apply In_sset in Hin. destruct Hin as [E|Hin].
  - injection E as -> -> ->. auto.
  - eapply H; eauto.
Qed.

Lemma store_ok_sget ld ext st k v : store_ok ld ext st -> sget st k = Some v ->
  is_ph k = false -> is_ph v = false -> origin ld ext k v.
Proof. intros H Hg. destruct (sget_In _ _ _ Hg) as (e & He). eapply H; eauto. Qed.

Lemma vinv_put s k ov ok : vinv s ->
  match ov with
  | Some (v, _) => is_ph k = false -> is_ph v = false -> origin (a_loaded s) (a_ext s) k v
  | None => True
  end -> vinv (put s k ov ok).
Proof.
  intros HV Ho. destruct ok; [rewrite put_true|rewrite put_false; exact HV]. apply vinv_write; [exact HV|].
  destruct ov as [[v e]|]; [apply store_ok_sset; [apply HV|exact Ho]|].
  intros k' v' e' Hin. apply In_sdel in Hin. eapply (v_store _ HV); eauto.
Qed.

Lemma vinv_mark s k v e : vinv s -> (is_ph k = false -> is_ph v = false -> origin (a_loaded s) (a_ext s) k v) ->
  vinv (mark s k v e).
Proof. intros HV Ho. apply vinv_write; [exact HV|]. apply store_ok_sset; [apply HV|exact Ho]. Qed.

Lemma vinv_get s gi g : vinv s -> nth_error (a_gets s) gi = Some g -> get_ok (a_loaded s) (a_ext s) g.
Proof. intros HV. apply Forall_nth, HV. Qed.

Lemma vinv_cl s c cl : vinv s -> nth_error (a_cls s) c = Some cl -> cl_ok (a_loaded s) (a_ext s) cl.
Proof. intros HV. apply Forall_nth, HV. Qed.

Lemma vinv_with_get s gi g g' : vinv s -> nth_error (a_gets s) gi = Some g -> g_key g' = g_key g ->
  st_ok (a_loaded s) (a_ext s) (g_key g) (g_st g') -> vinv (with_get s gi g').
Proof.
  intros HV Hg Ek Hs. apply (vinv_set_gets s); [exact HV|]. apply Forall_upd; [apply HV|].
  destruct (vinv_get s gi g HV Hg) as [Hk _]. split; rewrite Ek; assumption.
Qed.

Lemma vinv_enter s gi g st : vinv s -> nth_error (a_gets s) gi = Some g ->
  st_ok (a_loaded s) (a_ext s) (g_key g) st -> vinv (with_get s gi (enter g st)).
Proof. intros HV Hg Hs. apply (vinv_with_get s gi g); [exact HV|exact Hg|apply enter_key|rewrite enter_st; exact Hs]. Qed.

Lemma st_ok_after_value ld ext k x : (is_ph x = false -> origin ld ext k x) -> st_ok ld ext k (after_value x).
Proof. intros H. unfold after_value. destruct (is_ph x) eqn:E; cbn; auto. Qed.

Lemma cached_read_vinv {s c cl k hit v s1 stale} :
  vinv s -> nth_error (a_cls s) c = Some cl -> cached_read s c cl k hit = Some (v, s1, stale) ->
  vinv s1 /\ (forall x, v = Some x -> is_ph k = false -> is_ph x = false -> origin (a_loaded s) (a_ext s) k x).
Proof.
  intros HV Hc H. destruct (vinv_cl s c cl HV Hc) as [Hid Hcache].
  destruct (cached_read_cases H) as [[-> Hin]|(-> & -> & _)].
  - split; [exact HV|]. intros x -> Hk Hx. apply (Hcache k x); tauto.
  - split; [|intros x E; eapply store_ok_sget; [apply HV|exact E]].
    destruct HV as [H1 H2 H3]. constructor; [exact H1| |exact H3].
    apply Forall_upd; [exact H2|]. split; cbn [cl_id cl_cache cl_prev]; [exact Hid|].
    intros k' x [[E|Hin]|Hin] Hk Hx.
    + injection E as -> E. eapply store_ok_sget; eauto.
    + apply In_cremove in Hin. apply (Hcache k' x); auto.
    + apply In_cremove in Hin. apply (Hcache k' x); auto.
Qed.

Lemma vinv_init now : vinv (ainit now).
Proof. constructor; cbn; [intros k v e []|constructor|constructor]. Qed.

Lemma vinv_step cttl s l s' : vinv s -> label_ok l -> astep cttl s l = Some s' -> vinv s'.
Proof.
  intros HV HL HS. apply astep_shape in HS.
  (* [Hst]: what the Get's state carried before the step *)
  destruct HS; cbn [label_ok] in HL;
    try (destruct (vinv_get s gi g HV Hg) as [Hkey Hst]; try rewrite Est in Hst).
  - (* sh_new_client *) apply vinv_set_cls; [exact HV|]. apply Forall_app. split; [apply HV|]. constructor; [|constructor].
    split; [discriminate|]. intros k v [[]|[]].
  - (* sh_start_get *) apply vinv_set_gets; [exact HV|]. apply Forall_app. split; [apply HV|]. constructor; [|constructor]. split; [exact HL|exact I].
  - (* sh_err *) apply vinv_enter; [exact HV|exact Hg|reflexivity].
  - (* sh_read *) destruct (cached_read_vinv HV Hc Ecr) as [HV1 Hor].
    destruct (cached_read_frame Ecr) as (_ & _ & Eg & _ & El & Ee).
    apply (vinv_with_get s1 gi g); [exact HV1|rewrite Eg; exact Hg|rewrite enter_key; reflexivity|]. rewrite enter_st, El, Ee.
    destruct v as [x|]; [|destruct (g_fn g); reflexivity].
    apply st_ok_after_value. intros Hx. apply (Hor x eq_refl); assumption.
  - (* sh_probe *) destruct (cached_read_vinv HV Hc Ecr) as [HV1 _].
    destruct (cached_read_frame Ecr) as (_ & _ & Eg & _).
    apply (vinv_with_get s1 gi g); [exact HV1|rewrite Eg; exact Hg|reflexivity|]. destruct v; exact I.
  - (* sh_keep *) apply vinv_enter; [apply vinv_mark; [exact HV|congruence]|exact Hg|exact HL].
  - (* sh_lock_id *) apply vinv_enter; [exact HV|exact Hg|]. apply (vinv_cl s _ cl HV Hc), Hid.
  - (* sh_install *) destruct (vinv_cl s _ cl HV Hc) as [_ Hcache].
    apply vinv_enter; [|exact Hg|exact Hst]. apply vinv_set_cls; [exact HV|]. apply Forall_upd; [apply HV|].
    split; [|exact Hcache]. intros id E. injection E as <-. exact Hst.
  - (* sh_lock_busy *) apply vinv_enter; [exact HV|exact Hg|]. apply st_ok_after_value. intros Hv.
    eapply store_ok_sget; [apply HV|exact Hx|exact Hkey|exact Hv].
  - (* sh_lock_free *) apply vinv_set_lock, vinv_enter; [apply vinv_mark; [exact HV|congruence]|exact Hg|exact Hst].
  - (* sh_load *) apply vinv_enter; [|exact Hg|cbn; auto].
    apply (vinv_mono s); [exact HV|reflexivity..|apply incl_tl, incl_refl|apply incl_refl].
  - (* sh_load_err *) apply vinv_enter; [exact HV|exact Hg|cbn; auto].
  - (* sh_store *) destruct Hst as (Hid & Hv & Hld).
    assert (HV1 : vinv (put s (g_key g) (Some (v, (a_now s + g_ttl g)%Z)) ok)).
    { apply vinv_put; [exact HV|]. intros _ _. left. exact Hld. }
    apply vinv_enter; [apply vinv_set_lock, HV1| |].
    + exact Hg.
    + apply st_ok_after_value. intros _. left. destruct ok; exact Hld.
  - (* sh_store_err *) destruct Hst as (Hid & Hv & Hld). apply vinv_enter; [|exact Hg|cbn; auto].
    apply vinv_put; [exact HV|]. intros _ _. left. exact Hld.
  - (* sh_unlock *) apply vinv_enter; [|exact Hg|apply Hst].
    apply vinv_set_lock, vinv_put; [exact HV|exact I].
  - (* sh_release *) apply vinv_enter; [apply vinv_put; [exact HV|exact I]|exact Hg|exact I].
  - (* sh_wake *) apply vinv_enter; [exact HV|exact Hg|exact I].
  - (* sh_inval *) destruct (vinv_cl s c cl HV Hc) as [Hid Hcache]. destruct HV as [V1 V2 V3].
    constructor; cbn [a_store a_cls a_gets a_loaded a_ext]; [exact V1| |].
    + apply Forall_upd; [exact V2|]. split; cbn [cl_id cl_cache cl_prev]; [exact Hid|].
      intros k v [Hin|Hin] Hk Hv.
      * apply In_cremove in Hin. apply (Hcache k v); auto.
      * apply in_app_or in Hin. destruct Hin as [Hin|Hin]; [apply In_ckeep in Hin|]; apply (Hcache k v); auto.
    + apply Forall_map_same; [|exact V3]. intros x Hx. unfold close_waits. destruct (Nat.eqb (g_cl x) c); exact Hx.
  - (* sh_del *) apply vinv_put; [exact HV|exact I].
  - (* sh_set *) apply vinv_put; [|intros _ _; right; left; reflexivity].
    apply (vinv_mono s); [exact HV|reflexivity..|apply incl_refl|apply incl_tl, incl_refl].
  - (* sh_tick *) destruct HV as [V1 V2 V3]. constructor; [|exact V2|exact V3].
    intros k v e Hin. apply In_expire in Hin. eapply V1; eauto.
  - (* sh_close *) destruct (vinv_cl s c cl HV Hc). apply vinv_set_cls; [exact HV|]. apply Forall_upd; [apply HV|]. split; assumption.
  - (* sh_lost *) apply (vinv_set_gets (set_cls s _)).
    + apply vinv_set_cls; [exact HV|]. apply Forall_upd; [apply HV|]. split; [discriminate|]. intros k v [[]|[]].
    + apply Forall_map_same; [|apply HV]. intros x Hx. unfold close_all_waits. destruct (Nat.eqb (g_cl x) c); exact Hx.
  - (* sh_refresh *) apply vinv_mark; [exact HV|]. intros Hk. rewrite (proj1 (vinv_cl s c cl HV Hc) id Hid) in Hk. discriminate.
Qed.

Lemma vinv_run cttl ls s s' : vinv s -> Forall label_ok ls -> arun cttl s ls = Some s' -> vinv s'.
Proof. apply (arun_inv vinv label_ok). apply vinv_step. Qed.

(** one registered loader per key, holding the lock the key carries (C39_single_loader_while_alive) *)
Record linv (s : astate) : Prop := {
  l_uniq : uniq (a_store s);
  l_entries : forall k gi, In (k, gi) (a_lock s) ->
              exists g id, nth_error (a_gets s) gi = Some g /\ g_key g = k /\ holder (g_st g) = Some id /\ sget (a_store s) k = Some id;
  l_nodup : NoDup (map fst (a_lock s)) }.

Lemma linv_init now : linv (ainit now).
Proof. constructor; cbn; [constructor|intros k gi []|constructor]. Qed.

Lemma linv_frame s s' : linv s -> a_store s' = a_store s -> a_lock s' = a_lock s ->
  (forall gi g, nth_error (a_gets s) gi = Some g ->
                exists g', nth_error (a_gets s') gi = Some g' /\ g_key g' = g_key g /\ g_st g' = g_st g) ->
  linv s'.
Proof.
  intros [H1 H2 H3] E1 E2 Hg. constructor; rewrite ?E1, ?E2; auto.
  intros k gi Hin. destruct (H2 k gi Hin) as (g & id & Hn & Hk & Hh & Hs).
  destruct (Hg gi g Hn) as (g' & Hn' & Hk' & Hs').
  exists g', id. rewrite Hk', Hs'. auto.
Qed.

Lemma linv_sub s s' : linv s -> uniq (a_store s') -> NoDup (map fst (a_lock s')) -> a_gets s' = a_gets s ->
  (forall k gi, In (k, gi) (a_lock s') -> In (k, gi) (a_lock s) /\ sget (a_store s') k = sget (a_store s) k) ->
  linv s'.
Proof.
  intros [H1 H2 H3] U N Eg H. constructor; auto.
  intros k gi Hin. destruct (H k gi Hin) as (Hin0 & Hs). rewrite Eg, Hs. apply H2, Hin0.
Qed.

Lemma In_lock_key (l : list (bytes * nat)) k k' gi :
  In (k', gi) (filter (fun e => negb (bytes_eqb (fst e) k)) l) <-> In (k', gi) l /\ k' <> k.
Proof. rewrite filter_In. cbn [fst]. rewrite negb_true_iff, bytes_eqb_neq. tauto. Qed.

Lemma In_lock_get (l : list (bytes * nat)) gi k gj :
  In (k, gj) (filter (fun e => negb (Nat.eqb (snd e) gi)) l) <-> In (k, gj) l /\ gj <> gi.
Proof. rewrite filter_In. cbn [snd]. rewrite negb_true_iff, Nat.eqb_neq. tauto. Qed.

Lemma linv_put s k ov ok : linv s -> linv (put s k ov ok).
Proof.
  intros HI. destruct ok; [|rewrite put_false; exact HI]. apply (linv_sub s _ HI).
  - destruct ov as [[v e]|]; [apply uniq_sset|apply uniq_sdel]; apply HI.
  - apply NoDup_map_filter, HI.
  - reflexivity.
  - intros k' gi Hin. apply In_lock_key in Hin. destruct Hin as [Hin N]. split; [exact Hin|].
    destruct ov as [[v e]|]; [apply sget_sset_other|apply sget_sdel_other]; congruence.
Qed.

Lemma linv_mark s k v e : linv s -> (forall gi, ~ In (k, gi) (a_lock s)) -> linv (mark s k v e).
Proof.
  intros HI Hf. apply (linv_sub s _ HI); [apply uniq_sset, HI|apply HI|reflexivity|].
  intros k' gi Hin. split; [exact Hin|]. apply sget_sset_other. intros ->. exact (Hf gi Hin).
Qed.

Lemma linv_unlock_get s gi : linv s -> linv (unlock_get s gi).
Proof.
  intros HI. apply (linv_sub s _ HI); [apply HI|apply NoDup_map_filter, HI|reflexivity|].
  intros k gj Hin. apply In_lock_get in Hin. tauto.
Qed.

(** Get [gi] moves on for the same key; if it is a registered loader it goes on holding the lock under the same id *)
Lemma linv_with_get s gi g g' : linv s -> nth_error (a_gets s) gi = Some g -> g_key g' = g_key g ->
  (forall id, holder (g_st g) = Some id -> In (g_key g, gi) (a_lock s) -> holder (g_st g') = Some id) ->
  linv (with_get s gi g').
Proof.
  intros [H1 H2 H3] Hg Ek Hh. constructor; auto.
  intros k gj Hin. destruct (H2 k gj Hin) as (g0 & id & Hn & Hk & Hho & Hs). cbn [with_get a_gets a_store].
  destruct (Nat.eq_dec gi gj) as [->|N].
  - rewrite Hg in Hn. injection Hn as <-. subst k. exists g', id.
    rewrite nth_error_upd_same by (eapply nth_error_lt; eauto). auto.
  - exists g0, id. rewrite nth_error_upd_other by exact N. auto.
Qed.

Lemma linv_enter s gi g st : linv s -> nth_error (a_gets s) gi = Some g ->
  (forall id, holder (g_st g) = Some id -> In (g_key g, gi) (a_lock s) -> holder st = Some id) ->
  linv (with_get s gi (enter g st)).
Proof. intros HI Hg Hh. apply (linv_with_get s gi g); [exact HI|exact Hg|apply enter_key|rewrite enter_st; exact Hh]. Qed.

Lemma linv_register s gi g id : linv s -> nth_error (a_gets s) gi = Some g -> holder (g_st g) = Some id ->
  sget (a_store s) (g_key g) = Some id -> (forall gj, ~ In (g_key g, gj) (a_lock s)) ->
  linv (set_lock s ((g_key g, gi) :: a_lock s)).
Proof.
  intros [H1 H2 H3] Hg Hh Hs Hf. constructor; cbn [set_lock a_store a_gets a_lock map fst]; [exact H1| |].
  - intros k gj [E|Hin]; [injection E as <- <-; eauto 6|apply H2, Hin].
  - constructor; [|exact H3]. intros Hin. apply in_map_iff in Hin. destruct Hin as ([k gj] & E & Hin).
    cbn [fst] in E. subst k. exact (Hf gj Hin).
Qed.

Lemma lock_key_not_ph s k gi : vinv s -> linv s -> In (k, gi) (a_lock s) -> is_ph k = false.
Proof.
  intros HV HL Hin. destruct (l_entries _ HL k gi Hin) as (g & id & Hn & Hk & _).
  destruct (vinv_get s gi g HV Hn) as [H _]. congruence.
Qed.

Lemma linv_step cttl s l s' : vinv s -> linv s -> label_ok l -> astep cttl s l = Some s' -> linv s'.
Proof.
  intros HV HI HL HS. apply astep_shape in HS. destruct HS; cbn [label_ok] in HL.
  - (* sh_new_client *) apply (linv_frame s); eauto.
  - (* sh_start_get *) apply (linv_frame s); [exact HI|reflexivity..|]. intros gi g Hn. exists g.
    cbn [set_gets a_gets]. rewrite nth_error_app1 by (eapply nth_error_lt; eauto). auto.
  - (* sh_err *) apply linv_enter; [exact HI|exact Hg|congruence].
  - (* sh_read *) destruct (cached_read_frame Ecr) as (Es & El & Eg & _).
    apply (linv_with_get s1 gi g); [|rewrite Eg; exact Hg|rewrite enter_key; reflexivity|rewrite Est; discriminate].
    apply (linv_frame s); [exact HI|exact Es|exact El|]. intros gj g0 Hn. exists g0. rewrite Eg. auto.
  - (* sh_probe *) destruct (cached_read_frame Ecr) as (Es & El & Eg & _).
    apply (linv_with_get s1 gi g); [|rewrite Eg; exact Hg|reflexivity|rewrite Est; discriminate].
    apply (linv_frame s); [exact HI|exact Es|exact El|]. intros gj g0 Hn. exists g0. rewrite Eg. auto.
  - (* sh_keep *) apply linv_enter; [|exact Hg|rewrite Est; discriminate].
    apply linv_mark; [exact HI|]. intros gj Hin. apply (lock_key_not_ph s _ _ HV HI) in Hin. congruence.
  - (* sh_lock_id *) apply linv_enter; [exact HI|exact Hg|congruence].
  - (* sh_install *) apply linv_enter; [|exact Hg|rewrite Est; discriminate]. apply (linv_frame s); eauto.
  - (* sh_lock_busy *) apply linv_enter; [exact HI|exact Hg|rewrite Est; discriminate].
  - (* sh_lock_free *) assert (Hf : forall gj, ~ In (g_key g, gj) (a_lock s)).
    { intros gj Hin. destruct (l_entries _ HI _ _ Hin) as (g0 & id0 & _ & _ & _ & Hs). congruence. }
    apply (linv_register (with_get (mark s (g_key g) id (a_now s + g_ttl g)) gi (enter g (GSLoad id))) gi (enter g (GSLoad id)) id).
    + apply linv_enter; [apply linv_mark; assumption|exact Hg|rewrite Est; discriminate].
    + cbn [with_get a_gets]. apply nth_error_upd_same. eapply nth_error_lt; eauto.
    + reflexivity.
    + apply sget_sset_same.
    + exact Hf.
  - (* sh_load *) apply (linv_enter (add_loaded s _)); [|exact Hg|rewrite Est; auto]. apply (linv_frame s); eauto.
  - (* sh_load_err *) apply linv_enter; [exact HI|exact Hg|rewrite Est; auto].
  - (* sh_store *) apply linv_enter; [apply linv_unlock_get, linv_put, HI|exact Hg|].
    intros id0 _ Hin. apply In_lock_get in Hin. tauto.
  - (* sh_store_err *) apply linv_enter; [apply linv_put, HI|exact Hg|rewrite Est; auto].
  - (* sh_unlock *) apply linv_enter; [apply linv_unlock_get, linv_put, HI|exact Hg|].
    intros id0 _ Hin. apply In_lock_get in Hin. tauto.
  - (* sh_release *) apply linv_enter; [apply linv_put, HI|exact Hg|rewrite Est; discriminate].
  - (* sh_wake *) apply linv_enter; [exact HI|exact Hg|rewrite Est; discriminate].
  - (* sh_inval *) apply (linv_frame s); [exact HI|reflexivity..|]. intros gi g Hn. exists (close_waits c ks g).
    cbn [a_gets]. rewrite nth_error_map, Hn. split; [reflexivity|]. split; apply close_waits_fields.
  - (* sh_del *) apply linv_put, HI.
  - (* sh_set *) apply linv_put. apply (linv_frame s); eauto.
  - (* sh_tick *) apply (linv_sub s _ HI); [apply NoDup_map_filter, HI|apply NoDup_map_filter, HI|reflexivity|].
    intros k gj Hin. apply filter_In in Hin. destruct Hin as [Hin Hgone]. cbn [fst] in Hgone. split; [exact Hin|].
    destruct (l_entries _ HI _ _ Hin) as (g0 & id & _ & _ & _ & Hs). cbn [a_store]. rewrite Hs.
    destruct (sget_expire (a_now s + dt) _ _ _ (l_uniq _ HI) Hs) as [E|E]; [exact E|].
    rewrite E in Hgone. discriminate.
  - (* sh_close *) apply (linv_frame s); eauto.
  - (* sh_lost *) apply (linv_frame s); [exact HI|reflexivity..|]. intros gi g Hn. exists (close_all_waits c g).
    cbn [set_gets a_gets]. rewrite nth_error_map, Hn. split; [reflexivity|]. split; apply close_all_fields.
  - (* sh_refresh *) apply linv_mark; [exact HI|]. intros gj Hin. apply (lock_key_not_ph s _ _ HV HI) in Hin.
    rewrite (proj1 (vinv_cl s c cl HV Hc) id Hid) in Hin. discriminate.
Qed.

Lemma both_run cttl ls s s' : vinv s /\ linv s -> Forall label_ok ls -> arun cttl s ls = Some s' -> vinv s' /\ linv s'.
Proof.
  apply (arun_inv (fun s => vinv s /\ linv s) label_ok). intros s0 l s1 [HV HI] HL HS.
  split; [eapply vinv_step|eapply linv_step]; eassumption.
Qed.

Definition key_of (s : astate) (g : nat) : option bytes :=
  match nth_error (a_gets s) g with Some x => Some (g_key x) | None => None end.

(** the steps that may end the registration of Get [gi] as the loader of key [k]: its own setkey / delkey, a script
    of anybody that changes that key (setkey, delkey by the owner's client, delkey by a Get that found the owner
    dead), a DEL or a foreign write of the key, a clock advance (expiry) *)
Definition disturbs (s : astate) (l : alabel) (k : bytes) (gi : nat) : Prop :=
  match l with
  | AStore g _ _ | AUnlock g _ => g = gi \/ key_of s g = Some k
  | ARelease g _ => key_of s g = Some k
  | ADel k' | ASet k' _ _ => k' = k
  | ATick _ => True
  | _ => False
  end.

Lemma In_lock_put s k' ov ok k gi : k' <> k -> In (k, gi) (a_lock s) -> In (k, gi) (a_lock (put s k' ov ok)).
Proof. intros N H. destruct ok; [|exact H]. apply In_lock_key. split; [exact H|congruence]. Qed.

(** what one Get acts on: its record and its client's *)
Definition focus (s : astate) (gi : nat) (g : get) (cl : client) : Prop :=
  nth_error (a_gets s) gi = Some g /\ nth_error (a_cls s) (g_cl g) = Some cl.

(** [g'] is a later record of the Get [g] *)
Definition follows (g g' : get) : Prop :=
  g_key g' = g_key g /\ g_cl g' = g_cl g /\ g_fn g' = g_fn g /\ g_ttl g' = g_ttl g.

Lemma follows_enter g0 g st : follows g0 g -> follows g0 (enter g st).
Proof. intros H. unfold follows. destruct st; exact H. Qed.

Lemma focus_with_get s gi g cl g' cls cl' : focus s gi g cl -> g_cl g' = g_cl g ->
  (cls = a_cls s /\ cl' = cl \/ cls = upd (g_cl g) cl' (a_cls s)) ->
  focus (with_get (set_cls s cls) gi g') gi g' cl'.
Proof.
  intros [Hg Hc] E Hcls. split; cbn [with_get set_cls a_gets a_cls].
  - apply nth_error_upd_same. eapply nth_error_lt; eauto.
  - rewrite E. destruct Hcls as [[-> ->]| ->]; [exact Hc|]. apply nth_error_upd_same. eapply nth_error_lt; eauto.
Qed.

Lemma step_read_miss cttl s gi g0 g cl : focus s gi g cl -> follows g0 g -> g_st g = GSRead ->
  exists s1 g1 cl1, astep cttl s (ARead gi false false) = Some s1 /\ focus s1 gi g1 cl1 /\ follows g0 g1 /\
    a_store s1 = a_store s /\
    g_st g1 = match sget (a_store s) (g_key g) with
              | Some x => after_value x
              | None => if g_fn g then GSKeep else GSDone (RErr [] ENil)
              end.
Proof.
  intros F Hf Hs. pose proof F as [Hg Hc]. unfold astep. cbn [astep_r]. rewrite Hg, Hs, Hc. cbn [cached_read].
  eexists; eexists; eexists. split; [reflexivity|].
  split; [apply (focus_with_get s gi g cl); [exact F|exact (enter_cl (set_flags g _ _) _)|right; reflexivity]|].
  split; [exact (follows_enter g0 (set_flags g _ _) _ Hf)|]. rewrite enter_st. auto.
Qed.

Lemma step_probe_miss cttl s gi g0 g cl ph : focus s gi g cl -> follows g0 g -> g_st g = GSProbe ph ->
  exists s1 g1 cl1, astep cttl s (AProbe gi false false) = Some s1 /\ focus s1 gi g1 cl1 /\ follows g0 g1 /\
    a_store s1 = a_store s /\
    g_st g1 = match sget (a_store s) ph with Some _ => GSWait ph | None => GSRelease ph end.
Proof.
  intros F Hf Hs. pose proof F as [Hg Hc]. unfold astep. cbn [astep_r]. rewrite Hg, Hs, Hc. cbn [cached_read].
  eexists; eexists; eexists. split; [reflexivity|].
  split; [apply (focus_with_get s gi g cl); [exact F|reflexivity|right; reflexivity]|].
  split; [exact Hf|]. cbn [set_st g_st]. destruct (sget (a_store s) ph); auto.
Qed.

Lemma step_release cttl s gi g0 g cl ph : focus s gi g cl -> follows g0 g -> g_st g = GSRelease ph ->
  sget (a_store s) (g_key g) = Some ph ->
  exists s1 g1, astep cttl s (ARelease gi true) = Some s1 /\ focus s1 gi g1 cl /\ follows g0 g1 /\
    a_store s1 = sdel (a_store s) (g_key g) /\ g_st g1 = GSRead.
Proof.
  intros F Hf Hs Hk. pose proof F as [Hg Hc]. unfold astep. cbn [astep_r]. rewrite Hg, Hs. unfold srv_delkey.
  rewrite Hk, bytes_eqb_refl. eexists; eexists. split; [reflexivity|].
  split; [apply (focus_with_get (put s (g_key g) None true) gi g cl); [exact F|reflexivity|left; auto]|].
  split; [apply follows_enter, Hf|auto].
Qed.

Lemma step_keep cttl s gi g0 g cl newid : focus s gi g cl -> follows g0 g -> g_st g = GSKeep ->
  exists s1 g1, astep cttl s (AKeep gi newid false) = Some s1 /\ focus s1 gi g1 cl /\ follows g0 g1 /\
    a_store s1 = sset (a_store s) newid [] (a_now s + cttl) /\ g_st g1 = GSInstall newid.
Proof.
  intros F Hf Hs. pose proof F as [Hg Hc]. unfold astep. cbn [astep_r]. rewrite Hg, Hs.
  eexists; eexists. split; [reflexivity|].
  split; [apply (focus_with_get (mark s newid [] (a_now s + cttl)) gi g cl); [exact F|reflexivity|left; auto]|].
  split; [exact Hf|auto].
Qed.

(** the second critical section of keepalive: the id the Get goes on with is the one installed in the client *)
Lemma step_install cttl s gi g0 g cl newid : focus s gi g cl -> follows g0 g -> g_st g = GSInstall newid ->
  exists s1 g1 cl1 id, astep cttl s (AInstall gi) = Some s1 /\ focus s1 gi g1 cl1 /\ follows g0 g1 /\
    a_store s1 = a_store s /\ g_st g1 = GSLock id.
Proof.
  intros F Hf Hs. pose proof F as [Hg Hc]. unfold astep. cbn [astep_r]. rewrite Hg, Hs, Hc.
  destruct (cl_id cl) as [id|]; eexists; eexists; eexists; eexists; (split; [reflexivity|]).
  - split; [apply (focus_with_get s gi g cl); [exact F|reflexivity|left; auto]|]. split; [exact Hf|repeat split].
  - split; [apply (focus_with_get s gi g cl); [exact F|reflexivity|right; reflexivity]|]. split; [exact Hf|repeat split].
Qed.

Lemma step_lock_free cttl s gi g id : nth_error (a_gets s) gi = Some g -> g_st g = GSLock id -> sget (a_store s) (g_key g) = None ->
  exists s1 g1, astep cttl s (ALock gi false) = Some s1 /\ nth_error (a_gets s1) gi = Some g1 /\
    g_st g1 = GSLoad id /\ sget (a_store s1) (g_key g) = Some id /\ In (g_key g, gi) (a_lock s1).
Proof.
  intros Hg Hs Hn. unfold astep. cbn [astep_r]. rewrite Hg, Hs. unfold srv_lock. rewrite Hn.
  eexists; eexists. split; [reflexivity|]. cbn [with_get a_gets a_store a_lock].
  split; [apply nth_error_upd_same; eapply nth_error_lt; eauto|]. split; [reflexivity|].
  split; [apply sget_sset_same|left; reflexivity].
Qed.

Lemma arun_trans cttl l1 l2 : forall s s1 s2,
  arun cttl s l1 = Some s1 -> arun cttl s1 l2 = Some s2 -> arun cttl s (l1 ++ l2) = Some s2.
Proof.
  induction l1 as [|l l1 IH]; intros s s1 s2 H1 H2; cbn [arun app] in *; [congruence|].
  destruct (astep cttl s l); [eauto|discriminate].
Qed.

(** a Get that reads the placeholder of a holder whose liveness key is gone probes, deletes the placeholder and is
    back at reading, on its own three steps *)
Lemma run_release_dead cttl s gi g cl ph : focus s gi g cl -> g_st g = GSRead ->
  sget (a_store s) (g_key g) = Some ph -> is_ph ph = true -> sget (a_store s) ph = None ->
  exists s3 g3 cl3, arun cttl s [ARead gi false false; AProbe gi false false; ARelease gi true] = Some s3 /\
    focus s3 gi g3 cl3 /\ follows g g3 /\ a_store s3 = sdel (a_store s) (g_key g) /\ g_st g3 = GSRead.
Proof.
  intros F0 Hs Hk Hph Hdead. assert (Hf : follows g g) by (unfold follows; auto).
  destruct (step_read_miss cttl s gi g g cl F0 Hf Hs) as (s1 & g1 & cl1 & R1 & F1 & Hf1 & S1 & St1).
  rewrite Hk in St1. unfold after_value in St1. rewrite Hph in St1.
  destruct (step_probe_miss cttl s1 gi g g1 cl1 ph F1 Hf1 St1) as (s2 & g2 & cl2 & R2 & F2 & Hf2 & S2 & St2).
  rewrite S1, Hdead in St2.
  destruct (step_release cttl s2 gi g g2 cl2 ph F2 Hf2 St2) as (s3 & g3 & R3 & F3 & Hf3 & S3 & St3).
  { rewrite (proj1 Hf2), S2, S1. exact Hk. }
  rewrite (proj1 Hf2), S2, S1 in S3.
  exists s3, g3, cl2. cbn [arun]. rewrite R1, R2, R3. auto.
Qed.

(** a Get with a loader that reads an absent key goes through keepalive, takes the lock and starts its loader, on
    its own four steps *)
Lemma run_load_absent cttl s gi g cl newid : focus s gi g cl -> g_st g = GSRead -> g_fn g = true ->
  sget (a_store s) (g_key g) = None -> newid <> g_key g ->
  exists s' g' id, arun cttl s [ARead gi false false; AKeep gi newid false; AInstall gi; ALock gi false] = Some s' /\
    nth_error (a_gets s') gi = Some g' /\ g_st g' = GSLoad id /\
    sget (a_store s') (g_key g) = Some id /\ In (g_key g, gi) (a_lock s').
Proof.
  intros F0 Hs Hfn Hk Hnew. assert (Hf : follows g g) by (unfold follows; auto).
  destruct (step_read_miss cttl s gi g g cl F0 Hf Hs) as (s1 & g1 & cl1 & R1 & F1 & Hf1 & S1 & St1).
  rewrite Hk, Hfn in St1.
  destruct (step_keep cttl s1 gi g g1 cl1 newid F1 Hf1 St1) as (s2 & g2 & R2 & F2 & Hf2 & S2 & St2).
  destruct (step_install cttl s2 gi g g2 cl1 newid F2 Hf2 St2) as (s3 & g3 & cl3 & id & R3 & F3 & (K3 & _) & S3 & St3).
  assert (Hfree : sget (a_store s3) (g_key g3) = None).
  { rewrite K3, S3, S2, S1, sget_sset_other by exact Hnew. exact Hk. }
  destruct (step_lock_free cttl s3 gi g3 id (proj1 F3) St3 Hfree) as (s4 & g4 & R4 & G4 & St4 & S4 & L4).
  exists s4, g4, id. cbn [arun]. rewrite R1, R2, R3, R4. rewrite K3 in S4, L4. auto.
Qed.

(** a delivered invalidation for the key or the placeholder a Get waits on closes one of its two channels *)
Lemma close_waits_wakes g ph k : g_st g = GSWait ph -> k = g_key g \/ k = ph ->
  (g_wait_closed (close_waits (g_cl g) [k] g) || g_ph_closed (close_waits (g_cl g) [k] g))%bool = true.
Proof.
  intros Hs Hk. unfold close_waits. rewrite Nat.eqb_refl. cbn [set_flags g_wait_closed g_ph_closed]. rewrite Hs.
  cbn [ph_of_state mem_key]. destruct Hk as [->| ->]; rewrite bytes_eqb_refl; cbn [orb]; rewrite ?orb_true_r; reflexivity.
Qed.

Definition pend (tr infl : list (nat * bytes)) (c : nat) (k : bytes) : Prop := In (c, k) tr \/ In (c, k) infl.
Definition pending (s : astate) (c : nat) (k : bytes) : Prop := pend (a_track s) (a_infl s) c k.

Lemma pend_touch tr infl k' c k : pend tr infl c k -> pend (fst (touch tr infl k')) (snd (touch tr infl k')) c k.
Proof.
  unfold pend, touch. cbn [fst snd]. intros [H|H].
  - destruct (bytes_eqb k k') eqn:E.
    + right. apply in_or_app. right. apply filter_In. split; [exact H|]. cbn [snd]. exact E.
    + left. apply filter_In. split; [exact H|]. cbn [snd]. rewrite E. reflexivity.
  - right. apply in_or_app. left. exact H.
Qed.

Lemma pend_touch_all ks : forall tr infl c k, pend tr infl c k ->
  pend (fst (touch_all tr infl ks)) (snd (touch_all tr infl ks)) c k.
Proof.
  induction ks as [|k' ks IH]; intros tr infl c k H; cbn [touch_all]; [exact H|].
  pose proof (pend_touch tr infl k' c k H) as H'. destruct (touch tr infl k') as [tr' infl']. apply IH, H'.
Qed.

Lemma pend_track tr infl c0 k0 c k : pend tr infl c k -> pend (track tr c0 k0) infl c k.
Proof. unfold pend, track. intros [H|H]; [left|right; exact H]. destruct (mem_pair (c0, k0) tr); [exact H|right; exact H]. Qed.

Lemma pend_track_new tr infl c k : pend (track tr c k) infl c k.
Proof.
  unfold pend, track. left. destruct (mem_pair (c, k) tr) eqn:E; [apply mem_pair_In, E|left; reflexivity].
Qed.

Lemma write_pending s st' k' u c k : pending s c k -> pending (write s st' k' u) c k.
Proof. exact (pend_touch (a_track s) (a_infl s) k' c k). Qed.

Lemma put_pending s k' ov ok c k : pending s c k -> pending (put s k' ov ok) c k.
Proof. destruct ok; [apply write_pending|rewrite put_false; auto]. Qed.

(** the placeholder a state waits on after having probed it *)
Definition waits_on (st : gstate) : option bytes := match st with GSRelease p | GSWait p => Some p | _ => None end.

(** no lost wake-up: what a client caches or a Get waits for is tracked at the server or its invalidation is on
    its way, unless the channel is already closed (C39_waiter_not_forgotten_partial) *)
Record winv (s : astate) : Prop := {
  w_cache : forall c cl k x, nth_error (a_cls s) c = Some cl -> In (k, x) (cl_cache cl) -> pending s c k;
  w_key : forall gi g, nth_error (a_gets s) gi = Some g -> after_read (g_st g) = true ->
          g_wait_closed g = true \/ pending s (g_cl g) (g_key g);
  w_ph : forall gi g ph, nth_error (a_gets s) gi = Some g -> waits_on (g_st g) = Some ph ->
         g_ph_closed g = true \/ pending s (g_cl g) ph }.

Lemma winv_init now : winv (ainit now).
Proof. constructor; cbn; intros; destruct c || destruct gi; discriminate. Qed.

Lemma winv_mono s s' : winv s -> a_gets s' = a_gets s -> (forall c k, pending s c k -> pending s' c k) ->
  (forall c cl' k x, nth_error (a_cls s') c = Some cl' -> In (k, x) (cl_cache cl') ->
                     exists cl, nth_error (a_cls s) c = Some cl /\ In (k, x) (cl_cache cl)) ->
  winv s'.
Proof.
  intros [H1 H2 H3] Eg Hp Hc. constructor; rewrite ?Eg.
  - intros c cl' k x Hn Hin. destruct (Hc c cl' k x Hn Hin) as (cl & Hn0 & Hin0). apply Hp. eapply H1; eauto.
  - intros gi g Hg Ha. destruct (H2 gi g Hg Ha); auto.
  - intros gi g ph Hg Ha. destruct (H3 gi g ph Hg Ha); auto.
Qed.

Lemma winv_set_lock s lk : winv s -> winv (set_lock s lk).
Proof. intros [H1 H2 H3]. constructor; assumption. Qed.

Lemma winv_put s k ov ok : winv s -> winv (put s k ov ok).
Proof.
  intros HW. apply (winv_mono s); [exact HW|reflexivity|intros c k'; apply put_pending|eauto].
Qed.

Lemma winv_mark s k v e : winv s -> winv (mark s k v e).
Proof. intros HW. apply (winv_mono s); [exact HW|reflexivity|intros c k'; apply write_pending|eauto]. Qed.

Lemma winv_set_cl s c cl cl' : winv s -> nth_error (a_cls s) c = Some cl -> incl (cl_cache cl') (cl_cache cl) ->
  winv (set_cls s (upd c cl' (a_cls s))).
Proof.
  intros HW Hc Hi. apply (winv_mono s); [exact HW|reflexivity|auto|].
  intros c0 cl0 k x Hn Hin. apply nth_error_upd_inv in Hn. destruct Hn as [[-> ->]|[_ Hn]]; eauto.
Qed.

Lemma winv_with_get s gi g g' : winv s -> nth_error (a_gets s) gi = Some g ->
  g_cl g' = g_cl g -> g_key g' = g_key g ->
  (after_read (g_st g') = true -> g_wait_closed g' = true \/ pending s (g_cl g) (g_key g)) ->
  (forall ph, waits_on (g_st g') = Some ph -> g_ph_closed g' = true \/ pending s (g_cl g) ph) ->
  winv (with_get s gi g').
Proof.
  intros [H1 H2 H3] Hg Ec Ek Hk Hp. constructor; [exact H1| |].
  - intros gj g0 Hj Ha. apply nth_error_upd_inv in Hj. destruct Hj as [[-> ->]|[_ Hj]]; [|eapply H2; eauto].
    rewrite Ec, Ek. exact (Hk Ha).
  - intros gj g0 ph Hj Ha. apply nth_error_upd_inv in Hj. destruct Hj as [[-> ->]|[_ Hj]]; [|eapply H3; eauto].
    rewrite Ec. exact (Hp ph Ha).
Qed.

Lemma enter_flags g st :
  g_wait_closed (enter g st) = (match st with GSRead => false | _ => g_wait_closed g end) /\
  g_ph_closed (enter g st) = (match st with GSProbe _ => false | _ => g_ph_closed g end).
Proof. unfold enter. destruct st; cbn; auto. Qed.

Lemma winv_enter s gi g st : winv s -> nth_error (a_gets s) gi = Some g ->
  after_read (g_st g) = true \/ after_read st = false -> waits_on st = None ->
  winv (with_get s gi (enter g st)).
Proof.
  intros HW Hg Ha Hw. apply (winv_with_get s gi g); [exact HW|exact Hg|apply enter_cl|apply enter_key| |].
  - rewrite enter_st. intros Hs. destruct Ha as [Ha|Ha]; [|congruence].
    rewrite (proj1 (enter_flags g st)). destruct st; try discriminate; exact (w_key _ HW gi g Hg Ha).
  - rewrite enter_st, Hw. discriminate.
Qed.

Lemma after_value_waits x : waits_on (after_value x) = None.
Proof. unfold after_value. destruct (is_ph x); reflexivity. Qed.

Lemma cached_read_winv {s c cl k hit v s1 stale} :
  winv s -> nth_error (a_cls s) c = Some cl -> cached_read s c cl k hit = Some (v, s1, stale) ->
  winv s1 /\ (stale = true \/ pending s1 c k) /\ (forall c' k', pending s c' k' -> pending s1 c' k').
Proof.
  intros HW Hc H. destruct (cached_read_cases H) as [[-> [[Hin _]|[_ ->]]]|(-> & _ & _)]; [|auto|].
  - split; [exact HW|]. split; [|auto]. right. exact (w_cache _ HW c cl k v Hc Hin).
  - assert (Hp : forall c' k', pending s c' k' -> pending (read_through s c cl k) c' k')
      by (intros c' k' Hq; apply pend_track, Hq).
    split; [|split; [right; apply pend_track_new|exact Hp]].
    destruct HW as [H1 H2 H3]. constructor.
    + intros c' cl' k' x Hc' Hin. apply nth_error_upd_inv in Hc'. destruct Hc' as [[-> ->]|[_ Hc']]; [|apply Hp; eapply H1; eauto].
      destruct Hin as [E|Hin]; [injection E as <- _; apply pend_track_new|].
      apply In_cremove in Hin. apply Hp. eapply H1; eauto.
    + intros gi g Hg Ha. destruct (H2 gi g Hg Ha); [left; assumption|right; apply Hp; assumption].
    + intros gi g ph Hg Ha. destruct (H3 gi g ph Hg Ha); [left; assumption|right; apply Hp; assumption].
Qed.

Lemma In_rm1 x y l : x <> y -> In x l -> In x (rm1 y l).
Proof.
  intros N. induction l as [|z l IH]; cbn [rm1 In]; [tauto|].
  destruct (pair_eqb y z) eqn:E.
  - apply pair_eqb_eq in E. subst z. intros [H|H]; [congruence|exact H].
  - intros [H|H]; [left; exact H|right; apply IH, H].
Qed.

Lemma In_rm_keys c ks : forall l c' k', In (c', k') l -> (c' <> c \/ mem_key k' ks = false) -> In (c', k') (rm_keys c ks l).
Proof.
  induction ks as [|k ks IH]; intros l c' k' H Hn; cbn [rm_keys]; [exact H|].
  apply IH.
  - apply In_rm1; [|exact H]. destruct Hn as [N|N]; [congruence|].
    cbn [mem_key] in N. apply orb_false_iff in N. destruct N as [N _]. apply bytes_eqb_neq in N. congruence.
  - destruct Hn as [N|N]; [left; exact N|right]. cbn [mem_key] in N. apply orb_false_iff in N. tauto.
Qed.

(** a delivery to a client: every Get goes through [f], which keeps client, key and state and only closes
    channels; whatever stops being pending for a Get's client has that Get's channels for it closed *)
Lemma winv_deliver s s' f : winv s -> a_gets s' = map f (a_gets s) ->
  (forall g, g_key (f g) = g_key g /\ g_st (f g) = g_st g /\ g_cl (f g) = g_cl g) ->
  (forall g, (g_wait_closed g = true -> g_wait_closed (f g) = true) /\ (g_ph_closed g = true -> g_ph_closed (f g) = true)) ->
  (forall g k, pending s (g_cl g) k -> pending s' (g_cl g) k \/
     (k = g_key g -> g_wait_closed (f g) = true) /\ (waits_on (g_st g) = Some k -> g_ph_closed (f g) = true)) ->
  (forall c cl k x, nth_error (a_cls s') c = Some cl -> In (k, x) (cl_cache cl) -> pending s' c k) ->
  winv s'.
Proof.
  intros [W1 W2 W3] Eg Hf Hfl Hp Hc. constructor; [exact Hc| |]; rewrite Eg.
  - intros gi g' Hn Ha. rewrite nth_error_map in Hn. destruct (nth_error (a_gets s) gi) as [g|] eqn:Hg; [|discriminate].
    injection Hn as <-. destruct (Hf g) as (Ek & Es & Ec). rewrite Es in Ha. rewrite Ec, Ek.
    destruct (W2 gi g Hg Ha) as [H|H]; [left; apply Hfl, H|]. destruct (Hp g _ H) as [H'|[H' _]]; auto.
  - intros gi g' ph Hn Ha. rewrite nth_error_map in Hn. destruct (nth_error (a_gets s) gi) as [g|] eqn:Hg; [|discriminate].
    injection Hn as <-. destruct (Hf g) as (Ek & Es & Ec). rewrite Es in Ha. rewrite Ec.
    destruct (W3 gi g ph Hg Ha) as [H|H]; [left; apply Hfl, H|]. destruct (Hp g _ H) as [H'|[_ H']]; auto.
Qed.

Lemma winv_step cttl s l s' : winv s -> astep cttl s l = Some s' -> winv s'.
Proof.
  intros HW HS. apply astep_shape in HS. destruct HS.
  - (* sh_new_client *) apply (winv_mono s); [exact HW|reflexivity|auto|]. intros c cl' k x Hn Hin.
    apply nth_error_snoc in Hn. destruct Hn as [Hn| ->]; [eauto|destruct Hin].
  - (* sh_start_get *) destruct HW as [W1 W2 W3]. constructor; [exact W1| |].
    + intros gi g Hg. apply nth_error_snoc in Hg. destruct Hg as [Hg| ->]; [exact (W2 gi g Hg)|discriminate].
    + intros gi g ph Hg. apply nth_error_snoc in Hg. destruct Hg as [Hg| ->]; [exact (W3 gi g ph Hg)|discriminate].
  - (* sh_err *) apply winv_enter; [exact HW|exact Hg|right; reflexivity|reflexivity].
  - (* sh_read *) destruct (cached_read_winv HW Hc Ecr) as (HW1 & Hst & _).
    destruct (cached_read_frame Ecr) as (_ & _ & Eg & _).
    apply (winv_with_get s1 gi g); [exact HW1|rewrite Eg; exact Hg|rewrite enter_cl; reflexivity|rewrite enter_key; reflexivity| |].
    + rewrite enter_st, (proj1 (enter_flags _ _)). intros Ha. cbn [set_flags g_wait_closed].
      destruct Hst as [->|Hp]; [left|right; exact Hp].
      destruct v as [x|]; [unfold after_value in *; destruct (is_ph x)|destruct (g_fn g)]; try discriminate; apply orb_true_r.
    + rewrite enter_st. destruct v as [x|]; [rewrite after_value_waits|destruct (g_fn g)]; discriminate.
  - (* sh_probe *) destruct (cached_read_winv HW Hc Ecr) as (HW1 & Hst & Hm).
    destruct (cached_read_frame Ecr) as (_ & _ & Eg & _).
    apply (winv_with_get s1 gi g); [exact HW1|rewrite Eg; exact Hg|reflexivity|reflexivity| |].
    + intros _. destruct (w_key _ HW gi g Hg) as [Hw|Hp]; [rewrite Est; reflexivity|left; exact Hw|right; apply Hm, Hp].
    + cbn [set_st set_flags g_st g_ph_closed]. intros p Hp. assert (p = ph) by (destruct v; cbn in Hp; congruence). subst p.
      destruct Hst as [->|Hq]; [left; apply orb_true_r|right; exact Hq].
  - (* sh_keep *) apply winv_enter; [apply winv_mark, HW|exact Hg|left; rewrite Est; reflexivity|reflexivity].
  - (* sh_lock_id *) apply winv_enter; [exact HW|exact Hg|left; exact Har|reflexivity].
  - (* sh_install *) apply winv_enter; [|exact Hg|left; rewrite Est; reflexivity|reflexivity].
    apply (winv_set_cl s _ cl); [exact HW|exact Hc|apply incl_refl].
  - (* sh_lock_busy *) apply winv_enter; [exact HW|exact Hg|left; rewrite Est; reflexivity|apply after_value_waits].
  - (* sh_lock_free *) apply winv_set_lock, winv_enter; [apply winv_mark, HW|exact Hg|left; rewrite Est; reflexivity|reflexivity].
  - (* sh_load *) apply winv_enter; [|exact Hg|left; rewrite Est; reflexivity|reflexivity].
    apply (winv_mono s); [exact HW|reflexivity|auto|eauto].
  - (* sh_load_err *) apply winv_enter; [exact HW|exact Hg|left; rewrite Est; reflexivity|reflexivity].
  - (* sh_store *) apply winv_enter; [|exact Hg|left; rewrite Est; reflexivity|apply after_value_waits].
    apply winv_set_lock, winv_put, HW.
  - (* sh_store_err *) apply winv_enter; [apply winv_put, HW|exact Hg|left; rewrite Est; reflexivity|reflexivity].
  - (* sh_unlock *) apply winv_enter; [|exact Hg|right; reflexivity|reflexivity].
    apply winv_set_lock, winv_put, HW.
  - (* sh_release *) apply winv_enter; [apply winv_put, HW|exact Hg|right; reflexivity|reflexivity].
  - (* sh_wake *) apply winv_enter; [exact HW|exact Hg|right; reflexivity|reflexivity].
  - (* sh_inval *) (* what is delivered stops being pending, but it closes the channels and leaves the cache *)
    assert (Hkeep : forall c' k', pending s c' k' -> (c' <> c \/ mem_key k' ks = false) ->
              pend (a_track s) (rm_keys c ks (a_infl s)) c' k').
    { intros c' k' [H|H] Hn; [left; exact H|right]. apply In_rm_keys; assumption. }
    apply (winv_deliver s _ (close_waits c ks)); [exact HW|reflexivity|apply close_waits_fields| | |].
    + intros g. unfold close_waits. destruct (Nat.eqb (g_cl g) c); cbn [set_flags g_wait_closed g_ph_closed]; [|auto].
      split; intros ->; reflexivity.
    + intros g k Hp. unfold close_waits. destruct (Nat.eqb_spec (g_cl g) c) as [E|N]; [|left; apply Hkeep; auto].
      destruct (mem_key k ks) eqn:M; [right|left; apply Hkeep; auto]. cbn [set_flags g_wait_closed g_ph_closed].
      split; [intros <-; rewrite M; apply orb_true_r|]. intros Hw.
      assert (Hph : ph_of_state (g_st g) = Some k) by (destruct (g_st g); cbn in Hw |- *; congruence).
      rewrite Hph, M. apply orb_true_r.
    + intros c' cl' k x Hc' Hin. apply nth_error_upd_inv in Hc'. destruct Hc' as [[-> ->]|[N Hc']].
      * apply filter_In in Hin. destruct Hin as [Hin Hm]. cbn [fst] in Hm. apply negb_true_iff in Hm.
        apply Hkeep; [eapply (w_cache _ HW); eauto|right; exact Hm].
      * apply Hkeep; [eapply (w_cache _ HW); eauto|left; exact N].
  - (* sh_del *) apply winv_put, HW.
  - (* sh_set *) apply winv_put. apply (winv_mono s); [exact HW|reflexivity|auto|eauto].
  - (* sh_tick *) apply (winv_mono s); [exact HW|reflexivity| |eauto]. intros c k Hp.
    pose proof (pend_touch_all (gone_keys (a_store s) (expire (a_now s + dt) (a_store s))) _ _ c k Hp) as Hq.
    rewrite Ett in Hq. exact Hq.
  - (* sh_close *) apply (winv_set_cl s c cl); [exact HW|exact Hc|apply incl_refl].
  - (* sh_lost *) apply (winv_deliver s _ (close_all_waits c)); [exact HW|reflexivity|apply close_all_fields| |intros g k Hp; left; exact Hp|].
    + intros g. unfold close_all_waits. destruct (Nat.eqb (g_cl g) c); auto.
    + intros c' cl' k x Hc' Hin. apply nth_error_upd_inv in Hc'. destruct Hc' as [[-> ->]|[_ Hc']]; [destruct Hin|].
      exact (w_cache _ HW c' cl' k x Hc' Hin).
  - (* sh_refresh *) apply winv_mark, HW.
Qed.

Lemma winv_run cttl ls s s' : winv s -> arun cttl s ls = Some s' -> winv s'.
Proof.
  intros HW. apply (arun_inv winv (fun _ => True)); [intros s0 l s1 H _; apply winv_step, H|exact HW|].
  apply Forall_forall. auto.
Qed.

(** The id a Get locks with is the id installed in its client (C39_lock_id_is_installed_id).
    Several Gets of one client may race in keepalive: each sees c.id == "" and SETs a marker of its own; only the
    first one through the second critical section installs its marker as c.id (and starts the goroutine that
    refreshes it), the others go on with the installed one.  So, as long as the client does not lose its
    connection ([ALost]), every Get that locks, loads, stores or unlocks does it under the client's CURRENT id —
    the one [ARefresh] keeps alive — and never under a private marker nobody refreshes. *)

(** the id a state locks with or holds the lock under *)
Definition user (st : gstate) : option bytes := match st with GSLock id => Some id | _ => holder st end.

Lemma uses_user st id : st = GSLock id \/ holding st id -> user st = Some id.
Proof. intros [->|H]; [reflexivity|]. apply holding_holder in H. destruct st; try discriminate; exact H. Qed.

Definition has_id (s : astate) (c : nat) (id : bytes) : Prop :=
  exists cl, nth_error (a_cls s) c = Some cl /\ cl_id cl = Some id.

Definition idinv (c : nat) (s : astate) : Prop :=
  forall gi g id, nth_error (a_gets s) gi = Some g -> g_cl g = c -> user (g_st g) = Some id -> has_id s c id.

Lemma idinv_init c now : idinv c (ainit now).
Proof. intros gi g id Hn. destruct gi; discriminate. Qed.

Lemma idinv_frame c s s' : idinv c s -> (forall id, has_id s c id -> has_id s' c id) ->
  (forall gi g', nth_error (a_gets s') gi = Some g' ->
                 exists g, nth_error (a_gets s) gi = Some g /\ g_cl g = g_cl g' /\ g_st g = g_st g') ->
  idinv c s'.
Proof.
  intros HI Hc Hg gi g' id Hn Hcl Hu. destruct (Hg gi g' Hn) as (g & Hn0 & Ec & Es).
  apply Hc. apply (HI gi g id Hn0); congruence.
Qed.

Lemma idinv_same c s s' : idinv c s -> a_cls s' = a_cls s -> a_gets s' = a_gets s -> idinv c s'.
Proof.
  intros HI Ec Eg. apply (idinv_frame c s); [exact HI|unfold has_id; rewrite Ec; auto|rewrite Eg; intros gi g' Hn; exists g'; auto].
Qed.

Lemma has_id_upd_other s c c' cl' id cls' :
  cls' = upd c' cl' (a_cls s) -> c' <> c ->
  (exists cl, nth_error (a_cls s) c = Some cl /\ cl_id cl = Some id) ->
  exists cl, nth_error cls' c = Some cl /\ cl_id cl = Some id.
Proof. intros -> N (cl & H1 & H2). exists cl. rewrite nth_error_upd_other by exact N. auto. Qed.

Lemma idinv_set_cl c s s' c' cl cl' : idinv c s -> nth_error (a_cls s) c' = Some cl ->
  a_cls s' = upd c' cl' (a_cls s) -> a_gets s' = a_gets s -> cl_id cl = None \/ cl_id cl' = cl_id cl -> idinv c s'.
Proof.
  intros HI Hc Ec Eg E. apply (idinv_frame c s); [exact HI| |rewrite Eg; intros gi g' Hn; exists g'; auto].
  intros id Hid. destruct (Nat.eq_dec c' c) as [->|N]; [|exact (has_id_upd_other s c c' cl' id _ Ec N Hid)].
  destruct Hid as (cl0 & H1 & H2). exists cl'. rewrite Ec.
  split; [apply nth_error_upd_same; eapply nth_error_lt; eauto|]. destruct E; congruence.
Qed.

Lemma idinv_with_get c s gi g g' : idinv c s -> nth_error (a_gets s) gi = Some g -> g_cl g' = g_cl g ->
  (forall id, user (g_st g') = Some id -> user (g_st g) = Some id \/ has_id s (g_cl g) id) ->
  idinv c (with_get s gi g').
Proof.
  intros HI Hg Ec Hu gj g0 id Hn Hcl Hus. apply nth_error_upd_inv in Hn. destruct Hn as [[-> ->]|[_ Hn]].
  - rewrite Ec in Hcl. destruct (Hu id Hus) as [H|H]; [exact (HI gi g id Hg Hcl H)|subst c; exact H].
  - exact (HI gj g0 id Hn Hcl Hus).
Qed.

Lemma idinv_enter c s gi g st : idinv c s -> nth_error (a_gets s) gi = Some g ->
  (forall id, user st = Some id -> user (g_st g) = Some id \/ has_id s (g_cl g) id) ->
  idinv c (with_get s gi (enter g st)).
Proof. intros HI Hg Hu. apply (idinv_with_get c s gi g); [exact HI|exact Hg|apply enter_cl|rewrite enter_st; exact Hu]. Qed.

Lemma after_value_user x : user (after_value x) = None.
Proof. unfold after_value. destruct (is_ph x); reflexivity. Qed.

Lemma cached_read_id s c0 cl k hit v s1 stale c :
  nth_error (a_cls s) c0 = Some cl -> cached_read s c0 cl k hit = Some (v, s1, stale) -> idinv c s -> idinv c s1.
Proof.
  intros Hc H HI. destruct (cached_read_cases H) as [[-> _]|[-> _]]; [exact HI|].
  eapply idinv_set_cl; [exact HI|exact Hc|reflexivity|reflexivity|right; reflexivity].
Qed.

Lemma idinv_step cttl c s l s' : idinv c s -> l <> ALost c -> astep cttl s l = Some s' -> idinv c s'.
Proof.
  intros HI HL HS. apply astep_shape in HS.
  (* a Get that moves without touching the clients ([idinv] looks at neither store nor ghosts): what is left to show
     is about the id its new state uses *)
  destruct HS; try (apply idinv_enter; [apply (idinv_same c s); [exact HI|reflexivity..]|exact Hg|]).
  - (* sh_new_client *) apply (idinv_frame c s); [exact HI| |intros gi g' Hn; exists g'; auto]. intros id (cl & H1 & H2). exists cl. split; [|exact H2].
    cbn [set_cls a_cls]. rewrite nth_error_app1 by (eapply nth_error_lt; eauto). exact H1.
  - (* sh_start_get *) intros gi g' id Hn Hcl Hu. apply nth_error_snoc in Hn.
    destruct Hn as [Hn| ->]; [exact (HI gi g' id Hn Hcl Hu)|discriminate].
  - (* sh_err *) discriminate.
  - (* sh_read *) destruct (cached_read_frame Ecr) as (_ & _ & Eg & _).
    apply (idinv_with_get c s1 gi g); [|rewrite Eg; exact Hg|rewrite enter_cl; reflexivity|].
    + eapply cached_read_id; eauto.
    + rewrite enter_st. destruct v as [x|]; [rewrite after_value_user|destruct (g_fn g)]; discriminate.
  - (* sh_probe *) destruct (cached_read_frame Ecr) as (_ & _ & Eg & _).
    apply (idinv_with_get c s1 gi g); [|rewrite Eg; exact Hg|reflexivity|destruct v; discriminate].
    eapply cached_read_id; eauto.
  - (* sh_keep *) discriminate.
  - (* sh_lock_id *) intros id0 E. injection E as <-. right. exists cl. auto.
  - (* sh_install *) apply idinv_enter; [eapply idinv_set_cl; [exact HI|exact Hc|reflexivity|reflexivity|left; exact Hid]|exact Hg|].
    intros id0 E. injection E as <-. right.
    eexists. split; [apply nth_error_upd_same; eapply nth_error_lt; eauto|reflexivity].
  - (* sh_lock_busy *) rewrite after_value_user. discriminate.
  - (* sh_lock_free *) rewrite Est. auto.
  - (* sh_load *) rewrite Est. auto.
  - (* sh_load_err *) rewrite Est. auto.
  - (* sh_store *) rewrite after_value_user. discriminate.
  - (* sh_store_err *) rewrite Est. auto.
  - (* sh_unlock *) discriminate.
  - (* sh_release *) discriminate.
  - (* sh_wake *) discriminate.
  - (* sh_inval *) apply (idinv_frame c (set_cls s (upd c0 {| cl_id := cl_id cl; cl_closed := cl_closed cl; cl_cache := cremove (cl_cache cl) ks;
                                               cl_prev := ckeep (cl_cache cl) ks ++ cl_prev cl |} (a_cls s))));
      [eapply idinv_set_cl; [exact HI|exact Hc|reflexivity|reflexivity|right; reflexivity]|auto|].
    intros gi g' Hn. cbn [a_gets] in Hn. rewrite nth_error_map in Hn.
    destruct (nth_error (a_gets s) gi) as [g1|] eqn:Hg1; [|discriminate]. injection Hn as <-.
    exists g1. destruct (close_waits_fields c0 ks g1) as (_ & Es & Ec). auto.
  - (* sh_del *) apply (idinv_same c s); auto.
  - (* sh_set *) apply (idinv_same c s); auto.
  - (* sh_tick *) apply (idinv_same c s); auto.
  - (* sh_close *) eapply idinv_set_cl; [exact HI|exact Hc|reflexivity|reflexivity|right; reflexivity].
  - (* sh_lost *) assert (N : c0 <> c) by congruence.
    apply (idinv_frame c s); [exact HI|intros id Hid; exact (has_id_upd_other s c c0 _ id _ eq_refl N Hid)|].
    intros gi g' Hn. cbn [set_gets a_gets] in Hn. rewrite nth_error_map in Hn.
    destruct (nth_error (a_gets s) gi) as [g1|] eqn:Hg1; [|discriminate]. injection Hn as <-.
    exists g1. destruct (close_all_fields c0 g1) as (_ & Es & Ec). auto.
  - (* sh_refresh *) apply (idinv_same c s); auto.
Qed.

Lemma idinv_run cttl c ls s s' : idinv c s -> ~ In (ALost c) ls -> arun cttl s ls = Some s' -> idinv c s'.
Proof.
  intros HI HN. apply (arun_inv (idinv c) (fun l => l <> ALost c)); [apply idinv_step|exact HI|].
  apply Forall_forall. intros l Hl ->. exact (HN Hl).
Qed.
