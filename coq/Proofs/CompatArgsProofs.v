(** C42: the adapter's argument construction (Model/CompatArgs.v) against the go-redis specification
    (Model/GoRedisSpec.v).  Both build a command by appending optional segments, and equality up to
    [norm_toks] is a congruence for [++] and [if] ([toks_app], [toks_if]): the two are compared segment
    by segment (hint database and tactic [toks]).  Then what the known differences rest on: when the
    adapter panics, where the token lists part.  Props/C42.v derives the theorems, method by method. *)
From Coq Require Import List NArith ZArith String Bool Lia DecimalN.
Require Import RV.Model.Base RV.Model.CompatBase RV.Model.GoRedisSpec RV.Model.CompatArgs RV.Proofs.BytesProofs.
Import ListNotations.
Local Open Scope Z_scope.

Arguments print_Z : simpl never.
Arguments print_N : simpl never.
Arguments upper : simpl never.
Arguments lower : simpl never.

Lemma norm_toks_app : forall a b, norm_toks (a ++ b) = norm_toks a ++ norm_toks b.
Proof. intros. unfold norm_toks. apply flat_map_app. Qed.

Lemma norm_toks_if : forall (c : bool) a b, norm_toks (if c then a else b) = if c then norm_toks a else norm_toks b.
Proof. intros []; reflexivity. Qed.

Lemma norm_toks_cons : forall t l, norm_toks (t :: l) = norm_tok t ++ norm_toks l.
Proof. reflexivity. Qed.

Lemma norm_toks_mapD : forall l, norm_toks (map D l) = map D l.
Proof. induction l as [|x l IH]; [reflexivity|]. cbn. f_equal. exact IH. Qed.

Lemma norm_toks_map_ext : forall A (f g : A -> tok) l,
  (forall x, norm_tok (f x) = norm_tok (g x)) -> norm_toks (map f l) = norm_toks (map g l).
Proof. intros A f g l H. induction l as [|x l IH]; [reflexivity|]. cbn. rewrite H. f_equal. exact IH. Qed.

Lemma norm_toks_flat_map_ext : forall A (f g : A -> list tok) l,
  (forall x, norm_toks (f x) = norm_toks (g x)) -> norm_toks (flat_map f l) = norm_toks (flat_map g l).
Proof.
  intros A f g l H. induction l as [|x l IH]; [reflexivity|].
  cbn [flat_map]. rewrite !norm_toks_app, H, IH. reflexivity.
Qed.

(** [norm] is decided by [norm_toks] *)
Lemma norm_of_toks : forall a b, norm_toks a = norm_toks b -> wire (Ok a) = wire (Ok b).
Proof. intros a b H. cbn. unfold norm. rewrite H. reflexivity. Qed.

(** and, outside SET, where [canon] is the identity, by nothing else *)
Lemma canon_other : forall c l, is_kw c "SET" = false -> canon (K c :: l) = K c :: l.
Proof. intros c l H. unfold canon. rewrite H. destruct l as [|[] [|[] ?]]; reflexivity. Qed.

Lemma wire_iff_toks : forall c c' a b, is_kw (upper c) "SET" = false -> upper c = upper c' ->
  (wire (Ok (K c :: a)) = wire (Ok (K c' :: b)) <-> norm_toks a = norm_toks b).
Proof.
  intros c c' a b H U. unfold wire, norm. rewrite !norm_toks_cons. cbn [norm_tok app].
  rewrite <- U, !canon_other by exact H. split; [intro E; injection E as E; exact E|intros ->; reflexivity].
Qed.

Lemma upper_idem : forall s, upper (upper s) = upper s.
Proof.
  unfold upper. intro s. rewrite map_map. apply map_ext. intro b. unfold up_byte.
  destruct ((97 <=? b)%N && (b <=? 122)%N) eqn:E; [|rewrite E; reflexivity].
  apply andb_prop in E. destruct E as [E1 E2]. apply N.leb_le in E1, E2.
  replace ((97 <=? b - 32)%N && (b - 32 <=? 122)%N) with false; [reflexivity|].
  symmetry. apply andb_false_iff. left. apply N.leb_gt. lia.
Qed.

Lemma upper_lower : forall s, upper (lower s) = upper s.
Proof.
  unfold upper, lower. intro s. rewrite map_map. apply map_ext. intro b. unfold up_byte, low_byte.
  destruct ((65 <=? b)%N && (b <=? 90)%N) eqn:E.
  - apply andb_prop in E. destruct E as [E1 E2]. apply N.leb_le in E1, E2.
    replace ((97 <=? b + 32)%N && (b + 32 <=? 122)%N) with true
      by (symmetry; apply andb_true_iff; split; apply N.leb_le; lia).
    replace ((97 <=? b)%N && (b <=? 122)%N) with false
      by (symmetry; apply andb_false_iff; left; apply N.leb_gt; lia).
    lia.
  - reflexivity.
Qed.

Lemma nonempty_upper : forall s, nonempty (upper s) = nonempty s.
Proof. intros []; reflexivity. Qed.

(** A keyword go-redis passes through as the caller spelled it ([s]), where the adapter sends its
    upper-cased form [w]: when [w] is a word, [s] is not empty and the two normalise alike. *)
Lemma passed_keyword : forall s w, upper s = w -> nonempty w = true ->
  is_empty s = false /\ norm_toks [K w] = norm_toks [K s].
Proof.
  intros s w <- H. rewrite nonempty_upper in H. destruct s; [discriminate H|].
  split; [reflexivity|]. cbn. rewrite upper_idem. reflexivity.
Qed.

(** go-redis asks [is_empty], the adapter [nonempty] *)
Lemma if_is_empty : forall A s (x y : A), (if is_empty s then x else y) = (if nonempty s then y else x).
Proof. intros A []; reflexivity. Qed.

Lemma negb_is_empty : forall s, negb (is_empty s) = nonempty s.
Proof. intros []; reflexivity. Qed.

Lemma bytes_eqb_refl : forall l, bytes_eqb l l = true.
Proof. exact BytesProofs.bytes_eqb_refl. Qed.

Lemma bytes_eqbP : forall a b, reflect (a = b) (bytes_eqb a b).
Proof. intros a b. apply iff_reflect. symmetry. apply bytes_eqb_eq. Qed.

Lemma bytes_eq_dec : forall a b : bytes, a = b \/ a <> b.
Proof. intros a b. destruct (bytes_eqbP a b); [left|right]; assumption. Qed.

Lemma or_dec : forall A B : Prop, A \/ ~ A -> B \/ ~ B -> (A \/ B) \/ ~ (A \/ B).
Proof. tauto. Qed.

Lemma uint_bytes_inj : forall a b, uint_bytes a = uint_bytes b -> a = b.
Proof.
  induction a; destruct b; cbn; intro H; try discriminate; try reflexivity;
    injection H as H; f_equal; apply IHa; exact H.
Qed.

Lemma print_N_inj : forall a b, print_N a = print_N b -> a = b.
Proof.
  intros a b H. unfold print_N in H. apply uint_bytes_inj in H.
  rewrite <- (DecimalN.Unsigned.of_to a), <- (DecimalN.Unsigned.of_to b), H. reflexivity.
Qed.

Lemma uint_bytes_digit : forall u b r, uint_bytes u = b :: r -> (48 <= b <= 57)%N.
Proof. destruct u; cbn; intros b r H; inversion H; subst; lia. Qed.

Lemma print_N_pos_nonempty : forall p, print_N (Npos p) <> [].
Proof.
  intros p H. unfold print_N in H.
  assert (E : N.to_uint (Npos p) = Decimal.Nil) by (destruct (N.to_uint (Npos p)); cbn in H; try discriminate; reflexivity).
  pose proof (DecimalN.Unsigned.of_to (Npos p)) as X. rewrite E in X. cbn in X. discriminate.
Qed.

Lemma print_N_pos_minus : forall p r, print_N (Npos p) <> 45%N :: r.
Proof. intros p r H. unfold print_N in H. apply uint_bytes_digit in H. lia. Qed.

Lemma print_Z_inj : forall a b, print_Z a = print_Z b -> a = b.
Proof.
  intros a b H. unfold print_Z in H.
  destruct a as [|p|p]; destruct b as [|q|q]; try reflexivity.
  - change [48%N] with (print_N 0) in H. apply print_N_inj in H. discriminate.
  - discriminate H.
  - change [48%N] with (print_N 0) in H. apply print_N_inj in H. discriminate.
  - apply print_N_inj in H. congruence.
  - destruct (print_N_pos_minus _ _ H).
  - discriminate H.
  - symmetry in H. destruct (print_N_pos_minus _ _ H).
  - injection H as H. apply print_N_inj in H. congruence.
Qed.

(** two commands that part at one printed number *)
Lemma toks_Z_inv : forall pre pre' post post' x y, norm_toks pre = norm_toks pre' ->
  norm_toks (pre ++ zi x :: post) = norm_toks (pre' ++ zt y :: post') -> x = y.
Proof.
  intros pre pre' post post' x y Hp E. rewrite !norm_toks_app, !norm_toks_cons, Hp in E.
  apply app_inv_head in E. injection E as E _. exact (print_Z_inj _ _ E).
Qed.

(** Both sides build a command by appending segments, most of them optional.  Two such lists have the
    same normal form if their segments have, one by one: the hint database [toks] holds the congruence
    of [norm_toks] for [++] and [if] (with go-redis's [is_empty] against the adapter's [nonempty]), the
    helper segments of the two models, and [eq_refl] for a literal segment, where the two differ in
    the letter case of keywords only, which [norm_tok] computes away. *)
Lemma toks_app : forall a a' b b', norm_toks a = norm_toks a' -> norm_toks b = norm_toks b' ->
  norm_toks (a ++ b) = norm_toks (a' ++ b').
Proof. intros a a' b b' Ha Hb. rewrite !norm_toks_app, Ha, Hb. reflexivity. Qed.

Lemma toks_if : forall (c : bool) a a' b b', norm_toks a = norm_toks a' -> norm_toks b = norm_toks b' ->
  norm_toks (if c then a else b) = norm_toks (if c then a' else b').
Proof. intros [] a a' b b' Ha Hb; assumption. Qed.

Lemma toks_if_empty : forall s a a' b b', norm_toks a = norm_toks a' -> norm_toks b = norm_toks b' ->
  norm_toks (if nonempty s then a else b) = norm_toks (if is_empty s then b' else a').
Proof. intros [] a a' b b' Ha Hb; assumption. Qed.

Lemma toks_option : forall A (o : option A) f f' a a',
  (forall t, norm_toks (f t) = norm_toks (f' t)) -> norm_toks a = norm_toks a' ->
  norm_toks (match o with Some t => f t | None => a end) = norm_toks (match o with Some t => f' t | None => a' end).
Proof. intros A [t|] f f' a a' Hf Ha; [apply Hf|exact Ha]. Qed.

(** the adapter appends to a prefix it has built; go-redis leaves a segment empty *)
Lemma toks_assoc : forall a b c r, norm_toks (a ++ b ++ c) = norm_toks r -> norm_toks ((a ++ b) ++ c) = norm_toks r.
Proof. intros a b c r H. rewrite <- app_assoc. exact H. Qed.

Lemma toks_nil : forall a b, norm_toks a = norm_toks b -> norm_toks a = norm_toks ([] ++ b).
Proof. intros a b H. exact H. Qed.

(** LMPOP and its kin: go-redis lower-cases the direction *)
Lemma toks_K_lower : forall s l l', norm_toks l = norm_toks l' -> norm_toks ([K s] ++ l) = norm_toks (K (lower s) :: l').
Proof.
  intros s l l' H. rewrite norm_toks_app, (norm_toks_cons (K (lower s))), <- H. cbn [norm_tok].
  rewrite upper_lower. reflexivity.
Qed.

Create HintDb toks discriminated.
#[export] Hint Resolve toks_app toks_if toks_if_empty toks_option toks_assoc toks_nil toks_K_lower | 0 : toks.
#[export] Hint Resolve eq_refl | 1 : toks.

(** [segs]: two token lists, segment by segment; [toks]: two calls that both send a command *)
Ltac segs := solve [auto 20 with toks nocore].
Ltac toks := apply norm_of_toks; segs.

Lemma expiry_same : forall d, norm_toks (a_expiry d) = norm_toks (g_expiry d).
Proof. intro d. unfold a_expiry, g_expiry. segs. Qed.

Lemma scan_tail_same : forall mtch count, norm_toks (a_scan_tail mtch count) = norm_toks (g_scan_tail mtch count).
Proof. intros. unfold a_scan_tail, g_scan_tail. segs. Qed.

Lemma limit_same : forall o, norm_toks (a_limit o) = norm_toks (g_limit o).
Proof. intro o. unfold a_limit, g_limit. segs. Qed.

Lemma with_same : forall wc wd wh, norm_toks (a_with wc wd wh) = norm_toks (g_with wc wd wh).
Proof. intros. unfold a_with, g_with. segs. Qed.

Lemma zadd_same : forall F ff key incr a members,
  norm_toks (a_zadd F ff key incr a members) = norm_toks (g_zadd F ff key a incr members).
Proof. intros. unfold a_zadd, g_zadd. segs. Qed.

(** go-redis's callers put numkeys in front of [g_zstore] *)
Lemma zstore_same : forall s, norm_toks (a_zstore s) = norm_toks ([lent (zs_keys s)] ++ g_zstore s).
Proof. intros s. unfold a_zstore, g_zstore. destruct (zs_weights s); segs. Qed.

Lemma georadius_same : forall F ff q, norm_toks (a_georadius F ff q) = norm_toks (g_georadius F ff q).
Proof. intros. unfold a_georadius, g_georadius. rewrite if_is_empty, (app_assoc [_] [_]). segs. Qed.

(** the default unit is spelled KM by the adapter and km by go-redis *)
Lemma geosearch_same : forall F ff fpos q, norm_toks (a_geosearch F ff fpos q) = norm_toks (g_geosearch F ff fpos q).
Proof.
  intros. unfold a_geosearch, g_geosearch. rewrite !if_is_empty.
  destruct (nonempty (gs_radius_unit q)), (nonempty (gs_box_unit q)); segs.
Qed.

#[export] Hint Resolve expiry_same scan_tail_same limit_same with_same zadd_same georadius_same geosearch_same | 0 : toks.

(** SCAN family: the adapter prints the cursor as int64, go-redis as uint64: the same digits below 2^63 *)
Lemma cursor_small : forall cursor, (cursor < 2 ^ 63)%N -> a_cursor cursor = nt cursor.
Proof.
  intros cursor H. unfold a_cursor, int64_of_uint64.
  replace (cursor <? 2 ^ 63)%N with true by (symmetry; apply N.ltb_lt; exact H).
  destruct cursor; reflexivity.
Qed.

(** adapter.go str() always yields data *)
Lemma a_str_D : forall v, a_str v = D (render_tok (a_str v)).
Proof. intros []; reflexivity. Qed.

Section WithFloat.
Variable F : Type.
Variable ff : F -> bytes.
Variable fpos : F -> bool.

Notation adapter := (adapter F ff fpos).
Notation goredis := (goredis F ff fpos).
Notation call := (call F).

(** equal up to [norm] *)
Definition same (c : call) : Prop := wire (adapter c) = wire (goredis c).

(** SetArgs: go-redis passes Mode through; the adapter panics unless it is "", NX or XX (any case) *)
Definition valid_mode (m : bytes) : Prop := m = [] \/ upper m = bs "NX" \/ upper m = bs "XX".

Definition valid_span (s : bytes) : Prop := lower s = bs "bit" \/ lower s = bs "byte".

(** Sort: go-redis passes Order through; the adapter panics unless it is "", ASC or DESC (any case);
    go-redis leaves STORE out for an empty destination *)
Definition valid_order (o : bytes) : Prop := o = [] \/ upper o = bs "ASC" \/ upper o = bs "DESC".

Definition valid_sortcmd (c : sortcmd) : Prop := match c with SortStore [] => False | _ => True end.

Definition valid_op (o : bytes) : Prop := upper o = bs "BEFORE" \/ upper o = bs "AFTER".

(** ZRangeArgs / ZRangeStore: go-redis swaps Start and Stop when Rev is combined with ByScore/ByLex,
    the adapter does not *)
Definition zr_swapped (z : zrange_args) : bool := zr_rev z && (zr_byscore z || zr_bylex z).

Definition zr_ok (z : zrange_args) : Prop := zr_swapped z = false \/ a_str (zr_start z) = a_str (zr_stop z).

(** a duration d with 0 < d < 1ms: formatMs rounds it up to 1, int64(d / time.Millisecond) gives 0 *)
Definition sub_ms (d : Z) : bool := (0 <? d) && (d <? 1000000).

(** GeoDist: go-redis passes the unit through ("" = km); the adapter panics unless it is m, km, mi, ft (any case) or "" *)
Definition valid_unit (u : bytes) : Prop :=
  u = [] \/ upper u = bs "M" \/ upper u = bs "KM" \/ upper u = bs "MI" \/ upper u = bs "FT".

(** the arguments on which the adapter and the go-redis specification are claimed to agree *)
Definition in_domain (c : call) : Prop :=
  match c with
  | MSetArgs _ _ a => valid_mode (sa_mode a)
  | MGetEx _ exp => exp <> 0
  | MScan cursor _ _ => (cursor < 2 ^ 63)%N
  | MScanType cursor _ _ _ => (cursor < 2 ^ 63)%N
  | MKScan _ _ cursor _ _ => (cursor < 2 ^ 63)%N
  | MACLLog count => 0 < count
  | MMigrate _ _ _ _ timeout => a_format_sec timeout = a_format_ms timeout
  | MBitPosSpan _ _ _ _ span => valid_span span
  | MSort c _ s => valid_order (so_order s) /\ valid_sortcmd c
  | MLInsert _ op _ _ => valid_op op
  | MLMPop _ count _ => 0 < count
  | MBLMPop _ _ count _ => 0 < count
  | MZRangeArgs _ z => zr_ok z
  | MZRangeStore _ z => zr_ok z
  | MXRead _ block _ => sub_ms block = false
  | MXReadGroup _ _ _ block _ _ => sub_ms block = false
  | MXClaim _ a => sub_ms (xc_minidle a) = false
  | MZMPop _ count _ => 0 < count
  | MBZMPop _ _ count _ => 0 < count
  | MClientPause dur => a_format_sec dur = a_format_ms dur
  | MGeoDist _ _ _ unit => valid_unit unit
  | _ => True
  end.

End WithFloat.

(** what the two sides do with a given call ([methods] names [same], so it stands after the section that
    defines it; the lemmas that use it follow in a section of their own) *)
Ltac methods := cbv beta iota zeta delta [same GoRedisSpec.goredis CompatArgs.adapter].

Section Differences.
Variable F : Type.
Variable ff : F -> bytes.
Variable fpos : F -> bool.

Notation adapter := (adapter F ff fpos).
Notation goredis := (goredis F ff fpos).
Notation same := (same F ff fpos).

(** a panic of the adapter against a command sent by go-redis is a difference *)
Lemma same_iff_no_panic : forall c (P : Prop), P \/ ~ P -> (P -> same c) ->
  (~ P -> adapter c = Panic) -> (exists l, goredis c = Ok l) -> (same c <-> P).
Proof.
  intros c P D Y N [l G]. split; [|exact Y]. intro H. destruct D as [p|n]; [exact p|].
  unfold CompatArgsProofs.same in H. rewrite (N n), G in H. discriminate H.
Qed.

Lemma valid_mode_dec : forall m, valid_mode m \/ ~ valid_mode m.
Proof. intro m. unfold valid_mode. repeat apply or_dec; apply bytes_eq_dec. Qed.

Lemma SetArgs_panics : forall key v a, ~ valid_mode (sa_mode a) -> adapter (MSetArgs key v a) = Panic.
Proof.
  intros key v a Hm. unfold valid_mode in Hm. methods. rewrite !(proj2 (bytes_eqb_neq _ _)) by tauto.
  cbn [orb]. rewrite nonempty_upper. destruct (sa_mode a); [tauto|reflexivity].
Qed.

Lemma valid_order_dec : forall o, valid_order o \/ ~ valid_order o.
Proof. intro o. unfold valid_order. repeat apply or_dec; apply bytes_eq_dec. Qed.

Lemma a_sort_valid : forall cmd key s, valid_order (so_order s) ->
  exists l, a_sort cmd key s = Ok l /\ norm_toks l = norm_toks (g_sort_args cmd key s).
Proof.
  intros cmd key s Ho. unfold a_sort, g_sort_args. cbv zeta.
  assert (G : norm_toks (flat_map (fun g => [KW "GET"; D g]) (so_gets s)) =
              norm_toks (flat_map (fun g => [kw_ "get"; D g]) (so_gets s)))
    by (apply norm_toks_flat_map_ext; reflexivity).
  destruct Ho as [Ho|[Ho|Ho]]; rewrite Ho;
    [|destruct (passed_keyword _ _ Ho eq_refl) as [-> P] ..].
  all: eexists; split; [reflexivity|]; cbn [is_empty]; segs.
Qed.

Lemma a_sort_panics : forall cmd key s, ~ valid_order (so_order s) -> a_sort cmd key s = Panic.
Proof.
  intros cmd key s Ho. unfold valid_order in Ho. unfold a_sort. cbv zeta.
  rewrite !(proj2 (bytes_eqb_neq _ _)) by tauto.
  cbn [orb]. rewrite nonempty_upper. destruct (so_order s); [tauto|reflexivity].
Qed.

Lemma valid_op_dec : forall o, valid_op o \/ ~ valid_op o.
Proof. intro o. unfold valid_op. repeat apply or_dec; apply bytes_eq_dec. Qed.

Lemma LInsert_panics : forall key op pivot elem, ~ valid_op op -> adapter (MLInsert key op pivot elem) = Panic.
Proof.
  intros key op pivot elem Ho. unfold valid_op in Ho. methods.
  rewrite !(proj2 (bytes_eqb_neq _ _)) by tauto. reflexivity.
Qed.

Lemma valid_unit_dec : forall u, valid_unit u \/ ~ valid_unit u.
Proof. intro u. unfold valid_unit. repeat apply or_dec; apply bytes_eq_dec. Qed.

Lemma GeoDist_panics : forall key m1 m2 unit, ~ valid_unit unit -> adapter (MGeoDist key m1 m2 unit) = Panic.
Proof.
  intros key m1 m2 unit Hu. unfold valid_unit in Hu. methods. rewrite !(proj2 (bytes_eqb_neq _ _)) by tauto.
  cbn [orb]. rewrite nonempty_upper. destruct unit; [tauto|reflexivity].
Qed.

Lemma zrange_args_ok : forall z, zr_ok z -> norm_toks (D (zr_key z) :: a_zrange_tail z) = norm_toks (g_zrange_args z).
Proof.
  intros z H. unfold g_zrange_args, a_zrange_tail. change (zr_rev z && (zr_byscore z || zr_bylex z)) with (zr_swapped z).
  change g_arg with a_str. apply (toks_app [_; _; _]); [|segs].
  destruct H as [->|H]; [reflexivity|]. rewrite H. destruct (zr_swapped z); reflexivity.
Qed.

(** outside [zr_ok] the two commands differ: the second and third data tokens are exchanged *)
Lemma zrange_args_differ : forall z, ~ zr_ok z ->
  exists r1 r2 x y, x <> y /\ norm_toks (a_zrange_tail z) = D x :: D y :: r1 /\
                    norm_toks (g_zrange_args z) = D (zr_key z) :: D y :: D x :: r2.
Proof.
  intros z H. unfold zr_ok in H.
  destruct (zr_swapped z) eqn:Hs; [|tauto]. unfold zr_swapped in Hs.
  unfold a_zrange_tail, g_zrange_args. rewrite Hs. change g_arg with a_str.
  rewrite (a_str_D (zr_start z)), (a_str_D (zr_stop z)) in *.
  do 4 eexists. split; [|split; reflexivity]. intro E. apply H. right. rewrite E. reflexivity.
Qed.

Lemma zr_ok_dec : forall z, zr_ok z \/ ~ zr_ok z.
Proof.
  intros z. unfold zr_ok. rewrite (a_str_D (zr_start z)), (a_str_D (zr_stop z)).
  destruct (zr_swapped z); [|tauto].
  destruct (bytes_eq_dec (render_tok (a_str (zr_start z))) (render_tok (a_str (zr_stop z)))) as [->|N]; [tauto|].
  right. intros [H|H]; [discriminate H|]. injection H as H. exact (N H).
Qed.

(** a command holding the range after [pre], with whatever both agree on behind it *)
Lemma zrange_iff : forall z pre post post', norm_toks post = norm_toks post' ->
  (norm_toks (pre ++ (D (zr_key z) :: a_zrange_tail z) ++ post) = norm_toks (pre ++ g_zrange_args z ++ post') <-> zr_ok z).
Proof.
  intros z pre post post' Hp. rewrite !norm_toks_app, Hp. split.
  - intro E. apply app_inv_head, app_inv_tail in E. destruct (zr_ok_dec z) as [Y|N]; [exact Y|].
    destruct (zrange_args_differ z N) as (r1 & r2 & x & y & Hxy & E1 & E2).
    rewrite norm_toks_cons, E1, E2 in E. injection E as E. destruct (Hxy E).
  - intro H. rewrite (zrange_args_ok z H). reflexivity.
Qed.

Lemma format_ms_quot : forall d, sub_ms d = false -> a_format_ms d = Z.quot d 1000000.
Proof. intros d H. unfold a_format_ms. unfold sub_ms in H. rewrite H. reflexivity. Qed.

(** inside the sub-millisecond class the commands differ (1 against 0) *)
Lemma sub_ms_differs : forall d, sub_ms d = true -> a_format_ms d <> Z.quot d 1000000.
Proof.
  intros d H E. unfold a_format_ms in E. unfold sub_ms in H. rewrite H in E.
  apply andb_prop in H. destruct H as [H1 H2]. apply Z.ltb_lt in H1, H2.
  rewrite Z.quot_small in E by lia. discriminate.
Qed.

Lemma sub_ms_nonneg : forall d, sub_ms d = true -> (0 <=? d) = true.
Proof. intros d H. unfold sub_ms in H. apply andb_prop in H. destruct H as [H _]. apply Z.ltb_lt in H. apply Z.leb_le. lia. Qed.

Lemma same_iff_false : forall c b, (b = false -> same c) -> (b = true -> ~ same c) -> (same c <-> b = false).
Proof. intros c [] Y N; [split; [intro H; destruct (N eq_refl H)|discriminate]|tauto]. Qed.

End Differences.
