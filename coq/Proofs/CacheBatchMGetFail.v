(** pipe.doCacheMGet, failure path: when the rewritten request fails, exactly the flights this call
    started are cancelled, with the call's error, and the call returns that error (C09, caller side). *)
From Coq Require Import String Ascii.
From Coq Require Import List Arith NArith ZArith Bool Lia.
Require Import RV.Model.Base RV.Model.CacheBatch RV.Proofs.CacheBatchBase RV.Proofs.CacheBatchMulti RV.Proofs.CacheBatchMGet.
Import ListNotations.
Open Scope nat_scope.

Section MGetFail.
  Variable lookup : key -> bytes -> lk.
  Variable srv : argv -> msg.
  Variable qerr : argv -> option msg.
  Variable optin : bool.
  Variable cmd0 : bytes.
  Variable ks : list key.
  Variable pathopt : list bytes.

  Definition fcommands : argv := cmd0 :: ks ++ pathopt.
  Definition fcc : bytes := mget_cc fcommands.

  Hypothesis Hshape : (is_json fcommands = true /\ exists p, pathopt = [p]) \/ (is_json fcommands = false /\ pathopt = []).
  Hypothesis Hcmd0 : bytes_eqb cmd0 (bs "MULTI") = false /\ bytes_eqb cmd0 (bs "EXEC") = false.

  (** the flights this call starts: the keys that miss, first occurrence only *)
  Definition own_flights : list key := mk_miss (mklist lookup fcc [] ks) ks.
  Definition frewritten : argv := cmd0 :: own_flights ++ pathopt.
  (** the transaction is aborted when the server rejects one of its commands at queue time *)
  Definition tx_rejected : bool := existsb (rejected qerr) (map pttl_of own_flights ++ [frewritten]).
  Definition fail_err : err :=
    abort_err (ERedis (trim_err (m_str execabort_msg))) (new_result (q_or qerr frewritten queued_msg)).

  (** the inner [keys] of the cancel loop counts the rewritten keys *)
  Lemma f_inner_keys :
    firstn ((length frewritten - 1) - (if is_json (cmd0 :: ks ++ pathopt) then 1 else 0)) (skipn 1 frewritten) = own_flights.
  Proof.
    unfold frewritten. cbn [length skipn]. rewrite app_length.
    match goal with |- firstn ?n _ = _ => assert (E : n = length own_flights) end.
    { unfold fcommands in Hshape. destruct Hshape as [[-> [p ->]]|[-> ->]]; cbn [length]; lia. }
    rewrite E, firstn_app, Nat.sub_diag, firstn_all. apply app_nil_r.
  Qed.

  Lemma own_flights_scan :
    ms_rewrite (mget_scan lookup fcc (length ks) ks) = own_flights.
  Proof. destruct (mget_scan_spec lookup fcc (length ks) ks eq_refl) as (_ & _ & Hr). exact Hr. Qed.

  (** the error of the failed request: the abort error, or the error reply of the rewritten command itself *)
  Definition request_failure : option err :=
    if tx_rejected then Some fail_err else msg_error (srv frewritten).

  (** on failure exactly the flights this call started are cancelled, with the call's error *)
  Theorem mget_fail_cancels_spec :
    mget_fail_cancels lookup srv qerr optin fcommands
    = match own_flights with
      | [] => None
      | _ => match request_failure with Some e => Some (own_flights, e) | None => None end
      end.
  Proof.
    unfold mget_fail_cancels, request_failure, fcommands. cbv zeta.
    rewrite (nkeys_eq cmd0 ks pathopt Hshape), ks_eq. change (mget_cc (cmd0 :: ks ++ pathopt)) with fcc.
    rewrite own_flights_scan. destruct own_flights as [|m0 mrest] eqn:Eo; [reflexivity|]. rewrite <- Eo.
    rewrite (rewritten_eq cmd0 ks pathopt Hshape). fold frewritten.
    destruct (mget_wire srv qerr optin own_flights frewritten Hcmd0) as [He Hp]. cbv zeta in He, Hp.
    rewrite He, Hp, f_inner_keys. unfold exec_reply. change (existsb (rejected qerr) _) with tx_rejected.
    destruct tx_rejected; [reflexivity|].
    unfold to_array. cbn [r_err new_result r_val arr m_typ m_vals]. cbn [N.eqb tArr Pos.eqb orb]. rewrite last_queued.
    destruct (msg_error (srv frewritten)); reflexivity.
  Qed.

  (** ... and the call returns that error: as an error when the transaction was aborted, as the reply it came in
      when the rewritten command was answered with an error inside a successful EXEC *)
  Theorem mget_failed_result e :
    own_flights <> [] -> request_failure = Some e ->
    do_cache_mget lookup srv qerr optin fcommands
    = Ok (if tx_rejected then new_error fail_err else new_result (srv frewritten)).
  Proof.
    intros Hne. unfold do_cache_mget, request_failure, fcommands. cbv zeta.
    rewrite (nkeys_eq cmd0 ks pathopt Hshape), ks_eq. change (mget_cc (cmd0 :: ks ++ pathopt)) with fcc.
    rewrite own_flights_scan. destruct own_flights as [|m0 mrest] eqn:Eo; [contradiction|]. rewrite <- Eo.
    rewrite (rewritten_eq cmd0 ks pathopt Hshape). fold frewritten.
    destruct (mget_wire srv qerr optin own_flights frewritten Hcmd0) as [He Hp]. cbv zeta in He, Hp.
    rewrite He, Hp. unfold exec_reply. change (existsb (rejected qerr) _) with tx_rejected.
    destruct tx_rejected; [reflexivity|]. intro Herr.
    unfold to_array. cbn [r_err new_result r_val arr m_typ m_vals]. cbn [N.eqb tArr Pos.eqb orb].
    now rewrite last_queued, Herr.
  Qed.

  (** the cancelled keys are keys of this MGET that the store reported as misses - never a key that was a
      hit or that another caller's flight is fetching *)
  Theorem own_flights_are_misses k :
    In k own_flights -> In k ks /\ lookup k fcc = LMiss.
  Proof.
    unfold own_flights. rewrite mk_miss_filter, in_map_iff. intros [[mk x] [<- H]]. apply filter_In in H as [H Hm].
    pose proof (mklist_sound lookup fcc ks [] (fun _ H => match H with end)) as Hs.
    pose proof (Forall2_combine_in _ _ _ _ _ Hs H) as Hk. split; [exact (in_combine_r _ _ _ _ H)|].
    destruct mk; try discriminate. exact Hk.
  Qed.

  (** every key that missed (a flight this call started) is cancelled *)
  Theorem misses_are_own_flights k :
    In k ks -> lookup k fcc = LMiss -> In k own_flights.
  Proof.
    unfold own_flights. intros Hin Hl.
    assert (G : forall l rw, In k l -> ~ In k rw -> In k (mk_miss (mklist lookup fcc rw l) l)).
    { induction l as [|x l IH]; intros rw Hi Hn; [destruct Hi|]. cbn [mklist].
      destruct (key_mem x rw) eqn:Em.
      - cbn [mk_miss]. destruct Hi as [->|Hi]; [apply key_mem_In in Em; contradiction|now apply IH].
      - destruct Hi as [->|Hi].
        + rewrite Hl. cbn [mk_miss]. now left.
        + destruct (lookup x fcc) eqn:Ex; cbn [mk_miss]; try now apply IH.
          destruct (list_eq_dec N.eq_dec k x) as [->|Hne]; [now left|right].
          apply IH; [assumption|]. intro H. apply in_app_or in H as [H|[E|[]]]; [contradiction|congruence]. }
    apply G; [assumption|intros []].
  Qed.
End MGetFail.
