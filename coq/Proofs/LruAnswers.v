(** What the lookups return, and what an answer says about the state it was computed on: every answer of
    every operation comes from one lookup on a state the operation passes through ([step_answer]).
    Hits come from completed, unexpired entries of the pre-state ([step_hit]). *)
From Coq Require Import List NArith ZArith Bool Lia.
Require Import RV.Model.Base RV.Model.Lru RV.Proofs.LruBase RV.Proofs.LruSteps.
Import ListNotations.
Open Scope Z_scope.

Lemma flight_fast_out s k c now :
  snd (flight_fast s k c now) =
  match lookup k c (order s) with
  | Some e => if live (eval e) now
              then OFast (Some (Rel (eid e) (eval e))) (negb (is_last e (order s)) && threshold (N.succ (get_hits k (hits s))))
              else OFast None false
  | None => OFast None false
  end.
Proof. unfold flight_fast. destruct (lookup k c (order s)) as [e|]; [destruct (live (eval e) now)|]; reflexivity. Qed.

(** the message and entry Flight (or its slow path alone) returns, as a function of the entry found *)
Definition flight_result (s : state) (k c : bytes) (ttl now : Z) : msg * option N :=
  match lookup k c (order s) with
  | Some e => if live (eval e) now then (eval e, Some (eid e)) else (pending_msg ttl now, None)
  | None => (if closed s then empty_msg else pending_msg ttl now, None)
  end.

Lemma flight_slow_out s k c ttl now :
  inv s -> snd (flight_slow s k c ttl now) = OFlight (fst (flight_result s k c ttl now)) (snd (flight_result s k c ttl now)).
Proof.
  intro Hi. unfold flight_slow, flight_result. destruct (closed s) eqn:Hc.
  - rewrite (inv_closed s Hi Hc). reflexivity.
  - unfold slow_one. destruct (lookup k c (order s)) as [e|].
    + destruct (live (eval e) now); [|reflexivity]. cbn [bump snd]. destruct (pending e); reflexivity.
    + reflexivity.
Qed.

Lemma flight_miss s k c ttl now :
  snd (flight_result s k c ttl now) = None -> flight s k c ttl now = flight_slow s k c ttl now.
Proof.
  unfold flight, flight_fast, flight_result.
  destruct (lookup k c (order s)) as [e|]; [destruct (live (eval e) now)|]; [discriminate|reflexivity..].
Qed.

Lemma flight_out s k c ttl now :
  inv s -> snd (flight s k c ttl now) = OFlight (fst (flight_result s k c ttl now)) (snd (flight_result s k c ttl now)).
Proof.
  intro Hi. destruct (snd (flight_result s k c ttl now)) eqn:E.
  - unfold flight, flight_fast, flight_result in *.
    destruct (lookup k c (order s)) as [e|]; [destruct (live (eval e) now)|]; try discriminate. injection E as <-. reflexivity.
  - rewrite (flight_miss s k c ttl now E), (flight_slow_out s k c ttl now Hi), E. reflexivity.
Qed.

Lemma flight_slow_creates s k c ttl now :
  closed s = false -> snd (flight_result s k c ttl now) = None ->
  exists e', In e' (order (fst (flight_slow s k c ttl now))) /\ new_pending s k c ttl now e' /\ eid e' = next_id s.
Proof.
  intros Hc Hn. unfold flight_slow, slow_one, flight_result in *. rewrite Hc.
  destruct (lookup k c (order s)) as [e|]; [destruct (live (eval e) now); [discriminate|]|];
    cbn [push_pending fst order]; (eexists; split; [apply in_or_app; right; left; reflexivity|]);
    (split; [|reflexivity]); unfold new_pending, kc; cbn; repeat split; lia.
Qed.

Lemma flight_creates s k c ttl now :
  closed s = false -> snd (flight_result s k c ttl now) = None ->
  exists e', In e' (order (fst (flight s k c ttl now))) /\ new_pending s k c ttl now e' /\ eid e' = next_id s.
Proof. intros Hc Hn. rewrite (flight_miss s k c ttl now Hn). apply flight_slow_creates; assumption. Qed.

Definition fres_of_sres (x : sres) : fres := match x with SHit v _ => FHit v | SWait _ id => FWait id | _ => FMiss end.

Lemma ematch_item_iff k c it : ematch_item k c it = true <-> (fi_key it, fi_cmd it) = (k, c).
Proof. apply kc_eqb_iff. Qed.

Lemma answers_items_in k c a : forall items rs,
  In a (answers_items k c items rs) ->
  exists it r, In (it, r) (combine items rs) /\ (fi_key it, fi_cmd it) = (k, c) /\ a = ans_of_fres r.
Proof.
  induction items as [|it items IH]; intros [|r rs] H; cbn [answers_items] in H; try contradiction.
  apply in_app_or in H. destruct H as [H|H].
  - destruct (ematch_item k c it) eqn:E; [|contradiction]. destruct H as [<-|[]].
    exists it, r. split; [left; reflexivity|]. split; [apply ematch_item_iff; exact E|reflexivity].
  - destruct (IH rs H) as [it' [r' [A B]]]. exists it', r'. split; [right; exact A|exact B].
Qed.

Lemma in_answers_items k c : forall items rs it r,
  In (it, r) (combine items rs) -> (fi_key it, fi_cmd it) = (k, c) -> In (ans_of_fres r) (answers_items k c items rs).
Proof.
  induction items as [|x items IH]; intros [|y rs] it r H Hk; cbn [combine] in H; try contradiction.
  cbn [answers_items]. apply in_or_app. destruct H as [H|H].
  - injection H as -> ->. left. apply ematch_item_iff in Hk. rewrite Hk. left. reflexivity.
  - right. eapply IH; eassumption.
Qed.

Lemma forall2_combine {A B : Type} (P : A -> B -> Prop) l1 l2 :
  Forall2 P l1 l2 -> forall a b, In (a, b) (combine l1 l2) -> P a b.
Proof.
  induction 1 as [|x y l1 l2 Hp Hf IH]; intros a b H; [contradiction|].
  destruct H as [H|H]; [injection H as <- <-; exact Hp|apply IH; exact H].
Qed.

Lemma forall2_impl {A B : Type} (P Q : A -> B -> Prop) l1 l2 :
  (forall a b, P a b -> Q a b) -> Forall2 P l1 l2 -> Forall2 Q l1 l2.
Proof. intro H. induction 1; constructor; auto. Qed.

Lemma forall2_map {A B : Type} (P : A -> B -> Prop) f l : (forall a, In a l -> P a (f a)) -> Forall2 P l (map f l).
Proof.
  induction l as [|x r IH]; intro H; constructor; [apply H; left; reflexivity|].
  apply IH. intros a Ha. apply H. right. exact Ha.
Qed.

(** a property of the final results: established for the first-pass results that are not misses, and for
    the second pass over the missed items *)
Lemma merge_forall2 (P : fitem -> fres -> Prop) items rs :
  Forall2 (fun it r => r <> FMiss -> P it r) items rs ->
  forall rs2, Forall2 P (missed_items items rs) rs2 -> Forall2 P items (merge_res rs rs2).
Proof.
  induction 1 as [|it r items rs Hp Hf IH]; intros rs2 H2; [constructor|].
  cbn [missed_items] in H2. destruct r; cbn [merge_res].
  - constructor; [apply Hp; discriminate|apply IH; exact H2].
  - constructor; [apply Hp; discriminate|apply IH; exact H2].
  - inversion H2 as [|? x ? r2 Hx Hr2]; subst. constructor; [exact Hx|apply IH; exact Hr2].
Qed.

Definition hit_from (s : state) (k c : bytes) (now : Z) (v : msg) : Prop :=
  exists e, In e (order s) /\ kc e = (k, c) /\ eval e = v /\ pending e = false /\ unix_milli now < m_xat v.

(** answer [a] for (k, c) at [now], computed on [s], the operation ending in [s']: a hit is a completed
    unexpired entry of [s], a wait an in-flight one, and after a miss (nothing live in [s]) an open
    store holds an in-flight entry for the command *)
Definition answered (s : state) (k c : bytes) (now : Z) (a : ans) (s' : state) : Prop :=
  match a with
  | AHit v => hit_from s k c now v
  | AWait id => exists e, In e (order s) /\ kc e = (k, c) /\ pending e = true /\ eid e = id
  | AMiss => (forall e, In e (order s) -> kc e = (k, c) -> live (eval e) now = false) /\
             (closed s = false -> exists e', In e' (order s') /\ kc e' = (k, c) /\ pending e' = true)
  end.

Definition ans_of_entry (e : entry) : ans := if pending e then AWait (eid e) else AHit (eval e).

Lemma entry_answered s k c now e s' :
  In e (order s) -> kc e = (k, c) -> live (eval e) now = true -> answered s k c now (ans_of_entry e) s'.
Proof.
  intros He Hk Hl. unfold ans_of_entry. destruct (pending e) eqn:Ep; exists e; repeat split; try assumption.
  apply live_done; assumption.
Qed.

Lemma fast_res_answered s now it s' :
  fast_res (order s) now it <> FMiss ->
  answered s (fi_key it) (fi_cmd it) now (ans_of_fres (fast_res (order s) now it)) s'.
Proof.
  unfold fast_res. destruct (lookup (fi_key it) (fi_cmd it) (order s)) as [e|] eqn:El; [|contradiction].
  destruct (live (eval e) now) eqn:Elive; [intros _|contradiction]. apply lookup_some in El.
  replace (ans_of_fres _) with (ans_of_entry e) by (unfold ans_of_entry; destruct (pending e); reflexivity).
  apply entry_answered; tauto.
Qed.

Lemma slow_answered now items s it s_f :
  inv s -> closed s = false ->
  lookup_path now items (fst (slow_one s (fi_key it) (fi_cmd it) (fi_ttl it) now)) s_f ->
  answered s (fi_key it) (fi_cmd it) now
           (ans_of_fres (fres_of_sres (snd (slow_one s (fi_key it) (fi_cmd it) (fi_ttl it) now)))) s_f.
Proof.
  intros Hi Hc Hp. pose proof (inv_slow_one s (fi_key it) (fi_cmd it) (fi_ttl it) now Hi Hc) as Hi1.
  destruct (path_quiet _ _ _ _ Hp Hi1) as [_ Q].
  pose proof (slow_one_res s (fi_key it) (fi_cmd it) (fi_ttl it) now Hi) as H.
  destruct (snd (slow_one s (fi_key it) (fi_cmd it) (fi_ttl it) now)) as [v id|v id|v|];
    cbn [fres_of_sres ans_of_fres answered]; [| | |contradiction].
  - destruct H as [e [A [B [C [_ [E F]]]]]]. exists e. unfold rel_pttl in F. repeat split; try assumption. lia.
  - destruct H as [e [A [B [_ [D E]]]]]. exists e. repeat split; assumption.
  - destruct H as [_ [Hd [e' [A [B _]]]]]. split; [exact Hd|]. intros _. pose proof (new_pending_pending _ _ _ _ _ _ B) as Hp'.
    exists e'. split; [apply (q_pend _ _ Q); assumption|]. split; [apply B|exact Hp'].
Qed.

(** result [r] for item [it] of a lookup going from [s] to [s_f]: computed on some state [sm] on the way *)
Definition batch_ans (now : Z) (all : list fitem) (s s_f : state) (it : fitem) (r : fres) : Prop :=
  exists sm, lookup_path now all s sm /\ lookup_path now all sm s_f /\
             answered sm (fi_key it) (fi_cmd it) now (ans_of_fres r) s_f.

Lemma flights_slow_open_ans now all : forall items s,
  incl items all -> inv s -> closed s = false ->
  Forall2 (batch_ans now all s (fst (flights_slow_open s now items))) items (snd (flights_slow_open s now items)).
Proof.
  induction items as [|[k c t] r IH]; intros s Hincl Hi Hc; [constructor|].
  cbn [flights_slow_open].
  pose proof (lp_slow now all s (FI k c t) Hc (Hincl _ (or_introl eq_refl))) as Hstep.
  pose proof (slow_answered now all s (FI k c t)) as Hans. cbn [fi_key fi_cmd fi_ttl] in Hstep, Hans.
  pose proof (inv_slow_one s k c t now Hi Hc) as Hi1. pose proof (slow_one_closed s k c t now) as Hc1. rewrite Hc in Hc1.
  destruct (slow_one s k c t now) as [s1 x]. cbn [fst snd] in *.
  pose proof (flights_slow_open_path now all r s1 (fun a Ha => Hincl a (or_intror Ha)) Hc1) as Hrest.
  specialize (IH s1 (fun a Ha => Hincl a (or_intror Ha)) Hi1 Hc1).
  destruct (flights_slow_open s1 now r) as [s2 rs]. cbn [fst snd] in *.
  constructor.
  - exists s. split; [apply lp_frame, same_frame_refl|]. split; [exact (lp_trans _ _ _ _ _ Hstep Hrest)|].
    exact (Hans s2 Hi Hc Hrest).
  - refine (forall2_impl _ _ _ _ _ IH). intros it0 r0 [sm [A B]]. exists sm. split; [exact (lp_trans _ _ _ _ _ Hstep A)|exact B].
Qed.

Lemma flights_slow_ans now all items s :
  incl items all -> inv s ->
  Forall2 (batch_ans now all s (fst (flights_slow s now items))) items (snd (flights_slow s now items)).
Proof.
  intros Hincl Hi. unfold flights_slow. destruct (closed s) eqn:Hc; [|apply flights_slow_open_ans; assumption].
  cbn [fst snd]. apply forall2_map. intros it _. exists s. split; [apply lp_frame, same_frame_refl|].
  split; [apply lp_frame, same_frame_refl|]. cbn [ans_of_fres answered].
  split; [rewrite (inv_closed s Hi Hc); intros ? []|congruence].
Qed.

Lemma flights_ans s now items :
  inv s ->
  match snd (flights s now items) with
  | OFlights rs => Forall2 (batch_ans now items s (fst (flights s now items))) items rs
  | _ => False
  end.
Proof.
  intro Hi. rewrite flights_eq. cbv zeta. cbn [fst snd].
  pose proof (flights_mid_frame s now items Hi) as F.
  set (rs := snd (fst (flights_fast s now items))). set (mi := missed_items items rs).
  assert (Hincl : incl mi items) by (intro it; apply missed_items_sub).
  pose proof (flights_slow_path now items mi (flights_mid s now items) Hincl) as Hp2.
  pose proof (flights_slow_ans now items mi _ Hincl (inv_frame _ _ F Hi)) as H2.
  apply merge_forall2.
  - unfold rs. rewrite flights_fast_res. apply forall2_map. intros it _ Hnm. exists s.
    split; [apply lp_frame, same_frame_refl|]. split; [exact (lp_trans _ _ _ _ _ (lp_frame _ _ _ _ F) Hp2)|].
    apply fast_res_answered. exact Hnm.
  - refine (forall2_impl _ _ _ _ _ H2). intros it r [sm [A B]]. exists sm.
    split; [exact (lp_trans _ _ _ _ _ (lp_frame _ _ _ _ F) A)|exact B].
Qed.

Lemma batch_answer now items s s_f rs k c a :
  Forall2 (batch_ans now items s s_f) items rs -> In a (answers_items k c items rs) ->
  exists sm, lookup_path now items s sm /\ lookup_path now items sm s_f /\ answered sm k c now a s_f.
Proof.
  intros Hf Ha. apply answers_items_in in Ha. destruct Ha as [it [r [A [B ->]]]].
  injection B as <- <-. exact (forall2_combine _ _ _ Hf it r A).
Qed.

(** Flight and its slow path alone answer from the state they start on *)
Lemma single_answer now items s s_f k c ttl a :
  inv s -> lookup_path now items s s_f ->
  (closed s = false -> snd (flight_result s k c ttl now) = None ->
   exists e', In e' (order s_f) /\ new_pending s k c ttl now e' /\ eid e' = next_id s) ->
  In a [ans_of_flight (fst (flight_result s k c ttl now)) (snd (flight_result s k c ttl now))] ->
  exists sm, lookup_path now items s sm /\ lookup_path now items sm s_f /\ answered sm k c now a s_f.
Proof.
  intros Hi Hp Hnew [<-|[]]. exists s. split; [apply lp_frame, same_frame_refl|]. split; [exact Hp|].
  assert (Hmiss : snd (flight_result s k c ttl now) = None ->
                  (forall e, In e (order s) -> kc e = (k, c) -> live (eval e) now = false) -> answered s k c now AMiss s_f).
  { intros Hn Hd. split; [exact Hd|]. intro Hc. destruct (Hnew Hc Hn) as [e' [A [B _]]]. exists e'.
    split; [exact A|]. split; [apply B|exact (new_pending_pending _ _ _ _ _ _ B)]. }
  unfold flight_result in *. destruct (lookup k c (order s)) as [e|] eqn:El.
  - pose proof (lookup_some _ _ _ _ El) as [He Hk]. destruct (live (eval e) now) eqn:Elive; cbn [fst snd] in *.
    + exact (entry_answered s k c now e s_f He Hk Elive).
    + apply (Hmiss eq_refl). intros e' He' Hk'. rewrite (unique_entry s e e' Hi He He') by congruence. exact Elive.
  - cbn [fst snd] in *. replace (ans_of_flight _ None) with AMiss by (destruct (closed s); reflexivity).
    apply (Hmiss eq_refl). intros e' He' Hk'. elim (lookup_none _ _ _ El e' He' Hk').
Qed.

(** each answer was computed by one lookup, on a state [sm] the operation passes through *)
Theorem step_answer g s o k c a :
  inv s -> In a (answers k c o (snd (step g s o))) ->
  exists sm, lookup_path (now_of o) (items_of o) s sm /\
             lookup_path (now_of o) (items_of o) sm (fst (step g s o)) /\
             answered sm k c (now_of o) a (fst (step g s o)).
Proof.
  intros Hi H. destruct (step_cases g s o Hi) as [Hpath|Hm]; [|destruct o; try contradiction; destruct H].
  destruct o as [k0 c0 ttl now|now items|k0 c0 v0|k0 c0 err|keys|err|k0 c0 now|k0 c0 now|ids|k0 c0 ttl now|now items|now items];
    cbn [step snd answers] in H; try contradiction.
  - (* Flight *) rewrite (flight_out s k0 c0 ttl now Hi) in H.
    destruct (bytes_eqb k k0 && bytes_eqb c c0) eqn:Ek; [|contradiction]. apply kc_eqb_iff in Ek. injection Ek as -> ->.
    exact (single_answer now _ s _ k c ttl a Hi Hpath (flight_creates s k c ttl now) H).
  - (* Flights *) pose proof (flights_ans s now items Hi) as Hf. cbn [step fst] in *.
    destruct (snd (flights s now items)); try contradiction. exact (batch_answer _ _ _ _ _ _ _ _ Hf H).
  - (* FlightFast *) rewrite flight_fast_out in H. destruct (lookup k0 c0 (order s)) as [e|] eqn:El; [|contradiction].
    destruct (live (eval e) now) eqn:Elive; [|contradiction].
    destruct (bytes_eqb k k0 && bytes_eqb c c0) eqn:Ek; [|contradiction]. apply kc_eqb_iff in Ek. injection Ek as -> ->.
    destruct H as [<-|[]]. apply lookup_some in El. exists s. split; [apply lp_frame, same_frame_refl|]. split; [exact Hpath|].
    apply (entry_answered s k c now e); tauto.
  - (* FlightSlow *) rewrite (flight_slow_out s k0 c0 ttl now Hi) in H.
    destruct (bytes_eqb k k0 && bytes_eqb c c0) eqn:Ek; [|contradiction]. apply kc_eqb_iff in Ek. injection Ek as -> ->.
    exact (single_answer now _ s _ k c ttl a Hi Hpath (flight_slow_creates s k c ttl now) H).
  - (* FlightsFast *) pose proof (flights_fast_res now items s) as E. cbn [step fst] in Hpath |- *.
    destruct (flights_fast s now items) as [[s1 rs] mv]. cbn [fst snd answers] in *. subst rs.
    apply filter_In in H. destruct H as [H Hnm]. apply answers_items_in in H. destruct H as [it [r [A [B ->]]]].
    injection B as <- <-.
    rewrite (forall2_combine _ _ _ (forall2_map (fun it r => r = fast_res (order s) now it) _ items (fun _ _ => eq_refl)) it r A) in *.
    exists s. split; [apply lp_frame, same_frame_refl|]. split; [exact Hpath|].
    apply fast_res_answered. intro E. rewrite E in Hnm. discriminate.
  - (* FlightsSlow *) pose proof (flights_slow_ans now items items s (incl_refl _) Hi) as Hf. cbn [step fst] in Hpath |- *.
    destruct (flights_slow s now items) as [s1 rs]. cbn [fst snd answers] in *. exact (batch_answer _ _ _ _ _ _ _ _ Hf H).
Qed.

(** hits come from completed, unexpired entries of the state the operation ran on *)
Theorem step_hit g s o k c v :
  inv s -> In (AHit v) (answers k c o (snd (step g s o))) -> hit_from s k c (now_of o) v.
Proof.
  intros Hi H. destruct (step_answer g s o k c _ Hi H) as [sm [P1 [_ [e [A [B [C [D E]]]]]]]].
  exists e. repeat split; try assumption. apply (q_done _ _ (proj2 (path_quiet _ _ _ _ P1 Hi))); assumption.
Qed.
