(** Proofs about message delivery and the return value of Receive in Model/PubSub.v (C26). *)
From Coq Require Import String List Arith NArith ZArith Bool Lia.
Require Import RV.Model.Base RV.Model.PsBase RV.Model.PubSub RV.Proofs.PsListProofs RV.Proofs.PubSubHookProofs.
Import ListNotations.
Open Scope N_scope.
Open Scope list_scope.

Lemma fmsgs_app : forall r a b, fmsgs r (a ++ b) = fmsgs r a ++ fmsgs r b.
Proof. intros. unfold fmsgs. rewrite filter_app, map_app. reflexivity. Qed.

Lemma pend_msgs_app : forall id a b, pend_msgs id (a ++ b) = pend_msgs id a ++ pend_msgs id b.
Proof. intros. unfold pend_msgs. rewrite filter_app, map_app. reflexivity. Qed.

Lemma window_app : forall h x r, (rc_from r <= length h)%nat ->
  (forall t, rc_to r = Some t -> (t <= length h)%nat) ->
  window (h ++ [x]) r = window h r ++ (match rc_to r with None => [x] | Some _ => [] end).
Proof.
  intros h x r Hf Ht. unfold window. destruct (rc_to r) as [t|].
  - specialize (Ht t eq_refl). rewrite skipn_app. replace (rc_from r - length h)%nat with 0%nat by lia. cbn [skipn].
    rewrite firstn_app, skipn_length. replace (t - rc_from r - (length h - rc_from r))%nat with 0%nat by lia.
    cbn [firstn]. rewrite !app_nil_r. reflexivity.
  - rewrite skipn_app. replace (rc_from r - length h)%nat with 0%nat by lia. reflexivity.
Qed.

Lemma window_close : forall h r, rc_to r = None -> (rc_from r <= length h)%nat ->
  firstn (length h - rc_from r) (skipn (rc_from r) h) = window h r.
Proof.
  intros h r Ht Hf. unfold window. rewrite Ht. apply firstn_all2. rewrite skipn_length. lia.
Qed.

Definition find_recv_in := find_in rc_id find_recv (fun _ => eq_refl) (fun _ _ _ => eq_refl).
Definition find_recv_none := find_none rc_id find_recv (fun _ _ _ => eq_refl).
Definition find_recv_some := find_some rc_id find_recv (fun _ => eq_refl) (fun _ _ _ => eq_refl).

Lemma map_ids : forall (f : recv -> recv) l, (forall r, rc_id (f r) = rc_id r) -> map rc_id (map f l) = map rc_id l.
Proof. intros f l H. rewrite map_map. apply map_ext. exact H. Qed.

Lemma upd_recv_ids : forall f id l, (forall r, rc_id (f r) = rc_id r) -> map rc_id (upd_recv f id l) = map rc_id l.
Proof.
  intros f id l H. unfold upd_recv. apply map_ids. intros r. destruct (N.eqb (rc_id r) id); [apply H|reflexivity].
Qed.

(** the per-receiver invariant, relative to the handled message frames [h], the sends in progress [p] and p.error *)
Record rinv (h : list (kind * msg)) (p : list (kind * N * msg)) (pe : option perr) (r : recv) : Prop := {
  ri_from : (rc_from r <= length h)%nat;
  ri_to : match rc_to r with
          | Some t => (rc_from r <= t <= length h)%nat /\ rc_reg r = false
          | None => rc_reg r = true
          end;
  ri_open : rc_open r = rc_reg r;
  ri_nopend : rc_reg r = false -> pend_msgs (rc_id r) p = [];
  ri_live : rc_drain r = false -> rc_got r ++ rc_buf r ++ pend_msgs (rc_id r) p = fmsgs r (window h r);
  ri_prefix : exists rest, rc_got r ++ rest = fmsgs r (window h r);
  ri_done : forall ret, rc_state r = RDone ret ByClose -> rc_reg r = false /\ rc_got r = fmsgs r (window h r);
  ri_drain : rc_drain r = true -> exists ret how, rc_state r = RDone ret how;
  ri_done_drain : forall ret how, rc_state r = RDone ret how -> rc_drain r = true \/ (how = Refused /\ rc_reg r = false);
  ri_ctx : forall ret, rc_state r = RDone ret ByCtx -> ret = Some ECtx /\ rc_ctx r = true;
  ri_close_nil : rc_state r = RDone None ByClose -> exists c, rc_by r = Some (RemUnsub c) /\ mem_bytes c (rc_cs r) = true;
  ri_close_err : forall e, rc_state r = RDone (Some e) ByClose -> pe = Some e;
  ri_by_unsub : forall c, rc_by r = Some (RemUnsub c) -> mem_bytes c (rc_cs r) = true;
  ri_by_cleanup : rc_by r = Some RemCleanup -> pe <> None;
  ri_by_cancel : rc_by r = Some RemCancel -> exists ret how, rc_state r = RDone ret how;
  ri_by_some : rc_reg r = false -> rc_by r <> None \/ exists ret, rc_state r = RDone ret Refused
}.

(** the receivers of a state: distinct ids, each satisfying [rinv], and every send in progress addressed to one of them *)
Record ginv (s : state) : Prop := {
  gi_nodup : NoDup (map rc_id (st_recvs s));
  gi_recvs : Forall (rinv (st_hist s) (st_pend s) (st_perr s)) (st_recvs s);
  gi_pend : forall x, In x (st_pend s) -> exists r, In r (st_recvs s) /\ rc_id r = snd (fst x) /\ rc_kind r = fst (fst x)
}.

Lemma ginv_init : forall b, ginv (init b).
Proof. intros b. constructor; cbn; [constructor|constructor|intros x []]. Qed.

(** p.error only ever goes from nil to an error *)
Lemma rinv_perr : forall h p pe pe' r, (forall e, pe = Some e -> pe' = Some e) -> rinv h p pe r -> rinv h p pe' r.
Proof.
  intros h p pe pe' r Hm [A B C D E F G H I J K L M N O P]. constructor; auto.
  - intros Hx. specialize (N Hx). destruct pe as [e|]; [|congruence]. rewrite (Hm e eq_refl). discriminate.
Qed.

(** no send in progress is addressed to a receiver of another kind *)
Lemma pend_for_none : forall s r, ginv s -> In r (st_recvs s) -> pend_for (rc_kind r) (st_pend s) = false ->
  pend_msgs (rc_id r) (st_pend s) = [].
Proof.
  intros s r [Hnd _ Hp] Hin Hf. unfold pend_msgs.
  assert (Hnone : forall x, In x (st_pend s) -> N.eqb (snd (fst x)) (rc_id r) = false).
  { intros x Hx. destruct (N.eqb (snd (fst x)) (rc_id r)) eqn:E; [|reflexivity].
    apply N.eqb_eq in E. destruct (Hp x Hx) as [r' [A [B C]]].
    assert (r' = r) by (apply (keyed_unique rc_id (st_recvs s)); congruence).
    subst r'. unfold pend_for in Hf.
    assert (existsb (fun y => kind_eqb (fst (fst y)) (rc_kind r)) (st_pend s) = true).
    { apply existsb_exists. exists x. split; [exact Hx|]. rewrite <- C. destruct (rc_kind r); reflexivity. }
    congruence. }
  clear Hp Hf. induction (st_pend s) as [|x l IH]; [reflexivity|]. cbn.
  rewrite (Hnone x (or_introl eq_refl)). apply IH. intros y Hy. apply Hnone. right. exact Hy.
Qed.

Lemma Forall_upd : forall (P : recv -> Prop) f id l,
  Forall P l -> (forall r, In r l -> rc_id r = id -> P r -> P (f r)) -> Forall P (upd_recv f id l).
Proof.
  intros P f id l H Hf. unfold upd_recv. apply Forall_forall. intros y Hy. apply in_map_iff in Hy.
  destruct Hy as [r [Hr Hin]]. rewrite Forall_forall in H. specialize (H r Hin).
  destruct (N.eqb (rc_id r) id) eqn:E; subst y; [apply Hf; auto; apply N.eqb_eq; exact E|exact H].
Qed.

Lemma in_upd_recv : forall f id l y, In y (upd_recv f id l) ->
  exists r, In r l /\ y = (if N.eqb (rc_id r) id then f r else r).
Proof. intros f id l y H. unfold upd_recv in H. apply in_map_iff in H. destruct H as [r [A B]]. eauto. Qed.

(** updating one receiver keeps the addressees of the sends in progress *)
Lemma pend_upd : forall f id (l : list recv) (p : list (kind * N * msg)),
  (forall r, rc_id (f r) = rc_id r /\ rc_kind (f r) = rc_kind r) ->
  (forall x, In x p -> exists r, In r l /\ rc_id r = snd (fst x) /\ rc_kind r = fst (fst x)) ->
  forall x, In x p -> exists r, In r (upd_recv f id l) /\ rc_id r = snd (fst x) /\ rc_kind r = fst (fst x).
Proof.
  intros f id l p Hf H x Hx. destruct (H x Hx) as [r [A [B C]]].
  exists (if N.eqb (rc_id r) id then f r else r). split.
  - unfold upd_recv. apply in_map_iff. exists r. auto.
  - destruct (N.eqb (rc_id r) id); [destruct (Hf r) as [X Y]; rewrite X, Y|]; auto.
Qed.

Lemma pend_map : forall (f : recv -> recv) (l : list recv) (p : list (kind * N * msg)),
  (forall r, rc_id (f r) = rc_id r /\ rc_kind (f r) = rc_kind r) ->
  (forall x, In x p -> exists r, In r l /\ rc_id r = snd (fst x) /\ rc_kind r = fst (fst x)) ->
  forall x, In x p -> exists r, In r (map f l) /\ rc_id r = snd (fst x) /\ rc_kind r = fst (fst x).
Proof.
  intros f l p Hf H x Hx. destruct (H x Hx) as [r [A [B C]]].
  exists (f r). split; [apply in_map; exact A|]. destruct (Hf r) as [X Y]. rewrite X, Y. auto.
Qed.

Ltac ri_destruct H := destruct H as [Hfrom Hto Hopen Hnopend Hlive Hprefix Hdone Hdrain Hdd Hctx Hcnil Hcerr Hbu Hbc Hbca Hbs].

(** the fields of an updated receiver; its window and its messages are those of [r] when the update keeps
    [rc_from], [rc_to], [rc_kind] and [rc_cs] *)
Ltac same_window h r :=
  cbn [rc_id rc_kind rc_cs rc_ctx rc_state rc_reg rc_open rc_drain rc_buf rc_got rc_from rc_to rc_by];
  change (window h ?x) with (window h r); change (fmsgs ?x) with (fmsgs r).

Lemma not_done_not_drain : forall h p pe r, rinv h p pe r ->
  (forall ret how, rc_state r <> RDone ret how) -> rc_drain r = false.
Proof.
  intros h p pe r H Hs. destruct (rc_drain r) eqn:E; [|reflexivity].
  destruct (ri_drain _ _ _ _ H E) as [ret [how X]]. exfalso. eapply Hs; eauto.
Qed.

Lemma rinv_take : forall h p pe r m b, rinv h p pe r -> rc_buf r = m :: b ->
  (forall ret how, rc_state r <> RDone ret how) -> rinv h p pe (take_msg r).
Proof.
  intros h p pe r m b H Hb Hs. pose proof (not_done_not_drain _ _ _ _ H Hs) as Hnd. ri_destruct H.
  unfold take_msg. rewrite Hb.
  specialize (Hlive Hnd). rewrite Hb in Hlive.
  constructor; same_window h r; auto.
  - intros _. rewrite <- app_assoc. exact Hlive.
  - exists (b ++ pend_msgs (rc_id r) p). rewrite <- app_assoc. exact Hlive.
  - intros ret Hx. exfalso. eapply Hs; eauto.
Qed.

Lemma rinv_confirmed : forall h p pe r, rinv h p pe r -> rc_state r = RWait -> rinv h p pe (set_state RLoop r).
Proof.
  intros h p pe r H Hs. ri_destruct H. unfold set_state.
  constructor; same_window h r; auto; try (intros; discriminate).
  - intros Hd. destruct (Hdrain Hd) as [ret [how X]]. congruence.
  - intros Hx. destruct (Hbca Hx) as [ret [how X]]. congruence.
  - intros Hr. destruct (Hbs Hr) as [X|[ret X]]; [left; exact X|congruence].
Qed.

(** leaving the loop: by context, by a failed command, or because the channel was closed and is empty *)
Lemma rinv_finished : forall h p pe r ret how, rinv h p pe r ->
  (forall r0 h0, rc_state r <> RDone r0 h0) ->
  match how with
  | ByClose => rc_open r = false /\ rc_buf r = [] /\ ret = pe
  | ByCtx => ret = Some ECtx /\ rc_ctx r = true
  | ByCmdErr => True
  | Refused => False
  end ->
  rinv h p pe (finished ret how r).
Proof.
  intros h p pe r ret how H Hs Hhow. pose proof (not_done_not_drain _ _ _ _ H Hs) as Hnd. ri_destruct H.
  specialize (Hlive Hnd). unfold finished.
  constructor; same_window h r; auto; try (intros; discriminate).
  - intros ret0 Hx. injection Hx as -> ->. destruct Hhow as [Ho [Hb _]].
    assert (Hr : rc_reg r = false) by congruence. split; [exact Hr|].
    rewrite Hb, (Hnopend Hr), !app_nil_r in Hlive. exact Hlive.
  - intros _. eauto.
  - intros ret0 Hx. injection Hx as -> ->. exact Hhow.
  - intros Hx. injection Hx as -> ->. destruct Hhow as [Ho [Hb Hp]].
    assert (Hr : rc_reg r = false) by congruence.
    destruct (Hbs Hr) as [Hby|[r0 X]]; [|exfalso; eapply Hs; eauto].
    destruct (rc_by r) as [[c| |]|] eqn:Eby; [| | |congruence].
    + exists c. split; [reflexivity|]. apply Hbu. reflexivity.
    + exfalso. apply Hbc; [reflexivity|]. congruence.
    + destruct (Hbca eq_refl) as [r0 [h0 X]]. exfalso. eapply Hs; eauto.
  - intros e Hx. injection Hx as -> ->. destruct Hhow as [_ [_ Hp]]. congruence.
  - intros _. eauto.
  - intros Hr. destruct (Hbs Hr) as [X|[r0 X]]; [left; exact X|exfalso; eapply Hs; eauto].
Qed.

(** s.remove(id): by cancel(), by an unsubscribe push, or by the clean-up *)
Lemma rinv_removed : forall h p pe r by_, rinv h p pe r -> rc_reg r = true ->
  pend_msgs (rc_id r) p = [] ->
  match by_ with
  | RemUnsub c => mem_bytes c (rc_cs r) = true
  | RemCleanup => pe <> None
  | RemCancel => exists ret how, rc_state r = RDone ret how
  end ->
  rinv h p pe (removed (length h) by_ r).
Proof.
  intros h p pe r by_ H Hr Hp Hby. ri_destruct H.
  assert (Hto' : rc_to r = None) by (destruct (rc_to r) as [t|]; [destruct Hto; congruence|reflexivity]).
  assert (W : window h (removed (length h) by_ r) = window h r)
    by (unfold window at 1; cbn [removed rc_to rc_from]; apply window_close; assumption).
  constructor; rewrite ?W; unfold removed; same_window h r; auto.
  - intros ret Hx. destruct (Hdone ret Hx) as [X _]. congruence.
  - intros ret how Hx. destruct (Hdd ret how Hx) as [X|[_ X]]; [left; exact X|congruence].
  - intros Hx. destruct (Hdone None Hx) as [X _]. congruence.
  - intros c Hx. injection Hx as ->. exact Hby.
  - intros Hx. injection Hx as ->. exact Hby.
  - intros Hx. injection Hx as ->. exact Hby.
  - intros _. left. discriminate.
Qed.

Lemma pend_msgs_targets : forall (P : recv -> bool) k m l r,
  NoDup (map rc_id l) -> In r l ->
  pend_msgs (rc_id r) (map (fun r' => (k, rc_id r', m)) (filter P l)) = if P r then [m] else [].
Proof.
  intros P k m l r. induction l as [|y l IH]; intros Hnd Hin; [contradiction|].
  inversion Hnd as [|? ? Hy Hnd']; subst. cbn [filter].
  assert (Hnot : forall l0, ~ In (rc_id r) (map rc_id l0) ->
            pend_msgs (rc_id r) (map (fun r' => (k, rc_id r', m)) (filter P l0)) = []).
  { induction l0 as [|z l0 IH0]; intros Hz; [reflexivity|]. cbn [filter]. cbn in Hz.
    destruct (P z).
    - cbn. unfold pend_msgs in *. cbn. destruct (N.eqb (rc_id z) (rc_id r)) eqn:E.
      + apply N.eqb_eq in E. exfalso. apply Hz. left. exact E.
      + apply IH0. intros Hx. apply Hz. right. exact Hx.
    - apply IH0. intros Hx. apply Hz. right. exact Hx. }
  destruct Hin as [<-|Hin].
  - destruct (P y).
    + cbn [map]. unfold pend_msgs at 1. cbn [filter fst snd]. rewrite N.eqb_refl. cbn [map snd].
      fold (pend_msgs (rc_id y) (map (fun r' => (k, rc_id r', m)) (filter P l))). rewrite (Hnot l Hy). reflexivity.
    + apply (Hnot l Hy).
  - assert (Hne : rc_id y <> rc_id r). { intros E. apply Hy. rewrite E. apply in_map. exact Hin. }
    destruct (P y).
    + cbn [map]. unfold pend_msgs at 1. cbn [filter fst snd]. apply N.eqb_neq in Hne. rewrite Hne.
      apply IH; auto.
    + apply IH; auto.
Qed.

Lemma fmsgs_one : forall r k m, fmsgs r [(k, m)] = if matches r (k, m) then [m] else [].
Proof. intros. unfold fmsgs. cbn. destruct (matches r (k, m)); reflexivity. Qed.

Lemma rinv_push_msg : forall h pe l r k m,
  NoDup (map rc_id l) -> In r l -> rinv h [] pe r ->
  rinv (h ++ [(k, m)]) (map (fun r' => (k, rc_id r', m)) (subscribers k (msg_key k m) l)) pe r.
Proof.
  intros h pe l r k m Hnd Hin H. ri_destruct H.
  assert (Htb : forall t, rc_to r = Some t -> (t <= length h)%nat).
  { intros t Et. rewrite Et in Hto. lia. }
  pose proof (window_app h (k, m) r Hfrom Htb) as W.
  assert (Ep : pend_msgs (rc_id r) (map (fun r' => (k, rc_id r', m)) (subscribers k (msg_key k m) l)) =
               if kind_eqb (rc_kind r) k && rc_reg r && mem_bytes (msg_key k m) (rc_cs r) then [m] else []).
  { unfold subscribers. apply (pend_msgs_targets (fun r0 => kind_eqb (rc_kind r0) k && rc_reg r0 && mem_bytes (msg_key k m) (rc_cs r0)) k m l r Hnd Hin). }
  assert (Hm : matches r (k, m) = kind_eqb (rc_kind r) k && mem_bytes (msg_key k m) (rc_cs r)) by reflexivity.
  constructor; rewrite ?Ep; auto.
  - rewrite app_length. cbn. lia.
  - destruct (rc_to r) as [t|]; [|exact Hto]. rewrite app_length. cbn. destruct Hto. split; [lia|assumption].
  - intros Hr. rewrite Hr, andb_false_r. reflexivity.
  - intros Hd. specialize (Hlive Hd). cbn [pend_msgs filter map] in Hlive. rewrite app_nil_r in Hlive.
    rewrite W, fmsgs_app, <- Hlive.
    destruct (rc_to r) as [t|] eqn:Et.
    + destruct Hto as [_ Hr]. rewrite Hr, andb_false_r. cbn. rewrite !app_nil_r. reflexivity.
    + rewrite Hto, andb_true_r, fmsgs_one, Hm. rewrite <- app_assoc. reflexivity.
  - destruct Hprefix as [rest Hp]. rewrite W, fmsgs_app. eexists. rewrite <- Hp, <- app_assoc. reflexivity.
  - intros ret Hx. destruct (Hdone ret Hx) as [Hr Hg]. split; [exact Hr|].
    rewrite W, fmsgs_app. destruct (rc_to r) as [t|]; [cbn; rewrite app_nil_r; exact Hg|congruence].
Qed.

Lemma pend_msgs_cons_other : forall id k r m rest, r <> id -> pend_msgs id ((k, r, m) :: rest) = pend_msgs id rest.
Proof. intros. unfold pend_msgs. cbn. apply N.eqb_neq in H. rewrite H. reflexivity. Qed.

Lemma pend_msgs_cons_same : forall id k m rest, pend_msgs id ((k, id, m) :: rest) = m :: pend_msgs id rest.
Proof. intros. unfold pend_msgs. cbn. rewrite N.eqb_refl. reflexivity. Qed.

(** one send of the Publish in progress *)
Lemma rinv_send_other : forall h pe k id m rest r, rc_id r <> id ->
  rinv h ((k, id, m) :: rest) pe r -> rinv h rest pe r.
Proof.
  intros h pe k id m rest r Hne H. ri_destruct H.
  rewrite (pend_msgs_cons_other (rc_id r) k id m rest) in * by congruence.
  constructor; auto.
Qed.

Lemma rinv_send_drain : forall h pe k m rest r, rc_drain r = true ->
  rinv h ((k, rc_id r, m) :: rest) pe r -> rinv h rest pe r.
Proof.
  intros h pe k m rest r Hd H. ri_destruct H. rewrite pend_msgs_cons_same in *.
  constructor; auto.
  - intros Hr. specialize (Hnopend Hr). discriminate.
  - intros Hx. congruence.
Qed.

Lemma rinv_send_buf : forall h pe k m rest r, rc_drain r = false ->
  rinv h ((k, rc_id r, m) :: rest) pe r -> rinv h rest pe (set_buf (rc_buf r ++ [m]) r).
Proof.
  intros h pe k m rest r Hd H. ri_destruct H. rewrite pend_msgs_cons_same in *. unfold set_buf.
  constructor; same_window h r; auto.
  - intros Hr. specialize (Hnopend Hr). discriminate.
  - intros _. specialize (Hlive Hd). rewrite <- Hlive, <- !app_assoc. reflexivity.
Qed.

Lemma pend_msgs_none : forall id (p : list (kind * N * msg)), (forall x, In x p -> snd (fst x) <> id) -> pend_msgs id p = [].
Proof. intros id p H. unfold pend_msgs. rewrite (filter_key_none (fun x => snd (fst x))); auto. Qed.

Lemma Forall_rinv_weaken : forall h p pe pe' l, (forall e, pe = Some e -> pe' = Some e) ->
  Forall (rinv h p pe) l -> Forall (rinv h p pe') l.
Proof. intros. eapply Forall_impl; [|eassumption]. intros r Hr. eapply rinv_perr; eauto. Qed.

Lemma recv_by_id_unique : forall s id x, ginv s -> In x (st_recvs s) -> rc_id x = id ->
  forall r, In r (st_recvs s) -> rc_id r = id -> r = x.
Proof.
  intros s id x G Hx Hid r Hr Hrid. apply (keyed_unique rc_id (st_recvs s)); [apply (gi_nodup _ G)|..]; congruence.
Qed.

(** a step that rewrites the receiver [r] and nothing else the invariant depends on *)
Lemma ginv_upd_one : forall s f r x,
  ginv s -> find_recv r (st_recvs s) = Some x ->
  (forall y, rc_id (f y) = rc_id y /\ rc_kind (f y) = rc_kind y) ->
  (In x (st_recvs s) -> rinv (st_hist s) (st_pend s) (st_perr s) x -> rinv (st_hist s) (st_pend s) (st_perr s) (f x)) ->
  ginv (with_recvs s (upd_recv f r (st_recvs s))).
Proof.
  intros s f r x G F Hf Hnew. pose proof G as [Hnd Hall Hp]. destruct (find_recv_in _ _ _ F) as [Hx Hid].
  rewrite Forall_forall in Hall. constructor; cbn.
  - rewrite upd_recv_ids; [exact Hnd|]. intros y. apply Hf.
  - apply Forall_upd; [apply Forall_forall; exact Hall|]. intros y Hy Hyid _.
    rewrite (recv_by_id_unique s r x G Hx Hid y Hy Hyid). auto.
  - apply pend_upd; assumption.
Qed.

Lemma ids_kind_finished : forall ret how r, rc_id (finished ret how r) = rc_id r /\ rc_kind (finished ret how r) = rc_kind r.
Proof. intros; split; reflexivity. Qed.
Lemma ids_kind_removed : forall n b r, rc_id (removed n b r) = rc_id r /\ rc_kind (removed n b r) = rc_kind r.
Proof. intros; split; reflexivity. Qed.
Lemma ids_kind_take : forall r, rc_id (take_msg r) = rc_id r /\ rc_kind (take_msg r) = rc_kind r.
Proof. intros r. unfold take_msg. destruct (rc_buf r); split; reflexivity. Qed.

Lemma ginv_frame : forall s s',
  st_recvs s' = st_recvs s -> st_hist s' = st_hist s -> st_pend s' = st_pend s ->
  (forall e, st_perr s = Some e -> st_perr s' = Some e) -> ginv s -> ginv s'.
Proof.
  intros s s' A B C D [Hnd Hall Hp]. constructor; rewrite ?A, ?B, ?C; auto.
  eapply Forall_rinv_weaken; eauto.
Qed.

Lemma ginv_cleanup : forall s s', ginv s -> st_pend s = [] -> st_perr s <> None ->
  st_recvs s' = map (fun r => if rc_reg r then removed (length (st_hist s)) RemCleanup r else r) (st_recvs s) ->
  st_pend s' = [] -> st_hist s' = st_hist s -> st_perr s' = st_perr s -> ginv s'.
Proof.
  intros s s' [Hnd Hall Hp] Epend Hpe A B C D. constructor; rewrite ?A, ?B, ?C, ?D.
  - rewrite map_ids; [exact Hnd|]. intros x. destruct (rc_reg x); reflexivity.
  - apply Forall_forall. intros y Hy. apply in_map_iff in Hy. destruct Hy as [x [<- Hx]].
    rewrite Forall_forall in Hall. specialize (Hall x Hx). rewrite Epend in Hall.
    destruct (rc_reg x) eqn:Er; [|exact Hall]. apply rinv_removed; auto.
  - intros x [].
Qed.

(** a receiver with a fresh id registers *)
Lemma ginv_add_recv : forall s x, ginv s -> find_recv (rc_id x) (st_recvs s) = None ->
  (pend_msgs (rc_id x) (st_pend s) = [] -> rinv (st_hist s) (st_pend s) (st_perr s) x) ->
  ginv (with_recvs s (st_recvs s ++ [x])).
Proof.
  intros s x [Hnd Hall Hp] F Hx. pose proof (find_recv_none _ _ F) as Hfresh. constructor; cbn.
  - rewrite map_app. cbn. apply NoDup_snoc; [exact Hnd|]. intros Hi. apply in_map_iff in Hi.
    destruct Hi as [y [A B]]. apply (Hfresh y B). exact A.
  - apply Forall_app. split; [exact Hall|]. constructor; [|constructor]. apply Hx.
    apply pend_msgs_none. intros y Hy. destruct (Hp y Hy) as [r0 [A [B C]]]. rewrite <- B. apply Hfresh. exact A.
  - intros y Hy. destruct (Hp y Hy) as [r0 [A B]]. exists r0. split; [apply in_or_app; left; exact A|exact B].
Qed.

(** the reader handles a frame (no Publish in progress) *)
Lemma ginv_push : forall s f, ginv s -> st_pend s = [] -> ginv (handle_push s f).
Proof.
  intros s f G E. pose proof G as [Hnd Hall Hp]. rewrite E in Hall, Hp.
  destruct f as [k m|k c [r|]|k c|keys]; unfold handle_push; cbn -[upd_recv subscribers]; rewrite ?E.
  + (* message: Publish *)
    constructor; cbn -[upd_recv subscribers].
    * exact Hnd.
    * apply Forall_forall. intros r Hr. rewrite Forall_forall in Hall.
      apply rinv_push_msg; auto.
    * intros x Hx. apply in_map_iff in Hx. destruct Hx as [r [<- Hr]].
      unfold subscribers in Hr. apply filter_In in Hr. destruct Hr as [Hr Hc].
      exists r. cbn. split; [exact Hr|]. split; [reflexivity|].
      apply andb_prop in Hc. destruct Hc as [Hc _]. apply andb_prop in Hc. destruct Hc as [Hc _].
      destruct (rc_kind r), k; try discriminate; reflexivity.
  + (* confirmation that answers a command *)
    constructor; cbn -[upd_recv subscribers].
    * rewrite upd_recv_ids; [exact Hnd|]. intros x. destruct (rc_state x); reflexivity.
    * apply Forall_upd; [exact Hall|]. intros x Hx Hid Hri. destruct (rc_state x) eqn:Es; auto.
      apply rinv_confirmed; auto.
    * intros x [].
  + eapply ginv_frame; [..|exact G]; auto.
  + (* unsubscribe push *)
    constructor; cbn -[upd_recv subscribers].
    * rewrite map_ids; [exact Hnd|]. intros x. destruct (kind_eqb (rc_kind x) k && rc_reg x && mem_bytes c (rc_cs x)); reflexivity.
    * apply Forall_forall. intros y Hy. apply in_map_iff in Hy. destruct Hy as [x [<- Hx]].
      rewrite Forall_forall in Hall. specialize (Hall x Hx).
      destruct (kind_eqb (rc_kind x) k && rc_reg x && mem_bytes c (rc_cs x)) eqn:Ec; [|exact Hall].
      apply andb_prop in Ec. destruct Ec as [Ec Hm]. apply andb_prop in Ec. destruct Ec as [_ Hr].
      apply rinv_removed; auto.
    * intros x [].
  + eapply ginv_frame; [..|exact G]; auto.
Qed.

Lemma ginv_step : forall pm s l s', ginv s -> step pm s l = Some s' -> ginv s'.
Proof.
  intros pm s l s' G H.
  destruct (srv_label l) eqn:Ls.
  { destruct (step_srv _ _ _ _ Ls H) as [ssub [fr [pl ->]]]. eapply ginv_frame; [..|exact G]; auto. }
  destruct (hook_label l) eqn:Lh.
  { rewrite (step_hook _ _ _ _ Lh H). eapply ginv_frame; [..|exact G]; auto. }
  destruct l; try discriminate; cbn [step] in H.
  - (* LSubscribe *) step_inv H; (apply ginv_add_recv; [exact G|exact E0|]); intros Hpm; cbn [rc_id] in Hpm.
    + constructor; cbn; auto; try (intros; discriminate).
      * unfold window. cbn. rewrite skipn_all. cbn. rewrite Hpm. reflexivity.
      * exists []. unfold window. cbn. rewrite skipn_all. reflexivity.
    + (* subs already closed: refused at once *)
      constructor; cbn; auto; try (intros; discriminate).
      all: try (split; [lia|reflexivity]).
      all: try (intros; unfold window; cbn; rewrite Nat.sub_diag; cbn; rewrite ?Hpm; reflexivity).
      all: try (exists []; unfold window; cbn; rewrite Nat.sub_diag; reflexivity).
      all: try (intros ret how Hx; injection Hx as _ <-; right; auto).
      all: try (intros _; right; eauto).
  - (* LCmdErr *) step_inv H. eapply ginv_upd_one; eauto using ids_kind_finished.
    intros _ C. apply rinv_finished; auto. intros ? ?; congruence.
  - (* LRecv *) step_inv H; (eapply ginv_upd_one; eauto using ids_kind_take);
      intros _ C; (eapply rinv_take; eauto; intros ? ?; congruence).
  - (* LEnd *) step_inv H. eapply ginv_upd_one; eauto using ids_kind_finished.
    intros _ C. apply rinv_finished; auto. intros ? ?; congruence.
  - (* LCtx *) step_inv H. eapply ginv_upd_one; eauto using ids_kind_finished.
    intros _ C. apply rinv_finished; auto. intros ? ?; congruence.
  - (* LRemove *) step_inv H; [|exact G]. eapply ginv_upd_one; eauto using ids_kind_removed.
    intros A C. apply rinv_removed; eauto. apply pend_for_none; auto.
  - (* LPush *) destruct (step_push pm _ _ H) as [f [w [_ [Ep [_ ->]]]]].
    apply ginv_push; [eapply ginv_frame; [..|exact G]; auto|exact Ep].
  - (* LSend *) step_inv H; pose proof G as [Hnd Hall Hp];
      match goal with Hf : find_recv _ _ = Some _ |- _ => destruct (find_recv_in _ _ _ Hf) as [A B] end;
      match goal with Hq : st_pend s = _ :: _ |- _ => rename Hq into Epend end; subst.
    + (* drained *)
      constructor; cbn; [exact Hnd| |intros x Hx; apply Hp; rewrite Epend; right; exact Hx].
      apply Forall_forall. intros y Hy. rewrite Forall_forall in Hall. specialize (Hall y Hy). rewrite Epend in Hall.
      destruct (N.eq_dec (rc_id y) (rc_id r)) as [Heq|Hne].
      * assert (y = r) by (eapply recv_by_id_unique; eauto). subst y. eapply rinv_send_drain; eauto.
      * eapply rinv_send_other; eauto.
    + (* buffered *)
      constructor; cbn.
      * rewrite upd_recv_ids; [exact Hnd|]. reflexivity.
      * apply Forall_forall. intros y Hy. apply in_upd_recv in Hy. destruct Hy as [x [Hx ->]].
        rewrite Forall_forall in Hall. specialize (Hall x Hx). rewrite Epend in Hall.
        destruct (N.eqb (rc_id x) (rc_id r)) eqn:Eq.
        -- apply N.eqb_eq in Eq. assert (x = r) by (eapply recv_by_id_unique; eauto). subst x.
           eapply rinv_send_buf; eauto.
        -- apply N.eqb_neq in Eq. eapply rinv_send_other; eauto.
      * intros x Hx. assert (Hx' : In x (st_pend s)) by (rewrite Epend; right; exact Hx).
        eapply (pend_upd _ (rc_id r) (st_recvs s) (st_pend s)); eauto; intros z; split; reflexivity.
  - (* LSetErr *) step_inv H. eapply ginv_frame; [..|exact G]; auto. cbn. intros e0 He. rewrite He. reflexivity.
  - (* LCleanup *) destruct (step_cleanup pm _ _ H) as [e [Ee [Ep [_ ->]]]].
    assert (Hpe : st_perr s <> None) by congruence.
    destruct (st_cur s); (eapply (ginv_cleanup s); [exact G|exact Ep|exact Hpe|reflexivity|reflexivity|reflexivity|reflexivity]).
Qed.

Theorem ginv_reach : forall pm b ls s, run pm (init b) ls = Some s -> ginv s.
Proof.
  intros pm b ls s H. apply (run_invariant pm ginv) with (ls := ls) (s := init b); auto.
  - intros s0 l s1 G Hs. eapply ginv_step; eauto.
  - apply ginv_init.
Qed.

Theorem delivery : forall pm b ls s, run pm (init b) ls = Some s ->
  forall r, In r (st_recvs s) ->
    (exists rest, rc_got r ++ rest = fmsgs r (window (st_hist s) r)) /\
    (rc_drain r = false -> rc_got r ++ rc_buf r ++ pend_msgs (rc_id r) (st_pend s) = fmsgs r (window (st_hist s) r)) /\
    (forall ret, rc_state r = RDone ret ByClose -> rc_got r = fmsgs r (window (st_hist s) r)).
Proof.
  intros pm b ls s H r Hr. pose proof (ginv_reach pm b ls s H) as [_ Hall _].
  rewrite Forall_forall in Hall. specialize (Hall r Hr). ri_destruct Hall.
  split; [exact Hprefix|]. split; [exact Hlive|]. intros ret Hx. apply (Hdone ret Hx).
Qed.

(** every delivered message is for one of the receiver's own channels / patterns, of its own kind *)
Lemma fmsgs_in : forall r h m, In m (fmsgs r h) -> exists k, In (k, m) h /\ matches r (k, m) = true.
Proof.
  intros r h m H. unfold fmsgs in H. apply in_map_iff in H. destruct H as [[k m'] [E Hin]]. cbn in E. subst m'.
  apply filter_In in Hin. exists k. exact Hin.
Qed.

Lemma in_firstn : forall {A} n (l : list A) x, In x (firstn n l) -> In x l.
Proof. induction n; intros l x H; [contradiction|]. destruct l; [contradiction|]. destruct H; [left|right]; auto. Qed.

Lemma in_skipn : forall {A} n (l : list A) x, In x (skipn n l) -> In x l.
Proof. induction n; intros l x H; [exact H|]. destruct l; [contradiction|]. right. apply IHn. exact H. Qed.

Lemma window_incl : forall h r x, In x (window h r) -> In x h.
Proof.
  intros h r x H. unfold window in H. destruct (rc_to r) as [t|].
  - apply in_firstn in H. eapply in_skipn; eauto.
  - eapply in_skipn; eauto.
Qed.

Theorem no_foreign : forall pm b ls s, run pm (init b) ls = Some s ->
  forall r m, In r (st_recvs s) -> In m (rc_got r) ->
    exists k, In (k, m) (st_hist s) /\ k = rc_kind r /\ mem_bytes (msg_key k m) (rc_cs r) = true.
Proof.
  intros pm b ls s H r m Hr Hm. destruct (delivery pm b ls s H r Hr) as [[rest Hp] _].
  assert (Hin : In m (fmsgs r (window (st_hist s) r))) by (rewrite <- Hp; apply in_or_app; left; exact Hm).
  destruct (fmsgs_in _ _ _ Hin) as [k [A B]]. exists k. split; [eapply window_incl; eauto|].
  unfold matches in B. cbn in B. apply andb_prop in B. destruct B as [B1 B2]. split; [|exact B2].
  destruct (rc_kind r), k; try discriminate; reflexivity.
Qed.

(** the server side: every message frame on the connection stems from a publish *)
Definition frame_ok (pm : pmatch_t) (plog : list (bool * bytes * bytes)) (f : frame) : Prop :=
  match f with
  | FMsg k m => exists sh, In (sh, m_chan m, m_body m) plog /\
                  (sh = true <-> k = KS) /\ (k = KP -> pm (m_pat m) (m_chan m) = true) /\ (k <> KP -> m_pat m = [])
  | _ => True
  end.

(** every frame handled or still on the wire is accounted for by the server's publish log *)
Definition sinv (pm : pmatch_t) (s : state) : Prop :=
  Forall (frame_ok pm (st_publog s)) (st_handled s ++ st_wire s).

Lemma frame_ok_mono : forall pm a b f, frame_ok pm a f -> frame_ok pm (a ++ b) f.
Proof.
  intros pm a b f H. destruct f; cbn in *; auto. destruct H as [sh [A B]]. exists sh. split; [apply in_or_app; left; exact A|exact B].
Qed.

Lemma sinv_frame : forall pm s s', st_publog s' = st_publog s -> st_handled s' = st_handled s -> st_wire s' = st_wire s ->
  sinv pm s -> sinv pm s'.
Proof. intros pm s s' A B C H. unfold sinv in *. rewrite A, B, C. exact H. Qed.

Lemma sinv_srv : forall pm s ssub frames plog,
  sinv pm s -> Forall (frame_ok pm (st_publog s ++ plog)) frames -> sinv pm (srv s ssub frames plog).
Proof.
  intros pm s ssub frames plog H Hf. unfold sinv in *. cbn. rewrite app_assoc. apply Forall_app. split; [|exact Hf].
  eapply Forall_impl; [|exact H]. intros f. apply frame_ok_mono.
Qed.

Lemma handle_push_srv : forall s f,
  st_wire (handle_push s f) = st_wire s /\ st_publog (handle_push s f) = st_publog s /\
  st_handled (handle_push s f) = st_handled s ++ [f].
Proof. intros s f. unfold handle_push. destruct f as [k m|k c [r|]|k c|keys]; repeat split; reflexivity. Qed.

Lemma sinv_step : forall pm s l s', sinv pm s -> step pm s l = Some s' -> sinv pm s'.
Proof.
  intros pm s l s' S H.
  destruct (recv_label l) eqn:Lr.
  { rewrite (step_recv _ _ _ _ Lr H). exact S. }
  destruct l; try discriminate; cbn [step] in H;
    try (step_inv H; try destruct (st_cur s); (eapply sinv_frame; [..|exact S]; reflexivity)).
  - (* LPush *) destruct (step_push pm _ _ H) as [f [w [Ew [_ [_ ->]]]]]. unfold sinv in *. rewrite Ew in S.
    destruct (handle_push_srv (with_wire s w) f) as [W [P G]]. rewrite G, W, P. cbn. rewrite <- app_assoc. exact S.
  - (* LSrvSub *) step_inv H. apply sinv_srv; [exact S|].
    apply Forall_forall. intros f Hf. clear - Hf. revert Hf. generalize true. induction cs as [|c cs IH]; intros b0 Hf; [contradiction|].
    destruct Hf as [<-|Hf]; [exact I|eapply IH; eauto].
  - (* LSrvUnsub *) step_inv H. apply sinv_srv; [exact S|]. apply Forall_forall. intros f Hf. apply in_map_iff in Hf.
    destruct Hf as [c [<- _]]. exact I.
  - (* LSrvPublish *) step_inv H. apply sinv_srv; [exact S|]. apply Forall_forall. intros f Hf.
    unfold fanout in Hf. destruct sharded.
    + destruct (mem_bytes c (st_ssub s KS)); [|contradiction]. destruct Hf as [<-|[]]. cbn.
      exists true. split; [apply in_or_app; right; left; reflexivity|]. repeat split; auto; try discriminate.
    + apply in_app_or in Hf. destruct Hf as [Hf|Hf].
      * destruct (mem_bytes c (st_ssub s KN)); [|contradiction]. destruct Hf as [<-|[]]. cbn.
        exists false. split; [apply in_or_app; right; left; reflexivity|]. repeat split; auto; try discriminate.
      * apply in_map_iff in Hf. destruct Hf as [p [<- Hp]]. apply filter_In in Hp. destruct Hp as [_ Hp]. cbn.
        exists false. split; [apply in_or_app; right; left; reflexivity|].
        split; [split; discriminate|]. split; [intros _; exact Hp|intros Hx; exfalso; apply Hx; reflexivity].
  - (* LSrvInval *) step_inv H. apply sinv_srv; [exact S|]. constructor; [exact I|constructor].
Qed.

Theorem sinv_reach : forall pm b ls s, run pm (init b) ls = Some s -> sinv pm s.
Proof.
  intros pm b ls s H. apply (run_invariant pm (sinv pm)) with (ls := ls) (s := init b); auto.
  - intros; eapply sinv_step; eauto.
  - constructor.
Qed.
