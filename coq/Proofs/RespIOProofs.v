(** The reader abstraction: programs compose ([run_bind]); the chunked reader computes what the flat
    reader computes on the concatenation of the chunks, for every operation and hence for every
    program (this is what makes decoding independent of how the stream is split across reads). *)
From Coq Require Import List Arith NArith ZArith Bool Lia ZifyN ZifyNat ZifyBool.
Require Import RV.Model.Base RV.Model.RespIO RV.Proofs.RespBaseProofs.
Import ListNotations.
Open Scope N_scope.

Lemma run_bind {A C} B (p : prog A) (f : A -> prog C) : forall s al,
  run B (bind p f) s al = let '(a, s', al') := run B p s al in run B (f a) s' al'.
Proof.
  induction p as [a|o k IH]; intros s al; cbn [bind run]; [reflexivity|].
  destruct (flat_step B o s) as [r s']. apply IH.
Qed.

Lemma run_chunked_bind {A C} B (p : prog A) (f : A -> prog C) : forall st al,
  run_chunked B (bind p f) st al = let '(a, st', al') := run_chunked B p st al in run_chunked B (f a) st' al'.
Proof.
  induction p as [a|o k IH]; intros st al; cbn [bind run_chunked]; [reflexivity|].
  destruct (chunk_step B o st) as [r st']. apply IH.
Qed.

Lemma run_bindr_ok {A C} B (p : prog (result A)) (f : A -> prog (result C)) s al a s' al' :
  run B p s al = (Ok a, s', al') -> run B (bindr p f) s al = run B (f a) s' al'.
Proof. intros H. unfold bindr. rewrite run_bind, H. reflexivity. Qed.

Lemma run_bindr_err {A C} B (p : prog (result A)) (f : A -> prog (result C)) s al e s' al' :
  run B p s al = (Err e, s', al') -> run B (bindr p f) s al = (Err e, s', al').
Proof. intros H. unfold bindr. rewrite run_bind, H. reflexivity. Qed.

Lemma run_bindr_panic {A C} B (p : prog (result A)) (f : A -> prog (result C)) s al s' al' :
  run B p s al = (Panic, s', al') -> run B (bindr p f) s al = (Panic, s', al').
Proof. intros H. unfold bindr. rewrite run_bind, H. reflexivity. Qed.

(** the other way round: what a run of [bind p f] / [bindr p f] consisted of *)
Lemma run_bind_inv {A C} B (p : prog A) (f : A -> prog C) s al out :
  run B (bind p f) s al = out -> exists a s0 al0, run B p s al = (a, s0, al0) /\ run B (f a) s0 al0 = out.
Proof. rewrite run_bind. destruct (run B p s al) as [[a s0] al0]. eauto. Qed.

Lemma run_bindr_inv {A C} B (p : prog (result A)) (f : A -> prog (result C)) s al out :
  run B (bindr p f) s al = out ->
  exists r0 s0 al0, run B p s al = (r0, s0, al0) /\
    match r0 with Ok a => run B (f a) s0 al0 = out | Err e => (Err e, s0, al0) = out | Panic => (Panic, s0, al0) = out end.
Proof.
  intros H. apply run_bind_inv in H as (r0 & s0 & al0 & E & H). exists r0, s0, al0. split; [exact E|]. now destruct r0.
Qed.

Lemma run_do_op B o s al : run B (do_op o) s al = (fst (flat_step B o s), snd (flat_step B o s), meter o al).
Proof. unfold do_op. cbn [run]. destruct (flat_step B o s); reflexivity. Qed.

Lemma run_alloc B n s al : run B (alloc n) s al = (tt, s, al + n).
Proof. reflexivity. Qed.

Lemma blen_app (a b : bytes) : blen (a ++ b) = blen a + blen b.
Proof. unfold blen. rewrite app_length. lia. Qed.

Lemma flat_cons buf c cs : flat (buf ++ c, cs) = flat (buf, c :: cs).
Proof. unfold flat. cbn [fst snd concat]. now rewrite app_assoc. Qed.

Lemma ensure_flat n : forall chunks buf, flat (ensure n buf chunks) = flat (buf, chunks).
Proof.
  induction chunks as [|c cs IH]; intros buf; cbn [ensure].
  - destruct (n <=? blen buf); reflexivity.
  - destruct (n <=? blen buf); [reflexivity|]. rewrite IH. apply flat_cons.
Qed.

(** after [ensure n]: n bytes are buffered, or nothing more will arrive *)
Lemma ensure_spec n : forall chunks buf,
  let st := ensure n buf chunks in n <= blen (fst st) \/ snd st = [].
Proof.
  induction chunks as [|c cs IH]; intros buf; cbn [ensure].
  - destruct (N.leb_spec n (blen buf)); cbn; auto.
  - destruct (N.leb_spec n (blen buf)); cbn [fst snd]; [auto|]. apply IH.
Qed.

Lemma ensure_lf_flat limit : forall chunks buf, flat (ensure_lf limit buf chunks) = flat (buf, chunks).
Proof.
  induction chunks as [|c cs IH]; intros buf; cbn [ensure_lf].
  - destruct (find_lf _); [reflexivity|]. destruct (match limit with Some B => _ | None => false end); reflexivity.
  - destruct (find_lf _); [reflexivity|]. destruct (match limit with Some B => _ | None => false end); [reflexivity|].
    rewrite IH. apply flat_cons.
Qed.

Definition lim (limit : option nat) (buf : bytes) : bytes :=
  match limit with Some B => firstn B buf | None => buf end.

Lemma ensure_lf_spec limit : forall chunks buf,
  let st := ensure_lf limit buf chunks in
  (exists i, find_lf (lim limit (fst st)) = Some i) \/
  (find_lf (lim limit (fst st)) = None /\
   (match limit with Some B => (B <= length (fst st))%nat | None => False end \/ snd st = [])).
Proof.
  induction chunks as [|c cs IH]; intros buf; cbn [ensure_lf]; fold (lim limit buf).
  - destruct (find_lf (lim limit buf)) eqn:E; cbn [fst snd]; [left; rewrite E; eauto|].
    destruct limit as [B|]; [destruct (Nat.leb_spec B (length buf))|]; cbn [fst snd]; right; rewrite E; auto.
  - destruct (find_lf (lim limit buf)) eqn:E; cbn [fst snd]; [left; rewrite E; eauto|].
    destruct limit as [B|].
    + destruct (Nat.leb_spec B (length buf)); cbn [fst snd]; [right; rewrite E; auto|]. apply IH.
    + apply IH.
Qed.

Lemma find_lf_app_some a b i : find_lf a = Some i -> find_lf (a ++ b) = Some i.
Proof.
  revert i; induction a as [|x a IH]; intros i H; cbn in *; [discriminate|].
  destruct (x =? LFb); [exact H|]. destruct (find_lf a) as [j|]; [|discriminate].
  now rewrite (IH j eq_refl).
Qed.

Lemma find_lf_lt a i : find_lf a = Some i -> (i < length a)%nat.
Proof.
  revert i; induction a as [|x a IH]; intros i H; cbn in *; [discriminate|].
  destruct (x =? LFb); [inversion H; lia|]. destruct (find_lf a) as [j|]; [|discriminate].
  inversion H. specialize (IH j eq_refl). lia.
Qed.

Lemma find_lf_firstn_app B a b i : find_lf (firstn B a) = Some i -> find_lf (firstn B (a ++ b)) = Some i.
Proof.
  intros H. rewrite firstn_app. now apply find_lf_app_some.
Qed.

(** what [ensure n] leaves: the same stream, with n bytes buffered (then taking n bytes only touches the
    buffer) or nothing more to come *)
Lemma ensure_cases n buf chunks :
  exists b' c', ensure n buf chunks = (b', c') /\ flat (buf, chunks) = b' ++ concat c' /\
    ((n <= blen b' /\ n <= blen (b' ++ concat c') /\
      firstn (N.to_nat n) (b' ++ concat c') = firstn (N.to_nat n) b' /\
      skipn (N.to_nat n) (b' ++ concat c') = skipn (N.to_nat n) b' ++ concat c') \/
     (blen b' < n /\ c' = [])).
Proof.
  pose proof (ensure_flat n chunks buf) as Hf. pose proof (ensure_spec n chunks buf) as Hs.
  destruct (ensure n buf chunks) as [b' c']. exists b', c'. cbn [fst snd] in Hs.
  split; [reflexivity|]. split; [now rewrite <- Hf|].
  destruct (N.leb_spec n (blen b')) as [H1|H1]; [left|right; split; [assumption|destruct Hs; [lia|assumption]]].
  rewrite blen_app. split; [assumption|]. split; [lia|].
  unfold blen in H1. split; [apply firstn_app_short|apply skipn_app_short]; lia.
Qed.

(** one operation *)
Lemma chunk_step_flat B o st :
  flat_step B o (flat st) = (fst (chunk_step B o st), flat (snd (chunk_step B o st))).
Proof.
  destruct st as [buf chunks]. destruct o; cbn [chunk_step].
  - (* ReadByte *)
    pose proof (ensure_flat 1 chunks buf) as Hf. pose proof (ensure_spec 1 chunks buf) as Hs.
    destruct (ensure 1 buf chunks) as [b' c']. cbn [fst snd] in *. rewrite <- Hf.
    destruct b' as [|x r]; cbn [flat_step fst snd].
    + destruct Hs as [Hs|Hs]; [unfold blen in Hs; cbn in Hs; lia|]. subst c'. reflexivity.
    + unfold flat. cbn. reflexivity.
  - (* Peek *)
    pose proof (ensure_flat (N.of_nat n) chunks buf) as Hf. pose proof (ensure_spec (N.of_nat n) chunks buf) as Hs.
    destruct (ensure (N.of_nat n) buf chunks) as [b' c']. cbn [fst snd flat_step] in *. rewrite <- Hf.
    f_equal. f_equal. unfold flat. cbn [fst snd].
    destruct Hs as [Hs|Hs].
    + apply firstn_app_short. unfold blen in Hs. lia.
    + subst c'. cbn. now rewrite app_nil_r.
  - (* Discard *)
    cbn [flat_step]. destruct (n <? 0)%Z; [reflexivity|]. rewrite <- (Z_N_nat n).
    destruct (ensure_cases (Z.to_N n) buf chunks) as (b' & c' & -> & -> & [(H1 & H2 & _ & ->)|(H1 & ->)]).
    + apply N.leb_le in H1, H2. rewrite H1, H2. reflexivity.
    + cbn [concat]. rewrite app_nil_r. apply N.leb_gt in H1. rewrite H1. reflexivity.
  - (* ReadSlice *)
    pose proof (ensure_lf_flat (Some B) chunks buf) as Hf. pose proof (ensure_lf_spec (Some B) chunks buf) as Hs.
    destruct (ensure_lf (Some B) buf chunks) as [b' c']. cbn [fst snd lim flat_step] in *. rewrite <- Hf.
    unfold flat. cbn [fst snd].
    destruct Hs as [[i Hi]|[Hn Hs]].
    + rewrite Hi. rewrite (find_lf_firstn_app _ _ _ _ Hi). cbn [fst snd].
      pose proof (find_lf_lt _ _ Hi) as Hlt. rewrite firstn_length in Hlt.
      f_equal; [f_equal; apply firstn_app_short; lia|apply skipn_app_short; lia].
    + rewrite Hn. destruct Hs as [Hs|Hs].
      * rewrite firstn_app_short by assumption. rewrite Hn.
        destruct (Nat.leb_spec B (length b')) as [_|Hx]; [|lia].
        destruct (Nat.leb_spec B (length (b' ++ concat c'))) as [_|Hx]; [|rewrite app_length in Hx; lia].
        cbn [fst snd]. f_equal. now apply skipn_app_short.
      * subst c'. cbn [concat]. rewrite app_nil_r. rewrite Hn.
        destruct (B <=? length b')%nat; cbn [fst snd concat]; rewrite ?app_nil_r; reflexivity.
  - (* ReadBytes *)
    pose proof (ensure_lf_flat None chunks buf) as Hf. pose proof (ensure_lf_spec None chunks buf) as Hs.
    destruct (ensure_lf None buf chunks) as [b' c']. cbn [fst snd lim flat_step] in *. rewrite <- Hf.
    unfold flat. cbn [fst snd].
    destruct Hs as [[i Hi]|[Hn Hs]].
    + rewrite Hi. rewrite (find_lf_app_some _ _ _ Hi). cbn [fst snd].
      pose proof (find_lf_lt _ _ Hi) as Hlt.
      f_equal; [f_equal; apply firstn_app_short; lia|apply skipn_app_short; lia].
    + destruct Hs as [[]|Hs]. subst c'. cbn [concat]. rewrite app_nil_r, Hn. reflexivity.
  - (* ReadFull *)
    cbn [flat_step]. destruct (n =? 0); [reflexivity|].
    destruct (ensure_cases n buf chunks) as (b' & c' & -> & -> & [(H1 & H2 & -> & ->)|(H1 & ->)]).
    + apply N.leb_le in H1, H2. rewrite H1, H2. reflexivity.
    + cbn [concat]. rewrite app_nil_r. apply N.leb_gt in H1. rewrite H1. destruct b'; reflexivity.
  - (* CopyN *)
    cbn [flat_step].
    destruct (ensure_cases n buf chunks) as (b' & c' & -> & -> & [(H1 & H2 & -> & ->)|(H1 & ->)]).
    + apply N.leb_le in H1, H2. rewrite H1, H2. reflexivity.
    + cbn [concat]. rewrite app_nil_r. apply N.leb_gt in H1. rewrite H1. reflexivity.
  - (* Alloc *) reflexivity.
  - (* CopyOut *)
    cbn [flat_step].
    destruct (ensure_cases n buf chunks) as (b' & c' & -> & -> & [(H1 & H2 & -> & ->)|(H1 & ->)]).
    + apply N.leb_le in H1, H2. rewrite H1, H2. reflexivity.
    + cbn [concat]. rewrite app_nil_r. apply N.leb_gt in H1. rewrite H1. reflexivity.
  - (* Write *) reflexivity.
  - (* WriterErr *) reflexivity.
Qed.

(** every program *)
Theorem run_chunked_flat {A} B (p : prog A) : forall st al,
  run B p (flat st) al =
  (fst (fst (run_chunked B p st al)), flat (snd (fst (run_chunked B p st al))), snd (run_chunked B p st al)).
Proof.
  induction p as [a|o k IH]; intros st al; cbn [run run_chunked]; [reflexivity|].
  rewrite chunk_step_flat. destruct (chunk_step B o st) as [r st']. cbn [fst snd]. apply IH.
Qed.
