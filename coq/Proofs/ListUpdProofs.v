(** List facts shared by the Lock and Aside proofs: [upd] (Model/ListUpd.v) against [length], [nth_error] and
    [Forall]; lookups; [NoDup] under [map] and [filter]. *)
From Coq Require Import List Arith Lia.
Require Import RV.Model.ListUpd.
Require Export RV.Proofs.ListFacts.
Import ListNotations.

Lemma length_upd {A} n (x : A) l : length (upd n x l) = length l.
Proof. revert n. induction l as [|y l IH]; intros [|n]; cbn [upd length]; auto. Qed.

Lemma nth_error_upd_same {A} n (x : A) l : n < length l -> nth_error (upd n x l) n = Some x.
Proof. revert n. induction l as [|y l IH]; intros [|n] H; cbn [upd length nth_error] in *; try lia; auto. apply IH. lia. Qed.

Lemma nth_error_upd_other {A} n m (x : A) l : n <> m -> nth_error (upd n x l) m = nth_error l m.
Proof. revert n m. induction l as [|y l IH]; intros [|n] [|m] H; cbn [upd nth_error]; auto; try congruence. Qed.

Lemma nth_error_upd {A} n m (x : A) l :
  nth_error (upd n x l) m = if Nat.eqb n m then (if Nat.ltb n (length l) then Some x else None) else nth_error l m.
Proof.
  destruct (Nat.eqb n m) eqn:E.
  - apply Nat.eqb_eq in E. subst m. destruct (Nat.ltb n (length l)) eqn:L.
    + apply Nat.ltb_lt in L. apply nth_error_upd_same, L.
    + apply Nat.ltb_ge in L. apply nth_error_None. rewrite length_upd. exact L.
  - apply Nat.eqb_neq in E. apply nth_error_upd_other, E.
Qed.

Lemma nth_error_lt {A} (l : list A) n x : nth_error l n = Some x -> n < length l.
Proof. intros H. apply nth_error_Some. congruence. Qed.

Lemma nth_error_upd_inv {A} n m (x y : A) l :
  nth_error (upd n x l) m = Some y -> m = n /\ y = x \/ m <> n /\ nth_error l m = Some y.
Proof.
  rewrite nth_error_upd. destruct (Nat.eqb_spec n m) as [->|N]; [|auto].
  destruct (Nat.ltb m (length l)); [|discriminate]. intros H. injection H as <-. auto.
Qed.

Lemma Forall_upd {A} (P : A -> Prop) n x l : Forall P l -> P x -> Forall P (upd n x l).
Proof.
  revert n. induction l as [|y l IH]; intros [|n] H Hx; cbn [upd]; auto; inversion H; subst; constructor; auto.
Qed.

(** what is found in a list with one more element at its end *)
Lemma nth_error_snoc {A} (l : list A) x n y : nth_error (l ++ [x]) n = Some y -> nth_error l n = Some y \/ y = x.
Proof.
  destruct (Nat.ltb_spec n (length l)) as [L|L]; [rewrite nth_error_app1 by exact L; auto|].
  rewrite nth_error_app2 by exact L. destruct (n - length l) as [|[|m]]; cbn; [|discriminate..].
  intros H. injection H as <-. auto.
Qed.

Lemma Forall_nth {A} (P : A -> Prop) l n x : Forall P l -> nth_error l n = Some x -> P x.
Proof. intros H Hn. eapply Forall_forall; [exact H|]. eapply nth_error_In; eauto. Qed.

Lemma Forall_map_same {A} (P : A -> Prop) (f : A -> A) l : (forall x, P x -> P (f x)) -> Forall P l -> Forall P (map f l).
Proof. intros Hf H. induction H; cbn; constructor; auto. Qed.

Lemma NoDup_map_fst_inj {A B} (l : list (A * B)) k a b : NoDup (map fst l) -> In (k, a) l -> In (k, b) l -> a = b.
Proof.
  induction l as [|[k' x] l IH]; cbn [map fst In]; intros H Ha Hb; [destruct Ha|].
  inversion H as [|? ? Hn Hr]; subst.
  destruct Ha as [Ea|Ha], Hb as [Eb|Hb].
  - congruence.
  - injection Ea as -> ->. exfalso. apply Hn. apply (in_map fst) in Hb. exact Hb.
  - injection Eb as -> ->. exfalso. apply Hn. apply (in_map fst) in Ha. exact Ha.
  - eapply IH; eauto.
Qed.

Lemma bind_some {A B} (o : option A) (f : A -> option B) r :
  match o with Some x => f x | None => None end = Some r -> exists x, o = Some x /\ f x = Some r.
Proof. destruct o; [eauto|discriminate]. Qed.
