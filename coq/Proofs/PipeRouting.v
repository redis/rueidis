(** InvB ties the wire, the queue, the reader's loop state and the call records together, for servers that
    follow ServerProto.  From it: [routing] (C01_routing), [rstep_enabled] (C01_no_protocol_panic) and
    [rstep_effect], what one reader step does, on which PipeHistory and PipeNotStuck build. *)
From Coq Require Import List NArith ZArith Bool Arith Lia String Permutation.
Require Import RV.Model.Base RV.Model.PipeQueue RV.Model.Pipe RV.Model.PipeLts.
Require Import RV.Proofs.PipeLtsBasics RV.Proofs.PipeReaderProofs RV.Proofs.PipeExclusive.
Import ListNotations.
Open Scope N_scope.

Definition wire_of_slot (sl : slot) : list witem := map witem_of (s_cmds sl).

(** list facts used below *)
Lemma map_cons_inv {A B} (f : A -> B) l y ys : map f l = y :: ys -> exists x xs, l = x :: xs /\ f x = y /\ map f xs = ys.
Proof. destruct l as [|x xs]; cbn; [discriminate|]. intros H. inversion H. eauto. Qed.

Lemma move_perm (x : slot) p w : Permutation ((x :: p) ++ w) (p ++ (w ++ [x])).
Proof.
  cbn. rewrite app_assoc. apply Permutation_cons_append.
Qed.

Lemma skipn_cons_nth {A} (l : list A) n x rest : skipn n l = x :: rest -> nth_error l n = Some x /\ skipn (S n) l = rest.
Proof.
  revert n. induction l as [|a l IH]; intros n H.
  - destruct n; discriminate.
  - destruct n as [|n]; cbn in *.
    + inversion H; subst. auto.
    + apply IH. exact H.
Qed.

Lemma firstn_S_nth {A} (l : list A) n x : nth_error l n = Some x -> firstn (S n) l = firstn n l ++ [x].
Proof.
  revert n. induction l as [|a l IH]; intros n H.
  - destruct n; discriminate.
  - destruct n as [|n]; cbn in *.
    + inversion H; subst. reflexivity.
    + f_equal. now apply IH.
Qed.

Lemma existsb_false_in {A} (f : A -> bool) l x : existsb f l = false -> In x l -> f x = false.
Proof.
  intros H Hx. destruct (f x) eqn:E; [|reflexivity].
  assert (existsb f l = true) by (apply existsb_exists; eauto). congruence.
Qed.

Lemma skipn_in {A} (l : list A) n x rest : skipn n l = x :: rest -> In x l.
Proof. intros H. apply skipn_cons_nth in H as [H _]. eapply nth_error_In; eauto. Qed.

Lemma existsb_app_false {A} (f : A -> bool) l1 l2 : existsb f l1 = false -> existsb f l2 = false -> existsb f (l1 ++ l2) = false.
Proof. intros H1 H2. rewrite existsb_app, H1, H2. reflexivity. Qed.

Lemma flat_map_cons_inv (wr : list slot) c L :
  flat_map s_cmds wr = c :: L -> (forall sl, In sl wr -> s_cmds sl <> []) ->
  exists sl wr' rest, wr = sl :: wr' /\ s_cmds sl = c :: rest /\ L = rest ++ flat_map s_cmds wr'.
Proof.
  intros H Hne. destruct wr as [|sl wr']; [discriminate|]. cbn in H.
  destruct (s_cmds sl) as [|c0 rest] eqn:E.
  - exfalso. apply (Hne sl); [now left|exact E].
  - cbn in H. inversion H; subst. exists sl, wr', rest. auto.
Qed.

Section Routing.
  Variable g : config.
  Let r2ps := g_r2ps g.
  Let sv := g_srv g.

  (** ServerProto is needed from [kind_of_cmd] on, i.e. by everything that looks at a frame the server sent; the
      version only where the reader classifies a reply ([rstep_cases] and what follows from it). *)
  Hypothesis Hsrv : forall c, cmd_served_ok r2ps sv c = true.
  Hypothesis Hver : g_ver g <> 6%Z.

  (** frames the server may have sent for the wire items [ws], in order, with out-of-band pushes anywhere
      between the (contiguous) answers to single items *)
  Inductive ServedP (P : msg -> bool) : list witem -> list msg -> Prop :=
  | SvNil : ServedP P [] []
  | SvPush p ws fs : P p = true -> ServedP P ws fs -> ServedP P ws (p :: fs)
  | SvItem w ws fs : ServedP P ws fs -> ServedP P (w :: ws) (frames_of sv w ++ fs).

  (** out-of-band pushes: while the pipe is in its synchronous phase only RESP3 push frames occur *)
  Definition push_bg (m : msg) : bool := free_push r2ps m.
  Definition push_sync (m : msg) : bool := free_push r2ps m && N.eqb (m_typ m) t_push.
  Definition Served := ServedP push_bg.
  Definition ServedS := ServedP push_sync.

  Definition reals (c : crec) (k : nat) : list result :=
    map RMsg (map (result_of sv) (firstn k (k_cmds c))).

  (** [rec_wf]: a started call has commands, well-formed, one unless it is a batch; [rec_r1]: its results are a
      prefix of the replies to its own commands, then errors; [full]: one result per command; [rec_cmp]: a record
      that is completed or on its way out is full; [rec_r2]: a call returned the context error for every command, or
      its full results; [rec_sync]: a synchronous call has no command without reply; [rec_fresh]: nothing sent,
      no results; [rec_ret]: only a returned call has a return value. *)
  Definition rec_wf (c : crec) : Prop :=
    k_pc c <> PIdle -> forallb wf_cmd (k_cmds c) = true /\ k_cmds c <> [] /\ (k_multi c = true \/ List.length (k_cmds c) = 1%nat).
  Definition rec_r1 (c : crec) : Prop := exists k es, k_res c = reals c k ++ map RErr es.
  Definition full (c : crec) : Prop := List.length (k_res c) = List.length (k_cmds c).
  Definition rec_cmp (c : crec) : Prop :=
    (k_comp c = true \/ k_pc c = PGot \/ k_drain c = DGot \/ (exists b, k_pc c = PDecr b) \/ k_pc c = PBgAfter) -> full c.
  Definition rec_r2 (c : crec) : Prop :=
    forall r, k_ret c = Some r -> r = errs_for c ECtx \/ (r = k_res c /\ full c).
  Definition rec_sync (c : crec) : Prop :=
    sync_user c = true -> existsb c_noreply (k_cmds c) = false.
  Definition rec_fresh (c : crec) : Prop :=
    match k_pc c with
    | PIncr | PLoad _ | PBg | PPut | PSyncW | PErr => k_res c = [] /\ k_comp c = false /\ k_ret c = None
    | PSyncR _ => k_comp c = false /\ k_ret c = None
    | _ => True
    end.
  Definition rec_ret (c : crec) : Prop := k_ret c <> None -> k_pc c = PRet.
  Definition rec_ok (c : crec) : Prop :=
    rec_wf c /\ rec_r1 c /\ rec_cmp c /\ rec_r2 c /\ rec_sync c /\ rec_fresh c /\ rec_ret c.

  (** the record of the call that owns a slot which is in the queue or being filled *)
  Definition owner_ok (sl : slot) (c : crec) : Prop :=
    s_multi sl = k_multi c /\ s_cmds sl = k_cmds c /\ k_comp c = false /\
    (k_pc c = PWait \/ (k_pc c = PRet /\ k_ret c = Some (errs_for c ECtx))).

  Definition reading (c : crec) : Prop := exists k, k_pc c = PSyncR k.

  Record InvB (s : pstate) : Prop := mkInvB {
    b_rec : forall t, rec_ok (p_calls s t);
    b_off : p_b s = BOff -> q_wr (p_q s) = [] /\ p_wbuf s = [] /\ p_w s = WOff /\ p_bg s = false;
    b_held : (forall r, p_b s <> BRead r) -> q_held (p_q s) = false;
    b_queue : forall sl, In sl (q_pend (p_q s) ++ q_wr (p_q s)) ->
              owner_ok sl (p_calls s (s_owner sl)) /\ k_res (p_calls s (s_owner sl)) = [];
    b_nodup : NoDup (map s_owner (q_pend (p_q s) ++ q_wr (p_q s)));
    b_cur : forall r, p_b s = BRead r ->
            flags_clear r /\ (0 <= r_skip r)%Z /\ (r_ff r <= List.length (r_multi r))%nat /\
            if Nat.ltb (r_ff r) (List.length (r_multi r)) then
              q_held (p_q s) = true /\
              owner_ok (mkSlot (r_owner r) (r_resps r) (r_multi r)) (p_calls s (r_owner r)) /\
              k_res (p_calls s (r_owner r)) = reals (p_calls s (r_owner r)) (r_ff r) /\
              ~ In (r_owner r) (map s_owner (q_pend (p_q s) ++ q_wr (p_q s)))
            else q_held (p_q s) = false;
    b_coh : forall r, p_b s = BRead r ->
            exists conf rest csd csr,
              p_s2c s = conf ++ rest /\ Z.of_nat (List.length conf) = r_skip r /\
              forallb (sub_confirm r2ps) conf = true /\ Served (map witem_of csd) rest /\
              skipn (r_ff r) (r_multi r) ++ flat_map s_cmds (q_wr (p_q s)) = csd ++ csr /\
              map witem_of csr = p_c2s s ++ p_wbuf s;
    b_sync : p_b s = BOff ->
             ((forall t, ~ reading (p_calls s t)) -> p_c2s s = [] /\ ServedS [] (p_s2c s)) /\
             (forall t k, k_pc (p_calls s t) = PSyncR k ->
                (k <= List.length (k_cmds (p_calls s t)))%nat /\
                k_res (p_calls s t) = reals (p_calls s t) (List.length (k_cmds (p_calls s t)) - k) /\
                exists csd csr,
                  skipn (List.length (k_cmds (p_calls s t)) - k) (k_cmds (p_calls s t)) = csd ++ csr /\
                  map witem_of csr = p_c2s s /\ ServedS (map witem_of csd) (p_s2c s))
  }.

  Lemma served_snoc_push P ws fs p : ServedP P ws fs -> P p = true -> ServedP P ws (fs ++ [p]).
  Proof.
    induction 1 as [|q ws fs Hq H IH|w ws fs H IH]; intros Hp; cbn.
    - apply SvPush; [assumption|constructor].
    - apply SvPush; auto.
    - rewrite <- app_assoc. apply SvItem. auto.
  Qed.

  Lemma served_snoc_item P ws fs w : ServedP P ws fs -> ServedP P (ws ++ [w]) (fs ++ frames_of sv w).
  Proof.
    induction 1 as [|q ws fs Hq H IH|w' ws fs H IH]; cbn.
    - rewrite <- (app_nil_r (frames_of sv w)). apply (SvItem P w [] []). constructor.
    - apply SvPush; auto.
    - rewrite <- app_assoc. apply SvItem. auto.
  Qed.

  Lemma served_mono (P Q : msg -> bool) ws fs : (forall m, P m = true -> Q m = true) -> ServedP P ws fs -> ServedP Q ws fs.
  Proof. intros HPQ. induction 1; constructor; auto. Qed.

  (** what ServerProto says about the answer to one command *)
  Inductive kind_of (c : cmd) : Prop :=
  | KNormal : c_unsub c = false -> c_noreply c = false -> witem_of c = WReply c ->
              is_push_frame r2ps (sv_reply sv c) = false -> result_of sv c = sv_reply sv c -> kind_of c
  | KSub : c_unsub c = false -> c_noreply c = true -> witem_of c = WSub c ->
           forallb (sub_confirm r2ps) (sv_confirm sv c) = true ->
           S (List.length (sv_confirm sv c)) = c_argc c -> (1 <= List.length (sv_confirm sv c))%nat ->
           result_of sv c = empty_msg -> kind_of c
  | KPong : c_unsub c = true -> witem_of c = WPing c ->
            is_push_frame r2ps (sv_pong sv c) = false -> fst (is_unsub_reply (sv_pong sv c)) = true ->
            bytes_eqb (m_str (sv_pong sv c)) (b "QUEUED"%string) = false ->
            result_of sv c = snd (is_unsub_reply (sv_pong sv c)) -> kind_of c.

  Lemma kind_of_cmd c : kind_of c.
  Proof.
    pose proof (Hsrv c) as H. unfold cmd_served_ok in H.
    destruct (c_unsub c) eqn:Eu.
    - apply andb_true_iff in H as [H H3]. apply andb_true_iff in H as [H1 H2].
      apply KPong; auto.
      + unfold witem_of. now rewrite Eu.
      + now apply negb_true_iff.
      + now apply negb_true_iff.
      + unfold result_of. now rewrite Eu.
    - destruct (c_noreply c) eqn:En.
      + apply andb_true_iff in H as [H H3]. apply andb_true_iff in H as [H1 H2].
        apply KSub; auto.
        * unfold witem_of. now rewrite Eu, En.
        * now apply Nat.eqb_eq.
        * apply Nat.eqb_eq in H2. apply Nat.leb_le in H3. lia.
        * unfold result_of. now rewrite Eu, En.
      + apply KNormal; auto.
        * unfold witem_of. now rewrite Eu, En.
        * now apply negb_true_iff.
        * unfold result_of. now rewrite Eu, En.
  Qed.

  (** a wire item carries its command *)
  Definition witem_cmd (w : witem) : cmd := match w with WReply c | WSub c | WPing c => c end.

  Lemma witem_cmd_of c : witem_cmd (witem_of c) = c.
  Proof. unfold witem_of. destruct (c_unsub c), (c_noreply c); reflexivity. Qed.

  Lemma witem_of_inj c c' : witem_of c = witem_of c' -> c = c'.
  Proof. intros H. apply (f_equal witem_cmd) in H. now rewrite !witem_cmd_of in H. Qed.

  Lemma frames_nonempty c : frames_of sv (witem_of c) <> [].
  Proof.
    destruct (kind_of_cmd c) as [_ _ E _ _|_ _ E _ _ L _|_ E _ _ _ _]; rewrite E; cbn; try discriminate.
    destruct (sv_confirm sv c); [cbn in L; lia|discriminate].
  Qed.

  Lemma served_inv P cs f rest :
    ServedP P (map witem_of cs) (f :: rest) ->
    (P f = true /\ ServedP P (map witem_of cs) rest) \/
    (exists c cs' tl fs', cs = c :: cs' /\ frames_of sv (witem_of c) = f :: tl /\ rest = tl ++ fs' /\
                          ServedP P (map witem_of cs') fs').
  Proof.
    intros H. remember (map witem_of cs) as ws eqn:Ews. remember (f :: rest) as fs eqn:Efs.
    destruct H as [|p ws fs0 Hp H|w ws fs0 H].
    - discriminate.
    - inversion Efs; subst. left. split; assumption.
    - right. destruct cs as [|c cs']; [discriminate|]. cbn in Ews. inversion Ews; subst.
      pose proof (frames_nonempty c) as Hne.
      destruct (frames_of sv (witem_of c)) as [|f0 tl] eqn:Ef; [contradiction|].
      cbn in Efs. inversion Efs; subst. exists c, cs', tl, fs0. repeat split; auto.
  Qed.

  (** the frames [fs] answer a prefix of the commands [cs]; the others are still on their way as [ws] *)
  Definition answered (P : msg -> bool) (fs : list msg) (cs : list cmd) (ws : list witem) : Prop :=
    exists csd csr, cs = csd ++ csr /\ map witem_of csr = ws /\ ServedP P (map witem_of csd) fs.

  Lemma answered_push P fs cs ws m : answered P fs cs ws -> P m = true -> answered P (fs ++ [m]) cs ws.
  Proof. intros (csd&csr&E1&E2&E3) Hm. exists csd, csr. repeat split; auto. now apply served_snoc_push. Qed.

  Lemma answered_serve P fs cs w ws : answered P fs cs (w :: ws) -> answered P (fs ++ frames_of sv w) cs ws.
  Proof.
    intros (csd&csr&E1&E2&E3). apply map_cons_inv in E2 as (c&csr'&->&<-&E2).
    exists (csd ++ [c]), csr'. rewrite E1, <- app_assoc, map_app. repeat split; auto. now apply served_snoc_item.
  Qed.

  Lemma answered_write P fs cs ws cs' : answered P fs cs ws -> answered P fs (cs ++ cs') (ws ++ map witem_of cs').
  Proof. intros (csd&csr&->&<-&E3). exists csd, (csr ++ cs'). now rewrite app_assoc, map_app. Qed.

  (** the incoming frames [fs] start with [skip] confirmations still to be skipped; the rest answers a
      prefix of the outstanding commands [cs], and the others are still on their way as [ws] *)
  Definition coh (fs : list msg) (skip : Z) (cs : list cmd) (ws : list witem) : Prop :=
    exists conf rest csd csr,
      fs = conf ++ rest /\ Z.of_nat (List.length conf) = skip /\
      forallb (sub_confirm r2ps) conf = true /\ Served (map witem_of csd) rest /\
      cs = csd ++ csr /\ map witem_of csr = ws.

  Lemma coh_answered fs skip cs ws :
    coh fs skip cs ws <->
    exists conf rest, fs = conf ++ rest /\ Z.of_nat (List.length conf) = skip /\
                      forallb (sub_confirm r2ps) conf = true /\ answered push_bg rest cs ws.
  Proof.
    split.
    - intros (conf&rest&csd&csr&E1&E2&E3&E4&E5&E6). exists conf, rest. repeat split; auto. exists csd, csr. repeat split; auto.
    - intros (conf&rest&E1&E2&E3&csd&csr&E5&E6&E4). exists conf, rest, csd, csr. repeat split; auto.
  Qed.

  (** frames [x] arrive, answering more commands or none *)
  Lemma coh_append fs skip cs ws x cs' ws' :
    (forall rest, answered push_bg rest cs ws -> answered push_bg (rest ++ x) cs' ws') ->
    coh fs skip cs ws -> coh (fs ++ x) skip cs' ws'.
  Proof.
    intros Hx H. apply coh_answered in H as (conf&rest&->&E2&E3&A).
    apply coh_answered. exists conf, (rest ++ x). rewrite app_assoc. auto.
  Qed.

  Lemma coh_write fs skip cs ws cs' : coh fs skip cs ws -> coh fs skip (cs ++ cs') (ws ++ map witem_of cs').
  Proof.
    intros H. apply coh_answered in H as (conf&rest&->&E2&E3&A).
    apply coh_answered. exists conf, rest. repeat split; auto. now apply answered_write.
  Qed.

  Lemma apply_inert o mu s a : inert a = true -> apply_act o mu s a = s.
  Proof. destruct a; cbn; try discriminate; reflexivity. Qed.

  Lemma fold_inert o mu l : forall s, forallb inert l = true -> fold_left (apply_act o mu) l s = s.
  Proof.
    induction l as [|a l IH]; intros s H; cbn; [reflexivity|].
    apply andb_true_iff in H as [H1 H2]. rewrite apply_inert by assumption. now apply IH.
  Qed.

  (** state after the delivery part [(if mu then [AStore ff m]) ++ (if last then [AComplete m])] *)
  Lemma fold_deliver_spec o mu last ff m s :
    (mu = true \/ last = true) ->
    let s' := fold_left (apply_act o mu) ((if mu then [AStore ff m] else []) ++ (if last then [AComplete m] else [])) s in
    let c := p_calls s o in
    let c1 := with_res c (k_res c ++ [RMsg m]) in
    p_q s' = (if last then q_finish (p_q s) else p_q s) /\
    (forall t, t <> o -> p_calls s' t = p_calls s t) /\
    p_calls s' o = (if last then with_comp c1 true else c1).
  Proof.
    intros H. destruct mu, last; cbn.
    - repeat split; [|now rewrite !upd_same].
      intros t Ht. now rewrite !upd_other by assumption.
    - repeat split; [|now rewrite !upd_same]. intros t Ht. now rewrite upd_other by assumption.
    - repeat split; [|now rewrite !upd_same]. intros t Ht. now rewrite upd_other by assumption.
    - destruct H; discriminate.
  Qed.

  (** the reader loop is over *)
  Definition post (b : bpc) : Prop := b <> BOff /\ forall r, b <> BRead r.

  (** the reader's pc did not change, or moved within the tail of _background *)
  Lemma b_moved (b b' : bpc) :
    b' = b \/ (post b /\ post b') ->
    (b' = BOff -> b = BOff) /\ (forall r, b' = BRead r -> b = BRead r) /\
    ((forall r, b' <> BRead r) -> forall r, b <> BRead r).
  Proof.
    intros [->|[[H1 H2] [H3 H4]]]; [auto|]. repeat split.
    - intros K. contradiction.
    - intros r K. destruct (H4 r K).
    - intros _ r K. destruct (H2 r K).
  Qed.

  Lemma invb_same s s' :
    InvB s ->
    (p_b s' = p_b s \/ (post (p_b s) /\ post (p_b s'))) ->
    p_q s' = p_q s -> p_wbuf s' = p_wbuf s -> p_c2s s' = p_c2s s -> p_s2c s' = p_s2c s ->
    (forall t, p_calls s' t = p_calls s t) ->
    (p_b s' = BOff -> p_w s' = p_w s /\ p_bg s' = p_bg s) ->
    InvB s'.
  Proof.
    intros I Hb e1 e2 e3 e4 e5 Hwb.
    destruct (b_moved _ _ Hb) as (Hoff&Hrd&Hnr).
    destruct I as [b_rec b_off b_held b_queue b_nodup b_cur b_coh b_sync]. constructor; rewrite ?e1, ?e2, ?e3, ?e4; auto.
    - intros t. rewrite e5. auto.
    - intros Ho. destruct (Hwb Ho) as [-> ->]. auto.
    - intros sl Hsl. rewrite e5. auto.
    - intros r Hr. specialize (b_cur r (Hrd r Hr)). rewrite e5. exact b_cur.
    - intros Ho. destruct (b_sync (Hoff Ho)) as [A B]. split.
      + intros K. apply A. intros t. rewrite <- e5. apply K.
      + intros t k. rewrite e5. apply B.
  Qed.

  (** a step that rewrites the record of caller t and nothing else InvB reads *)
  Lemma invb_call s s' t c' :
    InvB s ->
    (p_b s' = p_b s \/ (post (p_b s) /\ post (p_b s'))) ->
    p_q s' = p_q s -> p_wbuf s' = p_wbuf s -> p_c2s s' = p_c2s s -> p_s2c s' = p_s2c s ->
    (forall u, p_calls s' u = upd (p_calls s) t c' u) ->
    rec_ok c' ->
    ~ reading c' -> ~ reading (p_calls s t) ->
    (forall sl, owner_ok sl (p_calls s t) ->
                owner_ok sl c' /\ k_res c' = k_res (p_calls s t) /\ k_cmds c' = k_cmds (p_calls s t)) ->
    (p_b s' = BOff -> p_w s' = p_w s /\ p_bg s' = p_bg s) ->
    InvB s'.
  Proof.
    intros I Hb e1 e2 e3 e4 e5 Hrec Hnr' Hnr Hown Hwb.
    assert (Et : p_calls s' t = c') by (rewrite e5; apply upd_same).
    assert (Eo : forall u, u <> t -> p_calls s' u = p_calls s u) by (intros u Hu; rewrite e5; now apply upd_other).
    destruct (b_moved _ _ Hb) as (Hoff&Hrd&Hnrd).
    destruct I as [b_rec b_off b_held b_queue b_nodup b_cur b_coh b_sync]. constructor; rewrite ?e1, ?e2, ?e3, ?e4; auto.
    - intros u. destruct (N.eq_dec u t) as [->|Nu]; [now rewrite Et|rewrite Eo by assumption; auto].
    - intros Ho. destruct (Hwb Ho) as [-> ->]. auto.
    - intros sl Hsl. destruct (b_queue sl Hsl) as [A B].
      destruct (N.eq_dec (s_owner sl) t) as [E|Nu].
      + rewrite E in *. rewrite Et. destruct (Hown sl A) as (A'&B'&_). split; [assumption|congruence].
      + rewrite Eo by assumption. auto.
    - intros r Hr. specialize (b_cur r (Hrd r Hr)). destruct b_cur as (F&K1&K2&K3).
      split; [exact F|split; [exact K1|split; [exact K2|]]].
      revert K3. destruct (Nat.ltb (r_ff r) (List.length (r_multi r))); intros K3; [|assumption].
      destruct K3 as (Q1&Q2&Q3&Q4). split; [exact Q1|split; [|split; [|exact Q4]]].
      + destruct (N.eq_dec (r_owner r) t) as [E|Nu]; [|rewrite Eo by assumption; auto].
        rewrite E in *. rewrite Et. apply (Hown _ Q2).
      + destruct (N.eq_dec (r_owner r) t) as [E|Nu]; [|rewrite Eo by assumption; auto].
        rewrite E in *. rewrite Et. destruct (Hown _ Q2) as (_&B'&C'). rewrite B', Q3. unfold reals. now rewrite C'.
    - intros Ho. destruct (b_sync (Hoff Ho)) as [A B]. split.
      + intros K. apply A. intros u. destruct (N.eq_dec u t) as [->|Nu]; [assumption|]. rewrite <- Eo by assumption. apply K.
      + intros u k Hk. destruct (N.eq_dec u t) as [->|Nu].
        * exfalso. apply Hnr'. rewrite Et in Hk. now exists k.
        * rewrite Eo in * by assumption. now apply B.
  Qed.

  Lemma not_owner_pc sl c : owner_ok sl c -> k_pc c <> PWait -> k_pc c <> PRet -> False.
  Proof. intros (_&_&_&[H|[H _]]) H1 H2; contradiction. Qed.

  Lemma not_owner_comp sl c : owner_ok sl c -> k_comp c = true -> False.
  Proof. intros (_&_&H&_) K. congruence. Qed.

  (* [call_b s t c']: [invb_call] for a step that rewrites the record of t to c' and changes nothing else that
     InvB reads; leaves [rec_ok c'], that neither record is at [PSyncR], and what an owner of a slot keeps *)
  Ltac call_b s t c' :=
    eapply (invb_call s _ t c');
    [eassumption | left; reflexivity | reflexivity | reflexivity | reflexivity | reflexivity | intros ?; reflexivity | | | | | intros _; split; reflexivity].

  Ltac rec7 := split; [|split; [|split; [|split; [|split; [|split]]]]].

  (** the record keeps commands and results; only control fields change *)
  Lemma rec_ok_ctl c c' :
    rec_ok c -> k_pc c <> PIdle ->
    k_cmds c' = k_cmds c -> k_multi c' = k_multi c -> k_res c' = k_res c ->
    ((k_comp c' = true \/ k_pc c' = PGot \/ k_drain c' = DGot \/ (exists b, k_pc c' = PDecr b) \/ k_pc c' = PBgAfter) ->
     (k_comp c = true \/ k_pc c = PGot \/ k_drain c = DGot \/ (exists b, k_pc c = PDecr b) \/ k_pc c = PBgAfter)) ->
    (forall r, k_ret c' = Some r -> k_ret c = Some r \/ r = errs_for c ECtx \/
               (r = k_res c /\ (k_comp c = true \/ k_pc c = PGot \/ k_drain c = DGot \/ (exists b, k_pc c = PDecr b) \/ k_pc c = PBgAfter))) ->
    (sync_user c' = true -> sync_user c = true \/ existsb c_noreply (k_cmds c) = false) ->
    rec_fresh c' -> rec_ret c' ->
    rec_ok c'.
  Proof.
    intros (W&R1&Cm&R2&Sy&Fr&Rt) Hpc e1 e2 e3 Hcmp Hret Hsy Hfr Hrt.
    rec7; auto.
    - unfold rec_wf. rewrite e1, e2. intros _. apply W. assumption.
    - unfold rec_r1, reals. rewrite e1, e3. exact R1.
    - unfold rec_cmp, full. rewrite e1, e3. intros K. apply Cm. auto.
    - unfold rec_r2, full, errs_for. rewrite e1, e3. intros r Hr.
      destruct (Hret r Hr) as [K|[K|[K1 K2]]].
      + apply R2 in K. exact K.
      + left. exact K.
      + right. split; [assumption|]. apply Cm. assumption.
    - unfold rec_sync. rewrite e1. intros K. destruct (Hsy K) as [K'|K']; auto.
  Qed.

  (* the hypotheses of [rec_ok_ctl] that are closed facts about the two pcs *)
  Ltac close_rec :=
    try solve [ intros [K|[K|[K|[[b K]|K]]]]; try discriminate; auto 10
              | intros r K; inversion K; subst; auto 10
              | intros K; discriminate
              | exact Logic.I
              | unfold rec_fresh, rec_ret; cbn; intuition (try discriminate; try congruence) ].

  (** a call that has not put anything on the wire or in the queue yet has no results *)
  Lemma rec_fresh_at c :
    rec_ok c -> match k_pc c with PIncr | PLoad _ | PBg | PPut | PSyncW | PErr => True | _ => False end ->
    k_res c = [] /\ k_comp c = false /\ k_ret c = None.
  Proof. intros (_&_&_&_&_&Fr&_) H. unfold rec_fresh in Fr. destruct (k_pc c); try contradiction; exact Fr. Qed.

  (** InvB does not read the context fields of a record *)
  Definition rec_eqv (c c' : crec) : Prop :=
    k_cmds c' = k_cmds c /\ k_multi c' = k_multi c /\ k_pc c' = k_pc c /\ k_res c' = k_res c /\
    k_comp c' = k_comp c /\ k_ret c' = k_ret c /\ k_drain c' = k_drain c.

  Lemma rec_ok_eqv c c' : rec_eqv c c' -> rec_ok c -> rec_ok c'.
  Proof.
    intros (e1&e2&e3&e4&e5&e6&e7) (W&R1&Cm&R2&Sy&Fr&Rt).
    unfold rec_ok, rec_wf, rec_r1, rec_cmp, rec_r2, rec_sync, rec_fresh, rec_ret, full, reals, sync_user, errs_for in *.
    rewrite e1, e2, e3, e4, e5, e6, e7. rec7; auto.
  Qed.

  Lemma owner_ok_eqv sl c c' : rec_eqv c c' -> owner_ok sl c -> owner_ok sl c'.
  Proof.
    intros (e1&e2&e3&e4&e5&e6&e7). unfold owner_ok, errs_for. rewrite e1, e2, e3, e5, e6. auto.
  Qed.

  Lemma invb_eqv s s' :
    InvB s ->
    p_b s' = p_b s -> p_q s' = p_q s -> p_wbuf s' = p_wbuf s -> p_c2s s' = p_c2s s -> p_s2c s' = p_s2c s ->
    (forall t, rec_eqv (p_calls s t) (p_calls s' t)) ->
    p_w s' = p_w s -> p_bg s' = p_bg s ->
    InvB s'.
  Proof.
    intros I e0 e1 e2 e3 e4 e5 e6 e7.
    assert (Ecm : forall t, k_cmds (p_calls s' t) = k_cmds (p_calls s t)) by (intros t; apply e5).
    assert (Ers : forall t, k_res (p_calls s' t) = k_res (p_calls s t)) by (intros t; apply e5).
    assert (Epc : forall t, k_pc (p_calls s' t) = k_pc (p_calls s t)) by (intros t; apply e5).
    assert (Erl : forall t k, reals (p_calls s' t) k = reals (p_calls s t) k) by (intros t k; unfold reals; now rewrite Ecm).
    destruct I as [b_rec b_off b_held b_queue b_nodup b_cur b_coh b_sync]. constructor; rewrite ?e0, ?e1, ?e2, ?e3, ?e4, ?e6, ?e7; auto.
    - intros t. eapply rec_ok_eqv; eauto.
    - intros sl Hsl. destruct (b_queue sl Hsl) as [A B]. split; [eapply owner_ok_eqv; eauto|now rewrite Ers].
    - intros r Hr. destruct (b_cur r Hr) as (F&K1&K2&K3). split; [exact F|split; [exact K1|split; [exact K2|]]].
      revert K3. destruct (Nat.ltb (r_ff r) (List.length (r_multi r))); intros K3; [|assumption].
      destruct K3 as (Q1&Q2&Q3&Q4). split; [exact Q1|split; [|split; [|exact Q4]]].
      + eapply owner_ok_eqv; eauto.
      + now rewrite Ers, Erl.
    - intros Ho. destruct (b_sync Ho) as [A B]. split.
      + intros K. apply A. intros t [k Hk]. apply (K t). exists k. now rewrite Epc.
      + intros t k Hk. rewrite Epc in Hk. rewrite Ecm, Ers, Erl. now apply B.
  Qed.

  Lemma post_of b : match b with BPost | BClean | BWaitClose | BDone => True | _ => False end -> post b.
  Proof. destruct b; try contradiction; intros _; split; try discriminate; intros r; discriminate. Qed.

  Lemma rec_ok_idle : rec_ok c_idle.
  Proof.
    rec7.
    - intros K. exfalso. apply K. reflexivity.
    - exists 0%nat, []. reflexivity.
    - intros [K|[K|[K|[[b K]|K]]]]; discriminate.
    - intros r K. discriminate.
    - intros K. discriminate.
    - exact Logic.I.
    - intros K. exfalso. apply K. reflexivity.
  Qed.

  Lemma rec_ok_ping : rec_ok ping_call.
  Proof.
    rec7.
    - unfold rec_wf; cbn. intros _. repeat split; auto. discriminate.
    - exists 0%nat, []. reflexivity.
    - intros [K|[K|[K|[[b K]|K]]]]; discriminate.
    - intros r K. discriminate.
    - intros K. discriminate.
    - cbn. auto.
    - intros K. cbn in K. contradiction.
  Qed.

  Lemma invb_add_ping s s' t :
    InvB s -> k_pc (p_calls s t) = PIdle ->
    (p_b s' = p_b s \/ (post (p_b s) /\ post (p_b s'))) ->
    p_q s' = p_q s -> p_wbuf s' = p_wbuf s -> p_c2s s' = p_c2s s -> p_s2c s' = p_s2c s ->
    (forall u, p_calls s' u = upd (p_calls s) t ping_call u) ->
    (p_b s' = BOff -> p_w s' = p_w s /\ p_bg s' = p_bg s) ->
    InvB s'.
  Proof.
    intros I Epc Hb e1 e2 e3 e4 e5 Hwb.
    eapply (invb_call s s' t ping_call); eauto.
    - apply rec_ok_ping.
    - intros [k K]; discriminate.
    - intros [k K]; rewrite Epc in K; discriminate.
    - intros sl Ho; exfalso; apply (not_owner_pc _ _ Ho); rewrite Epc; discriminate.
  Qed.

  Lemma invb_do_background s :
    InvB s -> (p_bg s = false -> p_b s = BOff) -> (forall t, ~ reading (p_calls s t)) -> InvB (do_background s).
  Proof.
    intros I IA Hnr. unfold do_background. destruct (p_bg s) eqn:Ebg.
    - apply (invb_same s); auto.
    - pose proof (IA eq_refl) as Eb.
      destruct (b_off s I Eb) as (Ewr&Ewb&_&_). destruct (b_sync s I Eb) as [A _]. destruct (A Hnr) as [Ec2s Hsv].
      assert (Hsv' : Served [] (p_s2c s)).
      { eapply served_mono; [|exact Hsv]. intros m Hm. unfold push_sync in Hm. apply andb_true_iff in Hm as [Hm _]. exact Hm. }
      assert (Hh : q_held (p_q s) = false) by (apply (b_held s I); intros r; rewrite Eb; discriminate).
      destruct I as [b_rec b_off b_held b_queue b_nodup b_cur b_coh b_sync]. constructor; cbn; auto.
      all: try solve [intros K; discriminate K].
      all: try solve [intros K; exfalso; apply (K r_init); reflexivity].
      all: try solve [intros r Hr; inversion Hr; subst; cbn; repeat split; auto; lia].
      all: try solve [intros r Hr; inversion Hr; subst; exists [], (p_s2c s), [], []; cbn; rewrite Ewr, Ec2s, Ewb; repeat split; auto].
  Qed.

  Lemma reading_sync c : reading c -> sync_user c = true.
  Proof. intros [k K]. unfold sync_user. now rewrite K. Qed.

  Lemma owner_pc s sl : InvB s -> In sl (q_pend (p_q s) ++ q_wr (p_q s)) ->
    k_pc (p_calls s (s_owner sl)) = PWait \/ k_pc (p_calls s (s_owner sl)) = PRet.
  Proof. intros I H. destruct (b_queue s I sl H) as [(_&_&_&[K|[K _]]) _]; auto. Qed.

  Lemma cur_owner_pc s r : InvB s -> p_b s = BRead r -> (r_ff r < List.length (r_multi r))%nat ->
    k_pc (p_calls s (r_owner r)) = PWait \/ k_pc (p_calls s (r_owner r)) = PRet.
  Proof.
    intros I Hb Hlt. destruct (b_cur s I r Hb) as (_&_&_&K).
    assert (E : Nat.ltb (r_ff r) (List.length (r_multi r)) = true) by (apply Nat.ltb_lt; assumption).
    rewrite E in K. destruct K as (_&(_&_&_&[K|[K _]])&_); auto.
  Qed.

  Lemma invb_put s t q' :
    InvB s -> k_pc (p_calls s t) = PPut -> q_put (p_q s) (slot_of t (p_calls s t)) = Some q' ->
    InvB (set_call (set_q s q') t (with_pc (p_calls s t) PWait)).
  Proof.
    intros I Epc Eq. unfold q_put in Eq. destruct (q_can_put (p_q s)); [|discriminate]. inversion Eq; subst; clear Eq.
    pose proof (b_rec s I t) as Hold. destruct (rec_fresh_at _ Hold) as (F1&F2&F3); [now rewrite Epc|].
    assert (Hpc : k_pc (p_calls s t) <> PIdle) by congruence.
    set (c' := with_pc (p_calls s t) PWait).
    assert (Hrec : rec_ok c').
    { apply (rec_ok_ctl (p_calls s t)); cbn; auto; try congruence; close_rec.
      all: try solve [unfold rec_ret; cbn; rewrite F3; intros K; contradiction]. }
    assert (Hnot : forall sl, In sl (q_pend (p_q s) ++ q_wr (p_q s)) -> s_owner sl <> t).
    { intros sl Hsl E. destruct (owner_pc s sl I Hsl) as [K|K]; rewrite E, Epc in K; discriminate. }
    assert (Eo : forall u, u <> t -> upd (p_calls s) t c' u = p_calls s u) by (intros; now apply upd_other).
    destruct I as [b_rec b_off b_held b_queue b_nodup b_cur b_coh b_sync]. constructor; cbn [p_calls p_q p_b p_w p_bg p_wbuf p_c2s p_s2c set_call set_calls set_q q_pend q_wr q_held q_cap]; auto.
    - intros u. destruct (N.eq_dec u t) as [->|Nu]; [now rewrite upd_same|rewrite Eo by assumption; auto].
    - intros sl Hsl. rewrite <- app_assoc in Hsl. apply in_app_or in Hsl as [Hsl|Hsl].
      + assert (Hin : In sl (q_pend (p_q s) ++ q_wr (p_q s))) by (apply in_or_app; now left).
        rewrite Eo by (apply Hnot; assumption). auto.
      + cbn in Hsl. destruct Hsl as [<-|Hsl].
        * cbn. rewrite upd_same. unfold owner_ok, c'; cbn. repeat split; auto.
        * assert (Hin : In sl (q_pend (p_q s) ++ q_wr (p_q s))) by (apply in_or_app; now right).
          rewrite Eo by (apply Hnot; assumption). auto.
    - rewrite <- app_assoc. cbn [app].
      assert (P : Permutation (slot_of t (p_calls s t) :: (q_pend (p_q s) ++ q_wr (p_q s)))
                                          (q_pend (p_q s) ++ slot_of t (p_calls s t) :: q_wr (p_q s)))
        by apply Permutation_middle.
      apply (Permutation_NoDup (Permutation_map s_owner P)).
      cbn. constructor; [|assumption].
      intros Hin. apply in_map_iff in Hin as (sl&E&Hsl). apply (Hnot sl Hsl E).
    - intros r Hr. destruct (b_cur r Hr) as (F&K1&K2&K3). split; [exact F|split; [exact K1|split; [exact K2|]]].
      revert K3. destruct (Nat.ltb (r_ff r) (List.length (r_multi r))) eqn:El; intros K3; [|assumption].
      destruct K3 as (Q1&Q2&Q3&Q4).
      assert (Hne : r_owner r <> t).
      { intros E. destruct Q2 as (_&_&_&[K|[K _]]); rewrite E, Epc in K; discriminate. }
      rewrite Eo by assumption. split; [exact Q1|split; [exact Q2|split; [exact Q3|]]].
      intros Hin. apply in_map_iff in Hin as (sl&E&Hsl). rewrite <- app_assoc in Hsl.
      apply in_app_or in Hsl as [Hsl|[<-|Hsl]].
      + apply Q4. apply in_map_iff. exists sl. split; [assumption|apply in_or_app; now left].
      + cbn in E. congruence.
      + apply Q4. apply in_map_iff. exists sl. split; [assumption|apply in_or_app; now right].
    - intros Ho. destruct (b_sync Ho) as [A B]. split.
      + intros K. apply A. intros u [k Hk]. apply (K u). exists k.
        destruct (N.eq_dec u t) as [->|Nu]; [rewrite Epc in Hk; discriminate|now rewrite Eo].
      + intros u k Hk. destruct (N.eq_dec u t) as [->|Nu]; [rewrite upd_same in Hk; discriminate|].
        rewrite Eo in * by assumption. now apply B.
  Qed.

  (** the slots of the queue are re-arranged (pend -> wr) and the wire / buffer change as described;
      call records, reader state untouched *)
  Lemma invb_move s s' x :
    InvB s -> q_next_write (p_q s) = Some (x, p_q s') ->
    p_b s' = p_b s -> p_w s' = p_w s -> p_bg s' = p_bg s -> p_s2c s' = p_s2c s -> p_c2s s' = p_c2s s ->
    p_calls s' = p_calls s ->
    p_b s <> BOff ->
    ((exists r, p_b s = BRead r) -> p_wbuf s' = p_wbuf s ++ map witem_of (s_cmds x)) ->
    InvB s'.
  Proof.
    intros I Eq e1 e2 e3 e4 e5 e6 Hnb Hwb.
    unfold q_next_write in Eq. destruct (q_pend (p_q s)) as [|x0 p] eqn:Ep; [discriminate|].
    injection Eq as -> Eq. symmetry in Eq.
    assert (P : Permutation (q_pend (p_q s) ++ q_wr (p_q s)) (p ++ (q_wr (p_q s) ++ [x]))).
    { rewrite Ep. apply move_perm. }
    destruct I as [b_rec b_off b_held b_queue b_nodup b_cur b_coh b_sync]. constructor; rewrite ?Eq, ?e1, ?e2, ?e3, ?e4, ?e5, ?e6; cbn [q_pend q_wr q_held q_cap]; auto.
    all: try solve [intros K; contradiction].
    all: try solve [intros sl Hsl; apply b_queue; eapply Permutation_in; [apply Permutation_sym; exact P|exact Hsl]].
    all: try solve [apply (Permutation_NoDup (Permutation_map s_owner P)); assumption].
    - intros r Hr. destruct (b_cur r Hr) as (F&K1&K2&K3). split; [exact F|split; [exact K1|split; [exact K2|]]].
      revert K3. destruct (Nat.ltb (r_ff r) (List.length (r_multi r))); intros K3; [|assumption].
      destruct K3 as (Q1&Q2&Q3&Q4). split; [exact Q1|split; [exact Q2|split; [exact Q3|]]].
      intros Hin. apply Q4. eapply Permutation_in; [apply Permutation_sym; apply (Permutation_map s_owner P)|exact Hin].
    - intros r Hr. rewrite flat_map_app, (Hwb (ex_intro _ r Hr)), !app_assoc. cbn. rewrite app_nil_r.
      apply coh_write, b_coh, Hr.
  Qed.

  Lemma invb_srv s w r0 : InvB s -> p_c2s s = w :: r0 -> InvB (set_wire s r0 (p_s2c s ++ frames_of sv w)).
  Proof.
    intros I Ec.
    destruct I as [b_rec b_off b_held b_queue b_nodup b_cur b_coh b_sync]. constructor; cbn [p_calls p_q p_b p_w p_bg p_wbuf p_c2s p_s2c set_wire]; auto.
    - intros r Hr. pose proof (b_coh r Hr) as K. rewrite Ec in K.
      exact (coh_append _ _ _ _ _ _ _ (fun rest => answered_serve _ rest _ w _) K).
    - intros Ho. destruct (b_sync Ho) as [A B]. split.
      + intros K. destruct (A K) as [K' _]. rewrite Ec in K'. discriminate.
      + intros t k Hk. destruct (B t k Hk) as (B1&B2&B3). split; [exact B1|split; [exact B2|]].
        rewrite Ec in B3. exact (answered_serve _ _ _ _ _ B3).
  Qed.

  Lemma invb_srv_push s m :
    InvB s -> push_bg m = true -> N.eqb (m_typ m) t_push = true \/ p_bg s = true ->
    InvB (set_wire s (p_c2s s) (p_s2c s ++ [m])).
  Proof.
    intros I G1 G2.
    destruct I as [b_rec b_off b_held b_queue b_nodup b_cur b_coh b_sync]. constructor; cbn [p_calls p_q p_b p_w p_bg p_wbuf p_c2s p_s2c set_wire]; auto.
    - intros r Hr. exact (coh_append _ _ _ _ [m] _ _ (fun rest A => answered_push _ rest _ _ m A G1) (b_coh r Hr)).
    - intros Ho. destruct (b_off Ho) as (_&_&_&Hbg).
      assert (Hps : push_sync m = true).
      { unfold push_sync. fold (push_bg m). rewrite G1. destruct G2 as [->|G2]; [reflexivity|congruence]. }
      destruct (b_sync Ho) as [A B]. split.
      + intros K. destruct (A K) as [K1 K2]. split; [assumption|]. now apply served_snoc_push.
      + intros t k Hk. destruct (B t k Hk) as (B1&B2&B3). split; [exact B1|split; [exact B2|]].
        exact (answered_push _ _ _ _ m B3 Hps).
  Qed.

  Lemma errs_length c e : List.length (errs_for c e) = List.length (k_cmds c).
  Proof. unfold errs_for. now rewrite map_length. Qed.

  Lemma invb_clean_nr s sl q' :
    InvB s -> p_b s = BClean -> q_next_result (p_q s) = Some (sl, q') ->
    InvB (set_q (set_call s (s_owner sl) (with_comp (with_res (p_calls s (s_owner sl)) (errs_for (p_calls s (s_owner sl)) (the_err s))) true))
                (q_finish q')).
  Proof.
    intros I Eb Eq.
    unfold q_next_result in Eq. destruct (q_wr (p_q s)) as [|sl0 wr'] eqn:Ew; [discriminate|].
    inversion Eq; subst sl0 q'; clear Eq.
    set (o := s_owner sl). set (c := p_calls s o).
    set (c' := with_comp (with_res c (errs_for c (the_err s))) true).
    assert (Hsl : In sl (q_pend (p_q s) ++ q_wr (p_q s))) by (apply in_or_app; right; rewrite Ew; now left).
    destruct (b_queue s I sl Hsl) as [(O1&O2&O3&O4) Ores]. fold o c in O1, O2, O3, O4, Ores.
    destruct (b_rec s I o) as (W&R1&Cm&R2&Sy&Fr&Rt). fold c in W, R1, Cm, R2, Sy, Fr, Rt.
    assert (Hrec : rec_ok c').
    { rec7.
      - unfold rec_wf; cbn. intros K. apply W. exact K.
      - exists 0%nat, (map (fun _ => the_err s) (k_cmds c)). unfold reals; cbn. unfold errs_for. now rewrite map_map.
      - unfold rec_cmp, full; cbn. intros _. apply errs_length.
      - unfold rec_r2; cbn. intros r Hr. destruct O4 as [K|[K1 K2]].
        + assert (k_pc c = PRet) by (apply Rt; congruence). congruence.
        + left. unfold errs_for in *. cbn. congruence.
      - unfold rec_sync, sync_user; cbn. intros K. destruct O4 as [K'|[K' _]]; rewrite K' in K; discriminate.
      - unfold rec_fresh; cbn. destruct O4 as [K'|[K' _]]; rewrite K'; exact Logic.I.
      - unfold rec_ret; cbn. exact Rt. }
    assert (Hnd : ~ In o (map s_owner (q_pend (p_q s) ++ wr'))).
    { pose proof (b_nodup s I) as Nd. rewrite Ew in Nd. rewrite map_app in Nd. cbn in Nd.
      apply NoDup_remove_2 in Nd. now rewrite map_app. }
    assert (Eo : forall u, u <> o -> upd (p_calls s) o c' u = p_calls s u) by (intros; now apply upd_other).
    destruct I as [b_rec b_off b_held b_queue b_nodup b_cur b_coh b_sync]. constructor; cbn [p_calls p_q p_b p_w p_bg p_wbuf p_c2s p_s2c set_call set_calls set_q q_finish q_pend q_wr q_held q_cap]; auto.
    - intros u. destruct (N.eq_dec u o) as [->|Nu]; [now rewrite upd_same|rewrite Eo by assumption; auto].
    - rewrite Eb. discriminate.
    - intros sl' Hsl'. assert (Hne : s_owner sl' <> o).
      { intros E. apply Hnd. rewrite <- E. apply in_map. exact Hsl'. }
      rewrite Eo by assumption. apply b_queue. rewrite Ew. apply in_app_or in Hsl' as [K|K]; apply in_or_app; [now left|right; now right].
    - pose proof b_nodup as Nd. rewrite Ew in Nd. rewrite map_app in Nd. cbn in Nd. apply NoDup_remove_1 in Nd. now rewrite map_app.
    - rewrite Eb. discriminate.
    - rewrite Eb. discriminate.
    - rewrite Eb. discriminate.
  Qed.

  Lemma reals_length c k : (k <= List.length (k_cmds c))%nat -> List.length (reals c k) = k.
  Proof. intros H. unfold reals. rewrite !map_length, firstn_length. lia. Qed.

  Lemma invb_rfail s r idx complete :
    InvB s -> p_b s = BRead r -> reader_exit r = (idx, complete) ->
    InvB (set_b (do_exit (if complete then
                            set_q (set_call s (r_owner r)
                                            (with_comp (with_res (p_calls s (r_owner r))
                                               (k_res (p_calls s (r_owner r)) ++ map (fun _ => RErr (the_err s))
                                                  (if r_resps r then idx else [0%nat]))) true))
                                  (q_finish (p_q s))
                          else s) (the_err s)) BPost).
  Proof.
    intros I Eb H.
    destruct (b_cur s I r Eb) as (F&K1&K2&K3).
    unfold reader_exit in H.
    destruct (Nat.ltb (r_ff r) (List.length (r_multi r))) eqn:El.
    - (* a slot was being filled: its remaining results are the error *)
      destruct K3 as (Q1&Q2&Q3&Q4). apply Nat.ltb_lt in El.
      inversion H; subst; clear H.
      set (e := the_err s).
      set (o := r_owner r). set (c := p_calls s o). fold o c in Q2, Q3, Q4.
      destruct Q2 as (O1&O2&O3&O4). cbn in O1, O2.
      destruct (b_rec s I o) as (W&R1&Cm&R2&Sy&Fr&Rt). fold c in W, R1, Cm, R2, Sy, Fr, Rt.
      assert (Hpc : k_pc c <> PIdle) by (destruct O4 as [K|[K _]]; rewrite K; discriminate).
      destruct (W Hpc) as (W1&W2&W3).
      set (idx := if r_resps r then (if r_resps r then seq (r_ff r) (List.length (r_multi r) - r_ff r) else []) else [0%nat]).
      set (c' := with_comp (with_res c (k_res c ++ map (fun _ => RErr e) idx)) true).
      assert (Hlen : List.length (k_res c ++ map (fun _ : nat => RErr e) idx) = List.length (k_cmds c)).
      { rewrite app_length, map_length, Q3, reals_length by (rewrite <- O2; lia). unfold idx.
        destruct (r_resps r) eqn:Er.
        - rewrite seq_length, <- O2. lia.
        - cbn. destruct W3 as [W3|W3]; [congruence|]. rewrite <- O2 in *. lia. }
      assert (Hrec : rec_ok c').
      { rec7.
        - unfold rec_wf; cbn. intros _. auto.
        - exists (r_ff r), (map (fun _ => e) idx). unfold c'; cbn. rewrite Q3, map_map. reflexivity.
        - unfold rec_cmp, full; cbn. intros _. exact Hlen.
        - unfold rec_r2; cbn. intros x Hx. destruct O4 as [K|[Ka Kb]].
          + assert (k_pc c = PRet) by (apply Rt; congruence). congruence.
          + left. unfold errs_for in *. cbn. congruence.
        - unfold rec_sync, sync_user; cbn. intros K. destruct O4 as [K'|[K' _]]; rewrite K' in K; discriminate.
        - unfold rec_fresh; cbn. destruct O4 as [K'|[K' _]]; rewrite K'; exact Logic.I.
        - unfold rec_ret; cbn. exact Rt. }
      assert (Eo : forall u, u <> o -> upd (p_calls s) o c' u = p_calls s u) by (intros; now apply upd_other).
      destruct I as [b_rec b_off b_held b_queue b_nodup b_cur b_coh b_sync]. constructor; cbn [p_calls p_q p_b p_w p_bg p_wbuf p_c2s p_s2c set_call set_calls set_q set_b do_exit q_finish q_pend q_wr q_held q_cap]; auto.
      all: try solve [intros K; discriminate K].
      all: try solve [intros r0 K; discriminate K].
      + intros u. destruct (N.eq_dec u o) as [->|Nu]; [now rewrite upd_same|rewrite Eo by assumption; auto].
      + intros sl Hsl. assert (Hne : s_owner sl <> o).
        { intros E. apply Q4. rewrite <- E. apply in_map. exact Hsl. }
        rewrite Eo by assumption. auto.
    - inversion H; subst; clear H.
      destruct I as [b_rec b_off b_held b_queue b_nodup b_cur b_coh b_sync]. constructor; cbn [p_calls p_q p_b p_w p_bg p_wbuf p_c2s p_s2c set_call set_calls set_q set_b do_exit q_finish q_pend q_wr q_held q_cap]; auto.
      all: try solve [intros K; discriminate K].
      all: try solve [intros r0 K; discriminate K].
  Qed.

  Lemma sync_off s t : InvA s -> sync_user (p_calls s t) = true -> p_bg s = false /\ p_b s = BOff.
  Proof.
    intros IA Hs. destruct (p_bg s) eqn:E.
    - rewrite (a_e2 s IA E t) in Hs. discriminate.
    - split; [reflexivity|apply (a_bgw s IA E)].
  Qed.

  Lemma only_reader s t u : InvA s -> sync_user (p_calls s t) = true -> reading (p_calls s u) -> u = t.
  Proof.
    intros IA Hs Hu. apply reading_sync in Hu. apply (a_tok1 s IA); now apply sync_tok.
  Qed.

  Lemma invb_syncw s t :
    InvB s -> InvA s -> k_pc (p_calls s t) = PSyncW ->
    InvB (set_sent (set_call (set_wire s (p_c2s s ++ map witem_of (k_cmds (p_calls s t))) (p_s2c s)) t
                             (with_pc (p_calls s t) (PSyncR (List.length (k_cmds (p_calls s t)))))) (t :: p_sent s)).
  Proof.
    intros I IA Epc.
    assert (Hsy : sync_user (p_calls s t) = true) by (unfold sync_user; now rewrite Epc).
    destruct (sync_off s t IA Hsy) as [Hbg Hb].
    assert (Hnr : forall u, ~ reading (p_calls s u)).
    { intros u Hu. pose proof (only_reader s t u IA Hsy Hu) as ->. destruct Hu as [k K]. rewrite Epc in K. discriminate. }
    destruct (b_sync s I Hb) as [A _]. destruct (A Hnr) as [Ec Hsv].
    pose proof (b_rec s I t) as Hold. destruct (rec_fresh_at _ Hold) as (F1&F2&F3); [now rewrite Epc|].
    assert (Hpc : k_pc (p_calls s t) <> PIdle) by congruence.
    set (c' := with_pc (p_calls s t) (PSyncR (List.length (k_cmds (p_calls s t))))).
    assert (Hrec : rec_ok c').
    { apply (rec_ok_ctl (p_calls s t)); cbn; auto; try congruence; close_rec.
      all: try solve [unfold rec_fresh; cbn; auto].
      all: try solve [unfold rec_ret; cbn; rewrite F3; intros K; contradiction]. }
    assert (Eo : forall u, u <> t -> upd (p_calls s) t c' u = p_calls s u) by (intros; now apply upd_other).
    destruct I as [b_rec b_off b_held b_queue b_nodup b_cur b_coh b_sync]. constructor; cbn [p_calls p_q p_b p_w p_bg p_wbuf p_c2s p_s2c set_call set_calls set_wire set_sent]; auto.
    - intros u. destruct (N.eq_dec u t) as [->|Nu]; [now rewrite upd_same|rewrite Eo by assumption; auto].
    - intros sl Hsl. assert (Hne : s_owner sl <> t).
      { intros E. destruct (b_queue sl Hsl) as [(_&_&_&[K|[K _]]) _]; rewrite E, Epc in K; discriminate. }
      rewrite Eo by assumption. auto.
    - intros r Hr. rewrite Hb in Hr. discriminate.
    - intros r Hr. rewrite Hb in Hr. discriminate.
    - intros _. split.
      + intros K. exfalso. apply (K t). rewrite upd_same. unfold c'. cbn. eexists. reflexivity.
      + intros u k Hk. destruct (N.eq_dec u t) as [->|Nu].
        * rewrite upd_same in *. unfold c' in Hk. cbn in Hk. inversion Hk; subst k. unfold c'. cbn [k_cmds k_res with_pc].
          split; [lia|]. rewrite Nat.sub_diag. split; [now rewrite F1|].
          exists [], (k_cmds (p_calls s t)). cbn. rewrite Ec. repeat split; auto.
        * rewrite Eo in Hk by assumption. exfalso. apply (Hnr u). now exists k.
  Qed.

  Lemma reals_snoc c n x : nth_error (k_cmds c) n = Some x -> reals c (S n) = reals c n ++ [RMsg (result_of sv x)].
  Proof. intros H. unfold reals. rewrite (firstn_S_nth _ _ _ H), !map_app. reflexivity. Qed.

  Lemma push_frame_typ m : is_push_frame r2ps m = false -> N.eqb (m_typ m) t_push = false.
  Proof. unfold is_push_frame. intros H. apply orb_false_iff in H as [H _]. exact H. Qed.

  Lemma invb_syncr s t k f r s' :
    InvB s -> InvA s -> k_pc (p_calls s t) = PSyncR (S k) -> p_s2c s = f :: r ->
    (if N.eqb (m_typ f) t_push then Some (set_wire s (p_c2s s) r)
     else
       let c1 := with_res (p_calls s t) (k_res (p_calls s t) ++ [RMsg f]) in
       Some (set_call (set_wire s (p_c2s s) r) t
                      (match k with O => with_pc c1 (PDecr true) | _ => with_pc c1 (PSyncR k) end))) = Some s' ->
    InvB s'.
  Proof.
    intros I IA Epc Es H.
    assert (Hsy : sync_user (p_calls s t) = true) by (unfold sync_user; now rewrite Epc).
    destruct (sync_off s t IA Hsy) as [Hbg Hb].
    destruct (b_sync s I Hb) as [_ B]. destruct (B t (S k) Epc) as (B1&B2&csd&csr&B3&B4&B5).
    rewrite Es in B5.
    pose proof (b_rec s I t) as Hold. destruct Hold as (W&R1&Cm&R2&Sy&Fr&Rt).
    assert (Hpc : k_pc (p_calls s t) <> PIdle) by congruence.
    destruct (W Hpc) as (W1&W2&W3).
    pose proof (Sy Hsy) as Hnr.
    apply served_inv in B5 as [[P1 P2]|(c&csd'&tl&fs'&E1&E2&E3&E4)].
    - (* an out-of-band RESP3 push: skipped *)
      assert (Et : N.eqb (m_typ f) t_push = true).
      { unfold push_sync in P1. apply andb_true_iff in P1 as [_ P1]. exact P1. }
      rewrite Et in H. inversion H; subst; clear H.
      destruct I as [b_rec b_off b_held b_queue b_nodup b_cur b_coh b_sync]. constructor; cbn [p_calls p_q p_b p_w p_bg p_wbuf p_c2s p_s2c set_wire]; auto.
      + intros r0 Hr. rewrite Hb in Hr. discriminate.
      + intros _. split.
        * intros K. exfalso. apply (K t). now exists (S k).
        * intros u k' Hk. assert (u = t) by (apply (only_reader s t u IA Hsy); now exists k'). subst u.
          rewrite Epc in Hk. inversion Hk; subst k'.
          split; [exact B1|split; [exact B2|]]. exists csd, csr. repeat split; auto.
    - (* the reply of the next command *)
      subst csd.
      assert (Hin : In c (k_cmds (p_calls s t))).
      { destruct csd'; cbn in B3; eapply skipn_in; eauto. }
      assert (Hn : c_noreply c = false) by (eapply existsb_false_in; eauto).
      assert (Hu : c_unsub c = false).
      { assert (Hw : wf_cmd c = true) by (eapply forallb_forall in W1; eauto).
        unfold wf_cmd in Hw. rewrite Hn in Hw. destruct (c_unsub c); [discriminate|reflexivity]. }
      destruct (kind_of_cmd c) as [_ _ Ew Hp Hr|_ K _ _ _ _ _|K _ _ _ _ _]; try congruence.
      rewrite Ew in E2. cbn in E2. inversion E2; subst f tl. cbn in E3. subst fs'.
      rewrite (push_frame_typ _ Hp) in H.
      cbn [app] in B3. apply skipn_cons_nth in B3 as [Hnth Hsk].
      set (n := (List.length (k_cmds (p_calls s t)) - S k)%nat) in *.
      assert (Hn1 : (S n = List.length (k_cmds (p_calls s t)) - k)%nat) by (unfold n; lia).
      set (c1 := with_res (p_calls s t) (k_res (p_calls s t) ++ [RMsg (sv_reply sv c)])).
      assert (Hres : k_res c1 = reals (p_calls s t) (S n)).
      { unfold c1. cbn [k_res with_res]. rewrite B2, (reals_snoc _ _ _ Hnth), Hr. reflexivity. }
      assert (Hret : k_ret (p_calls s t) = None).
      { destruct (k_ret (p_calls s t)) eqn:E; [|reflexivity]. assert (k_pc (p_calls s t) = PRet) by (apply Rt; congruence). congruence. }
      set (c' := match k with O => with_pc c1 (PDecr true) | S _ => with_pc c1 (PSyncR k) end).
      assert (Hc' : k_cmds c' = k_cmds (p_calls s t) /\ k_res c' = reals (p_calls s t) (S n) /\ k_multi c' = k_multi (p_calls s t) /\
                    k_ret c' = None /\ k_comp c' = k_comp (p_calls s t) /\ k_drain c' = k_drain (p_calls s t) /\
                    k_pc c' = match k with O => PDecr true | S _ => PSyncR k end).
      { unfold c'. destruct k; cbn; repeat split; auto. }
      destruct Hc' as (C1&C2&C3&C4&C5&C6&C7).
      assert (Hrec : rec_ok c').
      { rec7.
        - unfold rec_wf. rewrite C1, C3. intros _. auto.
        - exists (S n), []. unfold reals in *. rewrite C1, C2, app_nil_r. reflexivity.
        - unfold rec_cmp, full. rewrite C1, C2, C5, C6, C7.
          assert (Hcf : k_comp (p_calls s t) = false) by (unfold rec_fresh in Fr; rewrite Epc in Fr; apply Fr).
          intros [K|[K|[K|[[b K]|K]]]].
          + congruence.
          + destruct k; discriminate.
          + assert (k_pc (p_calls s t) = PRet) by (apply (a_dr s IA); congruence). congruence.
          + destruct k; [|discriminate]. rewrite reals_length by lia. lia.
          + destruct k; discriminate.
        - unfold rec_r2. rewrite C4. intros x K; discriminate.
        - unfold rec_sync. rewrite C1. intros _. exact Hnr.
        - unfold rec_fresh. rewrite C7, C4, C5. destruct k; [exact Logic.I|].
          unfold rec_fresh in Fr. rewrite Epc in Fr. split; [apply Fr|reflexivity].
        - unfold rec_ret. rewrite C4. intros K; contradiction. }
      assert (Eo : forall u, u <> t -> upd (p_calls s) t c' u = p_calls s u) by (intros; now apply upd_other).
      inversion H; subst s'; clear H. fold c1. fold c'.
      destruct I as [b_rec b_off b_held b_queue b_nodup b_cur b_coh b_sync]. constructor; cbn [p_calls p_q p_b p_w p_bg p_wbuf p_c2s p_s2c set_call set_calls set_wire]; auto.
      + intros u. destruct (N.eq_dec u t) as [->|Nu]; [now rewrite upd_same|rewrite Eo by assumption; auto].
      + intros sl Hsl. assert (Hne : s_owner sl <> t).
        { intros E. destruct (b_queue sl Hsl) as [(_&_&_&[K|[K _]]) _]; rewrite E, Epc in K; discriminate. }
        rewrite Eo by assumption. auto.
      + intros r0 Hr0. rewrite Hb in Hr0. discriminate.
      + intros r0 Hr0. rewrite Hb in Hr0. discriminate.
      + intros _. split.
        * intros K. destruct k as [|k].
          -- (* last reply read *)
             assert (Hlen : S n = List.length (k_cmds (p_calls s t))) by lia.
             rewrite Hlen, skipn_all in Hsk. symmetry in Hsk. apply app_eq_nil in Hsk as [-> ->].
             cbn in B4. split; [now rewrite <- B4|exact E4].
          -- exfalso. apply (K t). rewrite upd_same. exists (S k). exact C7.
        * intros u k' Hk. destruct (N.eq_dec u t) as [->|Nu].
          -- rewrite upd_same in *. rewrite C7 in Hk. destruct k as [|k]; [discriminate|]. inversion Hk; subst k'.
             rewrite C1, C2. split; [lia|]. split; [now rewrite Hn1|].
             exists csd', csr. rewrite <- Hn1. repeat split; auto.
          -- rewrite Eo in Hk by assumption. exfalso. apply Nu. apply (only_reader s t u IA Hsy). now exists k'.
  Qed.

  Lemma invb_syncfail s t e :
    InvB s -> InvA s -> sync_user (p_calls s t) = true ->
    InvB (set_call (do_background (set_wire (latch s e true) [] [])) t
                   (with_pc (with_res (p_calls s t) (errs_for (p_calls s t) e)) (PDecr true))).
  Proof.
    intros I IA Hsy. pose proof Hsy as G1. unfold sync_user in G1.
    destruct (sync_off s t IA Hsy) as [Hbg Hb].
    set (c' := with_pc (with_res (p_calls s t) (errs_for (p_calls s t) e)) (PDecr true)).
    rewrite do_background_set_call.
    set (s1 := set_call (set_wire (latch s e true) [] []) t c').
    destruct (b_rec s I t) as (W&R1&Cm&R2&Sy&Fr&Rt).
    assert (Hpc : k_pc (p_calls s t) <> PIdle) by (destruct (k_pc (p_calls s t)); discriminate).
    assert (Hret : k_ret (p_calls s t) = None).
    { unfold rec_fresh in Fr. destruct (k_pc (p_calls s t)); try discriminate; apply Fr. }
    assert (Hrec : rec_ok c').
    { rec7.
      - unfold rec_wf; cbn. intros _. now apply W.
      - exists 0%nat, (map (fun _ => e) (k_cmds (p_calls s t))). unfold reals; cbn. unfold errs_for. now rewrite map_map.
      - unfold rec_cmp, full; cbn. intros _. apply errs_length.
      - unfold rec_r2; cbn. rewrite Hret. intros x K; discriminate.
      - unfold rec_sync, sync_user; cbn. intros K; discriminate.
      - exact Logic.I.
      - unfold rec_ret; cbn. rewrite Hret. intros K; contradiction. }
    assert (Hnr1 : forall u, ~ reading (p_calls s1 u)).
    { intros u [k Hk]. unfold s1 in Hk. cbn in Hk. unfold upd in Hk. destruct (N.eqb u t) eqn:E.
      - discriminate.
      - apply N.eqb_neq in E. apply E. apply (only_reader s t u IA Hsy). now exists k. }
    assert (Eo : forall u, u <> t -> upd (p_calls s) t c' u = p_calls s u) by (intros; now apply upd_other).
    assert (I1 : InvB s1).
    { destruct I as [b_rec b_off b_held b_queue b_nodup b_cur b_coh b_sync]. unfold s1. constructor; cbn [p_calls p_q p_b p_w p_bg p_wbuf p_c2s p_s2c set_call set_calls set_wire latch]; auto.
      - intros u. destruct (N.eq_dec u t) as [->|Nu]; [now rewrite upd_same|rewrite Eo by assumption; auto].
      - intros sl Hsl. assert (Hne : s_owner sl <> t).
        { intros E. destruct (b_queue sl Hsl) as [(_&_&_&[K|[K _]]) _]; rewrite E in K; rewrite K in G1; discriminate. }
        rewrite Eo by assumption. auto.
      - intros r0 Hr0. rewrite Hb in Hr0. discriminate.
      - intros r0 Hr0. rewrite Hb in Hr0. discriminate.
      - intros _. split.
        + intros _. split; [reflexivity|constructor].
        + intros u k Hk. exfalso. apply (Hnr1 u). now exists k. }
    apply invb_do_background; auto.
  Qed.

  (** delivery of the result of command [c] = multi2[ff2] to the slot the reader holds *)
  Lemma invb_deliver sT r' o mu multi2 ff2 c :
    (forall t, rec_ok (p_calls sT t)) ->
    (forall sl, In sl (q_pend (p_q sT) ++ q_wr (p_q sT)) ->
                owner_ok sl (p_calls sT (s_owner sl)) /\ k_res (p_calls sT (s_owner sl)) = []) ->
    NoDup (map s_owner (q_pend (p_q sT) ++ q_wr (p_q sT))) ->
    q_held (p_q sT) = true ->
    owner_ok (mkSlot o mu multi2) (p_calls sT o) ->
    k_res (p_calls sT o) = reals (p_calls sT o) ff2 ->
    ~ In o (map s_owner (q_pend (p_q sT) ++ q_wr (p_q sT))) ->
    nth_error multi2 ff2 = Some c ->
    r_multi r' = multi2 -> r_owner r' = o -> r_resps r' = mu -> r_ff r' = S ff2 -> flags_clear r' -> (0 <= r_skip r')%Z ->
    coh (p_s2c sT) (r_skip r') (skipn (S ff2) multi2 ++ flat_map s_cmds (q_wr (p_q sT))) (p_c2s sT ++ p_wbuf sT) ->
    let last := Nat.eqb (S ff2) (List.length multi2) in
    let m := result_of sv c in
    InvB (set_b (fold_left (apply_act o mu) ((if mu then [AStore ff2 m] else []) ++ (if last then [AComplete m] else [])) sT) (BRead r')).
  Proof.
    intros Hrec Hq Hnd Hheld Hown Hres Hnotin Hnth e1 e2 e3 e4 Hfl Hsk Hcoh last m.
    assert (Elast : last = Nat.eqb (S ff2) (List.length multi2)) by reflexivity. clearbody last.
    set (cT := p_calls sT o) in *.
    destruct Hown as (O1&O2&O3&O4). cbn in O1, O2.
    destruct (Hrec o) as (W&R1&Cm&R2&Sy&Fr&Rt). fold cT in W, R1, Cm, R2, Sy, Fr, Rt.
    assert (Hpc : k_pc cT <> PIdle) by (destruct O4 as [K|[K _]]; rewrite K; discriminate).
    destruct (W Hpc) as (W1&W2&W3).
    assert (Hlt : (ff2 < List.length multi2)%nat) by (apply nth_error_Some; congruence).
    assert (Hlt' : (ff2 < List.length (k_cmds cT))%nat) by (rewrite <- O2; exact Hlt).
    assert (Hml : mu = true \/ last = true).
    { destruct W3 as [W3|W3]; [left; congruence|right]. rewrite Elast. apply Nat.eqb_eq. rewrite <- O2 in W3. lia. }
    pose proof (fold_deliver_spec o mu last ff2 m sT Hml) as Hspec.
    set (sD := fold_left (apply_act o mu) ((if mu then [AStore ff2 m] else []) ++ (if last then [AComplete m] else [])) sT) in *.
    cbn zeta in Hspec. fold cT in Hspec. destruct Hspec as (Dq&Do&Dt).
    assert (Hctl : p_s2c sD = p_s2c sT /\ p_c2s sD = p_c2s sT /\ p_wbuf sD = p_wbuf sT).
    { unfold sD. destruct (fold_apply_frame o mu ((if mu then [AStore ff2 m] else []) ++ (if last then [AComplete m] else [])) sT)
        as (q'&cs&dl&->&_). auto. }
    destruct Hctl as (Es2c&Ec2s&Ewbuf).
    set (c1 := with_res cT (k_res cT ++ [RMsg m])) in *.
    assert (Hnth' : nth_error (k_cmds cT) ff2 = Some c) by (rewrite <- O2; exact Hnth).
    assert (Hres1 : k_res c1 = reals cT (S ff2)).
    { unfold c1. cbn [k_res with_res]. rewrite Hres, (reals_snoc _ _ _ Hnth'). reflexivity. }
    assert (Hretc : k_ret cT = None \/ k_ret cT = Some (errs_for cT ECtx)).
    { destruct O4 as [K|[_ K]]; [|now right]. left. destruct (k_ret cT) eqn:E; [|reflexivity].
      assert (k_pc cT = PRet) by (apply Rt; congruence). congruence. }
    assert (HrecD : rec_ok (p_calls sD o)).
    { rewrite Dt. rec7.
      - unfold rec_wf. destruct last; cbn; intros _; auto.
      - exists (S ff2), []. destruct last; cbn [k_res with_comp k_cmds]; rewrite Hres1; unfold reals; cbn; now rewrite app_nil_r.
      - unfold rec_cmp, full. destruct last eqn:El.
        + cbn [k_res with_comp k_cmds]. intros _. rewrite Hres1, reals_length by lia.
          assert (Hl : S ff2 = List.length multi2) by (apply Nat.eqb_eq; symmetry; exact Elast).
          unfold c1. cbn [k_cmds with_res]. congruence.
        + cbn [k_comp k_pc k_drain c1 with_res]. intros [K|[K|[K|[[b K]|K]]]].
          * congruence.
          * destruct O4 as [K'|[K' _]]; congruence.
          * exfalso. assert (Hf : full cT) by (apply Cm; auto). unfold full in Hf. rewrite Hres, reals_length in Hf by lia. lia.
          * destruct O4 as [K'|[K' _]]; congruence.
          * destruct O4 as [K'|[K' _]]; congruence.
      - unfold rec_r2. destruct last; cbn [k_ret with_comp c1 with_res]; intros x Hx;
          (destruct Hretc as [K|K]; [congruence|left; unfold errs_for in *; cbn; congruence]).
      - unfold rec_sync, sync_user. destruct last; cbn [k_pc with_comp c1 with_res]; intros K;
          destruct O4 as [K'|[K' _]]; rewrite K' in K; discriminate.
      - unfold rec_fresh. destruct last; cbn [k_pc with_comp c1 with_res]; destruct O4 as [K'|[K' _]]; rewrite K'; exact Logic.I.
      - unfold rec_ret. destruct last; cbn [k_pc k_ret with_comp c1 with_res]; exact Rt. }
    constructor; cbn [p_calls p_q p_b p_w p_bg p_wbuf p_c2s p_s2c set_b].
    - intros t. destruct (N.eq_dec t o) as [->|Nt]; [exact HrecD|rewrite Do by assumption; apply Hrec].
    - intros K; discriminate K.
    - intros K. exfalso. apply (K r'). reflexivity.
    - intros sl Hsl.
      assert (Hsl' : In sl (q_pend (p_q sT) ++ q_wr (p_q sT))) by (rewrite Dq in Hsl; destruct last; exact Hsl).
      assert (Hne : s_owner sl <> o) by (intros E; apply Hnotin; rewrite <- E; now apply in_map).
      rewrite Do by assumption. now apply Hq.
    - rewrite Dq. destruct last; exact Hnd.
    - intros r Hr. inversion Hr; subst r. split; [exact Hfl|split; [exact Hsk|]].
      rewrite e1, e4. split; [lia|].
      destruct (Nat.ltb (S ff2) (List.length multi2)) eqn:El.
      + assert (last = false) as Hl by (rewrite Elast; apply Nat.eqb_neq; apply Nat.ltb_lt in El; lia).
        rewrite Hl in Dq, Dt. rewrite e2, e3, Dq, Dt. split; [exact Hheld|split; [|split; [|exact Hnotin]]].
        * unfold owner_ok; cbn. repeat split; auto.
        * rewrite Hres1. reflexivity.
      + assert (last = true) as Hl by (rewrite Elast; apply Nat.eqb_eq; apply Nat.ltb_ge in El; lia).
        rewrite Hl in Dq. rewrite Dq. reflexivity.
    - intros r Hr. inversion Hr; subst r. destruct Hcoh as (conf&rest&csd&csr&E1&E2&E3&E4&E5&E6).
      exists conf, rest, csd, csr. rewrite e1, e4, Es2c, Ec2s, Ewbuf. repeat split; auto.
      rewrite Dq. destruct last; exact E5.
    - intros K; discriminate K.
  Qed.

  Lemma rd_store_acts st3 a2 m3 :
    rd_store st3 a2 m3 =
    (set_ff st3 (S (r_ff st3)),
     a2 ++ (if r_resps st3 then [AStore (r_ff st3) m3] else []) ++
           (if Nat.eqb (S (r_ff st3)) (List.length (r_multi st3)) then [AComplete m3] else [])).
  Proof.
    unfold rd_store. cbn [r_ff r_multi set_ff].
    destruct (r_resps st3), (Nat.eqb (S (r_ff st3)) (List.length (r_multi st3))); cbn; rewrite ?app_nil_r, <- ?app_assoc; reflexivity.
  Qed.

  Lemma inert_not_bad l : forallb inert l = true -> existsb is_bad l = false.
  Proof.
    induction l as [|a l IH]; cbn; [reflexivity|]. intros H. apply andb_true_iff in H as [H1 H2].
    rewrite (IH H2). destruct a; try discriminate; reflexivity.
  Qed.

  Lemma invb_rdr s r r' rest0 :
    InvB s -> p_b s = BRead r ->
    r_multi r' = r_multi r -> r_ff r' = r_ff r -> r_owner r' = r_owner r -> r_resps r' = r_resps r ->
    flags_clear r' -> (0 <= r_skip r')%Z ->
    coh rest0 (r_skip r') (skipn (r_ff r) (r_multi r) ++ flat_map s_cmds (q_wr (p_q s))) (p_c2s s ++ p_wbuf s) ->
    InvB (set_b (set_wire s (p_c2s s) rest0) (BRead r')).
  Proof.
    intros I Eb e1 e2 e3 e4 Hfl Hsk Hcoh.
    destruct (b_cur s I r Eb) as (F&K1&K2&K3).
    destruct I as [b_rec b_off b_held b_queue b_nodup b_cur b_coh b_sync]. constructor; cbn [p_calls p_q p_b p_w p_bg p_wbuf p_c2s p_s2c set_b set_wire]; auto.
    - intros K; discriminate K.
    - intros K. exfalso. apply (K r'). reflexivity.
    - intros r0 Hr. inversion Hr; subst r0. rewrite e1, e2, e3, e4. split; [exact Hfl|split; [exact Hsk|split; [exact K2|exact K3]]].
    - intros r0 Hr. inversion Hr; subst r0. rewrite e1, e2. exact Hcoh.
    - intros K; discriminate K.
  Qed.

  (** the frame is the (first) answer to command c: where it lands and what follows in the stream *)
  Lemma reply_lands s r c L :
    InvB s -> p_b s = BRead r ->
    skipn (r_ff r) (r_multi r) ++ flat_map s_cmds (q_wr (p_q s)) = c :: L ->
    exists st2 tk, lands (hd_error (q_wr (p_q s))) r c st2 tk /\
      ((tk = [] /\ st2 = r /\ (r_ff r < List.length (r_multi r))%nat /\
        L = skipn (S (r_ff r)) (r_multi r) ++ flat_map s_cmds (q_wr (p_q s))) \/
       (exists sl wr', tk = [ATakeNext true] /\ st2 = set_slot r (Some sl) /\ q_wr (p_q s) = sl :: wr' /\
                       r_ff r = List.length (r_multi r) /\
                       L = skipn 1 (s_cmds sl) ++ flat_map s_cmds wr')).
  Proof.
    intros I Eb E.
    destruct (b_cur s I r Eb) as (_&_&K2&_).
    destruct (Nat.eq_dec (r_ff r) (List.length (r_multi r))) as [El|Nl].
    - rewrite El, skipn_all in E. cbn in E.
      assert (Hne : forall sl, In sl (q_wr (p_q s)) -> s_cmds sl <> []).
      { intros sl Hsl. assert (Hin : In sl (q_pend (p_q s) ++ q_wr (p_q s))) by (apply in_or_app; now right).
        destruct (b_queue s I sl Hin) as [(O1&O2&O3&O4) _].
        destruct (b_rec s I (s_owner sl)) as (W&_).
        assert (Hpc : k_pc (p_calls s (s_owner sl)) <> PIdle) by (destruct O4 as [K|[K _]]; rewrite K; discriminate).
        destruct (W Hpc) as (_&W2&_). congruence. }
      destruct (flat_map_cons_inv _ _ _ E Hne) as (sl&wr'&rest&Ew&Ec&EL).
      exists (set_slot r (Some sl)), [ATakeNext true]. split.
      + eapply LandNext; eauto. now rewrite Ew.
      + right. exists sl, wr'. repeat split; auto. rewrite Ec. exact EL.
    - assert (Hlt : (r_ff r < List.length (r_multi r))%nat) by lia.
      destruct (skipn (r_ff r) (r_multi r)) as [|c0 rest] eqn:Esk.
      + exfalso. assert (List.length (skipn (r_ff r) (r_multi r)) = 0%nat) by now rewrite Esk. rewrite skipn_length in H. lia.
      + cbn in E. inversion E; subst c0 L.
        apply skipn_cons_nth in Esk as [Hn Hs].
        exists r, []. split; [now apply LandCur|]. left. repeat split; auto. now rewrite Hs.
  Qed.

  Lemma set_skip_id st : set_skip st (r_skip st) = st.
  Proof. destruct st; reflexivity. Qed.

  Lemma slot_eta sl : mkSlot (s_owner sl) (s_multi sl) (s_cmds sl) = sl.
  Proof. destruct sl; reflexivity. Qed.

  Lemma reply_acts_ok st3 preA tk preB m c st st2 next :
    lands next st c st2 tk -> forallb inert preA = true -> forallb inert preB = true ->
    existsb is_bad (snd (rd_store st3 (preA ++ tk ++ preB) m)) = false.
  Proof.
    intros Hl HA HB. rewrite rd_store_acts. cbn [snd].
    apply existsb_app_false; [apply existsb_app_false; [now apply inert_not_bad|apply existsb_app_false; [|now apply inert_not_bad]]|].
    - destruct Hl; reflexivity.
    - destruct (r_resps st3), (Nat.eqb (S (r_ff st3)) (List.length (r_multi st3))); reflexivity.
  Qed.

  (** the state after a frame that carries the result of command c: the reader first takes the next
      written slot if the one it held is complete ([sT]), then stores the result into the slot it holds *)
  Lemma reply_state s r f rest0 c L st2 tk preA preB skip' s' :
    InvB s -> p_b s = BRead r -> p_s2c s = f :: rest0 ->
    skipn (r_ff r) (r_multi r) ++ flat_map s_cmds (q_wr (p_q s)) = c :: L ->
    lands (hd_error (q_wr (p_q s))) r c st2 tk ->
    forallb inert preA = true -> forallb inert preB = true ->
    reader_step (g_r2ps g) (g_ver g) (hd_error (q_wr (p_q s))) r f =
      rd_store (set_skip st2 skip') (preA ++ tk ++ preB) (result_of sv c) ->
    pstep g s LRStep = Some s' ->
    exists sT,
      s' = set_b (fold_left (apply_act (r_owner st2) (r_resps st2))
                    ((if r_resps st2 then [AStore (r_ff st2) (result_of sv c)] else []) ++
                     (if Nat.eqb (S (r_ff st2)) (List.length (r_multi st2)) then [AComplete (result_of sv c)] else [])) sT)
                 (BRead (set_ff (set_skip st2 skip') (S (r_ff st2)))) /\
      ((st2 = r /\ sT = set_wire s (p_c2s s) rest0 /\ (r_ff r < List.length (r_multi r))%nat /\
        L = skipn (S (r_ff r)) (r_multi r) ++ flat_map s_cmds (q_wr (p_q s))) \/
       (exists sl wr', st2 = set_slot r (Some sl) /\ q_wr (p_q s) = sl :: wr' /\
                       sT = set_q (set_wire s (p_c2s s) rest0) (mkQueue (q_cap (p_q s)) (q_pend (p_q s)) wr' true) /\
                       r_ff r = List.length (r_multi r) /\ L = skipn 1 (s_cmds sl) ++ flat_map s_cmds wr')).
  Proof.
    intros I Eb Es EL Hl HA HB Er H.
    cbn [pstep] in H. rewrite Eb, Es, Er, rd_store_acts in H.
    cbn [r_ff r_resps r_multi r_owner set_ff set_skip] in H.
    pose proof (reply_acts_ok (set_skip st2 skip') preA tk preB (result_of sv c) c r st2 _ Hl HA HB) as Hnb.
    rewrite rd_store_acts in Hnb. cbn [snd r_ff r_resps r_multi r_owner set_ff set_skip] in Hnb.
    match type of H with (if existsb is_bad (_ ++ ?d) then _ else _) = _ => set (deliv := d) in * end.
    rewrite Hnb in H. inversion H; subst s'; clear H.
    rewrite fold_left_app.
    destruct (reply_lands s r c L I Eb EL) as (st2'&tk'&Hl'&Hdesc).
    assert (Est : st2' = st2 /\ tk' = tk).
    { destruct Hl as [A1 A2|sl rest A1 A2 A3]; destruct Hl' as [B1 B2|sl' rest' B1 B2 B3]; try lia; auto.
      rewrite A2 in B2. inversion B2; subst sl'. auto. }
    destruct Est as [-> ->].
    destruct Hdesc as [(D1&D2&D3&D4)|(sl&wr'&D1&D2&D3&D4&D5)]; subst tk st2.
    - exists (set_wire s (p_c2s s) rest0). rewrite app_nil_l.
      assert (Hin : forallb inert (preA ++ preB) = true) by (rewrite forallb_app, HA, HB; reflexivity).
      rewrite (fold_inert _ _ _ _ Hin). split; [reflexivity|]. left. auto.
    - exists (set_q (set_wire s (p_c2s s) rest0) (mkQueue (q_cap (p_q s)) (q_pend (p_q s)) wr' true)).
      rewrite fold_left_app, (fold_inert _ _ _ _ HA). cbn [fold_left app]. rewrite (fold_inert _ _ _ _ HB).
      split; [|right; exists sl, wr'; auto].
      unfold apply_act at 2, q_next_result. cbn [p_q set_wire]. rewrite D3. reflexivity.
  Qed.

  Lemma invb_rstep_reply s r f rest0 c L st2 tk preA preB skip' s' :
    InvB s -> p_b s = BRead r -> p_s2c s = f :: rest0 ->
    skipn (r_ff r) (r_multi r) ++ flat_map s_cmds (q_wr (p_q s)) = c :: L ->
    lands (hd_error (q_wr (p_q s))) r c st2 tk ->
    forallb inert preA = true -> forallb inert preB = true ->
    reader_step (g_r2ps g) (g_ver g) (hd_error (q_wr (p_q s))) r f =
      rd_store (set_skip st2 skip') (preA ++ tk ++ preB) (result_of sv c) ->
    (0 <= skip')%Z -> coh rest0 skip' L (p_c2s s ++ p_wbuf s) ->
    pstep g s LRStep = Some s' -> InvB s'.
  Proof.
    intros I Eb Es EL Hl HA HB Er Hsk Hcoh H.
    destruct (reply_state s r f rest0 c L st2 tk preA preB skip' s' I Eb Es EL Hl HA HB Er H) as (sT&->&Hcase).
    destruct (b_cur s I r Eb) as (F&K1&K2&K3).
    destruct (lands_flags _ _ _ _ _ Hl) as (G1&G2&G3&G4).
    pose proof (lands_nth _ _ _ _ _ Hl) as Hnth.
    destruct Hcoh as (conf&rest&csd&csr&C1&C2&C3&C4&C5&C6).
    assert (Hfl : flags_clear (set_ff (set_skip st2 skip') (S (r_ff st2)))).
    { destruct F as (F1&F2&F3). repeat split; cbn; congruence. }
    destruct Hcase as [(->&->&D3&D4)|(sl&wr'&->&D3&->&D4&D5)].
    - (* the slot being filled *)
      assert (El : Nat.ltb (r_ff r) (List.length (r_multi r)) = true) by (apply Nat.ltb_lt; exact D3).
      rewrite El in K3. destruct K3 as (Q1&Q2&Q3&Q4).
      apply (invb_deliver _ _ (r_owner r) (r_resps r) (r_multi r) (r_ff r) c); cbn [p_calls p_q p_s2c p_c2s p_wbuf set_wire]; auto.
      all: try solve [apply (b_rec s I) | apply (b_queue s I) | apply (b_nodup s I)].
      exists conf, rest, csd, csr; repeat split; auto; rewrite <- C5; symmetry; exact D4.
    - (* the next written slot *)
      cbn [set_slot r_ff r_resps r_multi r_owner] in *.
      assert (Hsl : In sl (q_pend (p_q s) ++ q_wr (p_q s))) by (apply in_or_app; right; rewrite D3; now left).
      destruct (b_queue s I sl Hsl) as [Hown Hres0].
      pose proof (b_nodup s I) as Nd. rewrite D3, map_app in Nd. cbn [map] in Nd.
      apply (invb_deliver _ _ (s_owner sl) (s_multi sl) (s_cmds sl) 0%nat c);
        cbn [p_calls p_q p_s2c p_c2s p_wbuf set_wire set_q q_pend q_wr q_held]; auto.
      all: try solve [apply (b_rec s I)].
      all: try solve [intros sl' Hsl'; apply (b_queue s I); rewrite D3; apply in_app_or in Hsl' as [K|K]; apply in_or_app; [now left|right; now right]].
      all: try solve [rewrite map_app; eapply NoDup_remove_1; eauto].
      all: try solve [rewrite slot_eta; exact Hown].
      all: try solve [rewrite Hres0; reflexivity].
      all: try solve [rewrite map_app; eapply NoDup_remove_2; eauto].
      exists conf, rest, csd, csr; repeat split; auto; rewrite <- C5; symmetry; exact D5.
  Qed.

  Lemma apush_not_bad l : forallb is_apush l = true -> existsb is_bad l = false.
  Proof. intros H. apply inert_not_bad. now apply apush_inert. Qed.

  Lemma free_not_conf m : push_bg m = true -> sub_confirm r2ps m = true -> False.
  Proof.
    unfold push_bg, free_push, sub_confirm. intros H1 H2.
    apply andb_true_iff in H1 as [_ H1]. apply andb_true_iff in H2 as [H2 H3]. apply andb_true_iff in H2 as [_ H2].
    rewrite H2 in H1. cbn in H1. rewrite H1 in H3. discriminate.
  Qed.

  (** what the reader makes of the frame [f] at the head of the stream: a frame that no caller sees
      (an out-of-band push, or a further confirmation of the subscribe being answered), or the frame
      that carries the result of the oldest unanswered command [c] *)
  Inductive rstep_case (s : pstate) (r : rstate) (f : msg) (rest0 : list msg) : Prop :=
  | RQuiet r' pa :
      reader_step (g_r2ps g) (g_ver g) (hd_error (q_wr (p_q s))) r f = (r', pa) -> forallb is_apush pa = true ->
      r_multi r' = r_multi r -> r_ff r' = r_ff r -> r_owner r' = r_owner r -> r_resps r' = r_resps r ->
      flags_clear r' -> (0 <= r_skip r')%Z ->
      coh rest0 (r_skip r') (skipn (r_ff r) (r_multi r) ++ flat_map s_cmds (q_wr (p_q s))) (p_c2s s ++ p_wbuf s) ->
      rstep_case s r f rest0
  | RReply c L st2 tk preA preB skip' :
      skipn (r_ff r) (r_multi r) ++ flat_map s_cmds (q_wr (p_q s)) = c :: L ->
      lands (hd_error (q_wr (p_q s))) r c st2 tk ->
      forallb inert preA = true -> forallb inert preB = true ->
      reader_step (g_r2ps g) (g_ver g) (hd_error (q_wr (p_q s))) r f =
        rd_store (set_skip st2 skip') (preA ++ tk ++ preB) (result_of sv c) ->
      (0 <= skip')%Z -> coh rest0 skip' L (p_c2s s ++ p_wbuf s) ->
      rstep_case s r f rest0.

  Lemma rstep_cases s r f rest0 : InvB s -> p_b s = BRead r -> p_s2c s = f :: rest0 -> rstep_case s r f rest0.
  Proof.
    intros I Eb Es.
    destruct (b_cur s I r Eb) as (F&K1&K2&K3).
    destruct (b_coh s I r Eb) as (conf&rest&csd&csr&E1&E2&E3&E4&E5&E6).
    rewrite Es in E1.
    destruct conf as [|f' conf'].
    - (* no confirmation pending *)
      cbn in E1, E2. subst rest.
      apply served_inv in E4 as [[P1 P2]|(c&csd'&tl&fs'&X1&X2&X3&X4)].
      + (* out-of-band push *)
        destruct (reader_step_free (g_r2ps g) (g_ver g) (hd_error (q_wr (p_q s))) r f P1 F ltac:(lia)) as (pa&Er&Hpa).
        apply (RQuiet s r f rest0 r pa); auto. exists [], rest0, csd, csr. repeat split; auto.
      + (* the answer to command c *)
        subst csd. cbn [app] in E5.
        destruct (reply_lands s r c (csd' ++ csr) I Eb E5) as (st2&tk&Hl&_).
        destruct (lands_flags _ _ _ _ _ Hl) as (_&_&_&G4).
        assert (Hid : set_skip st2 0 = st2) by (rewrite <- (set_skip_id st2) at 2; f_equal; lia).
        destruct (kind_of_cmd c) as [Ku Kn Kw Kp Kr|Ku Kn Kw Kc Ka Kl Kr|Ku Kw Kp Ki Kq Kr]; rewrite Kw in X2; cbn in X2.
        * (* ordinary reply *)
          inversion X2; subst f tl. cbn in X3. subst fs'.
          destruct (reader_step_normal (g_r2ps g) (g_ver g) Hver _ r _ c st2 tk F Kp Kn Ku Hl) as (pre&Er&Hpre).
          apply (RReply s r _ rest0 c (csd' ++ csr) st2 tk [] pre 0%Z); auto; try lia.
          -- rewrite Er, Kr, Hid. reflexivity.
          -- exists [], rest0, csd', csr. repeat split; auto.
        * (* first confirmation of a subscribe *)
          assert (Hf : sub_confirm r2ps f = true /\ forallb (sub_confirm r2ps) tl = true).
          { rewrite X2 in Kc. cbn in Kc. apply andb_true_iff in Kc. exact Kc. }
          destruct Hf as [Hf Htl].
          destruct (reader_step_sub (g_r2ps g) (g_ver g) _ r f c st2 tk F ltac:(lia) Hf Kn Hl) as (pre1&pre2&Er&Hp1&Hp2).
          assert (Hlen : (Z.of_nat (c_argc c) - 2 = Z.of_nat (List.length tl))%Z).
          { rewrite X2 in Ka. cbn in Ka. lia. }
          apply (RReply s r f rest0 c (csd' ++ csr) st2 tk pre1 pre2 (Z.of_nat (c_argc c) - 2)%Z); auto; try lia.
          -- rewrite Er, Kr. reflexivity.
          -- exists tl, fs', csd', csr. repeat split; auto.
        * (* PONG of the PING written after an unsubscribe *)
          inversion X2; subst f tl. cbn in X3. subst fs'.
          destruct (reader_step_pong (g_r2ps g) (g_ver g) Hver _ r _ c st2 tk F Kp Ku Ki Kq Hl) as (pre&Er&Hpre).
          apply (RReply s r _ rest0 c (csd' ++ csr) st2 tk [] pre 0%Z); auto; try lia.
          -- rewrite Er, Kr, Hid. reflexivity.
          -- exists [], rest0, csd', csr. repeat split; auto.
    - (* a further confirmation of the subscribe being answered *)
      cbn [app] in E1. inversion E1; subst f' rest0. cbn [forallb] in E3. apply andb_true_iff in E3 as [Hf Htl].
      cbn [List.length] in E2.
      destruct (reader_step_conf (g_r2ps g) (g_ver g) (hd_error (q_wr (p_q s))) r f Hf F ltac:(lia)) as (pa&Er&Hpa).
      destruct F as (F1&F2&F3).
      apply (RQuiet s r f (conf' ++ rest) (set_skip r (r_skip r - 1)%Z) pa); auto.
      + repeat split; auto.
      + cbn. lia.
      + exists conf', rest, csd, csr. repeat split; auto. cbn. lia.
  Qed.

  Lemma rstep_quiet s r f rest0 r' pa s' :
    p_b s = BRead r -> p_s2c s = f :: rest0 ->
    reader_step (g_r2ps g) (g_ver g) (hd_error (q_wr (p_q s))) r f = (r', pa) -> forallb is_apush pa = true ->
    pstep g s LRStep = Some s' -> s' = set_b (set_wire s (p_c2s s) rest0) (BRead r').
  Proof.
    intros Eb Es Er Hpa H. cbn [pstep] in H. rewrite Eb, Es, Er, (apush_not_bad _ Hpa) in H.
    rewrite (fold_inert _ _ _ _ (apush_inert _ Hpa)) in H. now inversion H.
  Qed.

  Lemma invb_rstep s s' : InvB s -> pstep g s LRStep = Some s' -> InvB s'.
  Proof.
    intros I H.
    destruct (p_b s) as [|r| | | |] eqn:Eb; try (cbn [pstep] in H; rewrite Eb in H; discriminate).
    destruct (p_s2c s) as [|f rest0] eqn:Es; [cbn [pstep] in H; rewrite Eb, Es in H; discriminate|].
    destruct (rstep_cases s r f rest0 I Eb Es) as [r' pa Er Hpa e1 e2 e3 e4 Hfl Hsk Hcoh|c L st2 tk preA preB skip' EL Hl HA HB Er Hsk Hcoh].
    - rewrite (rstep_quiet s r f rest0 r' pa s' Eb Es Er Hpa H). now apply (invb_rdr s r r' rest0).
    - exact (invb_rstep_reply s r f rest0 c L st2 tk preA preB skip' s' I Eb Es EL Hl HA HB Er Hsk Hcoh H).
  Qed.

  Lemma invb_init : InvB (p_init g).
  Proof.
    constructor; cbn.
    - intros t. apply rec_ok_idle.
    - intros _. repeat split; reflexivity.
    - intros _. reflexivity.
    - intros sl [].
    - constructor.
    - intros r K. discriminate.
    - intros r K. discriminate.
    - intros _. split.
      + intros _. split; [reflexivity|constructor].
      + intros t k K. discriminate.
  Qed.

  Lemma ret_none c : rec_ok c -> k_pc c <> PRet -> k_ret c = None.
  Proof. intros (_&_&_&_&_&_&Rt) H. unfold rec_ret in Rt. destruct (k_ret c); [|reflexivity]. destruct H. apply Rt. discriminate. Qed.

  (* [call_b] for a caller whose pc [Epc] shows that it owns no slot and is not reading *)
  Ltac call_nb s t c' Epc :=
    call_b s t c';
    [ | intros [? K]; cbn in K; discriminate K | intros [? K]; rewrite Epc in K; discriminate K
      | intros sl Ho; exfalso; apply (not_owner_pc _ _ Ho); rewrite Epc; discriminate ].

  Theorem invb_step s l s' : InvA s -> InvB s -> pstep g s l = Some s' -> InvB s'.
  Proof.
    intros IA I H.
    (* background() is called by a token holder that does not use the connection itself at that moment *)
    assert (Hbg : (forall u, sync_user (p_calls s u) = false) -> InvB (do_background s)).
    { intros Hns. apply invb_do_background; [assumption|intros K; apply (a_bgw s IA K)|].
      intros u Hu. apply reading_sync in Hu. rewrite Hns in Hu. discriminate. }
    assert (Hpost : forall b, p_b s = b -> match b with BPost | BClean | BWaitClose | BDone => True | _ => False end ->
                    forall b', match b' with BPost | BClean | BWaitClose | BDone => True | _ => False end ->
                    forall s1, p_b s1 = b' -> p_b s1 = p_b s \/ (post (p_b s) /\ post (p_b s1))).
    { intros b0 E0 K0 b1 K1 s1 E1. right. rewrite E0, E1. split; now apply post_of. }
    destruct (pstep_inv g s l s' H); subst; try (apply (invb_same s); auto; fail);
      try (pose proof (b_rec s I t) as Hold; assert (Hpc : k_pc (p_calls s t) <> PIdle) by congruence).
    - (* LCall *)
      pose proof (fresh_idle s t IA Hfr) as Epc.
      call_nb s t (mkC cmds multi ck true false false PIncr [] false None DNone) Epc.
      unfold rec_ok, rec_wf, rec_r1, rec_cmp, rec_r2, rec_sync, rec_fresh, rec_ret, full, reals, sync_user; cbn. repeat split; try (intros; discriminate); auto.
      + exists 0%nat, []. reflexivity.
      + intros [K|[K|[K|[[b K]|K]]]]; discriminate.
      + intros K. contradiction.
    - (* LCtxDone *)
      apply (invb_eqv s); auto. intros u. cbn. unfold upd, rec_eqv.
      destruct (N.eqb u t) eqn:E; [apply N.eqb_eq in E; subst|]; cbn; repeat split; reflexivity.
    - (* LIncr, context done *)
      destruct (rec_fresh_at _ Hold) as (F1&F2&F3); [now rewrite Epc|].
      call_nb s t (mkC (k_cmds (p_calls s t)) (k_multi (p_calls s t)) (k_ctx (p_calls s t)) (k_ctxput (p_calls s t)) true true PRet []
                       false (Some (errs_for (p_calls s t) ECtx)) DNone) Epc.
      apply (rec_ok_ctl (p_calls s t)); cbn; auto; try congruence; close_rec.
    - (* LIncr *)
      destruct (rec_fresh_at _ Hold) as (F1&F2&F3); [now rewrite Epc|].
      call_nb s t (with_pc (p_calls s t) (PLoad (S (p_waits s)))) Epc.
      apply (rec_ok_ctl (p_calls s t)); cbn; auto; try congruence; close_rec.
      all: unfold rec_fresh, rec_ret; cbn; rewrite ?F3; auto; try (intros K; contradiction).
    - (* LLoad *)
      destruct (rec_fresh_at _ Hold) as (F1&F2&F3); [now rewrite Epc|].
      call_b s t (with_pc (p_calls s t) x).
      + apply (rec_ok_ctl (p_calls s t)); cbn; auto; try congruence; close_rec.
        all: try solve [intros [K|[K|[K|[[b K]|K]]]]; destruct Hx; try discriminate; auto].
        all: try solve [unfold sync_user; cbn; destruct Hx as [| | ? ? Hn|]; try discriminate; intros _; right;
                        unfold needs_bg in Hn; apply orb_false_iff in Hn as [Hn _]; apply orb_false_iff in Hn as [Hn _]; exact Hn].
        all: try solve [unfold rec_fresh; cbn; destruct Hx; auto].
        all: try solve [unfold rec_ret; cbn; rewrite F3; intros K; contradiction].
      + intros [k K]. cbn in K. destruct Hx; discriminate.
      + intros [k K]; rewrite Epc in K; discriminate.
      + intros sl Ho; exfalso; apply (not_owner_pc _ _ Ho); rewrite Epc; discriminate.
    - (* LBg *)
      assert (I1 : InvB (do_background s)).
      { apply Hbg, (tok_no_sync_other s t IA); unfold tokc, sync_user; now rewrite Epc. }
      destruct (rec_fresh_at _ Hold) as (F1&F2&F3); [now rewrite Epc|].
      apply (invb_call (do_background s) (set_call (do_background s) t (with_pc (p_calls s t) PPut)) t (with_pc (p_calls s t) PPut) I1 (or_introl eq_refl) eq_refl eq_refl eq_refl eq_refl (fun u => eq_refl));
        rewrite ?calls_do_background.
      + apply (rec_ok_ctl (p_calls s t)); cbn; auto; try congruence; close_rec.
        all: try solve [unfold rec_fresh; cbn; auto].
        all: try solve [unfold rec_ret; cbn; rewrite F3; intros K; contradiction].
      + intros [k K]; discriminate.
      + intros [k K]; rewrite Epc in K; discriminate.
      + intros sl Ho; exfalso; apply (not_owner_pc _ _ Ho); rewrite Epc; discriminate.
      + intros _; split; reflexivity.
    - (* LSyncW *) now apply invb_syncw.
    - (* LSyncR, a push is skipped *) apply (invb_syncr s t k f r _ I IA Epc Es2c). now rewrite Hty.
    - (* LSyncR *) apply (invb_syncr s t k f r _ I IA Epc Es2c). rewrite Hty. destruct k; reflexivity.
    - (* LSyncFail *) now apply invb_syncfail.
    - (* LErr *)
      destruct (rec_fresh_at _ Hold) as (F1&F2&F3); [now rewrite Epc|]. destruct Hold as (W&R1&Cm&R2&Sy&Fr&Rt).
      call_nb s t (with_pc (with_res (p_calls s t) (errs_for (p_calls s t) (the_err s))) (PDecr false)) Epc.
      rec7.
      + unfold rec_wf; cbn. intros _. now apply W.
      + unfold rec_r1, reals; cbn. exists 0%nat, (map (fun _ => the_err s) (k_cmds (p_calls s t))). cbn.
        unfold errs_for. now rewrite map_map.
      + unfold rec_cmp, full; cbn. intros _. unfold errs_for. now rewrite map_length.
      + unfold rec_r2; cbn. rewrite F3. intros r K; discriminate.
      + unfold rec_sync, sync_user; cbn. intros K; discriminate.
      + exact Logic.I.
      + unfold rec_ret; cbn. rewrite F3. intros K; contradiction.
    - (* LDecr, background() comes first *)
      pose proof (ret_none _ Hold ltac:(congruence)) as Hret.
      call_nb s t (with_pc (p_calls s t) PBgAfter) Epc.
      apply (rec_ok_ctl (p_calls s t)); cbn; auto; try congruence; close_rec.
      all: try solve [intros _; right; right; right; left; eauto].
      all: try solve [unfold rec_ret; cbn; rewrite Hret; intros K; contradiction].
    - (* LDecr *)
      pose proof (ret_none _ Hold ltac:(congruence)) as Hret.
      call_nb s t (with_ret (p_calls s t) (k_res (p_calls s t))) Epc.
      apply (rec_ok_ctl (p_calls s t)); cbn; auto; try congruence; close_rec.
      all: try solve [intros r K; inversion K; subst; right; right; split; [reflexivity|]; right; right; right; left; eauto].
      all: try solve [unfold rec_ret; cbn; intros _; reflexivity].
    - (* LBgAfter *)
      assert (I1 : InvB (do_background s)).
      { apply Hbg, (tok_no_sync_other s t IA); unfold tokc, sync_user; now rewrite Epc. }
      pose proof (ret_none _ Hold ltac:(congruence)) as Hret.
      apply (invb_call (do_background s) (set_call (do_background s) t (with_pc (p_calls s t) (PDecr false))) t (with_pc (p_calls s t) (PDecr false)) I1 (or_introl eq_refl) eq_refl eq_refl eq_refl eq_refl (fun u => eq_refl));
        rewrite ?calls_do_background.
      + apply (rec_ok_ctl (p_calls s t)); cbn; auto; try congruence; close_rec.
        all: try solve [intros _; right; right; right; left; eauto].
        all: try solve [unfold rec_ret; cbn; rewrite Hret; intros K; contradiction].
      + intros [k K]; discriminate.
      + intros [k K]; rewrite Epc in K; discriminate.
      + intros sl Ho; exfalso; apply (not_owner_pc _ _ Ho); rewrite Epc; discriminate.
      + intros _; split; reflexivity.
    - (* LPut *) now apply invb_put.
    - (* LPutFail *)
      call_nb s t (with_ret (p_calls s t) (errs_for (p_calls s t) ECtx)) Epc.
      apply (rec_ok_ctl (p_calls s t)); cbn; auto; try congruence; close_rec.
      all: try solve [unfold rec_ret; cbn; intros _; reflexivity].
    - (* LRecv *)
      pose proof (ret_none _ Hold ltac:(congruence)) as Hret.
      call_b s t (with_pc (with_comp (p_calls s t) false) PGot).
      + apply (rec_ok_ctl (p_calls s t)); cbn; auto; try congruence; close_rec.
        all: try solve [intros _; left; assumption].
        all: try solve [unfold rec_ret; cbn; rewrite Hret; intros K; contradiction].
      + intros [k K]; discriminate.
      + intros [k K]; rewrite Epc in K; discriminate.
      + intros sl Ho. exfalso. apply (not_owner_comp _ _ Ho Hcomp).
    - (* LAbort *)
      call_b s t (with_drain (with_ret (p_calls s t) (errs_for (p_calls s t) ECtx)) DWait).
      + apply (rec_ok_ctl (p_calls s t)); cbn; auto; try congruence; close_rec.
        all: try solve [unfold rec_ret; cbn; intros _; reflexivity].
      + intros [k K]; discriminate.
      + intros [k K]; rewrite Epc in K; discriminate.
      + intros sl (O1&O2&O3&O4). unfold owner_ok; cbn. repeat split; auto.
    - (* LFin *)
      call_nb s t (with_ret (p_calls s t) (k_res (p_calls s t))) Epc.
      apply (rec_ok_ctl (p_calls s t)); cbn; auto; try congruence; close_rec.
      all: try solve [intros r K; inversion K; subst; right; right; split; [reflexivity|]; right; left; assumption].
      all: try solve [unfold rec_ret; cbn; intros _; reflexivity].
    - (* LDrainRecv *)
      assert (Epc : k_pc (p_calls s t) = PRet) by (apply (a_dr s IA); congruence).
      pose proof (b_rec s I t) as Hold. assert (Hpc : k_pc (p_calls s t) <> PIdle) by congruence.
      call_b s t (with_drain (with_comp (p_calls s t) false) DGot).
      + apply (rec_ok_ctl (p_calls s t)); cbn; auto; try congruence; close_rec.
        all: try solve [intros _; left; assumption].
        all: try solve [unfold rec_fresh; cbn; rewrite Epc; exact Logic.I].
        all: try solve [unfold rec_ret; cbn; intros _; assumption].
      + intros [k K]. cbn in K. rewrite Epc in K. discriminate.
      + intros [k K]; rewrite Epc in K; discriminate.
      + intros sl Ho. exfalso. apply (not_owner_comp _ _ Ho Hcomp).
    - (* LDrainFin *)
      assert (Epc : k_pc (p_calls s t) = PRet) by (apply (a_dr s IA); congruence).
      pose proof (b_rec s I t) as Hold. assert (Hpc : k_pc (p_calls s t) <> PIdle) by congruence.
      call_b s t (with_drain (p_calls s t) DDone).
      + apply (rec_ok_ctl (p_calls s t)); cbn; auto; try congruence; close_rec.
        all: try solve [intros [K|[K|[K|[[b K]|K]]]]; try discriminate; auto].
        all: try solve [unfold rec_fresh; cbn; rewrite Epc; exact Logic.I].
        all: try solve [unfold rec_ret; cbn; intros _; assumption].
      + intros [k K]. cbn in K. rewrite Epc in K. discriminate.
      + intros [k K]; rewrite Epc in K; discriminate.
      + intros sl (O1&O2&O3&O4). unfold owner_ok; cbn. repeat split; auto.
    - (* LWNext *)
      apply (invb_move s _ sl I); try reflexivity; [exact Eq|].
      intros K. destruct (b_off s I K) as (_&_&K'&_). congruence.
    - (* LWFlush *)
      assert (Hnb : p_b s <> BOff) by (intros K; destruct (b_off s I K) as (_&_&K'&_); congruence).
      destruct I as [b_rec b_off b_held b_queue b_nodup b_cur b_coh b_sync]. constructor; cbn; auto.
      + intros K. contradiction.
      + intros r Hr. rewrite app_nil_r. apply b_coh, Hr.
      + intros K. contradiction.
    - (* LWExit *)
      apply (invb_same s); auto. cbn. intros K. destruct (b_off s I K) as (_&_&K'&_). congruence.
    - (* LSrv *) now apply invb_srv.
    - (* LSrvPush *) now apply invb_srv_push.
    - (* LRStep *) exact (invb_rstep s _ I H).
    - (* LRFail *) now apply invb_rfail.
    - (* LPostSkip *)
      apply (invb_same s); auto. apply (Hpost BPost Eb Logic.I BClean Logic.I); reflexivity.
    - (* LPostPing *)
      pose proof (fresh_idle s t' IA Hfr) as Epc.
      apply (invb_add_ping s _ t' I Epc); try reflexivity; [|intros K; discriminate K].
      apply (Hpost BPost Eb Logic.I BClean Logic.I); reflexivity.
    - (* LCleanNW *)
      apply (invb_move s _ sl I); try reflexivity; [exact Eq|rewrite Eb; discriminate|].
      intros [r K]. rewrite Eb in K. discriminate.
    - (* LCleanNR *) now apply invb_clean_nr.
    - (* LCleanExit *)
      apply (invb_same s); auto. apply (Hpost BClean Eb Logic.I BWaitClose Logic.I); reflexivity.
    - (* LFinal *)
      apply (invb_same s); auto. apply (Hpost BWaitClose Eb Logic.I BDone Logic.I); reflexivity.
    - (* LClose3, background() *)
      apply (invb_same (do_background s)); auto. apply Hbg.
      intros u. destruct (sync_user (p_calls s u)) eqn:E; [|reflexivity]. apply sync_tok in E.
      exfalso. apply (a_tok3 s IA u t E). now rewrite Ek.
    - (* LClose4 *)
      pose proof (fresh_idle s t' IA Hfr) as Epc.
      apply (invb_add_ping s _ t' I Epc); try reflexivity; [now left|intros _; split; reflexivity].
  Qed.

  Theorem invb_run sched : forall s s', InvA s -> InvB s -> prun g sched s = Some s' -> InvA s' /\ InvB s'.
  Proof.
    intros s s' IA IB. apply (prun_inv g (fun x => InvA x /\ InvB x)); [|auto].
    intros x l x' [A B] E. split; [eapply inva_step|eapply invb_step]; eauto.
  Qed.

  Theorem invb_reach sched s : prun g sched (p_init g) = Some s -> InvA s /\ InvB s.
  Proof. intros H. eapply invb_run; [apply inva_init|apply invb_init|exact H]. Qed.

  Lemma reals_prefix_all c k : (List.length (k_cmds c) <= k)%nat -> reals c k = map RMsg (map (result_of sv) (k_cmds c)).
  Proof. intros H. unfold reals. now rewrite firstn_all2. Qed.

  Theorem routing sched s t :
    prun g sched (p_init g) = Some s ->
    (exists k es, k_res (p_calls s t) = map RMsg (map (result_of sv) (firstn k (k_cmds (p_calls s t)))) ++ map RErr es) /\
    (forall r, k_ret (p_calls s t) = Some r -> (forall x, In x r -> exists m, x = RMsg m) ->
               k_cmds (p_calls s t) <> [] ->
               r = map RMsg (map (result_of sv) (k_cmds (p_calls s t)))).
  Proof.
    intros H. destruct (invb_reach sched s H) as [IA IB].
    destruct (b_rec s IB t) as (W&R1&Cm&R2&Sy&Fr&Rt). split; [exact R1|].
    intros r Hr Hall Hne. destruct (R2 r Hr) as [K|[K1 K2]].
    - exfalso. subst r. unfold errs_for in Hall. destruct (k_cmds (p_calls s t)) as [|c0 cs]; [contradiction|].
      destruct (Hall (RErr ECtx)) as [m Hm]; [now left|discriminate].
    - subst r. destruct R1 as (k&es&E). unfold full in K2.
      destruct es as [|e es].
      + cbn in E. rewrite app_nil_r in E. rewrite E. rewrite E in K2.
        unfold reals in K2. rewrite !map_length, firstn_length in K2.
        apply (reals_prefix_all (p_calls s t) k). lia.
      + exfalso. destruct (Hall (RErr e)) as [m Hm]; [|discriminate].
        rewrite E. apply in_or_app. right. now left.
  Qed.

  Lemma fold_deliver_dlog o mu last ff m s :
    (mu = true \/ last = true) ->
    p_dlog (fold_left (apply_act o mu) ((if mu then [AStore ff m] else []) ++ (if last then [AComplete m] else [])) s) =
    p_dlog s ++ [(o, (if mu then ff else 0%nat), m)].
  Proof. intros H. destruct mu, last; cbn; try reflexivity. destruct H; discriminate. Qed.

  (** what one reader step does to the delivery log, the queue and the reader's position: nothing (a quiet
      frame), or the result of the oldest unanswered command [c] is delivered, to the slot being filled or to
      the next written slot, which the reader takes *)
  Definition step_effect (s s' : pstate) (r r' : rstate) : Prop :=
    q_pend (p_q s') = q_pend (p_q s) /\ p_wlog s' = p_wlog s /\
    (forall t, k_pc (p_calls s' t) = k_pc (p_calls s t) /\ k_drain (p_calls s' t) = k_drain (p_calls s t)) /\
    (forall t, k_comp (p_calls s' t) = false -> k_comp (p_calls s t) = false) /\
    ((p_dlog s' = p_dlog s /\ q_wr (p_q s') = q_wr (p_q s) /\ r_owner r' = r_owner r /\ r_multi r' = r_multi r /\ r_ff r' = r_ff r) \/
     (exists c L,
         skipn (r_ff r) (r_multi r) ++ flat_map s_cmds (q_wr (p_q s)) = c :: L /\
         p_dlog s' = p_dlog s ++ [(r_owner r', pred (r_ff r'), result_of sv c)] /\
         skipn (r_ff r') (r_multi r') ++ flat_map s_cmds (q_wr (p_q s')) = L /\
         ((q_wr (p_q s') = q_wr (p_q s) /\ r_owner r' = r_owner r /\ r_multi r' = r_multi r /\ r_ff r' = S (r_ff r) /\
           (r_ff r < List.length (r_multi r))%nat) \/
          (exists sl, q_wr (p_q s) = sl :: q_wr (p_q s') /\ r_owner r' = s_owner sl /\ r_multi r' = s_cmds sl /\ r_ff r' = 1%nat /\
                      r_ff r = List.length (r_multi r))) /\
         (r_ff r' = List.length (r_multi r') -> k_comp (p_calls s' (r_owner r')) = true))).

  Lemma reply_effect s r f rest0 c L st2 tk preA preB skip' s' :
    InvB s -> p_b s = BRead r -> p_s2c s = f :: rest0 ->
    skipn (r_ff r) (r_multi r) ++ flat_map s_cmds (q_wr (p_q s)) = c :: L ->
    lands (hd_error (q_wr (p_q s))) r c st2 tk ->
    forallb inert preA = true -> forallb inert preB = true ->
    reader_step (g_r2ps g) (g_ver g) (hd_error (q_wr (p_q s))) r f =
      rd_store (set_skip st2 skip') (preA ++ tk ++ preB) (result_of sv c) ->
    pstep g s LRStep = Some s' ->
    exists r', p_b s' = BRead r' /\ step_effect s s' r r'.
  Proof.
    intros I Eb Es EL Hl HA HB Er H.
    destruct (reply_state s r f rest0 c L st2 tk preA preB skip' s' I Eb Es EL Hl HA HB Er H) as (sT&->&Hcase).
    set (m := result_of sv c) in *.
    set (ff2 := r_ff st2) in *. set (mu := r_resps st2) in *. set (multi2 := r_multi st2) in *. set (o := r_owner st2) in *.
    set (last := Nat.eqb (S ff2) (List.length multi2)) in *.
    set (deliv := (if mu then [AStore ff2 m] else []) ++ (if last then [AComplete m] else [])) in *.
    destruct (b_cur s I r Eb) as (F&K1&K2&K3).
    pose proof (lands_nth _ _ _ _ _ Hl) as Hnth. fold multi2 ff2 in Hnth.
    assert (Hlt : (ff2 < List.length multi2)%nat) by (apply nth_error_Some; congruence).
    (* the record of the owner *)
    assert (Hown : p_calls sT = p_calls s /\ p_dlog sT = p_dlog s /\ q_pend (p_q sT) = q_pend (p_q s) /\
                   p_wlog sT = p_wlog s /\ owner_ok (mkSlot o mu multi2) (p_calls s o)).
    { destruct Hcase as [(D2&->&D3&D4)|(sl&wr'&D2&D3&->&D4&D5)]; subst st2.
      - assert (El : Nat.ltb (r_ff r) (List.length (r_multi r)) = true) by (apply Nat.ltb_lt; exact D3).
        rewrite El in K3. destruct K3 as (_&Q2&_).
        split; [reflexivity|split; [reflexivity|split; [reflexivity|split; [reflexivity|exact Q2]]]].
      - assert (Hsl : In sl (q_pend (p_q s) ++ q_wr (p_q s))) by (apply in_or_app; right; rewrite D3; now left).
        destruct (b_queue s I sl Hsl) as [Ho _].
        split; [reflexivity|split; [reflexivity|split; [reflexivity|split; [reflexivity|]]]].
        unfold o, mu, multi2. cbn [set_slot r_owner r_resps r_multi]. rewrite slot_eta. exact Ho. }
    destruct Hown as (Tc&Td&Tp&Tw&Ho).
    destruct Ho as (O1&O2&O3&O4). cbn in O1, O2.
    destruct (b_rec s I o) as (W&_).
    assert (Hpc : k_pc (p_calls s o) <> PIdle) by (destruct O4 as [K|[K _]]; rewrite K; discriminate).
    destruct (W Hpc) as (W1&W2&W3).
    assert (Hml : mu = true \/ last = true).
    { destruct W3 as [W3|W3]; [left; congruence|right]. unfold last. apply Nat.eqb_eq. rewrite <- O2 in W3. lia. }
    pose proof (fold_deliver_spec o mu last ff2 m sT Hml) as Hspec. cbn zeta in Hspec. fold deliv in Hspec.
    destruct Hspec as (Dq&Do&Dt).
    pose proof (fold_deliver_dlog o mu last ff2 m sT Hml) as Hdl. fold deliv in Hdl.
    pose proof (fold_apply_frame o mu deliv sT) as Hctl. pose proof (act_frame_pc _ _ Hctl) as Hpcdr.
    assert (Ewlog : p_wlog (fold_left (apply_act o mu) deliv sT) = p_wlog sT) by (destruct Hctl as (q'&cs&dl&->&_); reflexivity).
    assert (Hidx : (if mu then ff2 else 0%nat) = ff2).
    { destruct mu eqn:Em; [reflexivity|]. destruct W3 as [W3|W3]; [congruence|]. rewrite <- O2 in W3. lia. }
    eexists. split; [reflexivity|].
    unfold step_effect. cbn [p_q p_wlog p_calls p_dlog set_b r_owner r_multi r_ff set_ff set_skip].
    split; [rewrite Dq; destruct last; cbn; exact Tp|].
    split; [rewrite Ewlog; exact Tw|].
    split.
    { intros t. rewrite <- Tc. apply Hpcdr. }
    split.
    { intros t Ht. destruct (N.eq_dec t o) as [->|Nt].
      - rewrite <- Tc. rewrite Dt in Ht. destruct last; cbn in Ht; [discriminate|]. rewrite Tc. exact O3.
      - rewrite Do in Ht by assumption. now rewrite <- Tc. }
    right. exists c, L. split; [exact EL|].
    split; [rewrite Hdl, Td, Hidx; reflexivity|].
    assert (Hwr' : q_wr (p_q (fold_left (apply_act o mu) deliv sT)) = q_wr (p_q sT)) by (rewrite Dq; destruct last; reflexivity).
    rewrite Hwr'.
    destruct Hcase as [(D2&->&D3&D4)|(sl&wr'&D2&D3&->&D4&D5)]; subst st2.
    - split; [symmetry; exact D4|]. split.
      + left. repeat split; auto.
      + intros Hfull. assert (El : last = true) by (unfold last; apply Nat.eqb_eq; exact Hfull).
        rewrite El in Dt. change (k_comp (p_calls (fold_left (apply_act o mu) deliv (set_wire s (p_c2s s) rest0)) o) = true). rewrite Dt. reflexivity.
    - cbn [set_slot r_ff r_resps r_multi r_owner] in *. cbn [p_q set_q q_wr].
      split; [symmetry; exact D5|]. split.
      + right. exists sl. repeat split; auto.
      + intros Hfull. assert (El : last = true) by (unfold last; apply Nat.eqb_eq; exact Hfull).
        rewrite El in Dt.
        transitivity (k_comp (p_calls (fold_left (apply_act o mu) deliv (set_q (set_wire s (p_c2s s) rest0) (mkQueue (q_cap (p_q s)) (q_pend (p_q s)) wr' true))) o));
          [reflexivity|rewrite Dt; reflexivity].
  Qed.

  Lemma quiet_effect s r r' rest0 :
    r_owner r' = r_owner r -> r_multi r' = r_multi r -> r_ff r' = r_ff r ->
    step_effect s (set_b (set_wire s (p_c2s s) rest0) (BRead r')) r r'.
  Proof.
    intros e1 e2 e3. unfold step_effect; cbn. repeat split; auto. left. repeat split; auto.
  Qed.

  Theorem rstep_effect s s' :
    InvB s -> pstep g s LRStep = Some s' ->
    exists r r', p_b s = BRead r /\ p_b s' = BRead r' /\ step_effect s s' r r'.
  Proof.
    intros I H.
    destruct (p_b s) as [|r| | | |] eqn:Eb; try (cbn [pstep] in H; rewrite Eb in H; discriminate).
    destruct (p_s2c s) as [|f rest0] eqn:Es; [cbn [pstep] in H; rewrite Eb, Es in H; discriminate|].
    exists r.
    destruct (rstep_cases s r f rest0 I Eb Es) as [r' pa Er Hpa e1 e2 e3 e4 Hfl Hsk Hcoh|c L st2 tk preA preB skip' EL Hl HA HB Er Hsk Hcoh].
    - rewrite (rstep_quiet s r f rest0 r' pa s' Eb Es Er Hpa H).
      exists r'. split; [reflexivity|split; [reflexivity|]]. now apply quiet_effect.
    - destruct (reply_effect s r f rest0 c L st2 tk preA preB skip' s' I Eb Es EL Hl HA HB Er H) as (r'&Hb'&He). eauto.
  Qed.

  Lemma rstep_some s r f rest0 :
    p_b s = BRead r -> p_s2c s = f :: rest0 ->
    existsb is_bad (snd (reader_step (g_r2ps g) (g_ver g) (hd_error (q_wr (p_q s))) r f)) = false ->
    exists s', pstep g s LRStep = Some s'.
  Proof.
    intros Eb Es Hb. cbn [pstep]. rewrite Eb, Es.
    destruct (reader_step (g_r2ps g) (g_ver g) (hd_error (q_wr (p_q s))) r f) as [r' acts]. cbn [snd] in Hb. rewrite Hb. eauto.
  Qed.

  Theorem rstep_enabled s r : InvB s -> p_b s = BRead r -> p_s2c s <> [] -> exists s', pstep g s LRStep = Some s'.
  Proof.
    intros I Eb Hne.
    destruct (p_s2c s) as [|f rest0] eqn:Es; [contradiction|].
    apply (rstep_some s r f rest0 Eb Es).
    destruct (rstep_cases s r f rest0 I Eb Es) as [r' pa Er Hpa _ _ _ _ _ _ _|c L st2 tk preA preB skip' _ Hl HA HB Er _ _]; rewrite Er.
    - now apply apush_not_bad.
    - exact (reply_acts_ok _ preA tk preB _ c r st2 _ Hl HA HB).
  Qed.
End Routing.
