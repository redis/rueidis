(** Proofs about Model/Sentinel.v (C23).  The file is built around [Section Pres]: a predicate kept by [set_list],
    [set_saddr], a successful [switch_target] and [switch_fail] is kept by [refresh], [refresh_retry] and [handle_event].
    Its two instances are [inv] (the adopted address answered the right role) and [live_ok] (traffic only reaches nodes
    whose probe answered the right role). *)
From Coq Require Import List Arith NArith ZArith Bool Lia.
Require Import RV.Model.Base RV.Model.ClusterTopo RV.Model.Sentinel RV.Proofs.BytesProofs RV.Proofs.ClusterTopoProofs.
Import ListNotations.
Open Scope Z_scope.

Lemma saddr_eqb_spec a b : saddr_eqb a b = true <-> a = b.
Proof.
  destruct a as [h1 p1], b as [h2 p2]. unfold saddr_eqb. cbn [fst snd]. rewrite andb_true_iff, !bytes_eqb_eq.
  split; [intros [-> ->]; reflexivity|intro H; inversion H; auto].
Qed.

(** the invariant: an adopted address answered ROLE with the right role when it was adopted, and
    somebody announced it *)
Definition m_ok (st : sstate) : Prop := ss_m st = None \/ (ss_m_role st = s_master_b /\ ss_m_src st <> SrcNone).
Definition r_ok (st : sstate) : Prop := ss_r st = None \/ (ss_r_role st = s_slave_b /\ ss_r_src st <> SrcNone).
Definition inv (st : sstate) : Prop := m_ok st /\ r_ok st.

Lemma inv_init l : inv (sinit l).
Proof. split; left; reflexivity. Qed.

Lemma inv_set_list st l : inv st -> inv (set_list st l).
Proof. intros [A B]. split; [destruct A as [A|A]; [left|right]|destruct B as [B|B]; [left|right]]; exact A || exact B. Qed.
Lemma inv_set_saddr st a : inv st -> inv (set_saddr st a).
Proof. intros [A B]. split; [destruct A as [A|A]; [left|right]|destruct B as [B|B]; [left|right]]; exact A || exact B. Qed.

Lemma switch_target_ok w st a is_master src st' :
  switch_target w st a is_master src = Ok st' ->
  w_nup w a = true /\
  exists rest, w_role w a = RoleArr ((if is_master then s_master_b else s_slave_b) :: rest) /\
  (if is_master
   then ss_m st' = Some a /\ ss_m_role st' = s_master_b /\ ss_m_src st' = src /\
        ss_r st' = ss_r st /\ ss_r_role st' = ss_r_role st /\ ss_r_src st' = ss_r_src st
   else ss_r st' = Some a /\ ss_r_role st' = s_slave_b /\ ss_r_src st' = src /\
        ss_m st' = ss_m st /\ ss_m_role st' = ss_m_role st /\ ss_m_src st' = ss_m_src st) /\
  ss_list st' = ss_list st /\ ss_saddr st' = ss_saddr st.
Proof.
  unfold switch_target. destruct (w_nup w a); cbn [negb]; [|discriminate].
  destruct (w_role w a) as [|items]; [discriminate|]. destruct items as [|first rest]; [discriminate|].
  destruct is_master.
  - destruct (bytes_eqb first s_master_b) eqn:E; [|discriminate]. apply bytes_eqb_eq in E. subst first.
    intro H; inversion H; subst. cbn. split; [reflexivity|]. exists rest. repeat split.
  - destruct (bytes_eqb first s_slave_b) eqn:E; [|discriminate]. apply bytes_eqb_eq in E. subst first.
    intro H; inversion H; subst. cbn. split; [reflexivity|]. exists rest. repeat split.
Qed.

Lemma switch_target_inv w st a is_master src st' :
  src <> SrcNone -> inv st -> switch_target w st a is_master src = Ok st' -> inv st'.
Proof.
  intros Hs [A B] H. destruct (switch_target_ok _ _ _ _ _ _ H) as [_ [rest [_ [X _]]]]. destruct is_master.
  - destruct X as [X1 [X2 [X3 [X4 [X5 X6]]]]]. split; [right; rewrite X2, X3; auto|].
    destruct B as [B|[B1 B2]]; [left; congruence|right; rewrite X5, X6; auto].
  - destruct X as [X1 [X2 [X3 [X4 [X5 X6]]]]]. split; [|right; rewrite X2, X3; auto].
    destruct A as [A|[A1 A2]]; [left; congruence|right; rewrite X5, X6; auto].
Qed.

Lemma bind_Ok_inv {A B} (r : result A) (f : A -> result B) y : bind r f = Ok y -> exists x, r = Ok x /\ f x = Ok y.
Proof. destruct r; cbn; [eauto|discriminate|discriminate]. Qed.

(** two pieces of Model/Sentinel.v under a name: how the rotation of [refresh_loop] goes on after sentinel [s] failed with
    [e], and what an event does with the master address it names *)
Definition refresh_next (f : nat) (c : scfg) (w : world) (head : saddr) (st2 : sstate) (s : saddr) (e : N) : result (sstate * rout) :=
  let l' := move_to_back (ss_list st2) s in
  let st3 := set_list st2 l' in
  match l' with
  | x :: _ => if saddr_eqb x head then Ok (st3, RFail e) else refresh_loop f c w st3 head e
  | [] => Ok (st3, RFail e)
  end.

Definition switch_or_retry (n fuel : nat) (c : scfg) (w : world) (st : sstate) (a : saddr) : result sstate :=
  match switch_target w st a true SrcEvent with
  | Ok x => Ok x
  | Panic => Panic
  | Err _ => refresh_retry n fuel c w (switch_fail w st a true)
  end.

(** any [P] kept by the four state changes below is kept by the whole machinery under one world *)
Section Pres.
  Variable w : world.
  Variable P : sstate -> Prop.
  Hypothesis P_list : forall st l, P st -> P (set_list st l).
  Hypothesis P_saddr : forall st a, P st -> P (set_saddr st a).
  Hypothesis P_switch : forall st a im src st', src <> SrcNone -> P st -> switch_target w st a im src = Ok st' -> P st'.
  Hypothesis P_fail : forall st a im, P st -> P (switch_fail w st a im).

  Lemma switch_or_fail_pres st a im src : src <> SrcNone -> P st -> P (switch_or_fail w st a im src).
  Proof.
    intros Hs I. unfold switch_or_fail. destruct (switch_target w st a im src) eqn:E; [eapply P_switch; eauto| |]; now apply P_fail.
  Qed.

  Lemma switch_all_pres c st s m r st' : P st -> switch_all c w st s m r = Ok st' -> P st'.
  Proof.
    intros I. unfold switch_all. destruct (sc_replica_only c).
    - destruct r as [ra|]; [|discriminate]. apply P_switch; [discriminate|exact I].
    - destruct (sc_has_str c).
      + destruct m as [ma|]; [|discriminate]. destruct r as [ra|]; [|discriminate].
        destruct (switch_target w st ma true (SrcSentinel s)) as [st1| |] eqn:E1.
        * destruct (switch_target w st1 ra false (SrcSentinel s)) as [st2| |] eqn:E2; try discriminate.
          intro H; inversion H; subst. eapply P_switch; [|eapply P_switch; [|exact I|exact E1]|exact E2]; discriminate.
        * destruct (switch_target w st ra false (SrcSentinel s)); discriminate.
        * discriminate.
      + destruct m as [ma|]; [|discriminate]. apply P_switch; [discriminate|exact I].
  Qed.

  Lemma switch_all_partial_pres c st s m r : P st -> P (switch_all_partial c w st s m r).
  Proof.
    intros I. unfold switch_all_partial. destruct (sc_replica_only c).
    - destruct r as [ra|]; [|exact I]. apply switch_or_fail_pres; [discriminate|exact I].
    - destruct (sc_has_str c).
      + destruct m as [ma|]; [|exact I]. destruct r as [ra|]; [|exact I].
        apply switch_or_fail_pres; [discriminate|]. apply switch_or_fail_pres; [discriminate|exact I].
      + destruct m as [ma|]; [|exact I]. apply switch_or_fail_pres; [discriminate|exact I].
  Qed.

  Lemma refresh_loop_pres c head : forall fuel st last st' o,
    P st -> refresh_loop fuel c w st head last = Ok (st', o) -> P st'.
  Proof.
    induction fuel as [|f IH]; intros st last st' o I H.
    - cbn in H. inversion H; subst. exact I.
    - cbn [refresh_loop] in H. destruct (ss_list st) as [|s l] eqn:El; [inversion H; subst; exact I|].
      assert (I1 : P (set_saddr st s)) by now apply P_saddr.
      assert (Hcont : forall st2 e, P st2 ->
                refresh_next f c w head st2 s e = Ok (st', o) -> P st').
      { intros st2 e I2 E. unfold refresh_next in E.
        destruct (move_to_back (ss_list st2) s) as [|x r] eqn:Em.
        - inversion E; subst. now apply P_list.
        - destruct (saddr_eqb x head).
          + inversion E; subst. now apply P_list.
          + eapply IH; [|exact E]. now apply P_list. }
      destruct (w_sup w s); cbn [negb] in H.
      + destruct (list_watch c w s) as [[[m r] others]| |] eqn:Lw; [|eapply Hcont; [exact I1|exact H]|discriminate].
        set (st2 := set_list (set_saddr st s) (fold_left add_sentinel others (ss_list (set_saddr st s)))) in *.
        assert (I2 : P st2) by (apply P_list; exact I1).
        destruct (switch_all c w st2 s m r) as [st3| |] eqn:Sw.
        * inversion H; subst. eapply switch_all_pres; eauto.
        * eapply Hcont; [|exact H]. now apply switch_all_partial_pres.
        * discriminate.
      + eapply Hcont; [exact I1|exact H].
  Qed.

  Lemma refresh_pres fuel c st st' o : P st -> refresh fuel c w st = Ok (st', o) -> P st'.
  Proof.
    intros I. unfold refresh. destruct (ss_list st) as [|h l]; [intro H; inversion H; subst; exact I|].
    now apply refresh_loop_pres.
  Qed.

  Lemma refresh_retry_pres fuel c : forall n st st', P st -> refresh_retry n fuel c w st = Ok st' -> P st'.
  Proof.
    induction n as [|n IH]; intros st st' I H; cbn [refresh_retry] in H; [inversion H; subst; exact I|].
    destruct (refresh fuel c w st) as [[st1 o]| |] eqn:R; try discriminate.
    pose proof (refresh_pres _ _ _ _ _ I R) as I1. destruct o; [inversion H; subst; exact I1| |]; eapply IH; eauto.
  Qed.

  (** the two tails every event handler ends in *)
  Lemma switch_or_retry_pres n fuel c st a st' : P st ->
    switch_or_retry n fuel c w st a = Ok st' -> P st'.
  Proof.
    unfold switch_or_retry. intros I H. destruct (switch_target w st a true SrcEvent) eqn:E; [injection H as <-| |discriminate].
    - eapply P_switch; [|exact I|exact E]. discriminate.
    - eapply refresh_retry_pres; [|exact H]. now apply P_fail.
  Qed.

  Lemma replica_retry_pres n fuel c st m (b : bool) st' : P st ->
    (if b then do m5 <- part m 5; if bytes_eqb m5 (sc_set c) then refresh_retry n fuel c w st else Ok st else Ok st) = Ok st' -> P st'.
  Proof.
    intros I H. destruct b; [|injection H as <-; exact I]. apply bind_Ok_inv in H. destruct H as [m5 [_ H]].
    destruct (bytes_eqb m5 (sc_set c)); [eapply refresh_retry_pres; eauto|injection H as <-; exact I].
  Qed.

  Lemma handle_event_pres n fuel c st ev st' : P st -> handle_event n fuel c w st ev = Ok st' -> P st'.
  Proof.
    intros I. destruct ev as [m|m|m|m]; cbn [handle_event]; intro H.
    - apply bind_Ok_inv in H. destruct H as [h [_ H]]. apply bind_Ok_inv in H. destruct H as [p [_ H]].
      injection H as <-. now apply P_list.
    - apply bind_Ok_inv in H. destruct H as [m0 [_ H]]. destruct (bytes_eqb m0 (sc_set c)); [|injection H as <-; exact I].
      apply bind_Ok_inv in H. destruct H as [h [_ H]]. apply bind_Ok_inv in H. destruct H as [p [_ H]].
      eapply switch_or_retry_pres; eauto.
    - apply bind_Ok_inv in H. destruct H as [m0 [_ H]].
      destruct (bytes_eqb m0 s_master_b); [|eapply replica_retry_pres; eauto].
      apply bind_Ok_inv in H. destruct H as [m1 [_ H]]. destruct (bytes_eqb m1 (sc_set c)); [|eapply replica_retry_pres; eauto].
      apply bind_Ok_inv in H. destruct H as [h [_ H]]. apply bind_Ok_inv in H. destruct H as [p [_ H]].
      eapply switch_or_retry_pres; eauto.
    - destruct (uses_replica c); [|injection H as <-; exact I].
      apply bind_Ok_inv in H. destruct H as [m0 [_ H]]. eapply (replica_retry_pres n fuel c st m (bytes_eqb m0 s_slave_b)); eauto.
  Qed.
End Pres.

Lemma inv_switch_fail w st a im : inv st -> inv (switch_fail w st a im).
Proof.
  intros I. unfold switch_fail. destruct (target_of w st a im); [|exact I].
  unfold close_installed. destruct im; exact I.
Qed.

Theorem srun_inv n fuel c : forall ops st st', inv st -> srun n fuel c st ops = Ok st' -> inv st'.
Proof.
  assert (Hs : forall w st a im src st', src <> SrcNone -> inv st -> switch_target w st a im src = Ok st' -> inv st')
    by (intros; eapply switch_target_inv; eauto).
  induction ops as [|op r IH]; intros st st' I H; cbn [srun] in H; [inversion H; subst; exact I|].
  destruct (sstep n fuel c st op) as [st1| |] eqn:S; try discriminate.
  eapply IH; [|exact H]. destruct op as [w|w ev]; cbn [sstep] in S.
  - destruct (refresh fuel c w st) as [[x o]| |] eqn:R; try discriminate. inversion S; subst.
    exact (refresh_pres w inv inv_set_list inv_set_saddr (Hs w) (inv_switch_fail w) _ _ _ _ _ I R).
  - exact (handle_event_pres w inv inv_set_list inv_set_saddr (Hs w) (inv_switch_fail w) _ _ _ _ _ _ I S).
Qed.

Definition role_b (is_master : bool) : bytes := if is_master then s_master_b else s_slave_b.

(** whenever master (replica) traffic can arrive somewhere, that node is reachable and answers ROLE with
    "master" ("slave") in the world [w] *)
Definition live_m_ok (w : world) (st : sstate) : Prop :=
  live_m st = None \/ exists a rest, live_m st = Some a /\ w_nup w a = true /\ w_role w a = RoleArr (s_master_b :: rest).
Definition live_r_ok (w : world) (st : sstate) : Prop :=
  live_r st = None \/ exists a rest, live_r st = Some a /\ w_nup w a = true /\ w_role w a = RoleArr (s_slave_b :: rest).

(** both sides at once: [live true] is the master side, [live false] the replica side *)
Definition live (im : bool) (st : sstate) : option saddr := if im then live_m st else live_r st.
Definition live_ok (im : bool) (w : world) (st : sstate) : Prop :=
  live im st = None \/ exists a rest, live im st = Some a /\ w_nup w a = true /\ w_role w a = RoleArr (role_b im :: rest).

Lemma switch_target_live w st a im src st' :
  switch_target w st a im src = Ok st' ->
  w_nup w a = true /\ exists rest, w_role w a = RoleArr (role_b im :: rest) /\
  live im st' = Some a /\ live (negb im) st' = live (negb im) st.
Proof.
  intro H. destruct (switch_target_ok _ _ _ _ _ _ H) as [Hu [rest [Hr _]]]. split; [exact Hu|]. exists rest. split; [exact Hr|].
  unfold switch_target in H. rewrite Hu, Hr in H. cbn [negb] in H.
  destruct im; [rewrite (proj2 (bytes_eqb_eq s_master_b _) eq_refl) in H|rewrite (proj2 (bytes_eqb_eq s_slave_b _) eq_refl) in H];
    injection H as <-; split; reflexivity.
Qed.

(** a failed switch: on the reuse path the installed connection is closed, on the fresh path nothing changes *)
Lemma switch_fail_reused w st a im :
  target_of w st a im = TReused ->
  live im (switch_fail w st a im) = None /\ live (negb im) (switch_fail w st a im) = live (negb im) st /\
  ss_m (switch_fail w st a im) = ss_m st /\ ss_r (switch_fail w st a im) = ss_r st /\
  ss_list (switch_fail w st a im) = ss_list st.
Proof. intro T. unfold switch_fail. rewrite T. destruct im; cbn; repeat split. Qed.

Lemma switch_fail_fresh w st a is_master : target_of w st a is_master = TFresh -> switch_fail w st a is_master = st.
Proof. intro T. unfold switch_fail. now rewrite T. Qed.

Lemma target_of_current w st a (im : bool) :
  (if im then ss_m st else ss_r st) = Some a -> (if im then ss_m_open st else ss_r_open st) = true -> w_nup w a = true ->
  target_of w st a im = TReused.
Proof.
  intros Hc Ho Hu. unfold target_of. rewrite Hu. destruct im; rewrite Hc, Ho; cbn [osaddr_is];
    now rewrite (proj2 (saddr_eqb_spec a a) eq_refl).
Qed.

(** after a failed switch to the address a side currently uses, no traffic of that side flows *)
Lemma switch_fail_current w st a (im : bool) :
  (if im then ss_m st else ss_r st) = Some a -> w_nup w a = true -> live im (switch_fail w st a im) = None.
Proof.
  intros Hc Hu. destruct (if im then ss_m_open st else ss_r_open st) eqn:Ho.
  - exact (proj1 (switch_fail_reused w st a im (target_of_current _ _ _ _ Hc Ho Hu))).
  - unfold switch_fail. destruct (target_of w st a im), im; unfold live, live_m, live_r; cbn; try reflexivity; now rewrite Ho.
Qed.

Lemma switch_or_fail_other_side w st a im src : live (negb im) (switch_or_fail w st a im src) = live (negb im) st.
Proof.
  assert (F : live (negb im) (switch_fail w st a im) = live (negb im) st).
  { destruct (target_of w st a im) eqn:T; [exact (proj1 (proj2 (switch_fail_reused _ _ _ _ T)))|now rewrite (switch_fail_fresh _ _ _ _ T)]. }
  unfold switch_or_fail. destruct (switch_target w st a im src) eqn:E; try exact F.
  destruct (switch_target_live _ _ _ _ _ _ E) as [_ [_ [_ [_ Y]]]]. exact Y.
Qed.

Lemma live_ok_switch im' w st a im src st' : live_ok im' w st -> switch_target w st a im src = Ok st' -> live_ok im' w st'.
Proof.
  intros I H. destruct (switch_target_live _ _ _ _ _ _ H) as [Hu [rest [Hr [X Y]]]]. unfold live_ok.
  destruct im, im'; cbn [negb] in Y; first [rewrite Y; exact I|right; exists a, rest; auto].
Qed.

Lemma live_ok_fail im' w st a im : live_ok im' w st -> live_ok im' w (switch_fail w st a im).
Proof.
  intros I. destruct (target_of w st a im) eqn:T; [|now rewrite (switch_fail_fresh _ _ _ _ T)].
  destruct (switch_fail_reused _ _ _ _ T) as [X [Y _]]. unfold live_ok.
  destruct im, im'; cbn [negb] in Y; first [rewrite Y; exact I|now left].
Qed.

(** "user traffic only reaches nodes whose latest probe answered the right role" is kept by every refresh and
    every event under one world *)
Section Live.
  Variables (im : bool) (w : world).
  Let Hs : forall st a im0 src st', src <> SrcNone -> live_ok im w st -> switch_target w st a im0 src = Ok st' -> live_ok im w st'
    := fun st a im0 src st' _ I H => live_ok_switch im w st a im0 src st' I H.

  Lemma refresh_live fuel c st st' o : live_ok im w st -> refresh fuel c w st = Ok (st', o) -> live_ok im w st'.
  Proof. exact (refresh_pres w (live_ok im w) (fun _ _ H => H) (fun _ _ H => H) Hs (live_ok_fail im w) fuel c st st' o). Qed.

  Lemma refresh_retry_live fuel c n st st' : live_ok im w st -> refresh_retry n fuel c w st = Ok st' -> live_ok im w st'.
  Proof. exact (refresh_retry_pres w (live_ok im w) (fun _ _ H => H) (fun _ _ H => H) Hs (live_ok_fail im w) fuel c n st st'). Qed.

  Lemma handle_event_live n fuel c st ev st' : live_ok im w st -> handle_event n fuel c w st ev = Ok st' -> live_ok im w st'.
  Proof. exact (handle_event_pres w (live_ok im w) (fun _ _ H => H) (fun _ _ H => H) Hs (live_ok_fail im w) n fuel c st ev st'). Qed.
End Live.

Lemma switch_target_wrong_role w st a src first rest :
  w_role w a = RoleArr (first :: rest) -> first <> s_master_b ->
  switch_target w st a true src = if w_nup w a then Err 3 else Err 1.
Proof.
  intros Hr Hn. unfold switch_target. rewrite Hr. destruct (w_nup w a); cbn [negb]; [|reflexivity].
  destruct (bytes_eqb first s_master_b) eqn:B; [apply bytes_eqb_eq in B; contradiction|reflexivity].
Qed.

(** a node that answers with the wrong role is not where master traffic can arrive *)
Lemma live_m_ok_wrong_role w st a first rest :
  live_m_ok w st -> w_role w a = RoleArr (first :: rest) -> first <> s_master_b -> live_m st <> Some a.
Proof.
  intros [H|[b [r [H [_ Hr]]]]] Hw Hn E; [congruence|]. rewrite H in E. inversion E; subst b. rewrite Hw in Hr. inversion Hr. contradiction.
Qed.

(** an event names the address master traffic uses, and that node answers another role: after the failed switch
    and the refresh retries that follow it, master traffic reaches that node no more *)
Lemma demoted_in_place n fuel c w st a first rest st' :
  ss_m st = Some a -> w_nup w a = true -> w_role w a = RoleArr (first :: rest) -> first <> s_master_b ->
  switch_or_retry n fuel c w st a = Ok st' ->
  live_m st' <> Some a /\ live_m_ok w st'.
Proof.
  intros Hm Hu Hr Hn H. unfold switch_or_retry in H. rewrite (switch_target_wrong_role w st a SrcEvent first rest Hr Hn), Hu in H.
  assert (L : live_ok true w st') by (apply (refresh_retry_live true w fuel c n _ st' (or_introl (switch_fail_current w st a true Hm Hu)) H)).
  split; [eapply live_m_ok_wrong_role; eauto|exact L].
Qed.

(** a successful refresh leaves a master that the succeeding sentinel named and that answered "master" *)
Lemma switch_all_master c w st s m r st' :
  sc_replica_only c = false -> switch_all c w st s m r = Ok st' ->
  exists a rest, m = Some a /\ ss_m st' = Some a /\ w_nup w a = true /\ w_role w a = RoleArr (s_master_b :: rest) /\ ss_m_src st' = SrcSentinel s.
Proof.
  intros Hr. unfold switch_all. rewrite Hr. destruct (sc_has_str c).
  - destruct m as [ma|]; [|discriminate]. destruct r as [ra|]; [|discriminate].
    destruct (switch_target w st ma true (SrcSentinel s)) as [st1| |] eqn:E1.
    + destruct (switch_target w st1 ra false (SrcSentinel s)) as [st2| |] eqn:E2; try discriminate.
      intro H; inversion H; subst.
      destruct (switch_target_ok _ _ _ _ _ _ E1) as [U1 [rest [R1 [[X1 [X2 [X3 _]]] _]]]].
      destruct (switch_target_ok _ _ _ _ _ _ E2) as [_ [_ [_ [[_ [_ [_ [Y4 [Y5 Y6]]]]] _]]]].
      exists ma, rest. repeat split; auto; congruence.
    + destruct (switch_target w st ra false (SrcSentinel s)); discriminate.
    + discriminate.
  - destruct m as [ma|]; [|discriminate]. intro E1.
    destruct (switch_target_ok _ _ _ _ _ _ E1) as [U1 [rest [R1 [[X1 [X2 [X3 _]]] _]]]].
    exists ma, rest. repeat split; auto.
Qed.

Lemma list_watch_master c w s m r others :
  list_watch c w s = Ok (m, r, others) -> sc_replica_only c = false ->
  exists h p rest, m = Some (h, p) /\ w_master w s = MList (h :: p :: rest).
Proof.
  unfold list_watch. destruct (w_sentinels w s) as [|o]; [discriminate|]. intros H Hr. rewrite Hr in H.
  destruct (if sc_has_str c then _ else _) as [rr| |]; try discriminate.
  destruct (w_master w s) as [|items]; [discriminate|]. destruct items as [|h [|p rest]]; try discriminate.
  inversion H; subst. eauto.
Qed.

Lemma refresh_loop_master c w head : forall fuel st last st',
  sc_replica_only c = false -> refresh_loop fuel c w st head last = Ok (st', ROk) ->
  exists s h p rest1 rest2, w_sup w s = true /\ w_master w s = MList (h :: p :: rest1) /\ ss_m st' = Some (h, p) /\
    w_nup w (h, p) = true /\ w_role w (h, p) = RoleArr (s_master_b :: rest2) /\ ss_m_src st' = SrcSentinel s.
Proof.
  intros fuel. induction fuel as [|f IH]; intros st last st' Hr H; [discriminate|].
  cbn [refresh_loop] in H. destruct (ss_list st) as [|s l] eqn:El; [discriminate|].
  (* a failed sentinel: the loop goes on, or ends without ROk *)
  assert (Hcont : forall st2 e,
            refresh_next f c w head st2 s e = Ok (st', ROk) ->
            exists s h p rest1 rest2, w_sup w s = true /\ w_master w s = MList (h :: p :: rest1) /\ ss_m st' = Some (h, p) /\
              w_nup w (h, p) = true /\ w_role w (h, p) = RoleArr (s_master_b :: rest2) /\ ss_m_src st' = SrcSentinel s).
  { intros st2 e E. unfold refresh_next in E. destruct (move_to_back (ss_list st2) s) as [|x r]; [discriminate|].
    destruct (saddr_eqb x head); [discriminate|]. eapply IH; eauto. }
  destruct (w_sup w s) eqn:Up; cbn [negb] in H; [|now apply (Hcont _ _ H)].
  destruct (list_watch c w s) as [[[m r] others]| |] eqn:Lw; [|now apply (Hcont _ _ H)|discriminate].
  destruct (switch_all c w _ s m r) as [st3| |] eqn:Sw; [|now apply (Hcont _ _ H)|discriminate].
  inversion H; subst st3.
  destruct (switch_all_master _ _ _ _ _ _ _ Hr Sw) as [a [rest [Em [Hm [Hu [Hro Hs]]]]]].
  destruct (list_watch_master _ _ _ _ _ _ Lw Hr) as [h [p [rest1 [Em' Hw]]]].
  rewrite Em in Em'. inversion Em'; subst a. exists s, h, p, rest1, rest. repeat split; auto.
Qed.
