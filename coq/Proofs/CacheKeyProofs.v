(** The cache identity of a command and what the reader does with its reply.
    C08: the identity is exactly (key token, concatenation of the other tokens); it is therefore not
    injective, and injective on every set of commands whose token lengths are fixed.
    C07: the server expiry the reader attaches, per wire form (second part). *)
From Coq Require Import List NArith ZArith Bool Arith Lia.
Require Import RV.Model.Base RV.Model.Lru RV.Model.CacheKey RV.Model.CacheWire RV.Proofs.LruBase.
Import ListNotations.

Lemma cache_key_spec scr s k c :
  cache_key scr s = Ok (k, c) -> k = key_of scr s /\ c = concat (rest_of scr s).
Proof.
  unfold cache_key, key_of, rest_of, key_pos.
  destruct s as [|a [|b [|x r]]].
  - destruct scr; cbn; [discriminate|]. intros [= <- <-]. split; reflexivity.
  - destruct scr; cbn; [discriminate|]. intros [= <- <-]. split; reflexivity.
  - cbn [length Nat.eqb negb andb]. rewrite andb_false_r. cbn. intros [= <- <-]. rewrite app_nil_r. split; reflexivity.
  - cbn [length Nat.eqb negb]. rewrite andb_true_r.
    destruct scr; cbn [nth_error]; [destruct (bytes_eqb x one); [|discriminate]|]; intros [= <- <-]; split; reflexivity.
Qed.

Lemma app_eq_len {A : Type} (a c b d : list A) : length a = length c -> a ++ b = c ++ d -> a = c /\ b = d.
Proof.
  revert c. induction a as [|x a IH]; intros [|y c] Hl H; cbn in *; try discriminate; [tauto|].
  injection H as -> H. injection Hl as Hl. destruct (IH c Hl H) as [-> ->]. tauto.
Qed.

Lemma concat_inj_lengths {A : Type} (l1 l2 : list (list A)) :
  map (@length A) l1 = map (@length A) l2 -> concat l1 = concat l2 -> l1 = l2.
Proof.
  revert l2. induction l1 as [|x l1 IH]; intros [|y l2] Hl H; cbn in *; try discriminate; [reflexivity|].
  injection Hl as Hx Hl. destruct (app_eq_len x y _ _ Hx H) as [-> H']. f_equal. apply IH; assumption.
Qed.

Lemma remove_nth_map {A B : Type} (f : A -> B) n (l : list A) : map f (remove_nth n l) = remove_nth n (map f l).
Proof. revert n. induction l as [|x r IH]; intros [|n]; cbn; try reflexivity. f_equal. apply IH. Qed.

Lemma remove_nth_inj {A : Type} (d : A) n : forall l1 l2,
  length l1 = length l2 -> remove_nth n l1 = remove_nth n l2 -> nth n l1 d = nth n l2 d -> l1 = l2.
Proof.
  induction n as [|n IH]; intros [|x l1] [|y l2] Hl Hr Hn; cbn in *; try discriminate; try reflexivity.
  - congruence.
  - injection Hr as -> Hr. injection Hl as Hl. f_equal. apply IH; assumption.
Qed.

Lemma map_length_nth (s1 s2 : tokens) n : map (@length N) s1 = map (@length N) s2 -> length (nth n s1 []) = length (nth n s2 []).
Proof.
  revert s2 n. induction s1 as [|x s1 IH]; intros [|y s2] n H; cbn in *; try discriminate; [reflexivity|].
  injection H as Hx H. destruct n; [exact Hx|apply IH; exact H].
Qed.

Lemma key_pos_len scr s1 s2 : length s1 = length s2 -> key_pos scr s1 = key_pos scr s2.
Proof. unfold key_pos. intros ->. reflexivity. Qed.

Theorem injective_fixed_lengths scr s1 s2 :
  map (@length N) s1 = map (@length N) s2 ->
  (forall id, cache_key scr s1 = Ok id -> cache_key scr s2 = Ok id -> s1 = s2) /\
  (forall id, adapter_id scr s1 = Ok id -> adapter_id scr s2 = Ok id -> s1 = s2).
Proof.
  intro Hl. assert (Hlen : length s1 = length s2) by (rewrite <- (map_length (@length N) s1), Hl; apply map_length).
  pose proof (key_pos_len scr s1 s2 Hlen) as Hkp.
  assert (Hmain : forall k1 c1 k2 c2, cache_key scr s1 = Ok (k1, c1) -> cache_key scr s2 = Ok (k2, c2) -> k1 ++ c1 = k2 ++ c2 -> s1 = s2).
  { intros k1 c1 k2 c2 H1 H2 He. apply cache_key_spec in H1, H2. destruct H1 as [-> ->], H2 as [-> ->].
    unfold key_of, rest_of in *. rewrite <- Hkp in *. set (n := key_pos scr s1) in *.
    destruct (app_eq_len _ _ _ _ (map_length_nth s1 s2 n Hl) He) as [Hk Hc].
    apply (remove_nth_inj [] n); [exact Hlen| |exact Hk].
    apply concat_inj_lengths; [|exact Hc]. rewrite !remove_nth_map, Hl. reflexivity. }
  split.
  - intros [k c] H1 H2. eapply Hmain; [exact H1|exact H2|reflexivity].
  - intros id H1 H2. unfold adapter_id in *.
    destruct (cache_key scr s1) as [[k1 c1]| |] eqn:E1; try discriminate.
    destruct (cache_key scr s2) as [[k2 c2]| |] eqn:E2; try discriminate.
    injection H1 as <-. injection H2 as H2. eapply Hmain; [reflexivity|reflexivity|symmetry; exact H2].
Qed.

Theorem json_mget_agrees (m : bytes) (keys : list bytes) (path : bytes) i k :
  nth_error keys i = Some k -> hd 0%N m = 74%N ->
  mget_cache_cmd (m :: keys ++ [path]) = Ok (json_get ++ path) /\ mget_cache_key (m :: keys ++ [path]) i = Ok k /\
  cache_key false [json_get; k; path] = Ok (k, json_get ++ path).
Proof.
  intros Hk Hm. destruct m as [|b m]; [discriminate|]. cbn in Hm. subst b.
  unfold mget_cache_cmd, mget_cache_key. cbn [N.eqb Pos.eqb nth_error]. split; [|split].
  - f_equal. f_equal. change (74%N :: m) with (hd [] ((74%N :: m) :: keys ++ [path])).
    assert (H : forall (x : bytes) l, last (x :: l ++ [path]) [] = path).
    { intros x l. revert x. induction l as [|y l IH]; intro x; [reflexivity|]. cbn [app]. change (last (x :: y :: l ++ [path]) []) with (last (y :: l ++ [path]) []). apply IH. }
    apply H.
  - rewrite nth_error_app1; [rewrite Hk; reflexivity|]. apply nth_error_Some. congruence.
  - cbn. rewrite app_nil_r. reflexivity.
Qed.

Open Scope Z_scope.

Lemma with_pttl_xat cp pttl now :
  m_xat (with_pttl cp pttl now) = if 0 <=? pttl then trunc56 (unix_milli (now + pttl * 1000000)) else m_xat cp.
Proof. unfold with_pttl. destruct (0 <=? pttl); [apply m_xat_set|reflexivity]. Qed.

Lemma m_xat_set_mark v b : m_xat (set_mark v b) = m_xat v.
Proof. destruct v. reflexivity. Qed.

(** standard form: CLIENT CACHING YES, MULTI, PTTL k, cmd, EXEC; the EXEC reply [.. ; pttl ; v] *)
Theorem wire_standard c0 c1 c2 cmd c4 pre p v now k c :
  w_optin c0 = true -> w_static c4 = false -> w_mget cmd = false ->
  cache_key (w_scr cmd) (w_tokens cmd) = Ok (k, c) ->
  cache_wire [c0; c1; c2; cmd; c4] 4 (Msg 42 0 [] (pre ++ [p; v]) 0 false) now =
  Ok [SUpdate k c (with_pttl (set_mark v true) (m_intlen p) now)].
Proof.
  intros H0 H4 Hm Hk. unfold cache_wire. cbn [nth_error]. rewrite H4, H0, Hm, Hk. cbn [m_vals].
  assert (Hl : (2 <=? Z.of_nat (length (pre ++ [p; v]))) = true).
  { apply Z.leb_le. rewrite app_length. cbn. lia. }
  rewrite Hl. cbn [andb Z.leb Z.of_nat Z.compare Pos.compare Pos.compare_cont Pos.of_succ_nat Pos.succ].
  assert (Hn : length (pre ++ [p; v]) = (length pre + 2)%nat) by (rewrite app_length; reflexivity).
  rewrite Hn. replace (length pre + 2 - 1)%nat with (length pre + 1)%nat by lia.
  replace (length pre + 1 - 1)%nat with (length pre) by lia.
  rewrite !app_nth2 by lia. replace (length pre + 1 - length pre)%nat with 1%nat by lia.
  rewrite Nat.sub_diag. reflexivity.
Qed.

(** MGET form: member j of the reply array is committed under key j of the command, the shared
    GET / JSON.GET identity, and with the PTTL reply at the same position *)
Lemma mget_calls_spec s cc replies now : forall msgs i,
  (forall j, (j < length msgs)%nat -> exists k p, nth_error s (S (i + j)) = Some k /\ nth_error replies (i + j) = Some p) ->
  exists l, mget_calls s cc replies msgs i now = Ok l /\ length l = length msgs /\
    forall j cp, nth_error msgs j = Some cp ->
      exists k p, nth_error s (S (i + j)) = Some k /\ nth_error replies (i + j) = Some p /\
                  nth_error l j = Some (SUpdate k cc (with_pttl (set_mark cp true) (m_intlen p) now)).
Proof.
  induction msgs as [|cp r IH]; intros i H.
  - exists []. split; [reflexivity|]. split; [reflexivity|]. intros j cp Hj. destruct j; discriminate.
  - cbn [mget_calls]. destruct (H 0%nat ltac:(cbn; lia)) as [k [p [Hk Hp]]]. rewrite Nat.add_0_r in Hk, Hp.
    unfold mget_cache_key. rewrite Hk, Hp.
    destruct (IH (S i)) as [l [Hl [Hlen Hall]]].
    { intros j Hj. destruct (H (S j) ltac:(cbn; lia)) as [k' [p' [A B]]]. exists k', p'.
      rewrite Nat.add_succ_r in A, B. split; assumption. }
    rewrite Hl. eexists. split; [reflexivity|]. split; [cbn; rewrite Hlen; reflexivity|].
    intros j cp0 Hj. destruct j as [|j].
    + injection Hj as <-. exists k, p. rewrite Nat.add_0_r. repeat split; assumption.
    + cbn [nth_error] in Hj. destruct (Hall j cp0 Hj) as [k' [p' [A [B C]]]]. exists k', p'.
      rewrite Nat.add_succ_r. repeat split; assumption.
Qed.
