(** Where every entry of a reachable store comes from ([origin_run]: C07 expiry rule, C06 no stale hit),
    and the one-step facts C07 states beside it: what Update reports, when Flight serves a completed
    entry ([hit_iff]), what CachePXAT / CachePTTL / CacheTTL report. *)
From Coq Require Import List NArith ZArith Bool Lia.
Require Import RV.Model.Base RV.Model.Lru RV.Proofs.LruBase RV.Proofs.LruSteps RV.Proofs.LruAnswers.
Import ListNotations.
Open Scope Z_scope.

Lemma run_snoc g ops o s : run g (ops ++ [o]) s = fst (step g (run g ops s) o).
Proof. rewrite run_app. reflexivity. Qed.

(** operation [o] looks up command (k, c) with client TTL [ttl] at instant [now] *)
Definition requests (o : op) (k c : bytes) (ttl now : Z) : Prop :=
  match o with
  | Flight k' c' ttl' now' | FlightSlow k' c' ttl' now' => k' = k /\ c' = c /\ ttl' = ttl /\ now' = now
  | Flights now' items | FlightsSlow now' items => now' = now /\ In (FI k c ttl) items
  | _ => False
  end.

(** the origin of an entry [e] of the store reached by history [ops] *)
Definition origin (ops : list op) (e : entry) : Prop :=
  exists ttl now,
    (exists o, In o ops /\ requests o (ekey e) (ecmd e) ttl now) /\
    if pending e then eval e = pending_msg ttl now
    else exists u v,
      nth_error ops u = Some (Update (ekey e) (ecmd e) v) /\
      eval e = set_xat v (min_xat (trunc56 (unix_milli (now + ttl))) (m_xat v)) /\
      forall j o, (u < j)%nat -> nth_error ops j = Some o -> ~ invalidates (ekey e) o.

Lemma creates_requests s o e' : creates s o e' -> exists ttl now, requests o (ekey e') (ecmd e') ttl now /\ eval e' = pending_msg ttl now.
Proof.
  intros [[k c t] [Hit [A [B _]]]]. cbn [fi_key fi_cmd fi_ttl] in *. unfold kc in A. injection A as <- <-.
  exists t, (now_of o). split; [|exact B].
  destruct o; cbn [items_of requests now_of] in *; try contradiction; try tauto;
    destruct Hit as [[= <- <- <-]|[]]; tauto.
Qed.

Lemma origin_run g ops :
  Forall wf_op ops -> forall e, In e (order (run g ops init)) -> origin ops e.
Proof.
  induction ops as [|o ops IH] using rev_ind; intros Hw e He; [contradiction|].
  apply Forall_app in Hw. destruct Hw as [Hw Hwo]. inversion Hwo as [|? ? Hwo1 _]; subst.
  pose proof (inv_run g ops init Hw inv_init) as Hi.
  rewrite run_snoc in He. set (s := run g ops init) in *.
  destruct (step_prov g s o e Hi He) as [Hold|[Hnew|[e0 [v [Ho [He0 [Hp0 ->]]]]]]].
  - (* an entry that was already there *)
    destruct (IH Hw e Hold) as [ttl [now [[o' [Ho' Hr]] Hrest]]].
    exists ttl, now. split; [exists o'; split; [apply in_or_app; left; exact Ho'|exact Hr]|].
    destruct (pending e) eqn:Ep; [exact Hrest|].
    destruct Hrest as [u [v [Hu [Hv Hinv]]]]. exists u, v.
    assert (Hlt : (u < length ops)%nat) by (apply nth_error_Some; congruence).
    split; [rewrite nth_error_app1; assumption|]. split; [exact Hv|].
    exact (none_after_snoc _ ops o u Hinv (step_invalidated g s o e He Ep)).
  - (* created by this operation *)
    pose proof Hnew as Hnp. apply creates_requests in Hnew. destruct Hnew as [ttl [now [Hr Hv]]].
    exists ttl, now. split; [exists o; split; [apply in_or_app; right; left; reflexivity|exact Hr]|].
    assert (Hp : pending e = true) by (unfold pending; rewrite Hv; reflexivity). rewrite Hp. exact Hv.
  - (* completed by this Update *)
    destruct (IH Hw e0 He0) as [ttl [now [[o' [Ho' Hr]] Hrest]]]. rewrite Hp0 in Hrest.
    exists ttl, now. unfold completed. cbn [ekey ecmd eval].
    split; [exists o'; split; [apply in_or_app; left; exact Ho'|exact Hr]|].
    assert (Hpe : pending (completed g e0 v) = false) by (subst o; exact (wf_msg_done v _ Hwo1)).
    unfold completed in Hpe. rewrite Hpe. exists (length ops), v.
    split; [subst o; apply nth_snoc_last|]. split; [rewrite Hrest; reflexivity|apply none_after_last].
Qed.

Lemma update_reports g s k c v e :
  lookup k c (order s) = Some e -> pending e = true ->
  snd (update g s k c v) =
  OUpdate (min_xat (m_xat (eval e)) (m_xat v)) (Some (Rel (eid e) (set_xat v (min_xat (m_xat (eval e)) (m_xat v))))).
Proof. intros El Ep. rewrite update_spec, El, Ep. reflexivity. Qed.

(** a completed entry is served iff the instant is strictly before its expiry *)
Theorem hit_iff s k c ttl now e :
  inv s -> In e (order s) -> kc e = (k, c) -> pending e = false ->
  (unix_milli now < m_xat (eval e) -> snd (flight s k c ttl now) = OFlight (eval e) (Some (eid e))) /\
  (m_xat (eval e) <= unix_milli now -> snd (flight s k c ttl now) = OFlight (pending_msg ttl now) None).
Proof.
  intros Hi He Hk Hp. rewrite (flight_out s k c ttl now Hi). unfold flight_result.
  rewrite (lookup_unique k c _ e (inv_kc s Hi) He Hk).
  unfold live, rel_pttl. unfold pending in Hp. rewrite Hp. cbn [orb]. split; intro H.
  - assert (E : (0 <? m_xat (eval e) - unix_milli now) = true) by (apply Z.ltb_lt; lia). rewrite E. reflexivity.
  - assert (E : (0 <? m_xat (eval e) - unix_milli now) = false) by (apply Z.ltb_ge; lia). rewrite E. reflexivity.
Qed.

Lemma cache_pxat_spec m : m_xat m <> 0 -> cache_pxat m = m_xat m.
Proof. intro H. unfold cache_pxat. apply Z.eqb_neq in H. rewrite H. reflexivity. Qed.

Lemma cache_pttl_spec m now : m_xat m <> 0 -> cache_pttl m now = Z.max 0 (m_xat m - unix_milli now).
Proof. intro H. unfold cache_pttl. apply Z.eqb_neq in H. rewrite H. reflexivity. Qed.

Lemma cache_ttl_spec m now :
  cache_ttl m now = if 0 <? cache_pttl m now then (cache_pttl m now + 999) / 1000 else cache_pttl m now.
Proof.
  unfold cache_ttl. cbv zeta. destruct (0 <? cache_pttl m now) eqn:E; [|reflexivity].
  apply Z.ltb_lt in E. set (p := cache_pttl m now) in *.
  destruct (p / 1000 * 1000 <? p) eqn:E2; [apply Z.ltb_lt in E2|apply Z.ltb_ge in E2];
    Z.div_mod_to_equations; lia.
Qed.

