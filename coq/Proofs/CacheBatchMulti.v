(** pipe.DoMultiCache: the batch result is, slot by slot, what each command alone would get. *)
From Coq Require Import String Ascii.
From Coq Require Import List Arith NArith ZArith Bool Lia.
Require Import RV.Model.Base RV.Model.CacheBatch RV.Proofs.CacheBatchBase.
Import ListNotations.
Open Scope nat_scope.

(** commands that may legitimately be cached are not MULTI / EXEC themselves *)
Definition not_tx (a : argv) : Prop := is_cmd "MULTI" a = false /\ is_cmd "EXEC" a = false.

Lemma Forall2_combine_in {A B} (P : A -> B -> Prop) l1 l2 a b :
  Forall2 P l1 l2 -> In (a, b) (combine l1 l2) -> P a b.
Proof.
  induction 1 as [|x y l1 l2 Hxy _ IH]; cbn [combine]; [intros []|].
  intros [E|H]; [inversion E; subst; exact Hxy|now apply IH].
Qed.

Lemma Forall2_map_combine {A B C} (Q : C -> B -> Prop) (f : A * B -> C) l1 l2 :
  length l1 = length l2 -> (forall a b, In (a, b) (combine l1 l2) -> Q (f (a, b)) b) ->
  Forall2 Q (map f (combine l1 l2)) l2.
Proof.
  revert l2; induction l1 as [|a l1 IH]; intros [|b l2] Hl H; try discriminate; cbn [combine map]; constructor.
  - apply H. now left.
  - apply IH; [now injection Hl|]. intros; apply H; now right.
Qed.

Lemma map_combine_fst {A B C} (f : A -> C) (l1 : list A) (l2 : list B) :
  length l1 = length l2 -> map (fun p => f (fst p)) (combine l1 l2) = map f l1.
Proof. revert l2; induction l1; intros [|] H; try discriminate; cbn; [reflexivity|]. f_equal. auto. Qed.

Section Multi.
  Variable lookup : key -> bytes -> lk.
  Variable srv : argv -> msg.
  Variable qerr : argv -> option msg.
  Variable optin : bool.

  Inductive kind := KHit (v : msg) | KWait (r : rres) | KSelf (ck : key * bytes) | KMiss.

  Definition k_res (k : kind) : rres := match k with KHit v => new_result v | _ => zero_res end.
  Definition k_entry (k : kind) : option entry :=
    match k with KWait r => Some (EForeign r) | KSelf ck => Some (ESelf ck) | _ => None end.
  Definition k_is_miss (k : kind) : bool := match k with KMiss => true | _ => false end.

  (** what Flight answers for [it] once this call has made the cache keys [cr] pending *)
  Definition kind_of (cr : list (key * bytes)) (it : item) : kind :=
    let ck := cache_key (it_argv it) in
    if ck_mem ck cr then KSelf ck
    else match lookup (fst ck) (snd ck) with LHit v => KHit v | LWait x => KWait x | LMiss => KMiss end.

  Definition k_new (k : kind) (it : item) : list (key * bytes) :=
    if k_is_miss k then [cache_key (it_argv it)] else [].

  Fixpoint klist (cr : list (key * bytes)) (l : list item) : list kind :=
    match l with
    | [] => []
    | it :: r => kind_of cr it :: klist (cr ++ k_new (kind_of cr it) it) r
    end.

  Fixpoint k_missed (off : nat) (ks : list kind) : list nat :=
    match ks with
    | [] => []
    | k :: r => (if k_is_miss k then [off] else []) ++ k_missed (S off) r
    end.

  Definition k_items (ks : list kind) (l : list item) : list item :=
    map snd (filter (fun ki => k_is_miss (fst ki)) (combine ks l)).

  Lemma k_items_incl : forall ks0 l x, In x (k_items ks0 l) -> In x l.
  Proof.
    intros ks0 l x. unfold k_items. rewrite in_map_iff. intros [[k y] [<- H]].
    apply filter_In in H as [H _]. exact (in_combine_r _ _ _ _ H).
  Qed.

  Definition k_created (ks : list kind) (l : list item) : list (key * bytes) :=
    map (fun it => cache_key (it_argv it)) (k_items ks l).

  Lemma k_created_cons k ks it l : k_created (k :: ks) (it :: l) = k_new k it ++ k_created ks l.
  Proof. unfold k_created, k_items, k_new. cbn [combine filter fst]. now destruct (k_is_miss k). Qed.

  Lemma klist_length cr l : length (klist cr l) = length l.
  Proof. revert cr; induction l as [|it l IH]; intro cr; cbn [klist length]; now rewrite ?IH. Qed.

  (** every cache key made pending by this call was a miss of the store *)
  Definition cr_inv (cr : list (key * bytes)) : Prop :=
    forall ck, In ck cr -> lookup (fst ck) (snd ck) = LMiss.

  (** soundness of a classification w.r.t. the store; [cks] are the keys pending at the end of the call *)
  Definition kind_ok (cks : list (key * bytes)) (k : kind) (it : item) : Prop :=
    let ck := cache_key (it_argv it) in
    match k with
    | KHit v => lookup (fst ck) (snd ck) = LHit v
    | KWait r => lookup (fst ck) (snd ck) = LWait r
    | KMiss => lookup (fst ck) (snd ck) = LMiss
    | KSelf c => c = ck /\ lookup (fst ck) (snd ck) = LMiss /\ In ck cks
    end.

  Lemma kind_of_ok cr cks it : cr_inv cr -> incl cr cks -> kind_ok cks (kind_of cr it) it.
  Proof.
    intros Hinv Hsub. unfold kind_ok, kind_of. destruct (ck_mem _ cr) eqn:Em.
    - apply ck_mem_In in Em. auto.
    - now destruct (lookup _ _).
  Qed.

  Lemma cr_inv_new cr it : cr_inv cr -> cr_inv (cr ++ k_new (kind_of cr it) it).
  Proof.
    intros Hinv ck Hck. pose proof (kind_of_ok cr cr it Hinv (incl_refl _)) as Hk. unfold k_new in Hck.
    apply in_app_or in Hck as [Hck|Hck]; [auto|]. destruct (kind_of cr it); try contradiction.
    destruct Hck as [<-|[]]. exact Hk.
  Qed.

  Lemma klist_sound l : forall cr, cr_inv cr ->
    Forall2 (kind_ok (cr ++ k_created (klist cr l) l)) (klist cr l) l.
  Proof.
    induction l as [|it l IH]; intros cr Hinv; cbn [klist]; constructor.
    - apply kind_of_ok; [assumption|apply incl_appl, incl_refl].
    - rewrite k_created_cons, app_assoc. apply IH, cr_inv_new, Hinv.
  Qed.

  Lemma k_missed_items ks : forall l pre d, length ks = length l ->
    map (fun i => nth i (pre ++ l) d) (k_missed (length pre) ks) = k_items ks l.
  Proof.
    induction ks as [|k ks IH]; intros [|it l] pre d Hl; try discriminate; [reflexivity|].
    cbn [k_missed]. rewrite map_app, <- (last_length pre it), <- (snoc_app pre it l), IH by (now injection Hl).
    unfold k_items. cbn [combine filter fst]. destruct (k_is_miss k); [|reflexivity].
    cbn [map snd app]. now rewrite snoc_app, nth_middle.
  Qed.

  (** Each of the three folds of the model (Flight per command, lru.Flights pass 1 and pass 2) ends in [spec_state],
      the state described by [klist]; each has a step lemma saying how one Flight answer is recorded. *)

  Definition spec_state (batch : list item) : fstate :=
    let ks := klist [] batch in
    mkF (map k_res ks) (map k_entry ks) (k_missed 0 ks) (k_created ks batch).

  Definition seq_step (st : fstate) (ic : nat * item) : fstate :=
    let (i, it) := ic in
    let ck := cache_key (it_argv it) in
    if ck_mem ck (f_created st)
    then mkF (f_results st) (upd i (Some (ESelf ck)) (f_entries st)) (f_missed st) (f_created st)
    else match lookup (fst ck) (snd ck) with
         | LHit v => mkF (upd i (new_result v) (f_results st)) (f_entries st) (f_missed st) (f_created st)
         | LWait r => mkF (f_results st) (upd i (Some (EForeign r)) (f_entries st)) (f_missed st) (f_created st)
         | LMiss => mkF (f_results st) (f_entries st) (f_missed st ++ [i]) (f_created st ++ [ck])
         end.

  Lemma seq_step_spec pre_r pre_e R E ms cr it :
    length pre_r = length pre_e ->
    seq_step (mkF (pre_r ++ zero_res :: R) (pre_e ++ None :: E) ms cr) (length pre_r, it)
    = mkF ((pre_r ++ [k_res (kind_of cr it)]) ++ R) ((pre_e ++ [k_entry (kind_of cr it)]) ++ E)
          (ms ++ if k_is_miss (kind_of cr it) then [length pre_r] else []) (cr ++ k_new (kind_of cr it) it).
  Proof.
    intro Hl. unfold seq_step, kind_of, k_new. cbn [f_created f_results f_entries f_missed]. rewrite !snoc_app.
    destruct (ck_mem _ cr); [|destruct (lookup _ _)]; cbn [k_res k_entry k_is_miss];
      rewrite ?app_nil_r, ?upd_app_here, ?Hl, ?upd_app_here; reflexivity.
  Qed.

  Lemma flights_seq_gen l : forall pre_r pre_e ms cr,
    length pre_r = length pre_e ->
    fold_left seq_step (combine (seq (length pre_r) (length l)) l)
      (mkF (pre_r ++ repeat_n zero_res (length l)) (pre_e ++ repeat_n None (length l)) ms cr)
    = mkF (pre_r ++ map k_res (klist cr l)) (pre_e ++ map k_entry (klist cr l))
          (ms ++ k_missed (length pre_r) (klist cr l)) (cr ++ k_created (klist cr l) l).
  Proof.
    induction l as [|it l IH]; intros pre_r pre_e ms cr Hlen.
    - cbn. now rewrite !app_nil_r.
    - cbn [length seq combine fold_left repeat_n klist map k_missed]. rewrite seq_step_spec by assumption.
      rewrite <- (last_length pre_r (k_res (kind_of cr it))), IH by (rewrite !last_length; congruence).
      now rewrite k_created_cons, !snoc_app, !app_assoc.
  Qed.

  Lemma flights_seq_spec batch : flights_seq lookup batch = spec_state batch.
  Proof. exact (flights_seq_gen batch [] [] [] [] eq_refl). Qed.

  (** lru.Flights, first pass (read lock): the classification with nothing pending, [kind_of []] *)

  Definition pass1_step (st : fstate) (ic : nat * item) : fstate :=
    let (i, it) := ic in
    let (k, c) := cache_key (it_argv it) in
    match lookup k c with
    | LHit v => mkF (upd i (new_result v) (f_results st)) (f_entries st) (f_missed st) (f_created st)
    | LWait r => mkF (f_results st) (upd i (Some (EForeign r)) (f_entries st)) (f_missed st) (f_created st)
    | LMiss => mkF (f_results st) (f_entries st) (f_missed st ++ [i]) (f_created st)
    end.

  Lemma pass1_step_spec pre_r pre_e R E ms cr it :
    length pre_r = length pre_e ->
    pass1_step (mkF (pre_r ++ zero_res :: R) (pre_e ++ None :: E) ms cr) (length pre_r, it)
    = mkF ((pre_r ++ [k_res (kind_of [] it)]) ++ R) ((pre_e ++ [k_entry (kind_of [] it)]) ++ E)
          (ms ++ if k_is_miss (kind_of [] it) then [length pre_r] else []) cr.
  Proof.
    intro Hl. unfold pass1_step, kind_of. cbn [ck_mem f_created f_results f_entries f_missed]. rewrite !snoc_app.
    destruct (cache_key (it_argv it)) as [k c]. cbn [fst snd].
    destruct (lookup k c); cbn [k_res k_entry k_is_miss]; rewrite ?app_nil_r, ?upd_app_here, ?Hl, ?upd_app_here; reflexivity.
  Qed.

  Lemma flights_pass1_gen l : forall pre_r pre_e ms cr,
    length pre_r = length pre_e ->
    fold_left pass1_step (combine (seq (length pre_r) (length l)) l)
      (mkF (pre_r ++ repeat_n zero_res (length l)) (pre_e ++ repeat_n None (length l)) ms cr)
    = mkF (pre_r ++ map k_res (map (kind_of []) l)) (pre_e ++ map k_entry (map (kind_of []) l))
          (ms ++ k_missed (length pre_r) (map (kind_of []) l)) cr.
  Proof.
    induction l as [|it l IH]; intros pre_r pre_e ms cr Hlen.
    - cbn. now rewrite !app_nil_r.
    - cbn [length seq combine fold_left repeat_n map k_missed]. rewrite pass1_step_spec by assumption.
      rewrite <- (last_length pre_r (k_res (kind_of [] it))), IH by (rewrite !last_length; congruence).
      now rewrite !snoc_app, !app_assoc.
  Qed.

  (** lru.Flights, second pass (write lock): the misses of pass 1 are revisited; a cache key already pending turns a
      miss into a wait on this call's own flight.  Pending keys were misses ([cr_inv]), so hits and foreign waits stay. *)

  Definition pass2_step (batch : list item) (st : fstate) (i : nat) : fstate :=
    let ck := cache_key (it_argv (nth i batch (mkItem [] false false))) in
    if ck_mem ck (f_created st)
    then mkF (f_results st) (upd i (Some (ESelf ck)) (f_entries st)) (f_missed st) (f_created st)
    else mkF (f_results st) (f_entries st) (f_missed st ++ [i]) (f_created st ++ [ck]).

  Lemma pass2_step_spec pre_b it l res pre_e E ms cr :
    length pre_b = length pre_e ->
    pass2_step (pre_b ++ it :: l) (mkF res (pre_e ++ None :: E) ms cr) (length pre_b)
    = if ck_mem (cache_key (it_argv it)) cr
      then mkF res (pre_e ++ Some (ESelf (cache_key (it_argv it))) :: E) ms cr
      else mkF res (pre_e ++ None :: E) (ms ++ [length pre_b]) (cr ++ [cache_key (it_argv it)]).
  Proof.
    intro Hl. unfold pass2_step. cbn [f_created f_results f_entries f_missed]. rewrite nth_middle.
    destruct (ck_mem _ cr); [now rewrite Hl, upd_app_here|reflexivity].
  Qed.

  Lemma kind_of_pending cr it :
    cr_inv cr -> ck_mem (cache_key (it_argv it)) cr = true ->
    kind_of cr it = KSelf (cache_key (it_argv it)) /\ kind_of [] it = KMiss.
  Proof. intros Hinv Em. unfold kind_of. cbn [ck_mem]. rewrite Em. apply ck_mem_In, Hinv in Em. now rewrite Em. Qed.

  Lemma kind_of_fresh cr it : ck_mem (cache_key (it_argv it)) cr = false -> kind_of cr it = kind_of [] it.
  Proof. intro Em. unfold kind_of. cbn [ck_mem]. now rewrite Em. Qed.

  (** the head of the batch in pass 2: revisited if pass 1 left it a miss *)
  Lemma pass2_head pre_b it l res pre_e E ms cr :
    length pre_b = length pre_e -> cr_inv cr ->
    fold_left (pass2_step (pre_b ++ it :: l)) (if k_is_miss (kind_of [] it) then [length pre_b] else [])
      (mkF res (pre_e ++ k_entry (kind_of [] it) :: E) ms cr)
    = mkF res ((pre_e ++ [k_entry (kind_of cr it)]) ++ E)
          (ms ++ if k_is_miss (kind_of cr it) then [length pre_b] else []) (cr ++ k_new (kind_of cr it) it).
  Proof.
    intros Hlen Hinv. rewrite snoc_app. destruct (ck_mem (cache_key (it_argv it)) cr) eqn:Em.
    - destruct (kind_of_pending cr it Hinv Em) as [-> ->]. cbn [k_new k_is_miss k_entry fold_left].
      now rewrite pass2_step_spec, Em, !app_nil_r by assumption.
    - rewrite (kind_of_fresh cr it Em). destruct (kind_of [] it); cbn [k_new k_is_miss k_entry fold_left];
        rewrite ?app_nil_r; try reflexivity. now rewrite pass2_step_spec, Em by assumption.
  Qed.

  Lemma flights_pass2_gen res l : forall pre_b pre_e ms cr,
    length pre_b = length pre_e -> cr_inv cr ->
    fold_left (pass2_step (pre_b ++ l)) (k_missed (length pre_b) (map (kind_of []) l))
      (mkF res (pre_e ++ map k_entry (map (kind_of []) l)) ms cr)
    = mkF res (pre_e ++ map k_entry (klist cr l)) (ms ++ k_missed (length pre_b) (klist cr l))
          (cr ++ k_created (klist cr l) l).
  Proof.
    induction l as [|it l IH]; intros pre_b pre_e ms cr Hlen Hinv.
    - cbn. now rewrite !app_nil_r.
    - cbn [map k_missed klist]. rewrite fold_left_app, k_created_cons, pass2_head by assumption.
      rewrite <- (snoc_app pre_b it l), <- (last_length pre_b it), IH by (rewrite ?last_length; auto using cr_inv_new).
      now rewrite !snoc_app, !app_assoc.
  Qed.

  Lemma k_res_klist l : forall cr, cr_inv cr -> map k_res (klist cr l) = map k_res (map (kind_of []) l).
  Proof.
    induction l as [|it l IH]; intros cr Hinv; [reflexivity|].
    cbn [klist map]. f_equal; [|apply IH, cr_inv_new, Hinv].
    destruct (ck_mem (cache_key (it_argv it)) cr) eqn:Em; [|now rewrite (kind_of_fresh cr it Em)].
    now destruct (kind_of_pending cr it Hinv Em) as [-> ->].
  Qed.

  Lemma flights_lru_spec batch : flights_lru lookup batch = spec_state batch.
  Proof.
    unfold flights_lru.
    replace (flights_pass1 lookup (length batch) batch)
      with (mkF (map k_res (map (kind_of []) batch)) (map k_entry (map (kind_of []) batch))
                (k_missed 0 (map (kind_of []) batch)) [])
      by (symmetry; exact (flights_pass1_gen batch [] [] [] [] eq_refl)).
    assert (Hinv : cr_inv []) by (intros ? []).
    refine (eq_trans (flights_pass2_gen (map k_res (map (kind_of []) batch)) batch [] [] [] [] eq_refl Hinv) _).
    unfold spec_state. cbn [app length]. now rewrite (k_res_klist batch [] Hinv).
  Qed.

  Definition q_or (a : argv) (dflt : msg) : msg := match qerr a with Some e => e | None => dflt end.
  Definition rejected (a : argv) : bool := match qerr a with Some _ => true | None => false end.
  Definition pttl_cmd (a : argv) : argv := [bs "PTTL"; fst (cache_key a)].
  Definition optin_reply : msg := q_or (optin_cmd optin) (srv (optin_cmd optin)).

  Lemma wire_go_plain c r :
    not_tx c -> wire_go srv qerr false [] false (c :: r) = q_or c (srv c) :: wire_go srv qerr false [] false r.
  Proof. intros [Hm He]. cbn [wire_go]. rewrite Hm, He. unfold q_or. destruct (qerr c); reflexivity. Qed.

  (** inside MULTI: every command is answered at once (QUEUED or its rejection), EXEC answers for all *)
  Lemma wire_go_queued cmds rest : forall q dirty,
    Forall not_tx cmds ->
    wire_go srv qerr true q dirty (cmds ++ [bs "EXEC"] :: rest)
    = map (fun c => q_or c queued_msg) cmds ++
      (if dirty || existsb rejected cmds then execabort_msg else arr (map srv (rev q ++ cmds)))
      :: wire_go srv qerr false [] false rest.
  Proof.
    induction cmds as [|c cmds IH]; intros q dirty Hc.
    - cbn [app existsb map]. rewrite orb_false_r, app_nil_r. reflexivity.
    - inversion Hc as [|? ? [Hm He] Hc']; subst.
      cbn [app wire_go map existsb]. rewrite Hm, He. unfold q_or at 1, rejected at 1.
      destruct (qerr c); rewrite IH by assumption.
      + cbn [orb]. now rewrite orb_true_r.
      + cbn [orb rev]. now rewrite <- app_assoc.
  Qed.

  Definition exec_reply (cmds : list argv) : msg :=
    if existsb rejected cmds then execabort_msg else arr (map srv cmds).

  Lemma wire_go_tx cmds rest :
    Forall not_tx cmds ->
    wire_go srv qerr false [] false ([bs "MULTI"] :: cmds ++ [bs "EXEC"] :: rest)
    = ok_msg :: map (fun c => q_or c queued_msg) cmds ++ exec_reply cmds :: wire_go srv qerr false [] false rest.
  Proof. intro H. exact (f_equal (cons ok_msg) (wire_go_queued cmds rest [] false H)). Qed.

  Lemma optin_not_tx : not_tx (optin_cmd optin).
  Proof. destruct optin; split; reflexivity. Qed.

  Lemma pttl_not_tx k : not_tx [bs "PTTL"; k].
  Proof. split; reflexivity. Qed.

  Definition stride_msgs (skip : bool) (a : argv) : list msg :=
    if skip then [optin_reply; q_or a (srv a)]
    else [optin_reply; ok_msg; q_or (pttl_cmd a) queued_msg; q_or a queued_msg; exec_reply [pttl_cmd a; a]].

  Lemma wire_go_stride skip a rest :
    not_tx a ->
    wire_go srv qerr false [] false (stride_cmds optin skip a ++ rest)
    = stride_msgs skip a ++ wire_go srv qerr false [] false rest.
  Proof.
    intro Ha. destruct skip; cbn [stride_cmds stride_msgs app]; rewrite wire_go_plain by apply optin_not_tx.
    - now rewrite wire_go_plain.
    - f_equal. apply (wire_go_tx [pttl_cmd a; a] rest).
      exact (Forall_cons _ (pttl_not_tx _) (Forall_cons _ Ha (Forall_nil _))).
  Qed.

  Definition stride_res (skip : bool) (a : argv) : list rres := map new_result (stride_msgs skip a).

  Lemma redis_wire_strides skip l :
    Forall not_tx l ->
    redis_wire srv qerr (flat_map (stride_cmds optin skip) l) = flat_map (stride_res skip) l.
  Proof.
    intro H. unfold redis_wire. induction H as [|a l Ha _ IH]; [reflexivity|].
    cbn [flat_map]. rewrite wire_go_stride, map_app by assumption. now rewrite IH.
  Qed.

  Definition aborted (a : argv) : bool := rejected (pttl_cmd a) || rejected a.

  Lemma exec_reply_stride a :
    exec_reply [pttl_cmd a; a] = if aborted a then execabort_msg else arr [srv (pttl_cmd a); srv a].
  Proof. unfold exec_reply, aborted. cbn [existsb map]. now rewrite orb_false_r. Qed.

  (** the error an aborted stride is reported with: the rejection of the command itself, else ErrDoCacheAborted *)
  Definition abort5 (a : argv) : err :=
    abort_err (ERedis (trim_err (m_str execabort_msg))) (new_result (q_or a queued_msg)).

  Definition dec5 (a : argv) : rres := if aborted a then new_error (abort5 a) else new_result (srv a).

  (** the last two replies of a stride-5 block decode to [dec5] *)
  Lemma decode_exec_stride a :
    decode_exec (nth 3 (stride_res false a) zero_res) (nth 4 (stride_res false a) zero_res) = Ok (dec5 a).
  Proof.
    cbn [stride_res stride_msgs map nth]. rewrite exec_reply_stride. unfold dec5.
    destruct (aborted a); reflexivity.
  Qed.

  Definition dec2 (a : argv) : rres := new_result (q_or a (srv a)).

  Lemma single_miss_spec skip a :
    not_tx a -> single_miss srv qerr optin skip a = Ok (if skip then dec2 a else dec5 a).
  Proof.
    intro Ha. unfold single_miss.
    pose proof (redis_wire_strides skip [a] (Forall_cons _ Ha (Forall_nil _))) as E.
    cbn [flat_map] in E. rewrite !app_nil_r in E. rewrite E.
    destruct skip; [reflexivity|apply decode_exec_stride].
  Qed.

  Lemma stride5_length a : length (stride_res false a) = 5.
  Proof. reflexivity. Qed.
  Lemma stride2_length a : length (stride_res true a) = 2.
  Proof. reflexivity. Qed.
  Lemma stride5_cmds_length a : length (stride_cmds optin false a) = 5.
  Proof. reflexivity. Qed.
  Lemma stride2_cmds_length a : length (stride_cmds optin true a) = 2.
  Proof. reflexivity. Qed.

  Lemma refill5_strides rest : forall pre j rs fuel,
    length rest < fuel ->
    refill5 fuel (pre ++ flat_map (stride_res false) rest) (length pre + 4) j rs
    = Ok (fill_seq (map dec5 rest) j rs).
  Proof.
    induction rest as [|a rest IH]; intros pre j rs [|fuel] Hf; try (cbn in Hf; lia); cbn [refill5].
    - now rewrite past_blocks.
    - rewrite (in_block _ 5 stride5_length) by lia. unfold rnth.
      rewrite <- Nat.add_sub_assoc, !(nth_block _ 5 stride5_length) by lia.
      cbn [Nat.sub]. rewrite decode_exec_stride.
      cbn [flat_map]. rewrite app_assoc, (next_block _ 5 stride5_length pre a).
      cbn [map]. rewrite fill_seq_cons. cbn [length] in Hf.
      destruct (scan j rs); apply IH; lia.
  Qed.

  Lemma refill2_strides rest : forall pre j rs fuel,
    length rest < fuel ->
    refill2 fuel (pre ++ flat_map (stride_res true) rest) (length pre + 1) j rs
    = Ok (fill_seq (map dec2 rest) j rs).
  Proof.
    induction rest as [|a rest IH]; intros pre j rs [|fuel] Hf; try (cbn in Hf; lia); cbn [refill2].
    - now rewrite past_blocks.
    - rewrite (in_block _ 2 stride2_length) by lia. unfold rnth. rewrite (nth_block _ 2 stride2_length) by lia.
      change (nth 1 (stride_res true a) zero_res) with (dec2 a).
      cbn [flat_map]. rewrite app_assoc, (next_block _ 2 stride2_length pre a).
      cbn [map]. rewrite fill_seq_cons. cbn [length] in Hf.
      destruct (scan j rs); apply IH; lia.
  Qed.

  (** what the reader commits and what the caller cancels: at most one entry per miss, under its cache key *)

  Definition keyed {B} (f : argv -> option B) (a : argv) : list ((key * bytes) * B) :=
    match f a with Some b => [(cache_key a, b)] | None => [] end.

  Definition cancel5 (a : argv) : option err := if aborted a then Some (abort5 a) else None.
  Definition commit5 (a : argv) : option msg := if aborted a then None else Some (srv a).

  Lemma cancels5_strides rest : forall prem pre fuel,
    length prem = length pre -> length rest < fuel ->
    cancels5 fuel (prem ++ flat_map (stride_cmds optin false) rest) (pre ++ flat_map (stride_res false) rest) (length pre + 4)
    = flat_map (keyed cancel5) rest.
  Proof.
    induction rest as [|a rest IH]; intros prem pre [|fuel] Hl Hf; try (cbn in Hf; lia); cbn [cancels5].
    - now rewrite past_blocks.
    - rewrite (in_block _ 5 stride5_length) by lia. unfold rnth.
      rewrite <- Nat.add_sub_assoc, !(nth_block _ 5 stride5_length) by lia.
      rewrite <- Hl, (nth_block _ 5 stride5_cmds_length) by lia. rewrite Hl.
      cbn [Nat.sub stride_res stride_cmds stride_msgs map nth]. rewrite exec_reply_stride.
      cbn [flat_map]. rewrite !app_assoc, (next_block _ 5 stride5_length pre a). cbn [length] in Hf.
      rewrite IH by (rewrite ?app_length, ?stride5_length, ?stride5_cmds_length; lia).
      unfold keyed, cancel5. destruct (aborted a); reflexivity.
  Qed.

  (** the same walk as [cancels5_strides], reading the EXEC reply for its value instead of its error *)
  Lemma commits5_strides rest : forall prem pre fuel,
    length prem = length pre -> length rest < fuel ->
    reader_commits5 fuel (prem ++ flat_map (stride_cmds optin false) rest) (pre ++ flat_map (stride_res false) rest) (length pre + 4)
    = flat_map (keyed commit5) rest.
  Proof.
    induction rest as [|a rest IH]; intros prem pre [|fuel] Hl Hf; try (cbn in Hf; lia); cbn [reader_commits5].
    - now rewrite past_blocks.
    - rewrite (in_block _ 5 stride5_length) by lia. unfold rnth.
      rewrite <- Nat.add_sub_assoc, !(nth_block _ 5 stride5_length) by lia.
      rewrite <- Hl, (nth_block _ 5 stride5_cmds_length) by lia. rewrite Hl.
      cbn [Nat.sub stride_res stride_cmds stride_msgs map nth]. rewrite exec_reply_stride.
      cbn [flat_map]. rewrite !app_assoc, (next_block _ 5 stride5_length pre a). cbn [length] in Hf.
      rewrite IH by (rewrite ?app_length, ?stride5_length, ?stride5_cmds_length; lia).
      unfold keyed, commit5. destruct (aborted a); reflexivity.
  Qed.

  (** static TTL: the reader commits the reply unless it is a typed error other than Nil, which cancels *)
  Definition cancel2 (a : argv) : option err :=
    match msg_error (q_or a (srv a)) with Some ENil | None => None | Some e => Some e end.
  Definition commit2 (a : argv) : option msg :=
    match msg_error (q_or a (srv a)) with Some ENil | None => Some (q_or a (srv a)) | Some _ => None end.

  Lemma reader_static_strides rest : forall prem pre fuel,
    length prem = length pre -> length rest < fuel ->
    reader_static fuel (prem ++ flat_map (stride_cmds optin true) rest) (pre ++ flat_map (stride_res true) rest) (length pre + 1)
    = (flat_map (keyed commit2) rest, flat_map (keyed cancel2) rest).
  Proof.
    induction rest as [|a rest IH]; intros prem pre [|fuel] Hl Hf; try (cbn in Hf; lia); cbn [reader_static].
    - now rewrite past_blocks.
    - rewrite (in_block _ 2 stride2_length) by lia. unfold rnth. rewrite (nth_block _ 2 stride2_length) by lia.
      rewrite <- Hl, (nth_block _ 2 stride2_cmds_length) by lia. rewrite Hl.
      cbn [stride_res stride_cmds stride_msgs map nth r_val new_result].
      cbn [flat_map]. rewrite !app_assoc, (next_block _ 2 stride2_length pre a). cbn [length] in Hf.
      rewrite IH by (rewrite ?app_length, ?stride2_length, ?stride2_cmds_length; lia).
      unfold keyed, commit2, cancel2. destruct (msg_error (q_or a (srv a))) as [[]|]; reflexivity.
  Qed.

  (** among the missed commands, the cache key determines the command (the C08 identity) *)
  Definition ck_inj (l : list argv) : Prop :=
    forall a b, In a l -> In b l -> cache_key a = cache_key b -> a = b.

  Lemma ck_inj_incl l l' : incl l' l -> ck_inj l -> ck_inj l'.
  Proof. intros Hi H a b Ha Hb. apply H; auto. Qed.

  Lemma assoc_keyed_none {B} (f : argv -> option B) l ck :
    (forall a, In a l -> cache_key a = ck -> f a = None) -> assoc_ck ck (flat_map (keyed f) l) = None.
  Proof.
    induction l as [|x l IH]; intro Hn; [reflexivity|].
    cbn [flat_map]. rewrite assoc_ck_app, IH by auto using in_cons. unfold keyed.
    destruct (f x) eqn:Ex; [|reflexivity]. cbn [assoc_ck].
    destruct (ck_eqb ck (cache_key x)) eqn:Eq; [|reflexivity].
    apply ck_eqb_eq in Eq. rewrite (Hn x (in_eq _ _) (eq_sym Eq)) in Ex. discriminate.
  Qed.

  Lemma assoc_keyed {B} (f : argv -> option B) l a :
    ck_inj l -> In a l -> assoc_ck (cache_key a) (flat_map (keyed f) l) = f a.
  Proof.
    intros Hinj Hin. destruct (f a) as [b|] eqn:Ea.
    - induction l as [|x l IH]; [destruct Hin|].
      cbn [flat_map]. rewrite assoc_ck_app.
      assert (Hx : cache_key a = cache_key x -> a = x) by (apply Hinj; auto using in_eq).
      assert (IH' : In a l -> assoc_ck (cache_key a) (flat_map (keyed f) l) = Some b).
      { intro H. apply IH; [|exact H]. intros p q Hp Hq. apply Hinj; now right. }
      unfold keyed at 1. destruct (f x) as [y|] eqn:Ex; cbn [assoc_ck].
      + destruct (ck_eqb (cache_key a) (cache_key x)) eqn:Eq.
        * apply ck_eqb_eq, Hx in Eq. congruence.
        * destruct Hin as [->|Hin]; [now rewrite ck_eqb_refl in Eq|auto].
      + destruct Hin as [->|Hin]; [congruence|auto].
    - apply assoc_keyed_none. intros x Hx Hk. now rewrite (Hinj x a Hx Hin Hk).
  Qed.

  Lemma wait_self_keyed (fm : argv -> option msg) (fn : argv -> option err) l a :
    ck_inj l -> In a l ->
    wait_self (flat_map (keyed fm) l) (flat_map (keyed fn) l) (cache_key a)
    = match fn a with Some e => Some (new_error e) | None => option_map new_result (fm a) end.
  Proof. intros Hinj Hin. unfold wait_self. rewrite !assoc_keyed by assumption. now destruct (fn a), (fm a). Qed.

  (** what a command is answered with when it is the one sent ([issued]) and when it waited on this call's
      own flight ([woken]); they differ only for a static-TTL command answered with an error *)
  Definition wdec2 (a : argv) : rres :=
    match msg_error (q_or a (srv a)) with
    | Some ENil | None => new_result (q_or a (srv a))
    | Some e => new_error e
    end.

  Definition issued (skip : bool) (it : item) : rres := if skip then dec2 (it_argv it) else dec5 (it_argv it).
  Definition woken (skip : bool) (it : item) : rres := if skip then wdec2 (it_argv it) else dec5 (it_argv it).

  Lemma view_woken skip it : view (woken skip it) = view (issued skip it).
  Proof.
    destruct skip; [|reflexivity]. unfold woken, issued, wdec2, dec2, view, res_error. cbn [r_err new_result r_val].
    destruct (msg_error (q_or (it_argv it) (srv (it_argv it)))) as [[]|] eqn:E; cbn [new_error new_result r_err r_val];
      rewrite ?E; reflexivity.
  Qed.

  (** the result slot of a classified item, given what waiters on own flights and what misses get *)
  Definition answer (w dec : item -> rres) (ki : kind * item) : rres :=
    match fst ki with
    | KHit v => new_result v
    | KWait r => r
    | KSelf _ => w (snd ki)
    | KMiss => dec (snd ki)
    end.

  Lemma do_waits_spec cm cn w (kis : list (kind * item)) : forall pre,
    (forall ck it, In (KSelf ck, it) kis -> wait_self cm cn ck = Some (w it)) ->
    do_waits cm cn (map (fun ki => k_entry (fst ki)) kis) (length pre) (pre ++ map (fun ki => k_res (fst ki)) kis)
    = Ok (pre ++ map (answer w (fun _ => zero_res)) kis).
  Proof.
    induction kis as [|[k it] kis IH]; intros pre Hw; [reflexivity|].
    assert (Hnext : forall x,
      do_waits cm cn (map (fun ki => k_entry (fst ki)) kis) (S (length pre)) (pre ++ x :: map (fun ki => k_res (fst ki)) kis)
      = Ok (pre ++ x :: map (answer w (fun _ => zero_res)) kis)).
    { intro x. specialize (IH (pre ++ [x])). rewrite last_length, !snoc_app in IH.
      apply IH. intros; apply Hw; now right. }
    destruct k as [v|r|ck|]; cbn [map fst snd k_entry k_res do_waits answer];
      rewrite ?(Hw _ _ (in_eq _ _)), ?upd_app_here; apply Hnext.
  Qed.

  (** the waits leave the misses blank; the stride walk fills them in, in order *)
  Lemma fill_answers w dec (d : argv -> rres) (kis : list (kind * item)) :
    (forall it, dec it = d (it_argv it)) -> Forall (fun ki => filled (answer w dec ki)) kis ->
    fill_seq (map d (map it_argv (map snd (filter (fun ki => k_is_miss (fst ki)) kis)))) 0
             (map (answer w (fun _ => zero_res)) kis)
    = map (answer w dec) kis.
  Proof.
    intros Hd H. rewrite <- (fill_seq_spec (fun ki => k_is_miss (fst ki)) (answer w dec) kis H). f_equal.
    - rewrite !map_map. apply map_ext_in. intros [k it] Hin. apply filter_In in Hin as [_ Hm].
      destruct k; try discriminate. symmetry. apply Hd.
    - apply map_ext. intros [[] it]; reflexivity.
  Qed.

  Lemma map_fst_combine {A B} (l1 : list A) (l2 : list B) : length l1 = length l2 -> map fst (combine l1 l2) = l1.
  Proof. revert l2; induction l1; intros [|] H; try discriminate; cbn; [reflexivity|]. f_equal. auto. Qed.

  (** what [expected] is for an item of known kind: the answer with waiters treated like the issuing caller *)
  Lemma expected_answer skip cks k it :
    kind_ok cks k it -> not_tx (it_argv it) ->
    expected lookup srv qerr optin skip it = Ok (answer (issued skip) (issued skip) (k, it)).
  Proof.
    intros Hk Htx. unfold expected, kind_ok in *. destruct (cache_key (it_argv it)) as [kk cc]. cbn [fst snd] in Hk.
    destruct k as [v|r|c|]; cbn [answer fst snd]; try destruct Hk as (_ & Hk & _); rewrite Hk;
      try reflexivity; now rewrite single_miss_spec.
  Qed.

  Section Assemble.
    Variable use_lru : bool.
    Variable batch : list item.
    Hypothesis Hne : batch <> [].
    Hypothesis Hmget : existsb it_mget batch = false.
    Hypothesis Htx : Forall (fun it => not_tx (it_argv it)) batch.
    (** equal cache keys within the batch mean equal commands (the C08 identity) *)
    Hypothesis Hinj : ck_inj (map it_argv batch).
    (** replies that the decoder can produce carry a type byte; a woken waiter has a value or an error *)
    Hypothesis Hhit : forall k c v, lookup k c = LHit v -> m_typ v <> 0%N.
    Hypothesis Hwait : forall k c r, lookup k c = LWait r -> filled r.
    Hypothesis Hsrv : forall a, m_typ (srv a) <> 0%N.
    Hypothesis Hqerr : forall a e, qerr a = Some e -> m_typ e <> 0%N.

    Let ks := klist [] batch.
    Let kis := combine ks batch.
    Let skip := forallb it_static batch.
    Let margs := map it_argv (k_items ks batch).

    Lemma ks_sound : Forall2 (kind_ok (k_created ks batch)) ks batch.
    Proof. apply (klist_sound batch []). intros ? []. Qed.

    Lemma kis_sound k it : In (k, it) kis -> kind_ok (k_created ks batch) k it /\ In it batch.
    Proof. intro H. split; [exact (Forall2_combine_in _ _ _ _ _ ks_sound H)|exact (in_combine_r _ _ _ _ H)]. Qed.

    Lemma margs_incl : incl margs (map it_argv batch).
    Proof. intros a Ha. apply in_map_iff in Ha as [it [<- Hit]]. apply in_map, (k_items_incl _ _ _ Hit). Qed.

    Lemma margs_tx : Forall not_tx margs.
    Proof. apply (incl_Forall margs_incl), Forall_map, Htx. Qed.

    Lemma missing_eq :
      flat_map (fun i => stride_cmds optin skip (it_argv (nth i batch no_item))) (k_missed 0 ks)
      = flat_map (stride_cmds optin skip) margs.
    Proof.
      unfold margs, ks.
      pose proof (k_missed_items (klist [] batch) batch [] no_item (klist_length _ _)) as H. cbn [app length] in H. rewrite <- H.
      now rewrite !flat_map_map.
    Qed.

    Lemma q_or_typ a d : m_typ d <> 0%N -> m_typ (q_or a d) <> 0%N.
    Proof. unfold q_or. destruct (qerr a) eqn:E; [intros _; eapply Hqerr; eauto|auto]. Qed.

    Lemma issued_filled sk it : filled (issued sk it).
    Proof.
      destruct sk; cbn [issued]; [apply filled_new_result, q_or_typ, Hsrv|].
      unfold dec5. destruct (aborted _); [apply filled_new_error|apply filled_new_result, Hsrv].
    Qed.

    Lemma woken_filled sk it : filled (woken sk it).
    Proof.
      destruct sk; [|exact (issued_filled false it)]. cbn [woken]. unfold wdec2.
      destruct (msg_error _) as [[]|]; try apply filled_new_error; apply filled_new_result, q_or_typ, Hsrv.
    Qed.

    (** a waiter of this call's own flight finds its command among the misses *)
    Lemma self_in_margs ck it : In (KSelf ck, it) kis -> ck = cache_key (it_argv it) /\ In (it_argv it) margs.
    Proof.
      intro Hin. destruct (kis_sound _ _ Hin) as [Hk Hb].
      destruct Hk as (-> & _ & Hc). split; [reflexivity|]. apply in_map_iff in Hc as [it' [He Hi]].
      replace (it_argv it) with (it_argv it'); [unfold margs; now apply in_map|].
      apply Hinj; [apply in_map, (k_items_incl _ _ _ Hi)|now apply in_map|assumption].
    Qed.

    Lemma all_filled : Forall (fun ki => filled (answer (woken skip) (issued skip) ki)) kis.
    Proof.
      apply Forall_forall. intros [k it] Hin. destruct (kis_sound _ _ Hin) as [Hk _].
      destruct k; cbn [answer fst snd kind_ok] in *; eauto using filled_new_result, issued_filled, woken_filled.
    Qed.

    Lemma fill_misses :
      fill_seq (map (fun a => if skip then dec2 a else dec5 a) margs) 0 (map (answer (woken skip) (fun _ => zero_res)) kis)
      = map (answer (woken skip) (issued skip)) kis.
    Proof.
      unfold margs, k_items. exact (fill_answers _ _ _ kis (fun _ => eq_refl) all_filled).
    Qed.

    (** a woken waiter of an own flight gets what the reader committed or the caller cancelled for its command *)
    Lemma own_waits (sk : bool) (fm : argv -> option msg) (fn : argv -> option err) :
      (forall a, match fn a with Some e => Some (new_error e) | None => option_map new_result (fm a) end
                 = Some (if sk then wdec2 a else dec5 a)) ->
      forall ck it, In (KSelf ck, it) kis ->
        wait_self (flat_map (keyed fm) margs) (flat_map (keyed fn) margs) ck = Some (woken sk it).
    Proof.
      intros Hf ck it Hin. destruct (self_in_margs ck it Hin) as [-> Hm].
      rewrite wait_self_keyed by (apply (ck_inj_incl _ _ margs_incl Hinj) || assumption). apply Hf.
    Qed.

    Theorem do_multi_cache_spec :
      do_multi_cache lookup srv qerr optin use_lru batch = Ok (map (answer (woken skip) (issued skip)) kis).
    Proof.
      unfold do_multi_cache. rewrite match_nonempty by assumption.
      rewrite Hmget.
      assert (Est : (if use_lru then flights_lru lookup batch else flights_seq lookup batch) = spec_state batch)
        by (destruct use_lru; [apply flights_lru_spec|apply flights_seq_spec]).
      rewrite Est. unfold spec_state. fold ks. cbn [f_missed f_entries f_results].
      fold skip. rewrite missing_eq, redis_wire_strides by apply margs_tx.
      assert (Hlen : length ks = length batch) by apply klist_length.
      rewrite <- (map_combine_fst k_res ks batch Hlen), <- (map_combine_fst k_entry ks batch Hlen). fold kis.
      rewrite <- fill_misses.
      pose proof (fun cm cn => do_waits_spec cm cn (woken skip) kis []) as Hwaits. cbn [app length] in Hwaits.
      destruct skip eqn:Eskip.
      - (* static TTL: stride 2 *)
        pose proof (blocks_fuel (stride_res true) 2 stride2_length margs Nat.lt_0_2) as Hfuel.
        pose proof (reader_static_strides margs [] [] _ eq_refl Hfuel) as Hrd.
        cbn [app length Nat.add] in Hrd. rewrite Hrd. cbn [fst snd].
        rewrite Hwaits.
        2:{ apply own_waits. intro a. unfold cancel2, commit2, wdec2. now destruct (msg_error _) as [[]|]. }
        destruct margs as [|a m]; [reflexivity|].
        exact (refill2_strides (a :: m) [] 0 _ _ Hfuel).
      - (* MULTI / PTTL / cmd / EXEC: stride 5 *)
        assert (Hfuel : length margs < S (length (flat_map (stride_res false) margs)))
          by (apply (blocks_fuel _ 5 stride5_length); lia).
        cbn [fst snd].
        pose proof (commits5_strides margs [] [] _ eq_refl Hfuel) as Hcm.
        pose proof (cancels5_strides margs [] [] _ eq_refl Hfuel) as Hcn.
        cbn [app length Nat.add] in Hcm, Hcn. rewrite Hcm, Hcn.
        rewrite Hwaits.
        2:{ apply own_waits. intro a. unfold cancel5, commit5, dec5. now destruct (aborted a). }
        destruct margs as [|a m]; [reflexivity|].
        exact (refill5_strides (a :: m) [] 0 _ _ Hfuel).
    Qed.

    (** position by position, the batch returns what each command alone would be answered *)
    Theorem do_multi_cache_positional :
      exists rs, do_multi_cache lookup srv qerr optin use_lru batch = Ok rs /\
        Forall2 (fun r it => exists r', expected lookup srv qerr optin skip it = Ok r' /\ view r = view r') rs batch.
    Proof.
      eexists. split; [apply do_multi_cache_spec|].
      apply Forall2_map_combine; [apply klist_length|]. intros k it Hin. destruct (kis_sound _ _ Hin) as [Hk Hb].
      rewrite Forall_forall in Htx. eexists. split; [eapply expected_answer; eauto|].
      destruct k; cbn [answer fst snd]; auto using view_woken.
    Qed.

    (** without static TTLs the results are literally those values *)
    Theorem do_multi_cache_positional_exact :
      skip = false ->
      exists rs, do_multi_cache lookup srv qerr optin use_lru batch = Ok rs /\
        Forall2 (fun r it => expected lookup srv qerr optin false it = Ok r) rs batch.
    Proof.
      intro Hskip. eexists. split; [apply do_multi_cache_spec|]. rewrite Hskip.
      apply Forall2_map_combine; [apply klist_length|]. intros k it Hin. destruct (kis_sound _ _ Hin) as [Hk Hb].
      rewrite Forall_forall in Htx. erewrite expected_answer by eauto. now destruct k.
    Qed.
  End Assemble.
End Multi.
