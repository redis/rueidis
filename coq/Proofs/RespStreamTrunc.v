(** streamTo on ARBITRARY input: it never panics, for every byte string and every writer (C13 for the
    streaming reader), and every strict prefix of a counted string reply is reported unclean, with an
    error (C29: the connection must not be recycled). *)
From Coq Require Import List Arith NArith ZArith Bool Lia ZifyN ZifyNat ZifyBool.
Require Import RV.Model.Base RV.Model.RespWrite RV.Model.RespStream.
Require Import RV.Proofs.BinaryProofs RV.Proofs.RespWriteProofs RV.Proofs.RespIOProofs RV.Proofs.RespBaseProofs
               RV.Proofs.RespScalarProofs RV.Proofs.RespRoundtrip RV.Proofs.RespStreamChunks
               RV.Proofs.RespSafetyBase RV.Proofs.RespSafety.
Import ListNotations.
Open Scope N_scope.

Definition no_spanic (o : sout) : Prop := snd (fst o) <> SPanic.

(** what [stream_blob] does with the answer of its final Discard, [written] bytes and error [e] so far *)
Definition finish_blob (written : Z) (e : serr) (r : result bytes) : prog sout :=
  match r with
  | Ok _ => Ret (written, e, true)
  | Err e2 => Ret (written, match e with SNone => SErr e2 | _ => e end, false)
  | Panic => Ret (written, SPanic, false)
  end.

Lemma flatw_shrink B o s w : blen (snd (fst (flatw_step B o s w))) <= blen s.
Proof.
  destruct o; cbn [flatw_step].
  all: try match goal with |- context [flat_step ?b ?o ?x] =>
         pose proof (step_shrink b o x); destruct (flat_step b o x); cbn [fst snd] in *; assumption end.
  - (* CopyOut *)
    destruct (if n <=? blen s then firstn (N.to_nat n) s else s) as [|b l]; [cbn; lia|].
    destruct (w_write w (b :: l)) as [d w']. cbn [fst snd]. apply blen_skipn_le.
  - destruct (w_write w d) as [d' w']. cbn. lia.
  - cbn. lia.
Qed.

Lemma flatw_no_panic B o s w : fst (fst (flatw_step B o s w)) <> Panic.
Proof.
  destruct o; cbn [flatw_step].
  all: try match goal with |- context [flat_step ?b ?o ?x] =>
         pose proof (step_no_panic b o x); destruct (flat_step b o x); cbn [fst snd] in *; assumption end.
  - destruct (if n <=? blen s then firstn (N.to_nat n) s else s) as [|b l]; [discriminate|].
    destruct (w_write w (b :: l)) as [d w']. discriminate.
  - destruct (w_write w d) as [d' w']. discriminate.
  - destruct (w_failed w); discriminate.
Qed.

Lemma runw_do_op B o s w : runw B (do_op o) s w = flatw_step B o s w.
Proof. unfold do_op. cbn [runw]. destruct (flatw_step B o s w) as [[r s'] w']. reflexivity. Qed.

(** a reader-only program under [runw]: same result and stream as under [run] *)
Lemma runw_reader_run {A} B (p : prog A) s w r s' w' : reader_only p ->
  runw B p s w = (r, s', w') -> exists al', run B p s 0 = (r, s', al') /\ w' = w.
Proof.
  intros Hp H. rewrite (runw_reader B p Hp s w 0) in H.
  destruct (run B p s 0) as [[r0 s0] al0]. cbn [fst snd] in H. inversion H; subst. eauto.
Qed.

(** the stream only shrinks, for every program *)
Lemma runw_shrink {A} B (p : prog A) : forall s w, blen (snd (fst (runw B p s w))) <= blen s.
Proof.
  induction p as [a|o k IH]; intros s w; cbn [runw]; [cbn; lia|].
  pose proof (flatw_shrink B o s w) as Hs. destruct (flatw_step B o s w) as [[r s1] w1]. cbn [fst snd] in Hs.
  specialize (IH r s1 w1). lia.
Qed.

Lemma write_out_no_panic B d s w : no_spanic (fst (fst (runw B (write_out d) s w))).
Proof. rewrite runw_write_out. unfold no_spanic, wres. cbn [fst snd]. destruct (w_failed _); discriminate. Qed.

Lemma stream_blob_no_panic B typ n s w : no_spanic (fst (fst (runw B (stream_blob typ n) s w))).
Proof.
  unfold stream_blob, no_spanic.
  assert (Hfin : forall written e left s1 w1, e <> SPanic ->
     snd (fst (fst (fst (runw B (bind (do_op (ODiscard left)) (finish_blob written e)) s1 w1)))) <> SPanic).
  { intros written e left s1 w1 He. rewrite runw_bind, runw_do_op.
    pose proof (flatw_no_panic B (ODiscard left) s1 w1) as Hp.
    destruct (flatw_step B (ODiscard left) s1 w1) as [[r s2] w2]. cbn [fst snd] in *.
    destruct r as [d|e2|]; [| |congruence]; cbn [runw fst snd]; try assumption.
    destruct e; try assumption; discriminate. }
  destruct (n =? -1)%Z; [cbn; discriminate|].
  destruct (negb (n =? 0)%Z).
  - rewrite runw_bind, runw_do_op.
    destruct (flatw_step B (OCopyOut (Z.to_N n)) s w) as [[r1 s1] w1].
    rewrite runw_bind, runw_do_op. cbn [flatw_step].
    destruct (w_failed w1); cbn [werr]; apply Hfin; discriminate.
  - destruct (typ =? tChunk); [cbn; discriminate|]. apply Hfin. discriminate.
Qed.

Lemma runw_read_i_no_panic B s w : fst (fst (runw B read_i s w)) <> Panic.
Proof.
  destruct (runw B read_i s w) as [[r s'] w'] eqn:E.
  apply (runw_reader_run B read_i s w r s' w' ro_read_i) in E as (al' & E & _).
  apply read_i_spec in E as (_ & _ & E). cbn [fst]. now destruct r.
Qed.

Lemma runw_dispatch_no_panic B f t s s1 w : blen s < input_bound -> blen s1 + 1 = blen s ->
  fst (fst (runw B (dispatch t (read_next f) (read_a_loop f) (read_e_loop f) f None) s1 w)) <> Panic.
Proof.
  intros Hb Hs1.
  destruct (runw B (dispatch t (read_next f) (read_a_loop f) (read_e_loop f) f None) s1 w) as [[r s'] w'] eqn:E.
  apply (runw_reader_run B _ s1 w r s' w' (ro_dispatch_f t f None)) in E as (al' & E & _).
  destruct (safety_all B f) as (Hn & Ha & He).
  apply (dispatch_spec B t _ _ _ f None s 0 s1 r s' al' Hn Ha He Hb Hs1) in E.
  destruct E as ((E1 & _) & _). exact E1.
Qed.

Theorem stream_no_panic B : forall fuel,
  (forall s w, blen s < input_bound -> no_spanic (fst (fst (runw B (stream_to fuel) s w)))) /\
  (forall n nn err clean s w, err <> SPanic -> blen s < input_bound ->
     no_spanic (fst (fst (runw B (stream_chunks fuel n nn err clean) s w)))).
Proof.
  induction fuel as [|f [IH1 IH2]]; [split; intros; cbn; unfold no_spanic; cbn; try discriminate; assumption|].
  split.
  - intros s w Hb. rewrite stream_to_S. rewrite runw_bind, runw_do_op.
    pose proof (flatw_no_panic B OReadByte s w) as Hp.
    destruct (flatw_step B OReadByte s w) as [[tb s1] w1] eqn:Eb. cbn [fst snd] in Hp.
    destruct tb as [tb|e|]; [|cbn; unfold no_spanic; cbn; discriminate|congruence].
    assert (Hs1 : blen s1 + 1 = blen s).
    { cbn [flatw_step] in Eb. destruct (flat_step B OReadByte s) as [r0 s0] eqn:E0. inversion Eb; subst.
      now apply step_ok in E0. }
    cbv zeta. destruct (k_stream_blob (hd 0 tb)).
    + rewrite runw_bind.
      pose proof (runw_read_i_no_panic B s1 w1) as Hri. pose proof (runw_shrink B read_i s1 w1) as Hsh.
      destruct (runw B read_i s1 w1) as [[r s2] w2]. cbn [fst snd] in Hri, Hsh.
      destruct r as [n|e|]; [apply stream_blob_no_panic| |congruence].
      destruct (e =? eChunked); [|cbn; unfold no_spanic; cbn; discriminate].
      rewrite runw_bind.
      pose proof (IH1 s2 w2 ltac:(lia)) as H1. pose proof (runw_shrink B (stream_to f) s2 w2) as Hsh2.
      destruct (runw B (stream_to f) s2 w2) as [[[[nn err] clean] s3] w3]. cbn [fst snd] in H1, Hsh2.
      apply IH2; [exact H1|lia].
    + rewrite runw_bind.
      pose proof (runw_dispatch_no_panic B f (hd 0 tb) s s1 w1 Hb Hs1) as Hd.
      pose proof (runw_shrink B (dispatch (hd 0 tb) (read_next f) (read_a_loop f) (read_e_loop f) f None) s1 w1) as Hsh.
      destruct (runw B (dispatch (hd 0 tb) (read_next f) (read_a_loop f) (read_e_loop f) f None) s1 w1) as [[r s2] w2].
      cbn [fst snd] in Hd, Hsh.
      unfold stream_msg. destruct r as [m|e|]; [|cbn; unfold no_spanic; cbn; discriminate|congruence].
      destruct ((m_typ m =? tSimpleString) || (m_typ m =? tFloat) || (m_typ m =? tBigNumber)); [apply write_out_no_panic|].
      destruct (m_typ m =? tNull); [cbn; unfold no_spanic; cbn; discriminate|].
      destruct ((m_typ m =? tSimpleErr) || (m_typ m =? tBlobErr)); [cbn; unfold no_spanic; cbn; discriminate|].
      destruct ((m_typ m =? tInteger) || (m_typ m =? tBool)); [apply write_out_no_panic|].
      destruct (m_typ m =? tPush); [apply IH1; lia|cbn; unfold no_spanic; cbn; discriminate].
  - intros n nn err clean s w He Hb. rewrite stream_chunks_S. cbv zeta.
    destruct (negb (nn =? 0)%Z && clean && match err with SNone => true | _ => false end).
    + rewrite runw_bind.
      pose proof (IH1 s w Hb) as H1. pose proof (runw_shrink B (stream_to f) s w) as Hsh.
      destruct (runw B (stream_to f) s w) as [[[[nn' err'] clean'] s3] w3]. cbn [fst snd] in H1, Hsh.
      apply IH2; [exact H1|lia].
    + cbn. unfold no_spanic. cbn. exact He.
Qed.

Definition unclean (o : sout) : Prop := snd o = false /\ snd (fst o) <> SNone.

Section Trunc.
Variable B : nat.
Hypothesis HB : (32 <= B)%nat.

(** a line cut before its LF cannot be read *)
Lemma find_lf_firstn_none (l : bytes) j : find_lf l = Some (length l - 1)%nat -> (j < length l)%nat -> find_lf (firstn j l) = None.
Proof.
  revert j; induction l as [|x l IH]; intros j H Hj; [cbn in Hj; lia|].
  destruct j as [|j]; [reflexivity|]. cbn [firstn find_lf] in *.
  destruct (x =? LFb).
  - inversion H. cbn [length] in *. destruct l; [cbn in Hj; lia|cbn in H1; lia].
  - destruct (find_lf l) as [i|] eqn:E; [|discriminate]. inversion H.
    assert (Hl : (1 <= length l)%nat) by (apply find_lf_lt in E; lia).
    rewrite IH; [reflexivity| |cbn [length] in Hj; lia]. f_equal. cbn [length] in *. lia.
Qed.

Lemma runw_read_i_cut (line : bytes) j w : find_lf line = Some (length line - 1)%nat -> (j < length line)%nat ->
  exists e s', runw B read_i (firstn j line) w = (Err e, s', w) /\ e <> eChunked.
Proof.
  intros Hl Hj.
  pose proof (find_lf_firstn_none line j Hl Hj) as Hn.
  destruct (runw B read_i (firstn j line) w) as [[r s'] w'] eqn:E.
  apply (runw_reader_run B read_i _ w r s' w' ro_read_i) in E as (al' & E & ->).
  unfold read_i, bindr in E. rewrite run_bind, run_do_op in E. cbn [flat_step fst snd meter] in E.
  assert (Hn' : find_lf (firstn B (firstn j line)) = None).
  { destruct (find_lf (firstn B (firstn j line))) as [i|] eqn:Ei; [|reflexivity].
    rewrite <- (firstn_skipn B (firstn j line)) in Hn. now rewrite (find_lf_app_some _ _ _ Ei) in Hn. }
  rewrite Hn' in E. destruct (B <=? length (firstn j line))%nat; cbn [fst snd run] in E; inversion E; subst;
    eexists _, _; split; try reflexivity; discriminate.
Qed.


Lemma hdr_find_lf n : find_lf (dec n ++ crlf) = Some (length (dec n ++ crlf) - 1)%nat.
Proof.
  pose proof (find_lf_line (dec n) [] (no_lf_digits _ (dec_digits n))) as H. rewrite !app_nil_r in H.
  rewrite H. f_equal. rewrite app_length. cbn. lia.
Qed.

Lemma runw_discard_short k s w : (0 <= k)%Z -> blen s < Z.to_N k ->
  runw B (do_op (ODiscard k)) s w = (Err eEOF, [], w).
Proof.
  intros Hk Hs. rewrite runw_do_op. cbn [flatw_step flat_step].
  destruct (Z.ltb_spec k 0); [lia|]. destruct (N.leb_spec (Z.to_N k) (blen s)); [lia|]. reflexivity.
Qed.

(** io.Copy when the stream ends inside the payload, with a writer that does not fail *)
Lemma runw_copy_out_short n (s1 : bytes) w : unlimited w -> blen s1 < n ->
  exists w', runw B (do_op (OCopyOut n)) s1 w = (Ok s1, [], w') /\ w_failed w' = false.
Proof.
  intros Hw Hn. rewrite runw_do_op. cbn [flatw_step].
  destruct (N.leb_spec n (blen s1)); [lia|].
  destruct s1 as [|b l]; [eexists; split; reflexivity|].
  destruct (unlimited_write w (b :: l) Hw) as (Ea & Ef & _ & _). unfold accepted in Ea.
  destruct (w_write w (b :: l)) as [d w'] eqn:Ew. cbn [fst snd] in *. subst d.
  exists w'. split; [|exact Ef]. now rewrite skipn_all.
Qed.

(** io.Copy when the stream ends inside the payload, with ANY writer: what was accepted is a prefix of what
    was available, and what was available but not accepted is still on the stream *)
Lemma runw_copy_out_short_any n (s1 : bytes) w : blen s1 < n ->
  exists d s2 w', runw B (do_op (OCopyOut n)) s1 w = (Ok d, s2, w') /\ (length d + length s2 = length s1)%nat.
Proof.
  intros Hn. rewrite runw_do_op. cbn [flatw_step].
  destruct (N.leb_spec n (blen s1)); [lia|].
  destruct s1 as [|b l]; [eexists _, _, _; split; reflexivity|].
  pose proof (accepted_len w (b :: l)) as Hd. unfold accepted in Hd.
  destruct (w_write w (b :: l)) as [d w'] eqn:Ew. cbn [fst] in Hd.
  eexists _, _, _. split; [reflexivity|]. rewrite skipn_length. lia.
Qed.

Definition err_unclean (n : Z) (e : N) : sout := (n, SErr e, false).

(** the end of streamTo's string branch when fewer bytes are left than it wants to discard *)
Lemma runw_finish_short written e left (s1 : bytes) w1 : (0 <= left)%Z -> blen s1 < Z.to_N left -> e <> SPanic ->
  unclean (fst (fst (runw B (bind (do_op (ODiscard left)) (finish_blob written e)) s1 w1))).
Proof.
  intros Hl Hs He. rewrite (runw_bind_eq B _ _ _ _ _ _ _ (runw_discard_short left s1 w1 Hl Hs)).
  cbn. unfold unclean. cbn. split; [reflexivity|]. destruct e; try discriminate; congruence.
Qed.

Theorem stream_counted_trunc f t s k w :
  (t = tBlobString \/ t = tVerbatim) -> (zlen s + 2 < two63)%Z ->
  (k < length (enc (VBlob t s)))%nat ->
  unclean (fst (fst (runw B (stream_to (S f)) (firstn k (enc (VBlob t s))) w))).
Proof.
  intros Ht Hlen Hk.
  assert (Hkb : k_stream_blob t = true) by (destruct Ht; subst; reflexivity).
  assert (Hnc : (t =? tChunk) = false) by (destruct Ht; subst; reflexivity).
  assert (Es : enc (VBlob t s) = t :: (dec (blen s) ++ crlf) ++ s ++ crlf).
  { cbn [enc app]. rewrite <- ?app_assoc. reflexivity. }
  rewrite Es in *. set (hdr := dec (blen s) ++ crlf) in *.
  destruct k as [|k'].
  - (* nothing arrived *)
    cbn [firstn]. rewrite stream_to_S, runw_bind, runw_do_op. cbn. unfold unclean. cbn. split; [reflexivity|discriminate].
  - cbn [firstn]. rewrite runw_stream_cons_blob by assumption.
    cbn [length] in Hk. rewrite !app_length in Hk. cbn [crlf length] in Hk.
    destruct (Nat.lt_ge_cases k' (length hdr)) as [Hh|Hh].
    + (* cut inside the length line *)
      rewrite firstn_app_short by lia.
      destruct (runw_read_i_cut hdr k' w (hdr_find_lf (blen s)) Hh) as (e & s' & E & Hne).
      rewrite (runw_bind_eq B _ _ _ _ _ _ _ E).
      apply N.eqb_neq in Hne. rewrite Hne. cbn. unfold unclean. cbn. split; [reflexivity|discriminate].
    + (* the length line is complete *)
      rewrite firstn_app, firstn_all2 by lia.
      set (j := (k' - length hdr)%nat). assert (Hj : (j < length s + 2)%nat) by (unfold j, hdr in *; lia).
      unfold hdr. rewrite <- app_assoc.
      assert (Hb : (Z.of_N (blen s) < two63)%Z) by (unfold blen, zlen in *; lia).
      rewrite (runw_bind_eq B _ _ _ _ _ _ _ (runw_read_i_nat B (blen s) _ w HB Hb)).
      replace (Z.of_N (blen s)) with (zlen s) by (unfold blen, zlen; lia).
      unfold stream_blob.
      destruct (Z.eqb_spec (zlen s) (-1)) as [Hx|_]; [unfold zlen in Hx; lia|].
      destruct (list_eq_dec N.eq_dec s []) as [->|Hne].
      * (* empty payload, cut inside the final CRLF *)
        change (zlen (@nil N)) with 0%Z. cbn [Z.eqb negb app]. rewrite Hnc.
        rewrite (runw_bind_eq B _ _ _ _ _ _ _ (runw_discard_short 2 (firstn j crlf) w ltac:(lia)
                   ltac:(unfold blen; rewrite firstn_length; cbn [length] in *; lia))).
        cbn. unfold unclean. cbn. split; [reflexivity|discriminate].
      * destruct (Z.eqb_spec (zlen s) 0) as [Hx|_]; [destruct s; [congruence|unfold zlen in Hx; cbn [length] in Hx; lia]|].
        cbn [negb].
        replace (Z.to_N (zlen s)) with (blen s) by (unfold blen, zlen; lia).
        destruct (Nat.lt_ge_cases j (length s)) as [Hjs|Hjs].
        -- (* cut inside the payload: whatever the writer does, more is to be discarded than is left *)
           rewrite firstn_app_short by lia.
           destruct (runw_copy_out_short_any (blen s) (firstn j s) w) as (d & s2 & w' & E & Hds).
           { unfold blen. rewrite firstn_length. lia. }
           rewrite firstn_length in Hds.
           rewrite (runw_bind_eq B _ _ _ _ _ _ _ E).
           rewrite (runw_bind_eq B _ _ _ _ _ _ _ (runw_writer_err B _ w')).
           rewrite (wrap64_small_z (zlen s - zlen d + 2)) by (unfold zlen, two63 in *; lia).
           apply runw_finish_short; [unfold zlen; lia|unfold blen, zlen; lia|destruct (w_failed w'); discriminate].
        -- (* payload complete, cut inside the final CRLF *)
           rewrite firstn_app, firstn_all2 by lia.
           rewrite (runw_bind_eq B _ _ _ _ _ _ _ (runw_copy_out B s _ w Hne)).
           pose proof (accepted_len w s) as Hd. set (d := accepted w s) in *.
           rewrite (runw_bind_eq B _ _ _ _ _ _ _ (runw_writer_err B _ (snd (w_write w s)))).
           rewrite (wrap64_small_z (zlen s - zlen d + 2)) by (unfold zlen, two63 in *; lia).
           apply runw_finish_short; [unfold zlen; lia| |destruct (w_failed (snd (w_write w s))); discriminate].
           unfold blen, zlen. rewrite app_length, skipn_length, firstn_length. cbn [crlf length]. lia.
Qed.

End Trunc.
