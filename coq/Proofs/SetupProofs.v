(** Model/Setup.v (C47): both command lists as lists of slots; the two examination loops read one turn at a time;
    the server-side session field by field, each field with the command family that writes it. *)
From Coq Require Import String List Arith NArith ZArith Bool Lia.
Require Import RV.Model.Base RV.Model.PsBase RV.Model.Setup RV.Proofs.PsListProofs.
Import ListNotations.
Open Scope N_scope.
Open Scope string_scope.
Open Scope list_scope.

Lemma is_empty_spec : forall b, is_empty b = true <-> b = [].
Proof. destruct b; cbn; split; congruence. Qed.

(** Both lists are sequences of slots: a command and the condition under which it is sent. *)
Definition of_slots (l : list (bool * argv)) : list argv := flat_map (fun s => opt_cmd (fst s) (snd s)) l.

Lemma filter_of_slots : forall (f : argv -> bool) l,
  filter f (of_slots l) = of_slots (filter (fun s => f (snd s)) l).
Proof.
  intros f l. unfold of_slots. induction l as [|[b c] l IH]; [reflexivity|].
  cbn [flat_map filter fst snd]. rewrite filter_app, IH.
  destruct b; cbn [opt_cmd filter app]; destruct (f c); reflexivity.
Qed.

Lemma of_slots_app : forall l l', of_slots (l ++ l') = of_slots l ++ of_slots l'.
Proof. intros. apply flat_map_app. Qed.

Lemma of_slots_one : forall b c, of_slots [(b, c)] = opt_cmd b c.
Proof. intros. apply app_nil_r. Qed.

(** the configured tracking arguments *)
Definition track_args (o : opts) : list bytes :=
  match o_track o with None => [bs "OPTIN"] | Some l => l end.

Lemma tracking_cmd_args : forall o, tracking_cmd o = bs "CLIENT" :: bs "TRACKING" :: bs "ON" :: track_args o.
Proof. intros o. unfold tracking_cmd, track_args. destruct (o_track o); reflexivity. Qed.

(** the library name and version announced by CLIENT SETINFO *)
Definition lib_pair (o : opts) : bytes * bytes :=
  match o_setinfo o with Some [n; v] => (n, v) | _ => (o_libname o, o_libver o) end.

Definition tail_slots (o : opts) : list (bool * argv) :=
  [(negb (o_db o =? 0)%Z, [bs "SELECT"; itoa (o_db o)]);
   (o_replica o && negb (o_sentinel o), [bs "READONLY"]);
   (o_notouch o, [bs "CLIENT"; bs "NO-TOUCH"; bs "ON"]);
   (o_noevict o, [bs "CLIENT"; bs "NO-EVICT"; bs "ON"]);
   (o_redirect o, [bs "CLIENT"; bs "CAPA"; bs "redirect"])].

Definition setinfo_slots (o : opts) : list (bool * argv) :=
  [(add_setinfo o, [bs "CLIENT"; bs "SETINFO"; bs "LIB-NAME"; fst (lib_pair o)]);
   (add_setinfo o, [bs "CLIENT"; bs "SETINFO"; bs "LIB-VER"; snd (lib_pair o)])].

(** the examined part of each list ([count_of] leaves the SETINFO pair out) *)
Definition body3 (o : opts) (u p : bytes) : list (bool * argv) :=
  (true, hello_cmd u p (o_name o)) :: (o_az o, [bs "INFO"; bs "SERVER"]) ::
  (negb (o_nocache o), bs "CLIENT" :: bs "TRACKING" :: bs "ON" :: track_args o) :: tail_slots o.

Definition body2 (o : opts) : list (bool * argv) :=
  (true, [bs "HELLO"; bs "2"]) :: (o_az o, [bs "INFO"; bs "SERVER"]) ::
  (negb (is_empty (o_name o)), [bs "CLIENT"; bs "SETNAME"; o_name o]) :: tail_slots o.

Lemma setinfo_cmds_slots : forall o, setinfo_cmds o = of_slots (setinfo_slots o).
Proof.
  intros o. unfold setinfo_cmds, setinfo_slots, add_setinfo, lib_pair.
  destruct (o_setinfo o) as [[|n [|v [|? ?]]]|]; reflexivity.
Qed.

Lemma init3_slots : forall o u p, init3_with o u p = of_slots (body3 o u p ++ setinfo_slots o).
Proof.
  intros o u p. unfold init3_with, tail_cmds. rewrite setinfo_cmds_slots, tracking_cmd_args. reflexivity.
Qed.

Definition auth2_slots (u p : bytes) : list (bool * argv) :=
  [(negb (is_empty p) && is_empty u, [bs "AUTH"; p]); (negb (is_empty u), [bs "AUTH"; u; p])].

Lemma auth2_cmds_slots : forall u p, auth2_cmds u p = of_slots (auth2_slots u p).
Proof. intros [|a u] [|b p]; reflexivity. Qed.

Lemma init2_slots : forall o u p, init2_with o u p = of_slots (auth2_slots u p ++ body2 o ++ setinfo_slots o).
Proof.
  intros o u p. unfold init2_with, tail_cmds. rewrite setinfo_cmds_slots, auth2_cmds_slots, of_slots_app. reflexivity.
Qed.

Lemma opt_cmd_negb : forall b c, opt_cmd (negb b) c = if b then [] else [c].
Proof. intros [|] c; reflexivity. Qed.

Section Contents.
  Variable o : opts.
  Variables u p : bytes.
  Hypothesis Hc : creds o = Some (u, p).

  Lemma init3_eq : init3 o = init3_with o u p.
  Proof. unfold init3. rewrite Hc. reflexivity. Qed.
  Lemma init2_eq : init2 o = init2_with o u p.
  Proof. unfold init2. rewrite Hc. reflexivity. Qed.

  Lemma filter_init3 : forall f,
    filter f (init3 o) = of_slots (filter (fun s => f (snd s)) (body3 o u p ++ setinfo_slots o)).
  Proof. intros f. rewrite init3_eq, init3_slots. apply filter_of_slots. Qed.

  Lemma filter_init2 : forall f,
    filter f (init2 o) = of_slots (filter (fun s => f (snd s)) (auth2_slots u p ++ body2 o ++ setinfo_slots o)).
  Proof. intros f. rewrite init2_eq, init2_slots. apply filter_of_slots. Qed.

  (** every family occurs exactly as configured, at most once: evaluation of the family test on the heads of the slots *)
  Lemma init3_hello : filter (is_cmd "HELLO") (init3 o) = [hello_cmd u p (o_name o)].
  Proof. rewrite filter_init3. reflexivity. Qed.

  Lemma init3_select :
    filter (is_cmd "SELECT") (init3 o) = opt_cmd (negb (o_db o =? 0)%Z) [bs "SELECT"; itoa (o_db o)].
  Proof. rewrite filter_init3. apply of_slots_one. Qed.

  Lemma init3_info : filter (is_cmd "INFO") (init3 o) = opt_cmd (o_az o) [bs "INFO"; bs "SERVER"].
  Proof. rewrite filter_init3. apply of_slots_one. Qed.

  Lemma init3_readonly :
    filter (is_cmd "READONLY") (init3 o) = opt_cmd (o_replica o && negb (o_sentinel o)) [bs "READONLY"].
  Proof. rewrite filter_init3. apply of_slots_one. Qed.

  Lemma init3_auth : filter (is_cmd "AUTH") (init3 o) = [].
  Proof. rewrite filter_init3. reflexivity. Qed.

  Lemma init3_tracking : filter (is_client "TRACKING") (init3 o) = opt_cmd (negb (o_nocache o)) (tracking_cmd o).
  Proof. rewrite filter_init3, tracking_cmd_args. apply of_slots_one. Qed.

  Lemma init3_notouch :
    filter (is_client "NO-TOUCH") (init3 o) = opt_cmd (o_notouch o) [bs "CLIENT"; bs "NO-TOUCH"; bs "ON"].
  Proof. rewrite filter_init3. apply of_slots_one. Qed.

  Lemma init3_noevict :
    filter (is_client "NO-EVICT") (init3 o) = opt_cmd (o_noevict o) [bs "CLIENT"; bs "NO-EVICT"; bs "ON"].
  Proof. rewrite filter_init3. apply of_slots_one. Qed.

  Lemma init3_capa :
    filter (is_client "CAPA") (init3 o) = opt_cmd (o_redirect o) [bs "CLIENT"; bs "CAPA"; bs "redirect"].
  Proof. rewrite filter_init3. apply of_slots_one. Qed.

  Lemma init3_setinfo : filter (is_client "SETINFO") (init3 o) = setinfo_cmds o.
  Proof. rewrite filter_init3, setinfo_cmds_slots. reflexivity. Qed.

  Lemma init2_auth : filter (is_cmd "AUTH") (init2 o) = auth2_cmds u p.
  Proof. rewrite filter_init2, auth2_cmds_slots. reflexivity. Qed.

  Lemma init2_hello : filter (is_cmd "HELLO") (init2 o) = [[bs "HELLO"; bs "2"]].
  Proof. rewrite filter_init2. reflexivity. Qed.

  Lemma init2_select :
    filter (is_cmd "SELECT") (init2 o) = opt_cmd (negb (o_db o =? 0)%Z) [bs "SELECT"; itoa (o_db o)].
  Proof. rewrite filter_init2. apply of_slots_one. Qed.

  Lemma init2_readonly :
    filter (is_cmd "READONLY") (init2 o) = opt_cmd (o_replica o && negb (o_sentinel o)) [bs "READONLY"].
  Proof. rewrite filter_init2. apply of_slots_one. Qed.

  Lemma init2_setname :
    filter (is_client "SETNAME") (init2 o) = opt_cmd (negb (is_empty (o_name o))) [bs "CLIENT"; bs "SETNAME"; o_name o].
  Proof. rewrite filter_init2. apply of_slots_one. Qed.

  Lemma init2_tracking : filter (is_client "TRACKING") (init2 o) = [].
  Proof. rewrite filter_init2. reflexivity. Qed.

  Lemma init2_notouch :
    filter (is_client "NO-TOUCH") (init2 o) = opt_cmd (o_notouch o) [bs "CLIENT"; bs "NO-TOUCH"; bs "ON"].
  Proof. rewrite filter_init2. apply of_slots_one. Qed.

  Lemma init2_noevict :
    filter (is_client "NO-EVICT") (init2 o) = opt_cmd (o_noevict o) [bs "CLIENT"; bs "NO-EVICT"; bs "ON"].
  Proof. rewrite filter_init2. apply of_slots_one. Qed.

  Lemma init2_capa :
    filter (is_client "CAPA") (init2 o) = opt_cmd (o_redirect o) [bs "CLIENT"; bs "CAPA"; bs "redirect"].
  Proof. rewrite filter_init2. apply of_slots_one. Qed.

  Lemma init2_setinfo : filter (is_client "SETINFO") (init2 o) = setinfo_cmds o.
  Proof. rewrite filter_init2, setinfo_cmds_slots. reflexivity. Qed.
End Contents.

Lemma auth_args_spec : forall u p,
  auth_args u p =
    match u, p with
    | [], [] => []
    | [], _ => [bs "AUTH"; bs "default"; p]
    | _, _ => [bs "AUTH"; u; p]
    end.
Proof. intros [|a u] [|b p]; reflexivity. Qed.

Lemma auth2_cmds_spec : forall u p,
  auth2_cmds u p =
    match u, p with
    | [], [] => []
    | [], _ => [[bs "AUTH"; p]]
    | _, _ => [[bs "AUTH"; u; p]]
    end.
Proof. intros [|a u] [|b p]; reflexivity. Qed.

Lemma cut_prefix : forall rs, exists t, rs = cut rs ++ t.
Proof.
  induction rs as [|r rs [t IH]]; [exists []; reflexivity|].
  cbn [cut]. destruct (is_rio r); [exists (r :: rs); reflexivity|].
  exists t. cbn. rewrite <- IH. reflexivity.
Qed.

Lemma cut_no_rio : forall rs r, In r (cut rs) -> is_rio r = false.
Proof.
  induction rs as [|x rs IH]; cbn [cut]; intros r H; [contradiction|].
  destruct (is_rio x) eqn:E; [contradiction|]. destruct H as [<-|H]; auto.
Qed.

Lemma cut_nth : forall rs k, (k < length (cut rs))%nat -> nth_error (cut rs) k = Some (nth k rs RIO).
Proof.
  intros rs k H. destruct (cut_prefix rs) as [t E]. rewrite E at 2.
  rewrite app_nth1 by exact H. apply nth_error_nth'. exact H.
Qed.

Lemma repeat_n_nth : forall {A} (x : A) n k, (k < n)%nat -> nth_error (repeat_n x n) k = Some x.
Proof. induction n; intros k H; [lia|]. destruct k; cbn; [reflexivity|apply IHn; lia]. Qed.

(** of a pipeline of [m] commands whose replies all arrived, the loop sees the replies themselves *)
Lemma examined_nth : forall n m rs k, complete m rs = true -> (k < n <= m)%nat ->
  nth_error (firstn n (norm m rs)) k = Some (nth k rs RIO).
Proof.
  intros n m rs k Hcm H. unfold norm. rewrite Hcm. apply Nat.leb_le in Hcm.
  rewrite !nth_error_firstn by lia. apply cut_nth. lia.
Qed.

(** … and of a broken one, only the I/O failure *)
Lemma examined_broken : forall n m rs, complete m rs = false -> (0 < n <= m)%nat ->
  exists t, firstn n (norm m rs) = RIO :: t.
Proof.
  intros n m rs Hcm H. unfold norm. rewrite Hcm. destruct n, m; try lia. cbn [repeat_n firstn]. eauto.
Qed.

Lemma exam_none_accepted : forall az k r, exam az k r = ENone -> accepted r = true.
Proof.
  intros az k r. unfold exam. destruct (k =? 0)%nat; [|destruct ((k =? 1)%nat && az)]; destruct r; cbn; congruence.
Qed.

Lemma err_none_accepted : forall r, err_of r = ENone -> accepted r = true.
Proof. destruct r; cbn; congruence. Qed.

Lemma complete_nth : forall m rs k, complete m rs = true -> (k < m)%nat -> nth_error (cut rs) k = Some (nth k rs RIO).
Proof. intros m rs k H Hk. apply Nat.leb_le in H. apply cut_nth. lia. Qed.

(** one turn of the RESP3 loop on the examined error [e] of the reply to [c]: the failure, or the fallback flag
    to go on with *)
Definition step3 (e : cerr) (c : argv) (r2 : bool) : fail + bool :=
  match e with
  | ENone => inr r2
  | ERedis nh =>
    if head_is (bs "READONLY") c then inr r2
    else if negb r2 && nh then inr true
    else if head_is (bs "CLIENT") c then inl FNoCache
    else if r2 then inr r2 else inl FRedis
  | EOther => if head_is (bs "READONLY") c then inr r2 else inl FOther
  end.

Lemma loop3_cons : forall az i c cs r rs r2 proto,
  loop3 az i (c :: cs) (r :: rs) r2 proto =
  match step3 (exam az i r) c r2 with
  | inl f => inl f
  | inr r2' => loop3 az (S i) cs rs r2' (if (i =? 0)%nat then match r with RMapP p => p | _ => 0%Z end else proto)
  end.
Proof.
  intros. cbn [loop3]. unfold step3. destruct (exam az i r) as [|nh|]; [reflexivity| |];
    destruct (head_is (bs "READONLY") c); try reflexivity.
  destruct (negb r2 && nh); [reflexivity|]. destruct (head_is (bs "CLIENT") c); [reflexivity|].
  destruct r2; reflexivity.
Qed.

Lemma step3_mono : forall e c b, step3 e c true = inr b -> b = true.
Proof.
  intros [|nh|] c b; cbn [step3 negb andb]; destruct (head_is (bs "READONLY") c); try congruence.
  destruct (head_is (bs "CLIENT") c); congruence.
Qed.

Lemma step3_clean : forall e c r2, step3 e c r2 = inr false -> head_is (bs "READONLY") c = false -> e = ENone.
Proof.
  intros [|nh|] c r2 H Hro; [reflexivity| |]; cbn [step3] in H; rewrite Hro in H; [|discriminate].
  destruct (negb r2 && nh); [discriminate|]. destruct (head_is (bs "CLIENT") c); [discriminate|].
  destruct r2; discriminate.
Qed.

Lemma step3_raise : forall e c, step3 e c false = inr true -> e = ERedis true.
Proof.
  intros [|nh|] c; cbn [step3 negb andb]; destruct (head_is (bs "READONLY") c); try discriminate.
  destruct nh; [reflexivity|]. destruct (head_is (bs "CLIENT") c); discriminate.
Qed.

Lemma step3_fails : forall e c, head_is (bs "READONLY") c = false -> e <> ENone -> e <> ERedis true ->
  exists f, step3 e c false = inl f.
Proof.
  intros [|nh|] c Hro H1 H2; [congruence| |]; cbn [step3 negb andb]; rewrite Hro; [|eauto].
  destruct nh; [congruence|]. destruct (head_is (bs "CLIENT") c); eauto.
Qed.

Lemma loop3_mono : forall az cs rs i proto r2' proto',
  loop3 az i cs rs true proto = inr (r2', proto') -> r2' = true.
Proof.
  intros az cs. induction cs as [|c cs IH]; intros [|r rs] i proto r2' proto' H; try (cbn in H; congruence).
  rewrite loop3_cons in H. destruct (step3 _ c true) as [f|b] eqn:St; [discriminate|].
  rewrite (step3_mono _ _ _ St) in H. eapply IH; eauto.
Qed.

(** the loop ends with the flag off: no examined reply was an error (READONLY's aside) *)
Lemma loop3_clean : forall az cs rs i r2 proto proto',
  loop3 az i cs rs r2 proto = inr (false, proto') ->
  forall k c r, nth_error cs k = Some c -> nth_error rs k = Some r ->
    head_is (bs "READONLY") c = false -> exam az (i + k) r = ENone.
Proof.
  intros az cs. induction cs as [|c0 cs IH]; intros [|r0 rs] i r2 proto proto' H k c r Hc Hr Hro;
    try (destruct k; discriminate).
  rewrite loop3_cons in H. destruct (step3 _ c0 r2) as [f|b] eqn:St; [discriminate|].
  destruct b; [apply loop3_mono in H; discriminate|].
  destruct k as [|k]; cbn in Hc, Hr.
  - injection Hc as <-. injection Hr as <-. rewrite Nat.add_0_r. eapply step3_clean; eauto.
  - rewrite Nat.add_succ_r. exact (IH _ _ _ _ _ H k c r Hc Hr Hro).
Qed.

(** it ends with the flag on although it started with it off: some examined reply named HELLO as unknown *)
Lemma loop3_flag : forall az cs rs i proto proto',
  loop3 az i cs rs false proto = inr (true, proto') ->
  exists k c r, nth_error cs k = Some c /\ nth_error rs k = Some r /\ exam az (i + k) r = ERedis true.
Proof.
  intros az cs. induction cs as [|c cs IH]; intros [|r rs] i proto proto' H; try (cbn in H; congruence).
  rewrite loop3_cons in H. destruct (step3 _ c false) as [f|[|]] eqn:St; [discriminate| |].
  - exists O, c, r. rewrite Nat.add_0_r. apply step3_raise in St. auto.
  - destruct (IH _ _ _ _ H) as [k [c1 [r1 [A [B C]]]]]. exists (S k), c1, r1. rewrite Nat.add_succ_r. auto.
Qed.

Lemma loop3_first_error : forall az cs rs i proto k c r,
  (forall j cj rj, (j < k)%nat -> nth_error cs j = Some cj -> nth_error rs j = Some rj -> exam az (i + j) rj = ENone) ->
  nth_error cs k = Some c -> nth_error rs k = Some r ->
  head_is (bs "READONLY") c = false ->
  exam az (i + k) r <> ENone -> exam az (i + k) r <> ERedis true ->
  exists f, loop3 az i cs rs false proto = inl f.
Proof.
  intros az cs. induction cs as [|c0 cs IH]; intros [|r0 rs] i proto k c r Hpre Hc Hr Hro Hne Hnh;
    try (destruct k; discriminate).
  rewrite loop3_cons. destruct k as [|k]; cbn in Hc, Hr.
  - injection Hc as <-. injection Hr as <-. rewrite Nat.add_0_r in *.
    destruct (step3_fails _ c0 Hro Hne Hnh) as [f ->]. eauto.
  - assert (E0 : exam az i r0 = ENone)
      by (rewrite <- (Nat.add_0_r i); apply (Hpre O c0 r0); [lia|reflexivity|reflexivity]).
    rewrite E0. cbn [step3].
    rewrite Nat.add_succ_r in Hne, Hnh. apply (IH rs (S i) _ k c r); auto.
    intros j cj rj Hj. rewrite Nat.add_succ_comm. apply (Hpre (S j)). lia.
Qed.

Lemma loop3_proto_S : forall az cs rs i r2 proto r2' proto',
  loop3 az (S i) cs rs r2 proto = inr (r2', proto') -> proto' = proto.
Proof.
  intros az cs. induction cs as [|c cs IH]; intros [|r rs] i r2 proto r2' proto' H; try (cbn in H; congruence).
  rewrite loop3_cons in H. destruct (step3 _ c r2); [discriminate|]. exact (IH _ _ _ _ _ _ H).
Qed.

Lemma loop3_proto : forall az c cs r rs r2 proto r2' proto',
  loop3 az 0 (c :: cs) (r :: rs) r2 proto = inr (r2', proto') -> proto' = match r with RMapP p => p | _ => 0%Z end.
Proof.
  intros az c cs r rs r2 proto r2' proto' H. rewrite loop3_cons in H.
  destruct (step3 _ c r2); [discriminate|]. exact (loop3_proto_S _ _ _ _ _ _ _ _ H).
Qed.

Lemma loop2_none : forall cs rs,
  loop2 cs rs = None ->
  forall k c r, nth_error cs k = Some c -> nth_error rs k = Some r ->
    head_is (bs "READONLY") c = false -> err_of r = ENone \/ err_of r = ERedis true.
Proof.
  induction cs as [|c cs IH]; intros rs H k c0 r Hc Hr Hro; [destruct k; discriminate|].
  destruct rs as [|r0 rs]; [destruct k; discriminate|].
  cbn [loop2] in H. destruct k as [|k]; cbn in Hc, Hr.
  - inversion Hc; inversion Hr; subst. rewrite Hro in H.
    destruct (err_of r) as [|nh|]; [auto| |discriminate]. destruct nh; [auto|discriminate].
  - destruct (head_is (bs "READONLY") c); [eapply IH; eauto|].
    destruct (err_of r0) as [|nh|]; [eapply IH; eauto| |discriminate].
    destruct nh; [eapply IH; eauto|discriminate].
Qed.

Lemma loop2_first_error : forall cs rs k c r,
  (forall j cj rj, (j < k)%nat -> nth_error cs j = Some cj -> nth_error rs j = Some rj -> err_of rj = ENone) ->
  nth_error cs k = Some c -> nth_error rs k = Some r ->
  head_is (bs "READONLY") c = false ->
  err_of r <> ENone -> err_of r <> ERedis true ->
  exists f, loop2 cs rs = Some f.
Proof.
  induction cs as [|c0 cs IH]; intros rs k c r Hpre Hc Hr Hro Hne Hnh; [destruct k; discriminate|].
  destruct rs as [|r0 rs]; [destruct k; discriminate|].
  destruct k as [|k]; cbn in Hc, Hr; cbn [loop2].
  - inversion Hc; inversion Hr; subst. rewrite Hro.
    destruct (err_of r) as [|nh|]; [congruence| |eauto]. destruct nh; [congruence|eauto].
  - assert (E0 : err_of r0 = ENone) by (apply (Hpre O c0 r0); [lia|reflexivity|reflexivity]).
    rewrite E0. destruct (head_is (bs "READONLY") c0); eapply IH; eauto;
      intros j cj rj Hj A B; apply (Hpre (S j) cj rj); auto; lia.
Qed.

Lemma count_of_body : forall o body, count_of o (body ++ setinfo_cmds o) = length body.
Proof.
  intros o body. unfold count_of. rewrite app_length, setinfo_cmds_slots. unfold setinfo_slots.
  destruct (add_setinfo o); cbn; lia.
Qed.

Lemma examined_index : forall o body k c,
  nth_error (body ++ setinfo_cmds o) k = Some c -> is_client "SETINFO" c = false ->
  (k < count_of o (body ++ setinfo_cmds o))%nat.
Proof.
  intros o body k c H Hs. rewrite count_of_body. destruct (Nat.lt_ge_cases k (length body)) as [|Hge]; [assumption|].
  rewrite nth_error_app2, setinfo_cmds_slots in H by exact Hge. apply nth_error_In in H.
  unfold setinfo_slots in H. destruct (add_setinfo o); [|contradiction].
  destruct H as [<-|[<-|[]]]; discriminate.
Qed.

Lemma init3_body : forall o u p, creds o = Some (u, p) ->
  exists rest, init3 o = (hello_cmd u p (o_name o) :: rest) ++ setinfo_cmds o.
Proof.
  intros o u p Hc. rewrite (init3_eq o u p Hc), init3_slots, of_slots_app, <- setinfo_cmds_slots.
  eexists. reflexivity.
Qed.

Lemma init2_body : forall o u p, creds o = Some (u, p) ->
  exists c rest, init2 o = (c :: rest) ++ setinfo_cmds o /\ head_is (bs "READONLY") c = false.
Proof.
  intros o u p Hc. rewrite (init2_eq o u p Hc), init2_slots, app_assoc, of_slots_app, <- setinfo_cmds_slots.
  destruct u, p; do 2 eexists; split; reflexivity.
Qed.

Lemma init3_head_count : forall o u p, creds o = Some (u, p) ->
  exists rest, init3 o = hello_cmd u p (o_name o) :: rest /\ (1 <= count_of o (init3 o) <= length (init3 o))%nat.
Proof.
  intros o u p Hc. destruct (init3_body o u p Hc) as [rest ->]. eexists. split; [reflexivity|].
  rewrite count_of_body, app_length. cbn [length]. lia.
Qed.

Lemma init2_head_count : forall o u p, creds o = Some (u, p) ->
  exists c rest, init2 o = c :: rest /\ head_is (bs "READONLY") c = false /\
                 (1 <= count_of o (init2 o) <= length (init2 o))%nat.
Proof.
  intros o u p Hc. destruct (init2_body o u p Hc) as [c [rest [-> Hro]]]. do 2 eexists. split; [reflexivity|].
  rewrite count_of_body, app_length. cbn [length]. split; [exact Hro|lia].
Qed.

Section Stage1.
  Variable o : opts.
  Variables u p : bytes.
  Hypothesis Hc : creds o = Some (u, p).
  Hypothesis Hr3 : o_resp2 o = false.

  Let n := count_of o (init3 o).

  Lemma eval3_incomplete : forall r3, complete (length (init3 o)) r3 = false -> eval3 o r3 = S1Fail FOther.
  Proof.
    intros r3 Hi. unfold eval3. rewrite Hr3. fold n.
    destruct (init3_head_count o u p Hc) as [rest [E Hn]]. fold n in Hn.
    destruct (examined_broken n _ r3 Hi Hn) as [t ->]. rewrite E.
    destruct n; [lia|]. cbn [firstn]. rewrite loop3_cons. reflexivity.
  Qed.

  (** what a complete first pipeline ends with: no flag after clean replies only, the flag after a reply that
      names HELLO as unknown; and the protocol of HELLO's reply *)
  Lemma eval3_loop : forall r3 r2' proto', complete (length (init3 o)) r3 = true ->
    loop3 (o_az o) 0 (firstn n (init3 o)) (firstn n (norm (length (init3 o)) r3)) false 0%Z = inr (r2', proto') ->
    (if r2' then exists k, (k < n)%nat /\ exam (o_az o) k (nth k r3 RIO) = ERedis true
     else forall k c, (k < n)%nat -> nth_error (init3 o) k = Some c -> head_is (bs "READONLY") c = false ->
            exam (o_az o) k (nth k r3 RIO) = ENone) /\
    proto' = match nth 0 r3 RIO with RMapP pr => pr | _ => 0%Z end.
  Proof.
    intros r3 r2' proto' Hcm L.
    destruct (init3_head_count o u p Hc) as [rest [E Hn]]. fold n in Hn.
    assert (N : forall k, (k < n)%nat ->
              nth_error (firstn n (norm (length (init3 o)) r3)) k = Some (nth k r3 RIO))
      by (intros; apply examined_nth; [exact Hcm|lia]).
    split.
    - destruct r2'.
      + destruct (loop3_flag _ _ _ _ _ _ L) as [k [c [r [A [B C]]]]].
        assert (Hk : (k < length (firstn n (init3 o)))%nat) by (apply nth_error_Some; congruence).
        rewrite firstn_length in Hk. apply Nat.min_glb_lt_iff in Hk as [Hk _].
        exists k. rewrite (N k Hk) in B. injection B as <-. auto.
      + intros k c Hk Hck Hro. apply (loop3_clean _ _ _ _ _ _ _ L k c); auto.
        rewrite nth_error_firstn by exact Hk. exact Hck.
    - specialize (N O ltac:(lia)). rewrite E in L, N. destruct n; [lia|].
      destruct (firstn _ (norm _ r3)) as [|r0 rs0]; [discriminate|]. injection N as ->.
      exact (loop3_proto _ _ _ _ _ _ _ _ _ L).
  Qed.

  (** both readings below: a complete pipeline, [eval3_loop], then the case on the flag and on [proto < 3] *)
  Theorem eval3_ok : forall r3, eval3 o r3 = S1Ok ->
    complete (length (init3 o)) r3 = true /\
    (forall k c, (k < n)%nat -> nth_error (init3 o) k = Some c -> head_is (bs "READONLY") c = false ->
        exam (o_az o) k (nth k r3 RIO) = ENone) /\
    (exists pr, nth 0 r3 RIO = RMapP pr /\ (3 <= pr)%Z).
  Proof.
    intros r3 H.
    destruct (complete (length (init3 o)) r3) eqn:Hcm; [|rewrite (eval3_incomplete _ Hcm) in H; discriminate].
    split; [reflexivity|]. unfold eval3 in H. rewrite Hr3 in H. fold n in H.
    destruct (loop3 _ _ _ _ _ _) as [f|[r2' proto']] eqn:L; [discriminate|].
    destruct (eval3_loop r3 _ _ Hcm L) as [A ->]. destruct r2'; [discriminate|]. split; [exact A|].
    destruct (init3_head_count o u p Hc) as [rest [E Hn]]. fold n in Hn.
    specialize (A O _ ltac:(lia) ltac:(rewrite E; reflexivity) eq_refl). cbn in A.
    destruct (nth 0 r3 RIO); try discriminate. eexists. split; [reflexivity|].
    cbn [orb] in H. destruct (Z.ltb_spec proto 3); [discriminate|assumption].
  Qed.

  Theorem eval3_fallback : forall r3, eval3 o r3 = S1Fallback ->
    complete (length (init3 o)) r3 = true /\
    ((exists k, (k < n)%nat /\ exam (o_az o) k (nth k r3 RIO) = ERedis true) \/
     (exists pr, nth 0 r3 RIO = RMapP pr /\ (pr < 3)%Z)).
  Proof.
    intros r3 H.
    destruct (complete (length (init3 o)) r3) eqn:Hcm; [|rewrite (eval3_incomplete _ Hcm) in H; discriminate].
    split; [reflexivity|]. unfold eval3 in H. rewrite Hr3 in H. fold n in H.
    destruct (loop3 _ _ _ _ _ _) as [f|[r2' proto']] eqn:L; [discriminate|].
    destruct (eval3_loop r3 _ _ Hcm L) as [A ->]. destruct r2'; [left; exact A|right].
    destruct (init3_head_count o u p Hc) as [rest [E Hn]]. fold n in Hn.
    specialize (A O _ ltac:(lia) ltac:(rewrite E; reflexivity) eq_refl). cbn in A.
    destruct (nth 0 r3 RIO); try discriminate. eexists. split; [reflexivity|].
    cbn [orb] in H. destruct (Z.ltb_spec proto 3); [assumption|discriminate].
  Qed.

  Theorem eval3_first_error : forall r3 k c,
    complete (length (init3 o)) r3 = true ->
    (k < n)%nat -> nth_error (init3 o) k = Some c -> head_is (bs "READONLY") c = false ->
    (forall j, (j < k)%nat -> exam (o_az o) j (nth j r3 RIO) = ENone) ->
    exam (o_az o) k (nth k r3 RIO) <> ENone -> exam (o_az o) k (nth k r3 RIO) <> ERedis true ->
    exists f, eval3 o r3 = S1Fail f.
  Proof.
    intros r3 k c Hcm Hk Hck Hro Hpre Hne Hnh.
    destruct (init3_head_count o u p Hc) as [_ [_ Hn]]. fold n in Hn.
    assert (N : forall j, (j < n)%nat ->
              nth_error (firstn n (norm (length (init3 o)) r3)) j = Some (nth j r3 RIO))
      by (intros; apply examined_nth; [exact Hcm|lia]).
    unfold eval3. rewrite Hr3. fold n.
    destruct (loop3_first_error (o_az o) (firstn n (init3 o)) (firstn n (norm (length (init3 o)) r3)) 0 0%Z
                k c (nth k r3 RIO)) as [f ->]; eauto.
    - intros j cj rj Hj _ B. rewrite N in B by lia. injection B as <-. auto.
    - rewrite nth_error_firstn by exact Hk. exact Hck.
  Qed.
End Stage1.

Section Stage2.
  Variable o : opts.
  Variables u p : bytes.
  Hypothesis Hc : creds o = Some (u, p).

  Let n := count_of o (init2 o).

  Lemma eval2_incomplete : forall r, complete (length (init2 o)) r = false -> eval2 o r = Some FOther.
  Proof.
    intros r Hi. unfold eval2. fold n.
    destruct (init2_head_count o u p Hc) as [c [rest [E [Hro Hn]]]]. fold n in Hn.
    destruct (examined_broken n _ r Hi Hn) as [t ->]. rewrite E.
    destruct n; [lia|]. cbn [firstn loop2]. rewrite Hro. reflexivity.
  Qed.

  Theorem eval2_none : forall r, eval2 o r = None ->
    complete (length (init2 o)) r = true /\
    (forall k c, (k < n)%nat -> nth_error (init2 o) k = Some c -> head_is (bs "READONLY") c = false ->
        err_of (nth k r RIO) = ENone \/ err_of (nth k r RIO) = ERedis true).
  Proof.
    intros r H.
    destruct (complete (length (init2 o)) r) eqn:Hcm; [|rewrite (eval2_incomplete _ Hcm) in H; discriminate].
    split; [reflexivity|]. intros k c Hk Hck Hro.
    destruct (init2_head_count o u p Hc) as [_ [_ [_ [_ Hn]]]]. fold n in Hn.
    apply (loop2_none _ _ H k c); auto.
    - rewrite nth_error_firstn by exact Hk. exact Hck.
    - apply examined_nth; [exact Hcm|lia].
  Qed.

  Theorem eval2_first_error : forall r k c,
    complete (length (init2 o)) r = true ->
    (k < n)%nat -> nth_error (init2 o) k = Some c -> head_is (bs "READONLY") c = false ->
    (forall j, (j < k)%nat -> err_of (nth j r RIO) = ENone) ->
    err_of (nth k r RIO) <> ENone -> err_of (nth k r RIO) <> ERedis true ->
    exists f, eval2 o r = Some f.
  Proof.
    intros r k c Hcm Hk Hck Hro Hpre Hne Hnh.
    destruct (init2_head_count o u p Hc) as [_ [_ [_ [_ Hn]]]]. fold n in Hn.
    assert (N : forall j, (j < n)%nat ->
              nth_error (firstn n (norm (length (init2 o)) r)) j = Some (nth j r RIO))
      by (intros; apply examined_nth; [exact Hcm|lia]).
    apply (loop2_first_error (firstn n (init2 o)) _ k c (nth k r RIO)); auto.
    - intros j cj rj Hj _ B. rewrite N in B by lia. injection B as <-. auto.
    - rewrite nth_error_firstn by exact Hk. exact Hck.
  Qed.
End Stage2.

Lemma eval_setup_ok3 : forall o r3 r2, eval_setup o r3 r2 = SetupOk true ->
  exists u p, creds o = Some (u, p) /\ o_resp2 o = false /\ eval3 o r3 = S1Ok.
Proof.
  intros o r3 r2 H. unfold eval_setup in H. destruct (creds o) as [[u p]|] eqn:Hc; [|discriminate].
  exists u, p. split; [reflexivity|].
  destruct (eval3 o r3) eqn:E3; try discriminate.
  - split; [|reflexivity]. unfold eval3 in E3. destruct (o_resp2 o); [discriminate|reflexivity].
  - destruct (negb (o_nocache o)); [discriminate|]. destruct (eval2 o (r2_eff o r3 r2)); discriminate.
Qed.

Lemma eval_setup_ok2 : forall o r3 r2, eval_setup o r3 r2 = SetupOk false ->
  exists u p, creds o = Some (u, p) /\ o_nocache o = true /\ eval3 o r3 = S1Fallback /\
              eval2 o (r2_eff o r3 r2) = None.
Proof.
  intros o r3 r2 H. unfold eval_setup in H. destruct (creds o) as [[u p]|] eqn:Hc; [|discriminate].
  exists u, p. split; [reflexivity|].
  destruct (eval3 o r3) eqn:E3; try discriminate.
  destruct (o_nocache o); cbn [negb] in H; [|discriminate].
  destruct (eval2 o (r2_eff o r3 r2)) eqn:E2; [discriminate|]. auto.
Qed.

(** no user command is ever written on a connection whose setup failed, and on a good one only after the setup *)
Lemma conn_log_ok : forall o r3 r2 user b, eval_setup o r3 r2 = SetupOk b ->
  conn_log o r3 r2 user = setup_cmds o r3 ++ user.
Proof. intros o r3 r2 user b H. unfold conn_log. rewrite H. reflexivity. Qed.

Lemma conn_log_fail : forall o r3 r2 user f, eval_setup o r3 r2 = SetupFail f ->
  conn_log o r3 r2 user = setup_cmds o r3.
Proof. intros o r3 r2 user f H. unfold conn_log. rewrite H. apply app_nil_r. Qed.

Lemma setup_cmds_ok3 : forall o r3 r2, eval_setup o r3 r2 = SetupOk true -> setup_cmds o r3 = init3 o.
Proof.
  intros o r3 r2 H. destruct (eval_setup_ok3 _ _ _ H) as [u [p [Hc [Hr E3]]]].
  unfold setup_cmds, runs_stage2. rewrite Hr, Hc, E3. apply app_nil_r.
Qed.

Lemma setup_cmds_ok2 : forall o r3 r2, eval_setup o r3 r2 = SetupOk false ->
  setup_cmds o r3 = (if o_resp2 o then [] else init3 o) ++ init2 o.
Proof.
  intros o r3 r2 H. destruct (eval_setup_ok2 _ _ _ H) as [u [p [Hc [Hn [E3 _]]]]].
  unfold setup_cmds, runs_stage2. rewrite Hc, E3, Hn. reflexivity.
Qed.

(** the second pipeline gets replies only if the first did not break the connection *)
Lemma r2_eff_complete : forall o r3 r2 n, complete n (r2_eff o r3 r2) = true -> (0 < n)%nat ->
  r2_eff o r3 r2 = r2 /\ stage1_io o r3 = false.
Proof.
  intros o r3 r2 n H Hn. unfold r2_eff in *. destruct (stage1_io o r3); [|auto].
  apply Nat.leb_le in H. cbn in H. lia.
Qed.

(** a successful RESP2 setup, with the second pipeline's replies as given *)
Lemma eval_setup_ok2_replies : forall o r3 r2, eval_setup o r3 r2 = SetupOk false ->
  exists u p, creds o = Some (u, p) /\ o_nocache o = true /\ eval3 o r3 = S1Fallback /\ eval2 o r2 = None /\
              r2_eff o r3 r2 = r2 /\ stage1_io o r3 = false.
Proof.
  intros o r3 r2 H. destruct (eval_setup_ok2 _ _ _ H) as [u [p [Hc [Hn [E3 E2]]]]].
  destruct (eval2_none o u p Hc _ E2) as [Hcm _].
  destruct (init2_head_count o u p Hc) as [_ [_ [_ [_ Hp]]]].
  destruct (r2_eff_complete o r3 r2 _ Hcm ltac:(lia)) as [Er2 Hio]. rewrite Er2 in E2.
  exists u, p. auto 10.
Qed.

Theorem ok3_clean : forall o r3 r2, eval_setup o r3 r2 = SetupOk true ->
  o_resp2 o = false /\ complete (length (init3 o)) r3 = true /\
  (forall k c, (k < count_of o (init3 o))%nat -> nth_error (init3 o) k = Some c -> head_is (bs "READONLY") c = false ->
      exam (o_az o) k (nth k r3 RIO) = ENone) /\
  (exists pr, nth 0 r3 RIO = RMapP pr /\ (3 <= pr)%Z).
Proof.
  intros o r3 r2 H. destruct (eval_setup_ok3 _ _ _ H) as [u [p [Hc [Hr E3]]]].
  split; [exact Hr|]. exact (eval3_ok o u p Hc Hr r3 E3).
Qed.

Theorem ok2_clean : forall o r3 r2, eval_setup o r3 r2 = SetupOk false ->
  o_nocache o = true /\
  (o_resp2 o = false -> complete (length (init3 o)) r3 = true) /\
  complete (length (init2 o)) r2 = true /\
  (forall k c, (k < count_of o (init2 o))%nat -> nth_error (init2 o) k = Some c -> head_is (bs "READONLY") c = false ->
      err_of (nth k r2 RIO) = ENone \/ err_of (nth k r2 RIO) = ERedis true).
Proof.
  intros o r3 r2 H. destruct (eval_setup_ok2_replies _ _ _ H) as [u [p [Hc [Hn [_ [E2 [_ Hio]]]]]]].
  destruct (eval2_none o u p Hc _ E2) as [Hcm Hclean]. repeat split; auto.
  intros Hr. unfold stage1_io in Hio. rewrite Hr in Hio. apply negb_false_iff in Hio. exact Hio.
Qed.

Theorem fallback_only_hello : forall o r3 r2, eval_setup o r3 r2 = SetupOk false ->
  o_resp2 o = true \/
  (exists k, (k < count_of o (init3 o))%nat /\ exam (o_az o) k (nth k r3 RIO) = ERedis true) \/
  (exists pr, nth 0 r3 RIO = RMapP pr /\ (pr < 3)%Z).
Proof.
  intros o r3 r2 H. destruct (eval_setup_ok2 _ _ _ H) as [u [p [Hc [Hn [E3 E2]]]]].
  destruct (o_resp2 o) eqn:Hr; [left; reflexivity|right].
  destruct (eval3_fallback o u p Hc Hr r3 E3) as [_ X]. exact X.
Qed.

Theorem cache_needs_resp3 : forall o r3 r2 b, eval_setup o r3 r2 = SetupOk b -> o_nocache o = false -> b = true.
Proof.
  intros o r3 r2 [|] H Hn; [reflexivity|]. destruct (eval_setup_ok2 _ _ _ H) as [u [p [_ [Hn' _]]]]. congruence.
Qed.

Theorem cred_failure : forall o r3 r2 user, creds o = None ->
  eval_setup o r3 r2 = SetupFail FCred /\ conn_log o r3 r2 user = [].
Proof.
  intros o r3 r2 user Hc. unfold conn_log, setup_cmds, runs_stage2, eval_setup, init3. rewrite Hc.
  split; [reflexivity|]. destruct (o_resp2 o); reflexivity.
Qed.

(** what a command can change: at most the setter of its family; HELLO, the protocol, credentials and name *)
Inductive writes (s : session) (a : argv) : session -> Prop :=
| w_none : writes s a s
| w_hello s' : is_cmd "HELLO" a = true ->
    s_db s' = s_db s -> s_track s' = s_track s -> s_readonly s' = s_readonly s -> s_notouch s' = s_notouch s ->
    s_noevict s' = s_noevict s -> s_redirect s' = s_redirect s -> writes s a s'
| w_auth v : is_cmd "AUTH" a = true -> writes s a (set_auth s v)
| w_db v : is_cmd "SELECT" a = true -> writes s a (set_db s v)
| w_readonly : is_cmd "READONLY" a = true -> writes s a (set_readonly s true)
| w_name v : is_client "SETNAME" a = true -> writes s a (set_name s v)
| w_track v : is_client "TRACKING" a = true -> writes s a (set_track s v)
| w_notouch : is_client "NO-TOUCH" a = true -> writes s a (set_notouch s true)
| w_noevict : is_client "NO-EVICT" a = true -> writes s a (set_noevict s true)
| w_redirect : is_client "CAPA" a = true -> writes s a (set_redirect s true)
| w_libname v : is_client "SETINFO" a = true -> writes s a (set_libname s v)
| w_libver v : is_client "SETINFO" a = true -> writes s a (set_libver s v).

Lemma hello_opts_pres : forall {A} (f : session -> A),
  (forall s v, f (set_auth s v) = f s) -> (forall s v, f (set_name s v) = f s) ->
  forall fuel s a, f (hello_opts fuel s a) = f s.
Proof.
  intros A f Ha Hn. induction fuel as [|fuel IH]; intros s a; [reflexivity|].
  cbn [hello_opts]. destruct a as [|k [|x [|y rest]]]; try reflexivity.
  - destruct (bytes_eqb k (bs "SETNAME")); [apply Hn|reflexivity].
  - destruct (bytes_eqb k (bs "AUTH")); [rewrite IH; apply Ha|].
    destruct (bytes_eqb k (bs "SETNAME")); [rewrite IH; apply Hn|reflexivity].
Qed.

Lemma apply_cmd_writes : forall s a, writes s a (apply_cmd s a).
Proof.
  intros s [|c rest]; [apply w_none|]. cbn [apply_cmd].
  destruct (bytes_eqb c (bs "HELLO")) eqn:E1.
  { destruct rest as [|v l]; [apply w_none|].
    apply w_hello; [exact E1|..];
      (destruct (bytes_eqb v (bs "3")); [|destruct (bytes_eqb v (bs "2"))]);
      cbn [set_proto s_db s_track s_readonly s_notouch s_noevict s_redirect];
      apply hello_opts_pres; reflexivity. }
  destruct (bytes_eqb c (bs "AUTH")) eqn:E2.
  { destruct rest as [|? [|? [|? ?]]]; try apply w_none; apply w_auth; exact E2. }
  destruct (bytes_eqb c (bs "SELECT")) eqn:E3.
  { destruct rest as [|? [|? ?]]; try apply w_none; apply w_db; exact E3. }
  destruct (bytes_eqb c (bs "READONLY")) eqn:E4; [apply w_readonly; exact E4|].
  destruct (bytes_eqb c (bs "CLIENT")) eqn:E5; [|apply w_none].
  destruct rest as [|sub args]; [apply w_none|].
  assert (F : forall name, bytes_eqb sub (bs name) = true -> is_client name (c :: sub :: args) = true)
    by (intros name E; cbn [is_client]; rewrite E5; exact E).
  destruct (bytes_eqb sub (bs "SETNAME")) eqn:C1.
  { destruct args as [|? [|? ?]]; try apply w_none; apply w_name; auto. }
  destruct (bytes_eqb sub (bs "TRACKING")) eqn:C2.
  { destruct args as [|on ?]; [apply w_none|]. destruct (bytes_eqb on (bs "ON")); apply w_track; auto. }
  destruct (bytes_eqb sub (bs "NO-TOUCH")) eqn:C3; [apply w_notouch; auto|].
  destruct (bytes_eqb sub (bs "NO-EVICT")) eqn:C4; [apply w_noevict; auto|].
  destruct (bytes_eqb sub (bs "CAPA")) eqn:C5; [apply w_redirect; auto|].
  destruct (bytes_eqb sub (bs "SETINFO")) eqn:C6; [|apply w_none].
  destruct args as [|k [|v [|? ?]]]; try apply w_none.
  destruct (bytes_eqb k (bs "LIB-NAME")); [apply w_libname; auto|].
  destruct (bytes_eqb k (bs "LIB-VER")); [apply w_libver; auto|apply w_none].
Qed.

(** a field of the session, with the commands that can write it *)
Record field (A : Type) := mkField {
  get : session -> A;
  fam : argv -> bool;
  frame : forall s a, fam a = false -> get (apply_cmd s a) = get s
}.
Arguments get {A}. Arguments fam {A}. Arguments frame {A}.

(** a frame condition: by [apply_cmd_writes] a command outside the family applies a setter of another field *)
Ltac prove_frame :=
  intros s a H; try (apply orb_false_elim in H as [? ?]); destruct (apply_cmd_writes s a); try reflexivity; congruence.

Definition proto_field := mkField _ s_proto (is_cmd "HELLO") ltac:(prove_frame).
Definition auth_field := mkField _ s_auth (fun a => is_cmd "HELLO" a || is_cmd "AUTH" a) ltac:(prove_frame).
Definition name_field := mkField _ s_name (fun a => is_cmd "HELLO" a || is_client "SETNAME" a) ltac:(prove_frame).
Definition db_field := mkField _ s_db (is_cmd "SELECT") ltac:(prove_frame).
Definition track_field := mkField _ s_track (is_client "TRACKING") ltac:(prove_frame).
Definition readonly_field := mkField _ s_readonly (is_cmd "READONLY") ltac:(prove_frame).
Definition notouch_field := mkField _ s_notouch (is_client "NO-TOUCH") ltac:(prove_frame).
Definition noevict_field := mkField _ s_noevict (is_client "NO-EVICT") ltac:(prove_frame).
Definition redirect_field := mkField _ s_redirect (is_client "CAPA") ltac:(prove_frame).

(** in the first pipeline HELLO is the only writer of the name and of the credentials *)
Lemma init3_hello_writes : forall o u p, creds o = Some (u, p) ->
  filter (fam name_field) (init3 o) = [hello_cmd u p (o_name o)] /\
  filter (fam auth_field) (init3 o) = [hello_cmd u p (o_name o)].
Proof. intros o u p Hc. rewrite !(filter_init3 o u p Hc). split; reflexivity. Qed.

Definition accepted_at (cs : list argv) (rs : list reply) (c : argv) : Prop :=
  forall k, nth_error cs k = Some c -> exists r, nth_error rs k = Some r /\ accepted r = true.

Section Field.
  Context {A : Type} (f : session -> A) (writers : argv -> bool).

  (** only the commands of the pipeline need to respect the family *)
  Definition preserved (cs : list argv) : Prop :=
    forall s a, In a cs -> writers a = false -> f (apply_cmd s a) = f s.

  Lemma serve_nofam : forall cs rs s, preserved cs -> filter writers cs = [] -> f (serve s cs rs) = f s.
  Proof.
    induction cs as [|c cs IH]; intros rs s P H; [reflexivity|].
    destruct rs as [|r rs]; [reflexivity|]. cbn [serve]. cbn [filter] in H.
    destruct (writers c) eqn:E; [discriminate|].
    rewrite IH; [|intros ? ? ?; apply P; right; assumption|exact H].
    destruct (accepted r); [apply P; [left; reflexivity|exact E]|reflexivity].
  Qed.

  (** the field ends as [c] leaves it, [c] being applied to a session whose field is still the initial one *)
  Lemma serve_onefam : forall cs rs s c, preserved cs -> filter writers cs = [c] -> accepted_at cs rs c ->
    exists s', f s' = f s /\ f (serve s cs rs) = f (apply_cmd s' c).
  Proof.
    induction cs as [|a cs IH]; intros rs s c P H Hacc; [discriminate|].
    assert (P' : preserved cs) by (intros ? ? ?; apply P; right; assumption).
    cbn [filter] in H. destruct (writers a) eqn:E.
    - injection H as -> H. destruct (Hacc O eq_refl) as [r [Hr Ha]].
      destruct rs as [|r0 rs]; [discriminate|]. injection Hr as ->.
      exists s. cbn [serve]. rewrite Ha. split; [reflexivity|]. apply serve_nofam; assumption.
    - assert (Hin : In c (filter writers cs)) by (rewrite H; left; reflexivity).
      apply filter_In in Hin as [Hin _]. destruct (In_nth_error _ _ Hin) as [k Hk].
      destruct (Hacc (S k) Hk) as [r [Hr _]].
      destruct rs as [|r0 rs]; [discriminate|]. cbn [serve].
      destruct (IH rs (if accepted r0 then apply_cmd s a else s) c P' H (fun j => Hacc (S j))) as [s' [Es ->]].
      exists s'. split; [|reflexivity]. rewrite Es.
      destruct (accepted r0); [apply P; [left; reflexivity|exact E]|reflexivity].
  Qed.

  Lemma serve_field : forall cs rs s b c, preserved cs -> filter writers cs = opt_cmd b c ->
    (b = true -> accepted_at cs rs c) ->
    exists s', f s' = f s /\ f (serve s cs rs) = if b then f (apply_cmd s' c) else f s'.
  Proof.
    intros cs rs s [|] c P H Hacc; [apply serve_onefam; auto|].
    exists s. split; [reflexivity|]. apply serve_nofam; assumption.
  Qed.
End Field.

(** under a successful RESP3 setup every examined command but READONLY was accepted *)
Lemma stage1_accepted : forall o u p r3 c,
  creds o = Some (u, p) -> o_resp2 o = false -> eval3 o r3 = S1Ok ->
  is_client "SETINFO" c = false -> head_is (bs "READONLY") c = false -> accepted_at (init3 o) (cut r3) c.
Proof.
  intros o u p r3 c Hc Hr H3 Hs Hro k Hk.
  destruct (eval3_ok o u p Hc Hr r3 H3) as [Hcm [Hclean _]].
  assert (Hlt : (k < count_of o (init3 o))%nat)
    by (destruct (init3_body o u p Hc) as [rest E]; rewrite E in *; eapply examined_index; eauto).
  exists (nth k r3 RIO). split.
  - apply (complete_nth _ _ _ Hcm). apply nth_error_Some. congruence.
  - eapply exam_none_accepted, Hclean; eauto.
Qed.

(** after a successful RESP3 setup a field is what its one writer [c] in the first pipeline made of the initial
    value ([v]), or the initial value if the pipeline has no writer for it *)
Theorem session3_field : forall {A} (F : field A) o r3 r2 b c (v : A -> A),
  eval_setup o r3 r2 = SetupOk true ->
  filter (fam F) (init3 o) = opt_cmd b c ->
  is_client "SETINFO" c = false -> head_is (bs "READONLY") c = false ->
  (forall s, get F (apply_cmd s c) = v (get F s)) ->
  get F (final_session o r3 r2) = if b then v (get F session0) else get F session0.
Proof.
  intros A F o r3 r2 b c v H Hf Hs Hro Hv. destruct (eval_setup_ok3 _ _ _ H) as [u [p [Hc [Hr E3]]]].
  replace (final_session o r3 r2) with (serve session0 (init3 o) (cut r3))
    by (unfold final_session, runs_stage2; rewrite Hr, Hc, E3; reflexivity).
  destruct (serve_field (get F) (fam F) (init3 o) (cut r3) session0 b c) as [s [E ->]];
    [intros s a _; apply frame|exact Hf|intros _; eapply stage1_accepted; eauto|].
  rewrite Hv, E. reflexivity.
Qed.

Lemma hello_effect : forall s u p n,
  let s' := apply_cmd s (hello_cmd u p n) in
  s_proto s' = 3 /\
  s_name s' = (if is_empty n then s_name s else n) /\
  s_auth s' = match u, p with
              | [], [] => s_auth s
              | [], _ => Some (bs "default", p)
              | _, _ => Some (u, p)
              end.
Proof. intros s [|a u] [|b p] [|c n]; repeat split; reflexivity. Qed.

(** no reply other than HELLO's names HELLO as an unknown command (what every real server satisfies) *)
Definition honest2 (o : opts) (r : list reply) : Prop :=
  forall k c, nth_error (init2 o) k = Some c -> is_cmd "HELLO" c = false -> err_of (nth k r RIO) <> ERedis true.

Lemma stage2_accepted : forall o u p r c,
  creds o = Some (u, p) -> eval2 o r = None -> honest2 o r ->
  is_client "SETINFO" c = false -> head_is (bs "READONLY") c = false -> is_cmd "HELLO" c = false ->
  accepted_at (init2 o) (cut r) c.
Proof.
  intros o u p r c Hc H2 Hh Hs Hro Hhe k Hk.
  destruct (eval2_none o u p Hc r H2) as [Hcm Hclean].
  assert (Hlt : (k < count_of o (init2 o))%nat)
    by (destruct (init2_body o u p Hc) as [c0 [rest [E _]]]; rewrite E in *; eapply examined_index; eauto).
  exists (nth k r RIO). split.
  - apply (complete_nth _ _ _ Hcm). apply nth_error_Some. congruence.
  - destruct (Hclean k c Hlt Hk Hro) as [Hn|Hn]; [apply err_none_accepted; exact Hn|].
    destruct (Hh k c Hk Hhe Hn).
Qed.

(** the same after a successful RESP2 setup, for a field whose writers stand under the same condition in both
    pipelines: the second pipeline's writer [c] sets it to [v] *)
Theorem session2_field : forall {A} (F : field A) o r3 r2 b c3 c (v : A),
  eval_setup o r3 r2 = SetupOk false -> honest2 o r2 ->
  filter (fam F) (init3 o) = opt_cmd b c3 -> filter (fam F) (init2 o) = opt_cmd b c ->
  is_client "SETINFO" c = false -> head_is (bs "READONLY") c = false -> is_cmd "HELLO" c = false ->
  (b = true -> forall s, get F (apply_cmd s c) = v) ->
  get F (final_session o r3 r2) = if b then v else get F session0.
Proof.
  intros A F o r3 r2 b c3 c v H Hh F3 F2 Hs Hro Hhe Hv.
  destruct (eval_setup_ok2_replies _ _ _ H) as [u [p [Hc [Hn [E3 [E2 [Er2 _]]]]]]].
  unfold final_session, runs_stage2. rewrite Hc, E3, Hn, Er2.
  destruct (serve_field (get F) (fam F) (init2 o) (cut r2) (if o_resp2 o then session0 else serve session0 (init3 o) (cut r3)) b c)
    as [s [E ->]]; [intros s a _; apply frame|exact F2|intros _; eapply stage2_accepted; eauto|].
  destruct b; [apply Hv; reflexivity|]. rewrite E. destruct (o_resp2 o); [reflexivity|].
  apply (serve_nofam (get F) (fam F)); [intros s0 a _; apply frame|exact F3].
Qed.

(** the one HELLO of the second pipeline is HELLO 2, which carries no SETNAME: CLIENT SETNAME alone writes the name *)
Lemma session2_name : forall o r3 r2,
  eval_setup o r3 r2 = SetupOk false -> honest2 o r2 -> is_empty (o_name o) = false ->
  s_name (final_session o r3 r2) = o_name o.
Proof.
  intros o r3 r2 H Hh Hne.
  destruct (eval_setup_ok2_replies _ _ _ H) as [u [p [Hc [Hn [E3 [E2 [Er2 _]]]]]]].
  unfold final_session, runs_stage2. rewrite Hc, E3, Hn, Er2.
  pose proof (init2_setname o u p Hc) as Fn. rewrite Hne in Fn.
  destruct (serve_onefam s_name (is_client "SETNAME") (init2 o) (cut r2)
              (if o_resp2 o then session0 else serve session0 (init3 o) (cut r3)) [bs "CLIENT"; bs "SETNAME"; o_name o])
    as [s [_ ->]]; [|exact Fn|eapply stage2_accepted; eauto|reflexivity].
  intros s a Hin Ha. destruct (is_cmd "HELLO" a) eqn:Eh; [|apply (frame name_field); cbn; rewrite Eh; exact Ha].
  assert (Hf : In a (filter (is_cmd "HELLO") (init2 o))) by (apply filter_In; auto).
  rewrite (init2_hello o u p Hc) in Hf. destruct Hf as [<-|[]]. reflexivity.
Qed.
