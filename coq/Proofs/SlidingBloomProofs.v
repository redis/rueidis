(** Model/SlidingBloom.v (C37).  [Inv x t]: the item's bits are in the current filter and the lock outlives either
    [t] (bits also in the next filter) or [t + wh]; established by Add, kept by every non-destructive step in the window. *)
From Coq Require Import List NArith ZArith Bool Lia.
Require Import RV.Model.Base RV.Model.Bloom RV.Model.SlidingBloom RV.Proofs.BloomProofs.
Import ListNotations.
Open Scope Z_scope.

Definition covers (b : bitmap) (l : list N) : Prop := forall i, In i l -> testbit b i = true.

Lemma covers_added : forall idxs b l, incl l idxs \/ covers b l -> covers (rev idxs ++ b) l.
Proof. intros idxs b l H i Hi. apply testbit_added. destruct H as [H|H]; [left|right]; apply H, Hi. Qed.

Lemma sadd_loop_bits : forall kk idxs i one cnt c n,
  fst (fst (sadd_loop kk i one cnt idxs c n)) = rev idxs ++ c /\
  snd (fst (sadd_loop kk i one cnt idxs c n)) = rev idxs ++ n.
Proof.
  intros kk idxs. induction idxs as [|x t IH]; intros i one cnt c n; cbn [sadd_loop rev app fst snd].
  - split; reflexivity.
  - destruct (boundary kk i); unfold setbit; rewrite <- !app_assoc; cbn [app]; apply IH.
Qed.

Lemma sadd_script_nonempty : forall wh now kk idxs s s0,
  idxs <> [] -> rotate wh now s = SOk s0 tt ->
  exists cc nc v, sadd_script wh now kk idxs s =
    SOk {| cur := Some (rev idxs ++ getb (cur s0)); nxt := Some (rev idxs ++ getb (nxt s0));
           ccnt := Some cc; ncnt := Some nc; lock := lock s0 |} v.
Proof.
  intros wh now kk idxs s s0 Hne Hr. unfold sadd_script. rewrite Hr.
  destruct idxs as [|i0 r0]; [contradiction|].
  pose proof (sadd_loop_bits kk (i0 :: r0) 1%N 0%N 0%N (getb (cur s0)) (getb (nxt s0))) as [Hb1 Hb2].
  destruct (sadd_loop kk 1%N 0%N 0%N (i0 :: r0) (getb (cur s0)) (getb (nxt s0))) as [[c n] cnt].
  cbn [fst snd] in Hb1, Hb2. subst c n. eexists _, _, _. reflexivity.
Qed.

Section Client.
  Variable K : Type.
  Variable hash : K -> N * N.
  Variable size k : N.
  Variable wh : Z.
  Hypothesis Hk : (1 <= k)%N.
  Hypothesis Hsize : (0 < size)%N.

  Notation idx := (indexes_of K hash size k).
  Notation sstep := (sstep K hash size k wh).
  Notation srun := (srun K hash size k wh).

  Lemma ssane_true : SlidingBloom.sane size k = true.
  Proof. exact (sane_params size k Hk Hsize). Qed.

  Lemma flat_nonempty : forall y ys, flat_map idx (y :: ys) <> [].
  Proof.
    intros y ys H. cbn [flat_map] in H. apply app_eq_nil in H. destruct H as [H _].
    pose proof (indexes_of_length K hash size k y) as Hl. rewrite H in Hl. cbn [length] in Hl. lia.
  Qed.

  (** the invariant that carries an item [x] added at time [t] through the half window *)
  Definition Inv (x : K) (t : Z) (s : sstate) : Prop :=
    exists c n cc nc,
      cur s = Some c /\ nxt s = Some n /\ ccnt s = Some cc /\ ncnt s = Some nc /\
      covers c (idx x) /\
      ((covers n (idx x) /\ exists p, lock s = Some p /\ t < p) \/ exists p, lock s = Some p /\ t + wh < p).

  Lemma rotate_lock : forall t s s0, rotate wh t s = SOk s0 tt -> 0 < wh /\ exists p, lock s0 = Some p /\ t < p.
  Proof.
    intros t s s0 H. unfold rotate in H. destruct (wh <=? 0) eqn:E; [discriminate|]. split; [lia|].
    destruct (lock_alive s t) eqn:Ha.
    - inversion H; subst s0. unfold lock_alive in Ha. destruct (lock s) as [p|]; [|discriminate]. exists p. split; [reflexivity|lia].
    - destruct (nxt s); [|discriminate]. destruct (ncnt s); [|discriminate]. inversion H; subst s0. cbn [lock].
      exists (t + wh). split; [reflexivity|lia].
  Qed.

  Lemma rotate_inv : forall x t s u, 0 < wh -> t <= u <= t + wh -> Inv x t s ->
    exists s1, rotate wh u s = SOk s1 tt /\ Inv x t s1.
  Proof.
    intros x t s u Hwh Hu [c [n [cc [nc [Hc [Hn [Hcc [Hnc [Hcov Hor]]]]]]]]].
    unfold rotate. assert (wh <=? 0 = false) as -> by lia.
    destruct (lock_alive s u) eqn:Ha.
    - exists s. split; [reflexivity|]. exists c, n, cc, nc. repeat split; assumption.
    - destruct Hor as [[Hn' [p [Hp Hlt]]]|[p [Hp Hle]]].
      + rewrite Hn, Hnc. eexists. split; [reflexivity|].
        exists n, [], nc, 0. cbn [cur nxt ccnt ncnt lock]. repeat split; try reflexivity; try assumption.
        right. exists (u + wh). split; [reflexivity|].
        unfold lock_alive in Ha. rewrite Hp in Ha. lia.
      + unfold lock_alive in Ha. rewrite Hp in Ha. lia.
  Qed.

  Lemma incl_idx_flat : forall x keys, In x keys -> incl (idx x) (flat_map idx keys).
  Proof. intros x keys Hin i Hi. apply in_flat_map. exists x. split; assumption. Qed.

  (** a successful Add establishes the invariant, from ANY state (and shows that the window half is positive) *)
  Lemma add_establishes : forall s t keys x s1,
    In x keys -> sstep s t (SAdd keys) = (s1, XDone) -> 0 < wh /\ Inv x t s1.
  Proof using Hk Hsize.
    intros s t keys x s1 Hin H. destruct keys as [|y ys]; [contradiction|].
    cbn [SlidingBloom.sstep] in H. rewrite ssane_true in H.
    destruct (rotate wh t s) as [s0 []|s0] eqn:Hr.
    - destruct (sadd_script_nonempty wh t k (flat_map idx (y :: ys)) s s0 (flat_nonempty y ys) Hr) as [cc [nc [v Hs]]].
      rewrite Hs in H. inversion H; subst s1. clear H.
      destruct (rotate_lock t s s0 Hr) as [Hwh Hlock]. split; [exact Hwh|].
      eexists _, _, cc, nc. cbn [cur nxt ccnt ncnt lock]. repeat split; try reflexivity.
      + apply covers_added. left. exact (incl_idx_flat x (y :: ys) Hin).
      + left. split; [|exact Hlock]. apply covers_added. left. exact (incl_idx_flat x (y :: ys) Hin).
    - unfold sadd_script in H. rewrite Hr in H. inversion H.
  Qed.

  Lemma add_preserves : forall x t s u keys, 0 < wh -> t <= u <= t + wh -> Inv x t s ->
    snd (sstep s u (SAdd keys)) = XDone /\ Inv x t (fst (sstep s u (SAdd keys))).
  Proof.
    intros x t s u keys Hwh Hu HI. destruct keys as [|y ys]; [split; [reflexivity|exact HI]|].
    cbn [SlidingBloom.sstep]. rewrite ssane_true.
    destruct (rotate_inv x t s u Hwh Hu HI) as [s0 [Hr [c [n [cc [nc [Hc [Hn [Hcc [Hnc [Hcov Hor]]]]]]]]]]].
    destruct (sadd_script_nonempty wh u k (flat_map idx (y :: ys)) s s0 (flat_nonempty y ys) Hr) as [cc' [nc' [v Hs]]].
    rewrite Hs. cbn [fst snd]. split; [reflexivity|].
    eexists _, _, cc', nc'. cbn [cur nxt ccnt ncnt lock]. repeat split; try reflexivity.
    - rewrite Hc. cbn [getb]. apply covers_added. right. exact Hcov.
    - destruct Hor as [[Hn' Hl]|Hlock]; [left|right; exact Hlock].
      split; [|exact Hl]. rewrite Hn. cbn [getb]. apply covers_added. right. exact Hn'.
  Qed.

  (** Exists within the half window: per key in order, and true for the item *)
  Lemma exists_in_window : forall x t s u qs, 0 < wh -> t <= u <= t + wh -> Inv x t s ->
    Inv x t (fst (sstep s u (SExists qs))) /\
    exists bs, snd (sstep s u (SExists qs)) = XBools (Ok bs) /\ length bs = length qs /\
      forall i, nth_error qs i = Some x -> nth_error bs i = Some true.
  Proof using Hk Hsize.
    intros x t s u qs Hwh Hu HI. destruct qs as [|q qs'].
    - cbn [SlidingBloom.sstep fst snd]. split; [exact HI|]. exists []. split; [reflexivity|]. split; [reflexivity|].
      intros i Hi. destruct i; discriminate.
    - cbn [SlidingBloom.sstep]. rewrite ssane_true. unfold sexists_script.
      destruct (rotate_inv x t s u Hwh Hu HI) as [s0 [Hr HI0]]. rewrite Hr. cbn [fst snd].
      split; [exact HI0|].
      destruct HI0 as [c [n [cc [nc [Hc [Hn [Hcc [Hnc [Hcov Hor]]]]]]]]].
      rewrite Hc. cbn [getb]. rewrite (exists_loop_keys K hash size k Hk Hsize), fill_results_map.
      eexists. split; [reflexivity|]. split; [apply map_length|].
      intros i Hi. rewrite nth_error_map, Hi. cbn [option_map]. f_equal.
      apply forallb_forall. exact Hcov.
  Qed.

  Lemma step_preserves : forall x t s u o, 0 < wh -> t <= u <= t + wh -> sdestructive K o = false ->
    Inv x t s -> Inv x t (fst (sstep s u o)).
  Proof.
    intros x t s u o Hwh Hu Hd HI. destruct o as [|keys|keys| | |]; try discriminate.
    - (* SInit: the keys exist, nothing happens *)
      cbn [SlidingBloom.sstep]. unfold sinit_script.
      destruct HI as (c & n & cc & nc & Hc & Hrest).
      rewrite Hc. cbn [fst]. exists c, n, cc, nc. exact (conj Hc Hrest).
    - apply add_preserves; assumption.
    - apply exists_in_window; assumption.
    - exact HI.
  Qed.

  Lemma run_preserves : forall x t post s, 0 < wh ->
    Forall (fun p => t <= fst p <= t + wh /\ sdestructive K (snd p) = false) post ->
    Inv x t s -> Inv x t (srun s post).
  Proof using Hk Hsize.
    intros x t post. induction post as [|[u o] r IH]; intros s Hwh Hall HI; cbn [SlidingBloom.srun]; [exact HI|].
    pose proof (Forall_inv Hall) as [Hu Hd]. pose proof (Forall_inv_tail Hall) as Hr. cbn [fst snd] in Hu, Hd.
    apply IH; [exact Hwh|exact Hr|]. apply step_preserves; assumption.
  Qed.
End Client.
