(** Model/Bloom.v (C35).  [chunked_chunks]: a loop with the test [i % k == 0] emits one verdict per chunk of k values
    (shared with the counting and sliding filters); [no_false_negative]: an added item stays a member. *)
From Coq Require Import List NArith Bool Lia.
Require Import RV.Model.Base RV.Model.Bloom.
Import ListNotations.
Open Scope N_scope.

Lemma testbit_app : forall l b i, testbit (l ++ b) i = testbit l i || testbit b i.
Proof. intros. unfold testbit. apply existsb_app. Qed.

Lemma testbit_In : forall l i, testbit l i = true <-> In i l.
Proof.
  intros l i. unfold testbit. rewrite existsb_exists. split.
  - intros [x [Hin Hx]]. apply N.eqb_eq in Hx. subst. exact Hin.
  - intros H. exists i. split; [exact H|apply N.eqb_refl].
Qed.

Lemma testbit_added : forall idxs b i, In i idxs \/ testbit b i = true -> testbit (rev idxs ++ b) i = true.
Proof.
  intros idxs b i H. rewrite testbit_app. apply orb_true_iff.
  destruct H as [H|H]; [left; apply testbit_In; rewrite <- in_rev; exact H|right; exact H].
Qed.

Lemma testbit_setbit_mono : forall b i j, testbit b i = true -> testbit (setbit b j) i = true.
Proof. intros b i j H. unfold setbit, testbit in *. cbn [existsb]. rewrite H. apply orb_true_r. Qed.

Lemma boundary_pos : forall kk q j, kk <> 0 -> 1 <= j -> j <= kk ->
  boundary kk (q * kk + j) = (j =? kk).
Proof.
  intros kk q j Hk H1 H2. unfold boundary.
  destruct (kk =? 0) eqn:E; [apply N.eqb_eq in E; contradiction|].
  rewrite N.add_comm, N.mod_add by exact Hk.
  destruct (N.eq_dec j kk) as [->|Hne].
  - rewrite N.mod_same by exact Hk. rewrite (N.eqb_refl kk). reflexivity.
  - rewrite N.mod_small by lia.
    destruct (j =? 0) eqn:E0; [apply N.eqb_eq in E0; lia|].
    symmetry. apply N.eqb_neq. exact Hne.
Qed.

(** The scripts' and the client's loops all walk a flat list with a 1-based position, fold an accumulator, and at
    every position divisible by [kk] emit a verdict and start again from [init].  [chunked] is that loop; over a
    concatenation of chunks of length [kk] it yields one verdict per chunk. *)
Section Chunked.
  Variables A B R : Type.
  Variable step : B -> A -> B.
  Variable init : B.
  Variable out : B -> R.

  Fixpoint chunked (kk i : N) (acc : B) (l : list A) : list R :=
    match l with
    | [] => []
    | x :: r =>
      if boundary kk i then out (step acc x) :: chunked kk (i + 1) init r
      else chunked kk (i + 1) (step acc x) r
    end.

  (** [j] is the position inside the chunk: the chunk's remaining elements end exactly at position [kk] *)
  Lemma chunked_chunk : forall kk chunk rest q j acc,
    kk <> 0 -> 1 <= j -> j <= kk -> N.of_nat (length chunk) + j = kk + 1 ->
    chunked kk (q * kk + j) acc (chunk ++ rest) =
    out (fold_left step chunk acc) :: chunked kk ((q + 1) * kk + 1) init rest.
  Proof.
    intros kk chunk. induction chunk as [|x t IH]; intros rest q j acc Hk H1 H2 Hlen; cbn [length] in Hlen; [lia|].
    cbn [app chunked fold_left]. rewrite boundary_pos by assumption.
    destruct (N.eqb_spec j kk) as [->|Hne].
    - destruct t; [|cbn [length] in Hlen; lia].
      replace (q * kk + kk + 1) with ((q + 1) * kk + 1) by lia. reflexivity.
    - replace (q * kk + j + 1) with (q * kk + (j + 1)) by lia. apply IH; lia.
  Qed.

  Lemma chunked_chunks : forall kk chunks q,
    kk <> 0 -> Forall (fun c => N.of_nat (length c) = kk) chunks ->
    chunked kk (q * kk + 1) init (concat chunks) = map (fun c => out (fold_left step c init)) chunks.
  Proof.
    intros kk chunks. induction chunks as [|c cs IH]; intros q Hk Hall; [reflexivity|].
    pose proof (Forall_inv Hall) as Hc. cbn beta in Hc. cbn [concat map].
    rewrite chunked_chunk by lia. rewrite IH by (try apply (Forall_inv_tail Hall); assumption). reflexivity.
  Qed.
End Chunked.

Definition count_bit (b : bitmap) (one ix : N) : N := one + bit_of (testbit b ix).

Lemma exists_loop_chunked : forall kk b idxs i one,
  exists_loop kk i one idxs b = chunked N N bool (count_bit b) 0 (fun one => one =? kk) kk i one idxs.
Proof.
  intros kk b idxs. induction idxs as [|x t IH]; intros i one; cbn [exists_loop chunked]; [reflexivity|].
  destruct (boundary kk i); rewrite IH; reflexivity.
Qed.

Lemma count_bits_le : forall b l one, fold_left (count_bit b) l one <= one + N.of_nat (length l).
Proof.
  intros b l. induction l as [|x l IH]; intros one; cbn [fold_left length]; [lia|].
  specialize (IH (count_bit b one x)). unfold count_bit, bit_of in *. destruct (testbit b x); lia.
Qed.

Lemma count_bits_all : forall b l one,
  (fold_left (count_bit b) l one =? one + N.of_nat (length l)) = forallb (testbit b) l.
Proof.
  intros b l. induction l as [|x l IH]; intros one; cbn [fold_left length forallb].
  - rewrite N.add_0_r. apply N.eqb_refl.
  - unfold count_bit at 2, bit_of. destruct (testbit b x); cbn [andb].
    + rewrite <- (IH (one + 1)). f_equal. lia.
    + pose proof (count_bits_le b l (one + 0)). apply N.eqb_neq. lia.
Qed.

Lemma exists_loop_chunks : forall kk b chunks,
  kk <> 0 -> Forall (fun c => N.of_nat (length c) = kk) chunks ->
  exists_loop kk 1 0 (concat chunks) b = map (forallb (testbit b)) chunks.
Proof.
  intros kk b chunks Hk Hall. rewrite exists_loop_chunked.
  rewrite (chunked_chunks _ _ _ (count_bit b) 0 _ kk chunks 0 Hk Hall).
  apply map_ext_in. intros c Hc. rewrite Forall_forall in Hall. rewrite <- (Hall c Hc). apply count_bits_all.
Qed.

Lemma add_loop_bits : forall kk idxs i one cnt b,
  fst (add_loop kk i one cnt idxs b) = rev idxs ++ b.
Proof.
  intros kk idxs. induction idxs as [|x t IH]; intros i one cnt b; cbn [add_loop rev app fst].
  - reflexivity.
  - destruct (boundary kk i); rewrite IH; unfold setbit; rewrite <- app_assoc; reflexivity.
Qed.

Lemma add_loop_count : forall kk idxs i one cnt b,
  cnt <= snd (add_loop kk i one cnt idxs b).
Proof.
  intros kk idxs. induction idxs as [|x t IH]; intros i one cnt b; cbn [add_loop snd].
  - lia.
  - destruct (boundary kk i).
    + destruct (one + bit_of (testbit b x) =? kk).
      * apply IH.
      * eapply N.le_trans; [|apply IH]. lia.
    + apply IH.
Qed.

Lemma add_script_bits : forall kk idxs f, bits (add_script kk idxs f) = rev idxs ++ bits f.
Proof.
  intros. unfold add_script. pose proof (add_loop_bits kk idxs 1 0 0 (bits f)) as H.
  destruct (add_loop kk 1 0 0 idxs (bits f)) as [b c]. cbn [fst] in H. cbn [bits]. exact H.
Qed.

Lemma add_script_count : forall kk idxs f, count f <= count (add_script kk idxs f).
Proof.
  intros. unfold add_script. pose proof (add_loop_count kk idxs 1 0 0 (bits f)) as H.
  destruct (add_loop kk 1 0 0 idxs (bits f)) as [b c]. cbn [snd] in H. cbn [count]. lia.
Qed.

Lemma fill_results_exact : forall l, fill_results (length l) l = Ok l.
Proof. induction l as [|x l IH]; cbn [fill_results length repeat_n]; [reflexivity|rewrite IH; reflexivity]. Qed.

(** one verdict per key: the conversion loop of ExistsMulti never indexes beyond [len(keys)] *)
Lemma fill_results_map : forall (A : Type) (g : A -> bool) (keys : list A),
  fill_results (length keys) (map g keys) = Ok (map g keys).
Proof. intros A g keys. rewrite <- (map_length g keys) at 1. apply fill_results_exact. Qed.

Lemma sane_params : forall size k, 1 <= k -> 0 < size -> negb (size =? 0) && negb (k =? 0) = true.
Proof. intros size k Hk Hsize. apply andb_true_intro. split; apply negb_true_iff, N.eqb_neq; lia. Qed.

Section Client.
  Variable K : Type.
  Variable hash : K -> N * N.
  Variable size k : N.
  Hypothesis Hk : 1 <= k.
  Hypothesis Hsize : 0 < size.

  Notation indexes_of := (indexes_of K hash size k).
  Notation indexes := (indexes K hash size k).
  Notation step := (step K hash size k).
  Notation run := (run K hash size k).
  Notation final := (final K hash size k).
  Notation member := (member K hash size k).

  Lemma indexes_of_length : forall x, N.of_nat (length (indexes_of x)) = k.
  Proof using Type.
    intros x. unfold Bloom.indexes_of. destruct (hash x) as [h1 h2].
    rewrite map_length, seq_length. apply N2Nat.id.
  Qed.

  Lemma indexes_ok : forall keys, indexes keys = Ok (flat_map indexes_of keys).
  Proof using Hk Hsize.
    intros keys. unfold Bloom.indexes.
    assert (size =? 0 = false) as -> by (apply N.eqb_neq; lia). reflexivity.
  Qed.

  Lemma index_lt_size : forall h1 h2 i, index size h1 h2 i < size.
  Proof using Hk Hsize. intros. unfold index. apply N.mod_lt. lia. Qed.

  Lemma exists_loop_keys : forall b keys,
    exists_loop k 1 0 (flat_map indexes_of keys) b = map (fun x => forallb (testbit b) (indexes_of x)) keys.
  Proof using Hk Hsize.
    intros b keys. rewrite flat_map_concat_map, exists_loop_chunks, map_map; [reflexivity|lia|].
    apply Forall_map, Forall_forall. intros x _. apply indexes_of_length.
  Qed.

  (** what a step does to the bitmap, empty key lists included *)
  Lemma step_bits : forall f o,
    bits (fst (step f o)) =
    match o with
    | OAdd keys => rev (flat_map indexes_of keys) ++ bits f
    | OReset | ODelete => []
    | _ => bits f
    end.
  Proof using Hk Hsize.
    intros f o. destruct o as [[|y ys]|[|y ys]| | |]; cbn [Bloom.step]; rewrite ?indexes_ok; cbn [fst];
    rewrite ?add_script_bits; reflexivity.
  Qed.

  Lemma member_after_add : forall f keys x, In x keys -> member (fst (step f (OAdd keys))) x = true.
  Proof.
    intros f keys x Hin. unfold Bloom.member. rewrite step_bits. apply forallb_forall. intros i Hi.
    apply testbit_added. left. apply in_flat_map. exists x. split; assumption.
  Qed.

  Lemma member_preserved : forall f o x, destructive K o = false -> member f x = true ->
    member (fst (step f o)) x = true.
  Proof.
    intros f o x Hd Hm. unfold Bloom.member in *. rewrite step_bits.
    destruct o; try discriminate Hd; try exact Hm.
    rewrite forallb_forall in *. intros i Hi. apply testbit_added. right. apply Hm, Hi.
  Qed.

  Lemma final_cons : forall o r f, final f (o :: r) = final (fst (step f o)) r.
  Proof.
    intros. unfold Bloom.final. cbn [Bloom.run]. destruct (step f o) as [f1 v]. cbn [fst].
    destruct (run f1 r). reflexivity.
  Qed.

  Lemma final_app : forall a b f, final f (a ++ b) = final (final f a) b.
  Proof.
    induction a as [|o a IH]; intros b f; [reflexivity|].
    cbn [app]. rewrite !final_cons. apply IH.
  Qed.

  Lemma member_final : forall post f x, forallb (fun o => negb (destructive K o)) post = true ->
    member f x = true -> member (final f post) x = true.
  Proof.
    induction post as [|o r IH]; intros f x Hnd Hm; [exact Hm|].
    cbn [forallb] in Hnd. apply andb_prop in Hnd. destruct Hnd as [Ho Hr].
    rewrite final_cons. apply IH; [exact Hr|].
    apply member_preserved; [apply negb_true_iff, Ho|exact Hm].
  Qed.

  (** the C35 core: an added item stays a member through every history without Reset/Delete *)
  Theorem no_false_negative : forall f0 pre keys post x,
    In x keys -> forallb (fun o => negb (destructive K o)) post = true ->
    member (final f0 (pre ++ OAdd keys :: post)) x = true.
  Proof.
    intros f0 pre keys post x Hin Hnd.
    rewrite final_app, final_cons. apply member_final; [exact Hnd|].
    apply member_after_add. exact Hin.
  Qed.

  Lemma count_monotone_step : forall f o, destructive K o = false -> count f <= count (fst (step f o)).
  Proof using Hk Hsize.
    intros f o Hd. destruct o as [[|y ys]|[|y ys]| | |]; try discriminate Hd;
    cbn [Bloom.step]; rewrite ?indexes_ok; cbn [fst]; try apply N.le_refl.
    apply add_script_count.
  Qed.

  Lemma count_obs : forall f, step f OCount = (f, VCount (count f)).
  Proof. reflexivity. Qed.
End Client.
