(** C01_no_loss_no_dup: the delivery log of the reader is, at every moment, exactly an initial
    segment of the deliveries that the slots handed to the writer call for (owner, index, reply of
    that very command), in wire order: nothing is skipped, nothing is delivered twice, nothing goes to
    another slot. *)
From Coq Require Import List NArith ZArith Bool Arith Lia.
Require Import RV.Model.Base RV.Model.PipeQueue RV.Model.Pipe RV.Model.PipeLts.
Require Import RV.Proofs.PipeLtsBasics RV.Proofs.PipeExclusive RV.Proofs.PipeRouting.
Import ListNotations.
Open Scope N_scope.

Section Hist.
  Variable g : config.
  Let sv := g_srv g.

  Fixpoint exp_from (o : N) (i : nat) (cs : list cmd) : list (N * nat * msg) :=
    match cs with
    | [] => []
    | c :: r => (o, i, result_of sv c) :: exp_from o (S i) r
    end.
  Definition exp_slot (sl : slot) := exp_from (s_owner sl) 0 (s_cmds sl).
  Definition expected (wlog : list slot) := flat_map exp_slot wlog.

  Record InvH (s : pstate) : Prop := mkInvH {
    h_off : p_b s = BOff -> p_wlog s = [] /\ p_dlog s = [];
    h_read : forall r, p_b s = BRead r ->
             expected (p_wlog s) =
             p_dlog s ++ exp_from (r_owner r) (r_ff r) (skipn (r_ff r) (r_multi r)) ++ flat_map exp_slot (q_wr (p_q s));
    h_pre : exists rest, expected (p_wlog s) = p_dlog s ++ rest
  }.

  Lemma invh_init : InvH (p_init g).
  Proof. constructor; cbn; auto. - intros r K; discriminate. - exists []. reflexivity. Qed.

  Lemma invh_same s s' :
    InvH s -> p_b s' = p_b s -> p_wlog s' = p_wlog s -> p_dlog s' = p_dlog s ->
    ((exists r, p_b s = BRead r) -> q_wr (p_q s') = q_wr (p_q s)) -> InvH s'.
  Proof.
    intros [h1 h2 h3] e1 e2 e3 e4. constructor; rewrite ?e1, ?e2, ?e3; auto.
    intros r Hr. rewrite (e4 (ex_intro _ r Hr)). auto.
  Qed.

  Lemma invh_post s s' :
    InvH s -> p_b s' <> BOff -> (forall r, p_b s' <> BRead r) -> p_wlog s' = p_wlog s -> p_dlog s' = p_dlog s -> InvH s'.
  Proof.
    intros [h1 h2 h3] e1 e2 e3 e4. constructor; rewrite ?e3, ?e4; auto.
    - intros K. contradiction.
    - intros r K. exfalso. eapply e2; eauto.
  Qed.

  Lemma invh_do_background s : InvH s -> InvB g s -> (p_bg s = false -> p_b s = BOff) -> InvH (do_background s).
  Proof.
    intros IH IB Hb. unfold do_background. destruct (p_bg s) eqn:E.
    - apply (invh_same s); auto.
    - destruct (h_off s IH (Hb eq_refl)) as [E1 E2]. destruct (b_off g s IB (Hb eq_refl)) as (Ewr&_).
      constructor; cbn.
      + intros K; discriminate.
      + intros r Hr. inversion Hr; subst. cbn. rewrite E1, E2, Ewr. reflexivity.
      + rewrite E1, E2. exists []. reflexivity.
  Qed.

  Hypothesis Hsrv : forall c, cmd_served_ok (g_r2ps g) (g_srv g) c = true.
  Hypothesis Hver : g_ver g <> 6%Z.

  Lemma exp_from_app o i l1 l2 : exp_from o i (l1 ++ l2) = exp_from o i l1 ++ exp_from o (i + List.length l1) l2.
  Proof.
    revert i. induction l1 as [|c l1 IH]; intros i; cbn; [now rewrite Nat.add_0_r|].
    rewrite IH. do 2 f_equal. f_equal. lia.
  Qed.

  Lemma invh_rstep s s' : InvB g s -> InvB g s' -> InvH s -> pstep g s LRStep = Some s' -> InvH s'.
  Proof.
    intros IB IB' IH H.
    destruct (rstep_effect g Hsrv Hver s s' IB H) as (r&r'&Eb&Eb'&Hpend&Hwlog&Hpc&Hcomp&Heff).
    pose proof (h_read s IH r Eb) as Hr.
    destruct Heff as [(D1&D2&D3&D4&D5)|(c&L&EL&Edl&EL'&Hland&Hfull)].
    - constructor.
      + rewrite Eb'. intros K; discriminate.
      + intros r0 K. rewrite Eb' in K. inversion K; subst r0. rewrite Hwlog, D1, D2, D3, D4, D5. exact Hr.
      + rewrite Hwlog, D1. apply (h_pre s IH).
    - assert (Hnew : expected (p_wlog s') =
                     p_dlog s' ++ exp_from (r_owner r') (r_ff r') (skipn (r_ff r') (r_multi r')) ++ flat_map exp_slot (q_wr (p_q s'))).
      { rewrite Hwlog, Hr, Edl, <- app_assoc. f_equal.
        destruct Hland as [(W1&W2&W3&W4&W5)|(sl&W1&W2&W3&W4&W5)].
        - rewrite W1, W2, W3, W4. cbn [pred].
          destruct (skipn (r_ff r) (r_multi r)) as [|c0 rest] eqn:Esk.
          + exfalso. assert (K : List.length (skipn (r_ff r) (r_multi r)) = 0%nat) by now rewrite Esk. rewrite skipn_length in K. lia.
          + cbn [app] in EL. inversion EL; subst c0.
            apply skipn_cons_nth in Esk as [_ Esk]. rewrite Esk. cbn [exp_from app]. reflexivity.
        - rewrite W1, W2, W3, W4, W5, skipn_all. cbn [exp_from app flat_map pred].
          rewrite W5, skipn_all in EL. cbn [app] in EL.
          destruct (s_cmds sl) as [|c0 rest] eqn:Ecs.
          + exfalso. destruct (b_cur g s' IB' r' Eb') as (_&_&K&_). rewrite W3, W4 in K. cbn in K. lia.
          + rewrite W1 in EL. cbn [flat_map] in EL. rewrite Ecs in EL. cbn [app] in EL. injection EL as Ec _. subst c0.
            unfold exp_slot. rewrite Ecs. cbn [exp_from skipn app]. reflexivity. }
      constructor.
      + rewrite Eb'. intros K; discriminate.
      + intros r0 K. rewrite Eb' in K. inversion K; subst r0. exact Hnew.
      + eexists. exact Hnew.
  Qed.

  Lemma expected_app l1 l2 : expected (l1 ++ l2) = expected l1 ++ expected l2.
  Proof. unfold expected. apply flat_map_app. Qed.

  Lemma invh_step s l s' : InvA s -> InvB g s -> InvH s -> pstep g s l = Some s' -> InvH s'.
  Proof.
    intros IA IB IH H.
    assert (IB' : InvB g s') by (eapply invb_step; eauto).
    assert (Hbg : InvH (do_background s)).
    { apply invh_do_background; auto. intros K. apply (a_bgw s IA K). }
    pose proof (pstep_inv g s l s' H) as St.
    destruct St; subst; try (apply (invh_same s); auto; fail); try (apply (invh_same (do_background s)); auto; fail).
    all: try (apply (invh_post s); cbn; rewrite ?Eb; auto; try discriminate; intros r0 K; discriminate).
    - (* LSyncFail: the connection was in its synchronous phase, nothing is logged yet *)
      destruct (sync_off s t IA Hsy) as [Hbg' Hb].
      destruct (h_off s IH Hb) as [E1 E2]. destruct (b_off g s IB Hb) as (Ewr&_).
      rewrite do_background_eq. cbn. rewrite Hbg'. constructor; cbn.
      + intros K; discriminate.
      + intros r Hr. inversion Hr; subst. cbn. rewrite E1, E2, Ewr. reflexivity.
      + rewrite E1, E2. exists []. reflexivity.
    - (* LPut *)
      unfold q_put in Eq. destruct (q_can_put (p_q s)); [|discriminate]. inversion Eq; subst. apply (invh_same s); auto.
    - (* LWNext *)
      unfold q_next_write in Eq. destruct (q_pend (p_q s)) as [|x p] eqn:Ep; [discriminate|]. inversion Eq; subst; clear Eq.
      destruct IH as [h1 h2 h3]. constructor; cbn.
      + intros K. destruct (b_off g s IB K) as (_&_&K'&_). congruence.
      + intros r Hr. rewrite expected_app, (h2 r Hr), flat_map_app. cbn. rewrite app_nil_r, <- !app_assoc. reflexivity.
      + destruct h3 as [rest Hrest]. exists (rest ++ exp_slot sl). rewrite expected_app, Hrest. cbn. now rewrite app_nil_r, app_assoc.
    - (* LRStep *) exact (invh_rstep s _ IB IB' IH H).
    - (* LRFail *)
      destruct complete; apply (invh_post s); cbn; auto; try discriminate; intros r0 K; discriminate.
  Qed.

  Theorem invh_run sched : forall s s', InvA s -> InvB g s -> InvH s -> prun g sched s = Some s' -> InvA s' /\ InvB g s' /\ InvH s'.
  Proof.
    intros s s' IA IB IHh. apply (prun_inv g (fun x => InvA x /\ InvB g x /\ InvH x)); [|auto].
    intros x l x' (A&B&Hh) E. split; [eapply inva_step|split; [eapply invb_step|eapply invh_step]]; eauto.
  Qed.
End Hist.
