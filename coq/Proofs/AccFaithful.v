(** C16: the accessors return exactly what a well-formed reply encodes.
    Spec side: data-level encoders of the reply shapes the server uses (RESP2 and RESP3), and the reading lemmas,
    one group per reply shape, that Props/C16.v assembles. *)
From Coq Require Import String List NArith ZArith Bool Arith.
Require Import RV.Model.Base RV.Model.AccBase RV.Model.Accessors RV.Proofs.BytesProofs RV.Proofs.DecimalProofs.
Import ListNotations.
Open Scope N_scope.

Definition blob (s : bytes) : msg := MStr tBlobString s None.
Definition simple (s : bytes) : msg := MStr tSimpleString s None.
Definition int (z : Z) : msg := MInt tInteger z None.
Definition boolean (x : bool) : msg := MInt tBool (if x then 1 else 0)%Z None.
Definition null : msg := MInt tNull 0 None.
Definition arr (l : list msg) : msg := MArr tArray l None.
Definition set (l : list msg) : msg := MArr tSet l None.
Definition mapm (l : list msg) : msg := MArr tMap l None.

Lemma mapM_map {A B C} (f : B -> res C) (g : A -> B) (h : A -> C) (l : list A) :
  (forall x, In x l -> f (g x) = ROk (h x)) -> mapM f (map g l) = ROk (map h l).
Proof.
  induction l as [|x r IH]; intro H; cbn [map mapM]; [reflexivity|].
  rewrite (H x) by now left. cbn [rbind]. rewrite IH by (intros; apply H; now right). reflexivity.
Qed.

Lemma map_mstr_blob ss : map mstr (map blob ss) = ss.
Proof. rewrite map_map. cbn. apply map_id. Qed.

Lemma bytes_eqb_sym s t : bytes_eqb s t = bytes_eqb t s.
Proof. apply BytesProofs.bytes_eqb_sym. Qed.

(** stated for rewriting *)
Lemma to_array_arr l : to_array (arr l) = ROk l.
Proof. reflexivity. Qed.

(** a reader that maps an element reader over an array, on the array of the elements' encodings *)
Lemma arr_mapM {A V} (f : msg -> res A) (enc : V -> msg) (dec : V -> A) (xs : list V) :
  (forall x, In x xs -> f (enc x) = ROk (dec x)) -> (vs <- to_array (arr (map enc xs)) ;; mapM f vs) = ROk (map dec xs).
Proof. intro H. rewrite to_array_arr. now apply mapM_map. Qed.

(** a reply of two elements [first; second]: what the pop and scan readers make of the parts *)
Lemma as_lmpop_arr k v : as_lmpop (arr [blob k; v]) = (vs <- as_str_slice v ;; ROk (k, vs)).
Proof. reflexivity. Qed.

Lemma as_zmpop_arr e k v : as_zmpop e (arr [blob k; v]) = (vs <- as_zscores e v ;; ROk (k, vs)).
Proof. reflexivity. Qed.

Lemma as_scan_entry_arr c v : as_scan_entry (arr [c; v]) = (cu <- as_uint64 c ;; el <- as_str_slice v ;; ROk (cu, el)).
Proof. reflexivity. Qed.

Lemma to_string_blob s : to_string (blob s) = ROk s.
Proof. reflexivity. Qed.

Lemma map_shape t vs : (t = tArray \/ t = tSet \/ t = tMap) ->
  msg_error (MArr t vs None) = None /\ map_or_array (MArr t vs None) = true.
Proof. intros [-> |[-> | ->]]; split; reflexivity. Qed.

Lemma mget_mset_same {V} k (v : V) m : mget k (mset k v m) = Some v.
Proof.
  unfold mget. induction m as [|[k' v'] r IH]; cbn [mset assoc].
  - now rewrite bytes_eqb_refl.
  - destruct (bytes_eqb k k') eqn:E; cbn [assoc].
    + now rewrite bytes_eqb_refl.
    + destruct (bytes_ltb k k'); cbn [assoc]; [now rewrite bytes_eqb_refl|]. rewrite E. exact IH.
Qed.

Lemma mget_mset_other {V} k k' (v : V) m : bytes_eqb k k' = false -> mget k (mset k' v m) = mget k m.
Proof.
  intro Hne. unfold mget. induction m as [|[k2 v2] r IH]; cbn [mset assoc].
  - now rewrite Hne.
  - destruct (bytes_eqb k' k2) eqn:E.
    + apply bytes_eqb_eq in E. subst k2. cbn [assoc]. now rewrite Hne.
    + destruct (bytes_ltb k' k2); cbn [assoc]; [now rewrite Hne|]. destruct (bytes_eqb k k2); [reflexivity|exact IH].
Qed.

(** the value of the last pair with key [k] *)
Definition assoc_last {V} (k : bytes) (ps : list (bytes * V)) : option V := assoc k (rev ps).

Definition set_all {V} (ps : list (bytes * V)) (m : smap V) : smap V :=
  fold_left (fun m kv => mset (fst kv) (snd kv) m) ps m.

Lemma mget_set_all {V} k (ps : list (bytes * V)) : forall m,
  mget k (set_all ps m) = match assoc_last k ps with Some v => Some v | None => mget k m end.
Proof.
  unfold assoc_last, set_all. induction ps as [|[k' v'] r IH]; intro m; cbn [fold_left rev]; [reflexivity|].
  rewrite IH. cbn [fst snd].
  assert (A : forall (l : list (bytes * V)), assoc k (l ++ [(k', v')]) =
              match assoc k l with Some v => Some v | None => if bytes_eqb k k' then Some v' else None end).
  { induction l as [|[k2 v2] l IHl]; cbn [app assoc]; [reflexivity|]. destruct (bytes_eqb k k2); [reflexivity|exact IHl]. }
  rewrite A. destruct (assoc k (rev r)); [reflexivity|].
  destruct (bytes_eqb k k') eqn:E.
  - apply bytes_eqb_eq in E. subst. apply mget_mset_same.
  - now apply mget_mset_other.
Qed.

(** a flat reply of alternating keys and values *)
Definition flat {K V} (ek : K -> msg) (ev : V -> msg) (ps : list (K * V)) : list msg :=
  flat_map (fun kv => [ek (fst kv); ev (snd kv)]) ps.

Lemma even_len_flat {K V} (ek : K -> msg) (ev : V -> msg) ps : even_len (flat ek ev ps) = true.
Proof. unfold even_len, flat. induction ps as [|p r IH]; [reflexivity|]. cbn [flat_map app length]. exact IH. Qed.

Lemma pair_loop_flat {S K V} (body : msg -> msg -> S -> res S) (step : S -> K * V -> S)
      (ek : K -> msg) (ev : V -> msg) (ps : list (K * V)) :
  (forall kv st, In kv ps -> body (ek (fst kv)) (ev (snd kv)) st = ROk (step st kv)) ->
  forall st, pair_loop body (flat ek ev ps) st = ROk (fold_left step ps st).
Proof.
  unfold flat. induction ps as [|p r IH]; intros H st; cbn [flat_map app pair_loop fold_left]; [reflexivity|].
  rewrite H by now left. cbn [rbind]. apply IH. intros; apply H; now right.
Qed.

Lemma pair_loop_guarded_flat {S K V} (body : msg -> msg -> S -> res S) (step : S -> K * V -> S)
      (ek : K -> msg) (ev : V -> msg) (ps : list (K * V)) :
  (forall kv st, In kv ps -> body (ek (fst kv)) (ev (snd kv)) st = ROk (step st kv)) ->
  forall st, pair_loop_guarded body (flat ek ev ps) st = ROk (fold_left step ps st).
Proof.
  unfold flat. induction ps as [|p r IH]; intros H st; cbn [flat_map app pair_loop_guarded fold_left]; [reflexivity|].
  rewrite H by now left. cbn [rbind]. apply IH. intros; apply H; now right.
Qed.

Lemma fold_set_map {V W} (g : V -> W) (ps : list (bytes * V)) : forall acc,
  fold_left (fun m kv => mset (fst kv) (g (snd kv)) m) ps acc = set_all (map (fun kv => (fst kv, g (snd kv))) ps) acc.
Proof. unfold set_all. induction ps as [|p r IH]; intro acc; [reflexivity|]. cbn [map fold_left]. apply IH. Qed.

Lemma as_int64_str t s : (t = tBlobString \/ t = tSimpleString) ->
  as_int64 (MStr t s None) = match parse_int10 s with Some z => ROk z | None => RErr ENum end.
Proof. intros [-> | ->]; reflexivity. Qed.

Lemma as_uint64_str t s : (t = tBlobString \/ t = tSimpleString) ->
  as_uint64 (MStr t s None) = match parse_uint10 s with Some n => ROk n | None => RErr ENum end.
Proof. intros [-> | ->]; reflexivity. Qed.

Theorem int_string_faithful z t : (t = tBlobString \/ t = tSimpleString) -> (int64_min <= z <= int64_max)%Z ->
  as_int64 (MStr t (print_Z z) None) = ROk z.
Proof. intros Ht H. rewrite as_int64_str by exact Ht. now rewrite parse_print_int. Qed.

Theorem uint_string_faithful n t : (t = tBlobString \/ t = tSimpleString) -> n <= uint64_max ->
  as_uint64 (MStr t (print_N n) None) = ROk n.
Proof. intros Ht H. rewrite as_uint64_str by exact Ht. now rewrite parse_print_uint. Qed.

(** integers arrive as RESP3 integers or as decimal strings *)
Definition enc_int (as_string : bool) (z : Z) : msg := if as_string then blob (print_Z z) else int z.

(** the integer-reading accessors take an element with an empty string as the RESP3 integer it carries, and read
    any other element in base ten *)
Definition reads_int (v : msg) (z : Z) : Prop :=
  match mstr v with
  | [] => (mtyp v =? tInteger) || (mtyp v =? tNull) = true /\ mintlen v = z
  | s => parse_int10 s = Some z
  end.

Lemma reads_int_enc b z : (int64_min <= z <= int64_max)%Z -> reads_int (enc_int b z) z.
Proof.
  intro H. destruct b; [|now split]. unfold reads_int, enc_int, blob, mstr.
  destruct (print_Z z) eqn:E; [now apply print_Z_nonempty in E|]. rewrite <- E. now apply parse_print_int.
Qed.

Lemma reads_int_blob s z : s <> [] -> parse_int10 s = Some z -> reads_int (blob s) z.
Proof. intros Hne H. unfold reads_int, blob, mstr. now destruct s. Qed.

Lemma int_slice_reads {V} (ev : V -> msg) (dv : V -> Z) (xs : list V) :
  (forall x, In x xs -> reads_int (ev x) (dv x)) -> as_int_slice (arr (map ev xs)) = ROk (map dv xs).
Proof.
  intro H. apply arr_mapM. intros x Hin.
  specialize (H x Hin). unfold reads_int in H. destruct (mstr (ev x)); [now destruct H as [_ ->]|now rewrite H].
Qed.

Lemma as_str_map_flat {K V} (ek : K -> msg) (ev : V -> msg) (ps : list (K * V)) t : (t = tArray \/ t = tSet \/ t = tMap) ->
  as_str_map (MArr t (flat ek ev ps) None) =
  ROk (fold_left (fun m kv => mset (mstr (ek (fst kv))) (mstr (ev (snd kv))) m) ps []).
Proof.
  intro Ht. unfold as_str_map. destruct (map_shape t (flat ek ev ps) Ht) as [-> ->].
  cbn [mvals]. rewrite even_len_flat. now apply pair_loop_flat.
Qed.

Lemma to_map_vals_flat (ps : list (bytes * msg)) : forall acc,
  to_map_vals (flat blob (fun v => v) ps) acc = ROk (set_all ps acc).
Proof.
  unfold flat. induction ps as [|[k v] r IH]; intro acc; cbn [flat_map app to_map_vals set_all fold_left]; [reflexivity|].
  cbn [fst snd]. change (is_str_typ (blob k)) with true. cbn iota. apply IH.
Qed.

(** string-encoded integers are read in base ten, whatever their spelling:
    optional sign, at least one digit, digits only: leading zeros are just zeros (no octal), no 0x / 0b / 0o
    prefixes, no '_' separators, no blanks *)
Definition dec_value (ds : bytes) : N := fold_left (fun a c => a * 10 + (c - 48)) ds 0.

Lemma digits_val_all ds : Forall (fun c => is_digit c = true) ds -> digits_val 0 ds = Some (dec_value ds).
Proof.
  unfold dec_value. generalize 0. induction ds as [|c r IH]; intros a H; cbn [digits_val fold_left]; [reflexivity|].
  inversion H as [|? ? Hc Hr]; subst. rewrite Hc. now apply IH.
Qed.

Lemma digits_val_bad : forall ds a c, In c ds -> is_digit c = false -> digits_val a ds = None.
Proof.
  induction ds as [|d r IH]; intros a c Hin Hc; [contradiction|]. cbn [digits_val].
  destruct (is_digit d) eqn:Ed; [|reflexivity]. destruct Hin as [->|Hin]; [congruence|]. now apply (IH _ c).
Qed.

Definition in_int64 (z : Z) : bool := (int64_min <=? z)%Z && (z <=? int64_max)%Z.

(** sign: None, Some false = '+', Some true = '-' *)
Definition sign_bytes (sg : option bool) : bytes := match sg with None => [] | Some false => [43] | Some true => [45] end.
Definition signed (sg : option bool) (n : N) : Z := match sg with Some true => (- Z.of_N n)%Z | _ => Z.of_N n end.

(** the reading of a signed string: a sign is taken off, the rest must be digits, the value must fit *)
Lemma parse_int10_sign sg body :
  (sg = None -> match body with c :: _ => (c =? 45) = false /\ (c =? 43) = false | [] => True end) ->
  parse_int10 (sign_bytes sg ++ body) =
  match body with
  | [] => None
  | _ => match digits_val 0 body with
         | Some n => if in_int64 (signed sg n) then Some (signed sg n) else None
         | None => None
         end
  end.
Proof.
  intro Hs. unfold parse_int10, in_int64. destruct sg as [[|]|]; cbn [sign_bytes app signed N.eqb Pos.eqb]; try reflexivity.
  destruct body as [|c r]; [reflexivity|]. now destruct (Hs eq_refl) as [-> ->].
Qed.

Lemma int_map_reads {V} (ev : V -> msg) (dv : V -> Z) (ps : list (bytes * V)) t : (t = tArray \/ t = tSet \/ t = tMap) ->
  (forall kv, In kv ps -> reads_int (ev (snd kv)) (dv (snd kv))) ->
  as_int_map (MArr t (flat blob ev ps) None) = ROk (set_all (map (fun kv => (fst kv, dv (snd kv))) ps) []).
Proof.
  intros Ht H. unfold as_int_map, as_int_map_with. destruct (map_shape t (flat blob ev ps) Ht) as [-> ->].
  cbn [mvals]. rewrite even_len_flat. cbn [andb]. rewrite <- fold_set_map. apply pair_loop_flat.
  intros kv st Hin. specialize (H kv Hin). unfold reads_int in H. change (is_str_typ (blob (fst kv))) with true. cbn iota.
  destruct (mstr (ev (snd kv))); [now destruct H as [-> ->]|now rewrite H].
Qed.

(** everything that involves floats: for any environment in which the
    server's number formatting is read back by the library parser *)
Section WithEnv.
Variable e : env.
Variable fmt : N -> bytes.                                     (* how the server prints a double *)
Hypothesis fmt_parse : forall f, pf e (fmt f) = (f, true).     (* strconv.ParseFloat reads it back *)
Hypothesis fmt_nonempty : forall f, fmt f <> [].

Definition dbl (f : N) : msg := MStr tFloat (fmt f) None.
(** a double: RESP3 double or RESP2 bulk string *)
Definition num (resp3 : bool) (f : N) : msg := if resp3 then dbl f else blob (fmt f).

Lemma mstr_num r f : mstr (num r f) = fmt f.
Proof. now destruct r. Qed.

Lemma to_float64_s_fmt f : to_float64_s e (fmt f) = (f, true).
Proof. unfold to_float64_s. now rewrite fmt_parse. Qed.

Lemma as_float64_num r f : as_float64 e (num r f) = ROk f /\ as_float64_raw e (num r f) = (f, None).
Proof. destruct r; unfold as_float64, as_float64_raw; cbn; rewrite to_float64_s_fmt; split; reflexivity. Qed.

Definition enc_zscore (resp3 : bool) (z : bytes * N) : list msg := [blob (fst z); num resp3 (snd z)].

Lemma to_zscore_enc r z : to_zscore e (enc_zscore r z) = ROk z.
Proof.
  destruct z as [m s]. unfold to_zscore, enc_zscore. cbn [length Nat.eqb idx nth_error rbind fst snd].
  rewrite to_string_blob. cbn [rbind].
  destruct (as_float64_num r s) as [-> _]. reflexivity.
Qed.

(** a flat reply is read in chunks of two, the i-th from index 2i: a chunk dropped in front shifts the index *)
Lemma div2_length_pairs {X} (f : X -> list msg) (l : list X) : (forall x, length (f x) = 2%nat) ->
  Nat.div2 (length (flat_map f l)) = length l.
Proof.
  intro H. induction l as [|x l IH]; [reflexivity|]. cbn [flat_map length]. rewrite app_length, H. cbn [Nat.add Nat.div2]. now rewrite IH.
Qed.

Lemma zscore_chunks_shift a b l : forall n i, zscore_chunks e (a :: b :: l) n (S i) = zscore_chunks e l n i.
Proof. induction n as [|n IH]; intro i; [reflexivity|]. cbn [zscore_chunks]. now rewrite IH. Qed.

Lemma zscore_chunks_flat r zs : zscore_chunks e (flat_map (enc_zscore r) zs) (length zs) 0 = ROk zs.
Proof.
  induction zs as [|z rest IH]; [reflexivity|].
  change (flat_map (enc_zscore r) (z :: rest)) with (blob (fst z) :: num r (snd z) :: flat_map (enc_zscore r) rest).
  cbn [length zscore_chunks Nat.mul Nat.add Nat.ltb Nat.leb skipn firstn]. fold (enc_zscore r z).
  now rewrite to_zscore_enc, zscore_chunks_shift, IH.
Qed.

Definition entry := (bytes * option (list (bytes * bytes)))%type.   (* id, field/value pairs (None = nil entry) *)

Definition enc_entry (x : entry) : msg :=
  arr [blob (fst x); match snd x with Some fv => arr (flat blob blob fv) | None => null end].

(** RESP2: flat array member, score, member, score …; RESP3: array of [member, score] arrays, whatever encodes them *)
Lemma as_zscores_flat r zs : as_zscores e (arr (flat_map (enc_zscore r) zs)) = ROk zs.
Proof.
  unfold as_zscores. rewrite to_array_arr. cbn [rbind].
  replace (match flat_map (enc_zscore r) zs with a0 :: _ => is_array a0 | [] => false end) with false by now destruct zs.
  rewrite div2_length_pairs by reflexivity. apply zscore_chunks_flat.
Qed.

Lemma as_zscores_arrays {V} (enc : V -> list msg) (dec : V -> bytes * N) (xs : list V) :
  (forall x, In x xs -> to_zscore e (enc x) = ROk (dec x)) ->
  as_zscores e (arr (map (fun x => arr (enc x)) xs)) = ROk (map dec xs).
Proof.
  intro H. unfold as_zscores. rewrite to_array_arr. cbn [rbind]. destruct xs as [|x0 xr]; [reflexivity|].
  change (match map _ (x0 :: xr) with a0 :: _ => is_array a0 | [] => false end) with true. now apply mapM_map.
Qed.

(** an entry is [id, fields]: what the two entry readers make of the second element *)
Lemma as_xrange_entry_arr id v :
  as_xrange_entry (arr [blob id; v]) =
  match as_str_map v with
  | ROk fv => ROk (mkXEntry id (Some fv))
  | RErr ENil => ROk (mkXEntry id None)
  | RErr er => RErr er
  | RPanic => RPanic
  end.
Proof. reflexivity. Qed.

Lemma as_xrange_slice_arr id v :
  as_xrange_slice (arr [blob id; v]) =
  match to_array v with
  | ROk fa => fv <- slice_pairs fa (Nat.div2 (length fa)) 0 ;; ROk (mkXSlice id (Some fv))
  | RErr ENil => ROk (mkXSlice id None)
  | RErr er => RErr er
  | RPanic => RPanic
  end.
Proof. reflexivity. Qed.

Lemma slice_pairs_shift a b l : forall n i, slice_pairs (a :: b :: l) n (S i) = slice_pairs l n i.
Proof. induction n as [|n IH]; intro i; [reflexivity|]. cbn [slice_pairs]. now rewrite IH. Qed.

Lemma slice_pairs_flat (fv : list (bytes * bytes)) :
  slice_pairs (flat blob blob fv) (Nat.div2 (length (flat blob blob fv))) 0 = ROk fv.
Proof.
  replace (Nat.div2 (length (flat blob blob fv))) with (length fv) by (symmetry; now apply div2_length_pairs).
  induction fv as [|[k v] rest IH]; [reflexivity|]. unfold flat in *.
  cbn [flat_map app length slice_pairs fst snd Nat.mul Nat.add idx nth_error rbind mstr blob].
  now rewrite slice_pairs_shift, IH.
Qed.

(** XREAD: RESP3 map stream -> entries, RESP2 array of [stream, entries] *)
Theorem xread_generic_faithful {D E} (conv : msg -> res (list E)) (enc : D -> msg) (dec : D -> list E)
        (streams : list (bytes * D)) :
  (forall d, conv (enc d) = ROk (dec d)) ->
  xread_generic conv (mapm (flat blob enc streams)) = ROk (set_all (map (fun kd => (fst kd, dec (snd kd))) streams) []) /\
  xread_generic conv (arr (map (fun kd => arr [blob (fst kd); enc (snd kd)]) streams)) =
    ROk (set_all (map (fun kd => (fst kd, dec (snd kd))) streams) []).
Proof.
  intro Hc. split; unfold xread_generic.
  - change (msg_error (mapm (flat blob enc streams))) with (@None aerr). change (is_map (mapm (flat blob enc streams))) with true.
    cbn iota. cbn [mvals mapm]. rewrite even_len_flat.
    rewrite <- fold_set_map. apply pair_loop_flat. intros kd st _. rewrite Hc. reflexivity.
  - change (msg_error (arr _)) with (@None aerr). change (is_map (arr _)) with false. change (is_array (arr _)) with true.
    cbn iota. cbn [mvals arr]. unfold set_all. generalize (@nil (bytes * list E)).
    induction streams as [|p r IH]; intro acc; [reflexivity|].
    cbn [map fold_left fst snd]. change (is_array (arr [blob (fst p); enc (snd p)])) with true.
    cbn [negb orb mvals arr length Nat.eqb idx nth_error rbind]. rewrite Hc. cbn [rbind mstr blob]. apply IH.
Qed.

Definition row := list (bytes * bytes).

Lemma str_map_opt_flat (r : row) t : (t = tArray \/ t = tSet \/ t = tMap) ->
  str_map_opt (MArr t (flat blob blob r) None) = Some (set_all r []).
Proof. intro H. unfold str_map_opt. now rewrite as_str_map_flat. Qed.

Definition enc_agg2 (total : Z) (rows : list row) : msg :=
  arr (int total :: map (fun r => arr (flat blob blob r)) rows).

Definition rec_agg3 (r : row) : msg := mapm [blob (b "extra_attributes"); mapm (flat blob blob r); blob (b "values"); arr []].

Definition enc_agg3 (total : Z) (rows : list row) : msg :=
  mapm [blob (b "attributes"); arr []; blob (b "format"); blob (b "STRING"); blob (b "results"); arr (map rec_agg3 rows);
        blob (b "total_results"); int total; blob (b "warning"); arr []].

(** the RESP3 loops compare each key of the reply with literal names: evaluating them is all there is to do,
    up to the conversion of the attribute maps and records, which is left standing and rewritten afterwards *)
Lemma fta_record_rec r : fta_record (rec_agg3 r) = ROk (Some (set_all r [])).
Proof. lazy -[str_map_opt flat set_all row smap bytes]. now rewrite str_map_opt_flat by auto. Qed.

Theorem ft_aggregate_cursor_faithful body total rows cur :
  (is_array body || is_map body = true) -> as_ft_aggregate body = ROk (total, rows) ->
  as_ft_aggregate_cursor (arr [body; int cur]) = ROk (cur, total, rows) /\
  (is_array body = false \/ length (mvals body) <> 2%nat \/ (match mvals body with v0 :: _ => is_array v0 || is_map v0 | [] => false end) = false ->
   as_ft_aggregate_cursor body = ROk (0%Z, total, rows)).
Proof.
  intros Hb Ha. split.
  - unfold as_ft_aggregate_cursor. change (is_array (arr [body; int cur])) with true.
    cbn [mvals arr length Nat.eqb andb]. rewrite Hb. cbn [idx nth_error rbind]. rewrite Ha. reflexivity.
  - intro Hn. unfold as_ft_aggregate_cursor.
    replace (is_array body && (length (mvals body) =? 2)%nat && match mvals body with v0 :: _ => is_array v0 || is_map v0 | [] => false end) with false.
    + rewrite Ha. reflexivity.
    + symmetry. destruct Hn as [H|[H|H]].
      * now rewrite H.
      * apply Nat.eqb_neq in H. rewrite H. now rewrite andb_false_r.
      * rewrite H. now rewrite andb_false_r.
Qed.

(** RESP3: one record per document; attributes and score are present or not, per record *)
Definition doc3 := (bytes * option row * option N)%type.

Definition rec_search3 (d : doc3) : msg :=
  mapm ([blob (b "id"); blob (fst (fst d))]
        ++ match snd (fst d) with Some r => [blob (b "extra_attributes"); mapm (flat blob blob r)] | None => [] end
        ++ match snd d with Some s => [blob (b "score"); dbl s] | None => [] end
        ++ [blob (b "values"); arr []]).

Definition dec_doc3 (d : doc3) : ftdoc :=
  mkDoc (fst (fst d)) (option_map (fun r => set_all r []) (snd (fst d))) (match snd d with Some s => s | None => 0 end).

Lemma fts_record_rec d : fts_record e (rec_search3 d) = ROk (dec_doc3 d).
Proof.
  destruct d as [[k [r|]] [s|]]; lazy -[str_map_opt flat set_all pf row smap bytes];
    rewrite ?fmt_parse, ?str_map_opt_flat by auto; reflexivity.
Qed.

Definition enc_search3 (total : Z) (docs : list doc3) : msg :=
  mapm [blob (b "attributes"); arr []; blob (b "format"); blob (b "STRING"); blob (b "results"); arr (map rec_search3 docs);
        blob (b "total_results"); int total; blob (b "warning"); arr []].

(** RESP2: [total, key, (score)?, (attributes)?, key, …]; the reply does not say which optional parts are
    present: the accessor guesses from the elements at index 2 and 3, which is right when keys are non-empty
    and do not parse as floats *)
Definition doc2 := (bytes * N * row)%type.   (* key, score, attributes *)

Definition enc_doc2 (ws wa : bool) (d : doc2) : list msg :=
  [blob (fst (fst d))] ++ (if ws then [blob (fmt (snd (fst d)))] else []) ++ (if wa then [arr (flat blob blob (snd d))] else []).

Definition dec_doc2 (ws wa : bool) (d : doc2) : ftdoc :=
  mkDoc (fst (fst d)) (if wa then Some (set_all (snd d) []) else None) (if ws then snd (fst d) else 0).

Lemma fts_docs_spec ws wa docs :
  fts_docs e ws wa (flat_map (enc_doc2 ws wa) docs) = map (dec_doc2 ws wa) docs.
Proof.
  induction docs as [|[[k s] r] rest IH]; [reflexivity|].
  destruct ws, wa; cbn [flat_map enc_doc2 app fst snd fts_docs map dec_doc2] in *; rewrite IH;
    cbn [mstr blob]; try rewrite fmt_parse; try (unfold arr; rewrite str_map_opt_flat by auto); reflexivity.
Qed.

Definition key_ok (k : bytes) : Prop := k <> [] /\ snd (pf e k) = false.

(** the two guesses of the RESP2 branch of AsFtSearch, from the elements at index 1, 2 and 3 *)
Definition guess_score (vs : list msg) : bool :=
  match vs with
  | _ :: v1 :: v2 :: _ => match mstr v2 with [] => false | _ => negb (snd (pf e (mstr v1))) && snd (pf e (mstr v2)) end
  | _ => false
  end.

Definition guess_attrs (vs : list msg) : bool :=
  match vs with
  | _ :: _ :: v2 :: r =>
    let a0 := match mstr v2 with [] => true | _ => false end in
    match r with v3 :: _ => match mstr v3 with [] => true | _ => a0 end | [] => a0 end
  | _ => false
  end.

Lemma as_ft_search_resp2 v0 rest :
  as_ft_search e (arr (v0 :: rest)) =
  ROk (mintlen v0, fts_docs e (guess_score (v0 :: rest)) (guess_attrs (v0 :: rest)) rest).
Proof.
  unfold as_ft_search. change (msg_error (arr _)) with (@None aerr). change (is_map (arr _)) with false.
  cbn iota. cbn [mvals arr]. cbv zeta.
  destruct rest as [|v1 [|v2 [|v3 r]]]; cbn [length Nat.ltb Nat.leb idx nth_error rbind guess_score guess_attrs];
    try reflexivity; destruct (mstr v2); try destruct (mstr v3); reflexivity.
Qed.

(** on a non-empty document list with good keys both guesses are right: what follows a document is the next key *)
Lemma guesses_right ws wa total (d : doc2) (rest : list doc2) : Forall (fun d => key_ok (fst (fst d))) (d :: rest) ->
  let vs := int total :: flat_map (enc_doc2 ws wa) (d :: rest) in guess_score vs = ws /\ guess_attrs vs = wa.
Proof.
  intro Hk. inversion Hk as [|? ? [Hne1 Hnf1] Hk']; subst. destruct d as [[k1 s1] r1]. cbn [fst snd] in *.
  assert (Hs : forall s, exists c l, fmt s = c :: l) by (intro s; destruct (fmt s) eqn:F; [now apply fmt_nonempty in F|eauto]).
  destruct (Hs s1) as (c & l & Fs).
  assert (Hnext : forall ds, Forall (fun d => key_ok (fst (fst d))) ds ->
            match flat_map (enc_doc2 ws wa) ds with [] => True | v :: _ => exists c l, mstr v = c :: l /\ snd (pf e (c :: l)) = false end).
  { intros [|[[k s] r] ds] H; [exact I|]. inversion H as [|? ? [Hne Hnf] _]; subst. cbn [fst snd] in *.
    destruct k; [contradiction|]. cbn [flat_map enc_doc2 app fst snd mstr blob]. eauto. }
  pose proof (Hnext rest Hk') as Hn.
  destruct ws, wa; cbn [flat_map enc_doc2 app fst snd guess_score guess_attrs mstr blob arr];
    rewrite ?Fs, <- ?Fs, ?Hnf1, ?fmt_parse; cbn [negb andb].
  - now split.
  - destruct (flat_map (enc_doc2 true false) rest) as [|v T]; [now split|]. now destruct Hn as (c' & l' & -> & _).
  - destruct (flat_map (enc_doc2 false true) rest) as [|v T]; [now split|]. now destruct Hn as (c' & l' & -> & _).
  - destruct rest as [|[[k2 s2] r2] rest2]; [now split|]. inversion Hk' as [|? ? _ Hk'']; subst.
    pose proof (Hnext rest2 Hk'') as Hn2. cbn [flat_map enc_doc2 app fst snd] in *.
    destruct Hn as (c' & l' & -> & ->). cbn [mstr blob].
    destruct (flat_map (enc_doc2 false false) rest2) as [|v T]; [now split|]. now destruct Hn2 as (c2 & l2 & -> & _).
Qed.

Definition loc := (bytes * option N * option Z * option (N * N))%type.   (* name, dist, hash, (longitude, latitude) *)

Definition enc_loc (r : bool) (l : loc) : msg :=
  let '(name, dist, hash, coord) := l in
  match dist, hash, coord with
  | None, None, None => blob name
  | _, _, _ =>
    arr ([blob name]
         ++ match dist with Some d => [num r d] | None => [] end
         ++ match hash with Some h => [int h] | None => [] end
         ++ match coord with Some (lo, la) => [arr [num r lo; num r la]] | None => [] end)
  end.

Definition dec_loc (l : loc) : geoloc :=
  let '(name, dist, hash, coord) := l in
  mkGeo name (match coord with Some (lo, _) => lo | None => 0 end) (match coord with Some (_, la) => la | None => 0 end)
        (match dist with Some d => d | None => 0 end) (match hash with Some h => h | None => 0%Z end).

Lemma geo_one_enc r l : geo_one e (enc_loc r l) = ROk (dec_loc l).
Proof.
  destruct l as [[[name [d|]] [h|]] [[lo la]|]]; unfold geo_one, enc_loc, dec_loc;
    try reflexivity;
    change (is_string (arr _)) with false; cbn iota; cbn [mvals arr app idx nth_error rbind mstr blob];
    try rewrite mstr_num;
    try (destruct (fmt d) eqn:F; [now apply fmt_nonempty in F|]; rewrite <- F; rewrite to_float64_s_fmt);
    cbv -[as_float64_raw num];
    repeat match goal with |- context [as_float64_raw e (num r ?f)] => rewrite (proj2 (as_float64_num r f)) end;
    reflexivity.
Qed.

End WithEnv.

