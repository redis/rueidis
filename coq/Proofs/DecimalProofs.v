(** Decimal printing and parsing are inverse: parse_int10 (print_Z z) = Some z, parse_uint10 (print_N n) = Some n. *)
From Coq Require Import String List NArith ZArith Bool Lia Arith ZifyN ZifyNat ZifyBool.
Require Import RV.Model.Base RV.Model.AccBase.
Import ListNotations.
Open Scope N_scope.

Lemma digits_val_app s1 : forall s2 a,
  digits_val a (s1 ++ s2) = match digits_val a s1 with Some x => digits_val x s2 | None => None end.
Proof.
  induction s1 as [|c r IH]; intros s2 a; cbn [app digits_val]; [reflexivity|].
  destruct (is_digit c); [apply IH|reflexivity].
Qed.

Lemma print_fuel_app : forall f n acc, print_nat_fuel f n acc = print_nat_fuel f n [] ++ acc.
Proof.
  induction f as [|f IH]; intros n acc; cbn [print_nat_fuel]; [reflexivity|].
  destruct (n <? 10); [reflexivity|].
  rewrite IH, (IH _ [_]). now rewrite <- app_assoc.
Qed.

Lemma is_digit_48 d : d < 10 -> is_digit (48 + d) = true.
Proof. intro H. unfold is_digit. apply andb_true_iff. split; apply N.leb_le; lia. Qed.

Lemma print_fuel_val : forall f n, n < 10 ^ N.of_nat f -> (0 < f)%nat ->
  digits_val 0 (print_nat_fuel f n []) = Some n /\
  print_nat_fuel f n [] <> [] /\ Forall (fun c => is_digit c = true) (print_nat_fuel f n []).
Proof.
  induction f as [|f IH]; intros n Hn Hf; [lia|].
  cbn [print_nat_fuel]. destruct (N.ltb_spec n 10) as [H|H].
  - rewrite N.mod_small by exact H. cbn [digits_val]. rewrite is_digit_48 by exact H.
    repeat split; [f_equal; lia|discriminate|]. constructor; [now apply is_digit_48|constructor].
  - rewrite print_fuel_app.
    assert (Hq : n / 10 < 10 ^ N.of_nat f).
    { rewrite Nat2N.inj_succ, N.pow_succ_r' in Hn. apply N.div_lt_upper_bound; lia. }
    assert (Hf' : (0 < f)%nat).
    { destruct f; [|lia]. cbn in Hq. assert (1 <= n / 10) by (apply N.div_le_lower_bound; [discriminate|clear - H; lia]).
      clear - Hq H0. lia. }
    destruct (IH (n / 10) Hq Hf') as (V & NE & D).
    assert (Hd : n mod 10 < 10) by now apply N.mod_lt.
    repeat split.
    + rewrite digits_val_app, V. cbn [digits_val]. rewrite is_digit_48 by exact Hd.
      f_equal. pose proof (N.div_mod n 10 ltac:(discriminate)) as E. clear - E Hd. lia.
    + intro E. apply app_eq_nil in E. destruct E as [_ E]. discriminate.
    + apply Forall_app. split; [exact D|]. constructor; [now apply is_digit_48|constructor].
Qed.

Lemma pow10_log2 n : n < 10 ^ N.of_nat (S (N.to_nat (N.log2 n))).
Proof.
  destruct (N.eq_dec n 0) as [->|Hn]; [cbn; lia|].
  pose proof (N.log2_spec n ltac:(lia)) as [_ H].
  eapply N.lt_le_trans; [exact H|].
  rewrite <- N.add_1_r.
  replace (N.of_nat (S (N.to_nat (N.log2 n)))) with (N.log2 n + 1) by lia.
  apply N.pow_le_mono_l. lia.
Qed.

Theorem print_N_spec n :
  digits_val 0 (print_N n) = Some n /\ print_N n <> [] /\ Forall (fun c => is_digit c = true) (print_N n).
Proof. unfold print_N. apply print_fuel_val; [apply pow10_log2|lia]. Qed.

Theorem parse_print_uint n : n <= uint64_max -> parse_uint10 (print_N n) = Some n.
Proof.
  intro H. destruct (print_N_spec n) as (V & NE & _). unfold parse_uint10.
  destruct (print_N n) as [|c r] eqn:E; [contradiction|]. rewrite V.
  destruct (N.leb_spec n uint64_max); [reflexivity|lia].
Qed.

Lemma digit_not_sign c : is_digit c = true -> (c =? 45) = false /\ (c =? 43) = false.
Proof. unfold is_digit. intro H. apply andb_true_iff in H. destruct H as [H1 H2]. apply N.leb_le in H1. split; apply N.eqb_neq; lia. Qed.

Theorem parse_print_int z : (int64_min <= z <= int64_max)%Z -> parse_int10 (print_Z z) = Some z.
Proof.
  intro H. unfold parse_int10, print_Z. destruct z as [|p|p].
  - reflexivity.
  - destruct (print_N_spec (Z.to_N (Z.pos p))) as (V & NE & D).
    destruct (print_N (Z.to_N (Z.pos p))) as [|c r] eqn:E; [contradiction|].
    inversion D as [|? ? Dc _]; subst. destruct (digit_not_sign c Dc) as [-> ->].
    rewrite V. cbn [Z.to_N]. unfold int64_min, int64_max in *.
    replace ((-9223372036854775808 <=? Z.of_N (N.pos p))%Z && (Z.of_N (N.pos p) <=? 9223372036854775807)%Z) with true; [reflexivity|].
    symmetry. apply andb_true_iff. split; apply Z.leb_le; lia.
  - cbn [N.eqb Pos.eqb]. destruct (print_N_spec (N.pos p)) as (V & NE & D).
    destruct (print_N (N.pos p)) as [|c r] eqn:E; [contradiction|]. rewrite V.
    unfold int64_min, int64_max in *.
    replace ((-9223372036854775808 <=? - Z.of_N (N.pos p))%Z && (- Z.of_N (N.pos p) <=? 9223372036854775807)%Z) with true; [reflexivity|].
    symmetry. apply andb_true_iff. split; apply Z.leb_le; lia.
Qed.

Lemma print_Z_nonempty z : print_Z z <> [].
Proof.
  unfold print_Z. destruct z; try discriminate; apply print_N_spec.
Qed.
