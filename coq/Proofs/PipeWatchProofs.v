(** The blocking-command signal is exact, and the keep-alive watchdog can fail a silent connection. *)
From Coq Require Import List NArith ZArith Bool Arith Lia.
Require Import RV.Model.Base RV.Model.PipeQueue RV.Model.Pipe RV.Model.PipeLts RV.Model.PipeWatch.
Require Import RV.Proofs.PipeLtsBasics RV.Proofs.PipeExclusive RV.Proofs.PipeCtx.
Import ListNotations.
Open Scope N_scope.

Lemma bsum_sumf s : bsum s = sumf (fun t => bholds (p_calls s t)) (p_tids s).
Proof. unfold bsum. induction (p_tids s) as [|a l IH]; cbn; [reflexivity|]. now rewrite IH. Qed.

Lemma bsum_same s s' :
  p_tids s' = p_tids s -> (forall u, bholds (p_calls s' u) = bholds (p_calls s u)) -> bsum s' = bsum s.
Proof. intros e1 e2. rewrite !bsum_sumf, e1. apply sumf_ext. intros x _. apply e2. Qed.

Lemma bsum_upd s s' t c' :
  InvA s -> In t (p_tids s) -> p_tids s' = p_tids s -> (forall u, p_calls s' u = upd (p_calls s) t c' u) ->
  (bsum s' + bholds (p_calls s t) = bsum s + bholds c')%nat.
Proof.
  intros I Hin e1 e2. rewrite !bsum_sumf, e1.
  rewrite (sumf_ext (fun u => bholds (p_calls s' u)) (fun u => bholds (upd (p_calls s) t c' u))) by (intros; now rewrite e2).
  apply (sumf_upd_in bholds (p_calls s) t c' (p_tids s) (a_nodup s I) Hin).
Qed.

Lemma bsum_add s s' t c' :
  ~ In t (p_tids s) -> p_tids s' = t :: p_tids s -> (forall u, p_calls s' u = upd (p_calls s) t c' u) ->
  bholds c' = 0%nat -> bsum s' = bsum s.
Proof.
  intros Hn e1 e2 e3. rewrite !bsum_sumf, e1. cbn [sumf]. rewrite e2, upd_same, e3. cbn.
  rewrite (sumf_ext (fun u => bholds (p_calls s' u)) (fun u => bholds (upd (p_calls s) t c' u))) by (intros; now rewrite e2).
  apply sumf_upd_notin. exact Hn.
Qed.

(** bholds only looks at these *)
Lemma bholds_core c c' :
  k_cmds c' = k_cmds c -> k_donestart c' = k_donestart c -> pcl (k_pc c') = pcl (k_pc c) -> k_ret c' = k_ret c ->
  bholds c' = bholds c.
Proof. intros e1 e2 e3 e4. unfold bholds, blocking. now rewrite e1, e2, e3, e4. Qed.

Lemma blocking_errs c e : blocking c = true -> all_replies (errs_for c e) = false.
Proof.
  unfold blocking, errs_for, all_replies. destruct (k_cmds c) as [|x r]; [discriminate|]. reflexivity.
Qed.

Lemma bsum_act_frame s s' : act_frame s s' -> bsum s' = bsum s.
Proof.
  intros (q'&cs&dl&->&K). apply bsum_same; [reflexivity|]. intros u. cbn. destruct (K u) as (r&b&->). now apply bholds_core.
Qed.

Lemma bsum_set_same s s' t c' :
  p_tids s' = p_tids s -> (forall u, p_calls s' u = upd (p_calls s) t c' u) -> bholds c' = bholds (p_calls s t) ->
  bsum s' = bsum s.
Proof.
  intros e1 e2 e3. apply bsum_same; [exact e1|]. intros u. rewrite e2. unfold upd.
  destruct (N.eqb u t) eqn:E; [apply N.eqb_eq in E; subst; exact e3|reflexivity].
Qed.

Lemma bsum_ext s s' : p_tids s' = p_tids s -> p_calls s' = p_calls s -> bsum s' = bsum s.
Proof. intros e1 e2. apply bsum_same; [exact e1|]. intros u. now rewrite e2. Qed.

Lemma bsum_set_call_same s s0 t c' :
  p_tids s0 = p_tids s -> p_calls s0 = p_calls s -> bholds c' = bholds (p_calls s t) -> bsum (set_call s0 t c') = bsum s.
Proof.
  intros e1 e2 e3. apply (bsum_set_same s _ t c'); [exact e1| |exact e3]. intros u. cbn. now rewrite e2.
Qed.

Lemma bsum_set_call s s0 t c' :
  InvA s -> In t (p_tids s) -> p_tids s0 = p_tids s -> p_calls s0 = p_calls s ->
  (bsum (set_call s0 t c') + bholds (p_calls s t) = bsum s + bholds c')%nat.
Proof.
  intros I Hin e1 e2. apply (bsum_upd s _ t c' I Hin); [exact e1|]. intros u. cbn. now rewrite e2.
Qed.

(* [rw_pc]: rewrite with the known pcs; [core_same]: the new record has the fields [bholds] reads unchanged;
   [dobg]: a projection of [do_background s] that is the one of s *)
Ltac rw_pc := repeat match goal with H : k_pc (p_calls _ _) = _ |- _ => rewrite H end.
Ltac core_same := apply bholds_core; cbn; rw_pc; reflexivity.
Ltac dobg := rewrite ?do_background_eq; reflexivity.

(** a call that is in flight counts iff it is blocking *)
Lemma bholds_inflight c : pcl (k_pc c) = InFlight -> k_donestart c = false ->
  bholds c = if blocking c then 1%nat else 0%nat.
Proof. intros e1 e3. unfold bholds. rewrite e1, e3. destruct (blocking c); reflexivity. Qed.

Lemma bholds_ret c r : k_donestart c = false ->
  bholds (with_ret c r) = if blocking c && negb (all_replies r) then 1%nat else 0%nat.
Proof. intros e. unfold bholds, blocking. cbn. rewrite e. destruct (existsb c_block (k_cmds c)); cbn; reflexivity. Qed.

(** Only three steps change what the acting caller counts for: LIncr (it starts counting if blocking), and the
    returning LDecr and LFin (it stops if it got replies).  Every other step keeps commands, donestart, the class of
    the pc and the return value of every record ([bholds_core]), or adds a record that counts 0. *)
Lemma bsum_step g s l s' : InvA s -> InvS s -> pstep g s l = Some s' -> bsum s' = blk_after s l (bsum s) s'.
Proof.
  intros I IS H. destruct (pstep_inv g s l s' H); subst; cbn [blk_after].
  all: try reflexivity.
  all: try solve [apply bsum_same; [reflexivity|intros u; reflexivity]].
  all: try solve [apply bsum_ext; dobg].
  all: try solve [match goal with |- bsum (set_call _ _ _) = _ => apply bsum_set_call_same; [dobg|dobg|core_same] end].
  all: try solve [destruct k; (apply bsum_set_call_same; [dobg|dobg|core_same])].
  - (* LCall *)
    destruct (fresh_notin _ _ Hfr) as [Hn _].
    eapply bsum_add; [exact Hn|reflexivity|intros u; reflexivity|unfold bholds; cbn; now rewrite andb_false_r].
  - (* LIncr, context already done *)
    rewrite Hdone, andb_false_r. apply bsum_set_call_same; [reflexivity|reflexivity|].
    unfold bholds, blocking; cbn; rw_pc; cbn.
    destruct (existsb c_block (k_cmds (p_calls s t))); destruct (k_donestart (p_calls s t)); reflexivity.
  - (* LIncr *)
    assert (Hin : In t (p_tids s)) by (apply in_tids_pc; [assumption|congruence]).
    assert (Hd : k_donestart (p_calls s t) = false) by (apply donestart_false; [assumption|congruence]).
    pose proof (bsum_set_call s (set_waits s (S (p_waits s))) t (with_pc (p_calls s t) (PLoad (S (p_waits s)))) I Hin eq_refl eq_refl) as K.
    assert (K0 : bholds (p_calls s t) = 0%nat).
    { unfold bholds. rw_pc. cbn. now rewrite andb_false_r. }
    rewrite K0, (bholds_inflight (with_pc (p_calls s t) (PLoad (S (p_waits s))))) in K by (cbn; auto).
    change (blocking (with_pc (p_calls s t) (PLoad (S (p_waits s))))) with (blocking (p_calls s t)) in K.
    rewrite Hdone, andb_true_r. destruct (blocking (p_calls s t)); lia.
  - (* LLoad *)
    apply bsum_set_call_same; [reflexivity|reflexivity|]. apply bholds_core; cbn; rw_pc; destruct Hx; reflexivity.
  - (* LSyncW *) eapply (bsum_set_same s _ t); [reflexivity|intros u; reflexivity|core_same].
  - (* LSyncFail *)
    apply bsum_set_call_same; [dobg|dobg|]. apply bholds_core; cbn; try reflexivity.
    unfold sync_user in Hsy. destruct (k_pc (p_calls s t)); try discriminate; reflexivity.
  - (* LDecr: background() comes first *)
    cbn. rewrite upd_same. cbn. apply bsum_set_call_same; [reflexivity|reflexivity|core_same].
  - (* LDecr: returns *)
    cbn [p_calls set_call set_calls]. rewrite upd_same. cbn [k_pc k_ret with_ret].
    assert (Hin : In t (p_tids s)) by (apply in_tids_pc; [assumption|congruence]).
    assert (Hd : k_donestart (p_calls s t) = false) by (apply donestart_false; [assumption|congruence]).
    pose proof (bsum_set_call s (set_waits s (pred (p_waits s))) t (with_ret (p_calls s t) (k_res (p_calls s t))) I Hin eq_refl eq_refl) as K.
    rewrite (bholds_ret _ _ Hd), (bholds_inflight (p_calls s t)) in K by (rw_pc; auto).
    destruct (blocking (p_calls s t)); destruct (all_replies (k_res (p_calls s t))); cbn in *; lia.
  - (* LPutFail *)
    assert (Hd : k_donestart (p_calls s t) = false) by (apply donestart_false; [assumption|congruence]).
    apply bsum_set_call_same; [reflexivity|reflexivity|].
    rewrite (bholds_ret _ _ Hd), (bholds_inflight (p_calls s t)) by (rw_pc; auto).
    destruct (blocking (p_calls s t)) eqn:B; [rewrite (blocking_errs _ _ B)|]; reflexivity.
  - (* LAbort *)
    assert (Hd : k_donestart (p_calls s t) = false) by (apply donestart_false; [assumption|congruence]).
    apply bsum_set_call_same; [reflexivity|reflexivity|].
    transitivity (bholds (with_ret (p_calls s t) (errs_for (p_calls s t) ECtx))); [apply bholds_core; reflexivity|].
    rewrite (bholds_ret _ _ Hd), (bholds_inflight (p_calls s t)) by (rw_pc; auto).
    destruct (blocking (p_calls s t)) eqn:B; [rewrite (blocking_errs _ _ B)|]; reflexivity.
  - (* LFin *)
    cbn [p_calls set_call set_calls]. rewrite upd_same. cbn [k_pc k_ret with_ret].
    assert (Hin : In t (p_tids s)) by (apply in_tids_pc; [assumption|congruence]).
    assert (Hd : k_donestart (p_calls s t) = false) by (apply donestart_false; [assumption|congruence]).
    pose proof (bsum_set_call s (set_waits s (pred (p_waits s))) t (with_ret (p_calls s t) (k_res (p_calls s t))) I Hin eq_refl eq_refl) as K.
    rewrite (bholds_ret _ _ Hd), (bholds_inflight (p_calls s t)) in K by (rw_pc; auto).
    destruct (blocking (p_calls s t)); destruct (all_replies (k_res (p_calls s t))); cbn in *; lia.
  - (* LRStep *)
    transitivity (bsum (fold_left (apply_act (r_owner r') (r_resps r')) acts (set_wire s (p_c2s s) rest))); [apply bsum_ext; reflexivity|].
    rewrite (bsum_act_frame _ _ (fold_apply_frame _ _ _ _)). apply bsum_ext; reflexivity.
  - (* LRFail *)
    destruct complete.
    + transitivity (bsum (set_call s (r_owner r) (with_comp (with_res (p_calls s (r_owner r))
          (k_res (p_calls s (r_owner r)) ++ map (fun _ : nat => RErr (the_err s))
             (if r_resps r then idx else [0%nat]))) true))); [apply bsum_ext; reflexivity|].
      apply bsum_set_call_same; [reflexivity|reflexivity|apply bholds_core; reflexivity].
    + apply bsum_ext; reflexivity.
  - (* LPostPing *)
    destruct (fresh_notin _ _ Hfr) as [Hn _].
    eapply bsum_add; [exact Hn|reflexivity|intros u; reflexivity|reflexivity].
  - (* LCleanNR *) eapply (bsum_set_same s _ (s_owner sl)); [reflexivity|intros u; reflexivity|core_same].
  - (* LClose4 *)
    destruct (fresh_notin _ _ Hfr) as [Hn _].
    eapply bsum_add; [exact Hn|reflexivity|intros u; reflexivity|reflexivity].
Qed.

Record InvK (ws : wstate) : Prop := mkInvK {
  k_a : InvA (w_p ws);
  k_s : InvS (w_p ws);
  k_blk : w_blk ws = bsum (w_p ws)
}.

Lemma invk_init g : InvK (w_init g).
Proof. constructor; cbn; [apply inva_init|apply invs_init|reflexivity]. Qed.

(** a step of the extended LTS leaves the pipe and the counter alone, or is a step of the pipe (the
    watchdog's _exit is [LExtExit]) with the counter updated by [blk_after] *)
Lemma wstep_inv g ws wl ws' : wstep g ws wl = Some ws' ->
  (w_p ws' = w_p ws /\ w_blk ws' = w_blk ws) \/
  exists l, pstep g (w_p ws) l = Some (w_p ws') /\ w_blk ws' = blk_after (w_p ws) l (w_blk ws) (w_p ws').
Proof.
  intros H. destruct wl; cbn [wstep] in H.
  - destruct (pstep g (w_p ws) l) as [s'|] eqn:E; [|discriminate]. inversion H; subst. right. exists l. auto.
  - break_step H. inversion H; subst. now left.
  - break_step H. inversion H; subst. now left.
  - destruct (w_wd ws); [|discriminate]. destruct (Nat.eqb (w_blk ws) 0).
    + destruct (pstep g (w_p ws) LExtExit) as [s'|] eqn:E; [|discriminate]. inversion H; subst. right. exists LExtExit. auto.
    + inversion H; subst. now left.
Qed.

Lemma invk_step g ws wl ws' : InvK ws -> wstep g ws wl = Some ws' -> InvK ws'.
Proof.
  intros [IA IS Hb] H. destruct (wstep_inv g ws wl ws' H) as [[E1 E2]|(l&E&Eb)].
  - constructor; congruence.
  - constructor; [eapply inva_step; eauto|eapply invs_step; eauto|].
    rewrite Eb, Hb. symmetry. now apply (bsum_step g).
Qed.

Theorem invk_run g sched : forall ws ws', InvK ws -> wrun g sched ws = Some ws' -> InvK ws'.
Proof.
  induction sched as [|l r IH]; intros ws ws' I H; cbn [wrun] in H.
  - inversion H; subst; assumption.
  - destruct (wstep g ws l) as [ws1|] eqn:E; [|discriminate]. eapply IH; [|exact H]. eapply invk_step; eauto.
Qed.

Lemma wstep_base g ws wl ws' : wstep g ws wl = Some ws' ->
  w_p ws' = w_p ws \/ exists l, pstep g (w_p ws) l = Some (w_p ws').
Proof. intros H. destruct (wstep_inv g ws wl ws' H) as [[E _]|(l&E&_)]; eauto. Qed.

Theorem wrun_base g sched : forall ws ws' base, prun g base (p_init g) = Some (w_p ws) -> wrun g sched ws = Some ws' ->
  exists base', prun g base' (p_init g) = Some (w_p ws').
Proof.
  induction sched as [|l r IH]; intros ws ws' base Hb H; cbn [wrun] in H.
  - inversion H; subst. eauto.
  - destruct (wstep g ws l) as [ws1|] eqn:E; [|discriminate].
    destruct (wstep_base g ws l ws1 E) as [K|[l0 K]].
    + eapply (IH ws1 ws' base); [rewrite K; exact Hb|exact H].
    + eapply (IH ws1 ws' (base ++ [l0])); [|exact H]. eapply prun_app; [exact Hb|]. cbn. now rewrite K.
Qed.

Lemma bsum_zero s : (forall t, In t (p_tids s) -> bholds (p_calls s t) = 0%nat) -> bsum s = 0%nat.
Proof.
  intros H. rewrite bsum_sumf. induction (p_tids s) as [|a l IH]; [reflexivity|]. cbn.
  rewrite (H a (or_introl eq_refl)), IH; [reflexivity|]. intros t Ht. apply H. now right.
Qed.

Lemma bholds_01 c : bholds c = 0%nat \/ bholds c = 1%nat.
Proof. unfold bholds. destruct (_ && _ && _); auto. Qed.

(** with no blocking call counted and the watchdog waiting for its PING, the time-out closes the connection and
    latches the watchdog's error; calls, queue and counter are left as they are *)
Lemma wtimeout_fails g ws s :
  w_p ws = s -> w_blk ws = 0%nat -> w_wd ws = true -> p_err s = None ->
  exists ws', wstep g ws WTimeout = Some ws' /\
              p_err (w_p ws') = Some EWatchdog /\ p_conn (w_p ws') = false /\ p_st (w_p ws') <> 1 /\
              p_calls (w_p ws') = p_calls s /\ p_q (w_p ws') = p_q s /\ p_waits (w_p ws') = p_waits s.
Proof.
  intros e1 e2 e3 He. cbn [wstep]. rewrite e3, e2. cbn. eexists. split; [reflexivity|]. cbn. rewrite e1, He.
  repeat split; auto. destruct (N.eqb (p_st s) 1) eqn:E1; [discriminate|]. now apply N.eqb_neq in E1.
Qed.
