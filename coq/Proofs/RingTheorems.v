(** Ring LTS: reachability, and what the invariants of [RingInv] say about order, exactly-once and the slot owner. *)
From Coq Require Import List NArith ZArith Bool Arith Lia.
Require Import RV.Model.Base RV.Model.Ring RV.Proofs.LtsBase RV.Proofs.RingBase RV.Proofs.RingInv.
Import ListNotations.
Local Open Scope nat_scope.

Definition reachable (k : nat) (start : N) (st : state) : Prop := exists sch, run k sch (init start) = Some st.

Lemma reachable_ind : forall k start (P : state -> Prop),
  P (init start) -> (forall st l st', P st -> lstep k st l = Some st' -> P st') ->
  forall st, reachable k start st -> P st.
Proof.
  intros k start P H0 Hs st [sch Hr].
  exact (run_ind _ _ (lstep k) (run k) (fun _ => eq_refl) (fun _ _ _ => eq_refl) P _ H0 Hs sch st Hr).
Qed.

Theorem inv_reachable : forall k start st, reachable k start st -> Inv k start st.
Proof.
  intros k start st Hr. eapply reachable_ind; [apply inv_init| |exact Hr].
  intros s0 l s1 I Hl. eapply inv_step; eassumption.
Qed.

Section Theorems.
Variable k : nat.
Variable start : N.
Notation sof := (sof k start).
Notation cntpos := (cntpos k start).
Notation item_at := (item_at k start).

Theorem ring_slot_of_position : forall j, k <= 32 -> sof j = N.to_nat ((start + N.of_nat j) mod 2 ^ N.of_nat k)%N.
Proof. intros j Hk. unfold RingBase.sof. apply idx_u32. exact Hk. Qed.

(** the lap of position j: how many earlier positions use the same slot *)
Definition lap (j : nat) : nat := cntpos (j - 1) (sof j).

Theorem ring_writer_order : forall st, Que k start st ->
  wseq st = map (item_at st) (seq 1 (n1 st)) /\ length (wseq st) = n1 st /\
  forall j, 1 <= j <= n1 st -> nth_error (fillseq (slots st (sof j))) (lap j) = Some (item_at st j).
Proof.
  intros st Q.
  split; [apply (q_ws _ _ _ Q)|]. split; [rewrite (q_ws _ _ _ Q), map_length, seq_length; reflexivity|].
  intros j Hj. unfold RingInv.item_at, lap. apply nth_error_nth'.
  assert (H : cntpos (j - 1) (sof j) < cntpos (n1 st) (sof j)) by (apply cntpos_lt_at; lia).
  pose proof (q_ci _ _ _ Q (sof j)) as Hci. unfold CI in Hci. cbv zeta in Hci.
  destruct Hci as [(_ & _ & C3 & _)|[(_ & _ & C3 & _)|(_ & _ & C3 & _)]]; lia.
Qed.

Lemma fillseq_nodup : forall st s, Tkt k start st -> NoDup (fillseq (slots st s)).
Proof.
  intros st s [T1 T2 T3]. apply (NoDup_count_occ Nat.eq_dec). intro p.
  destruct (count_occ Nat.eq_dec (fillseq (slots st s)) p) eqn:E; [lia|].
  destruct (T2 s p) as [Hs Hp]; [unfold occ; lia|]. specialize (T3 p Hp). rewrite Hs in T3. unfold occ in T3. lia.
Qed.

Lemma fillseq_slot : forall st s p, Tkt k start st -> In p (fillseq (slots st s)) -> sof p = s /\ 1 <= p <= nw st.
Proof.
  intros st s p [T1 T2 T3] H. apply T2. apply In_cnt in H. unfold occ. lia.
Qed.

Theorem ring_wseq_nodup : forall st, Que k start st -> Tkt k start st -> NoDup (wseq st).
Proof.
  intros st Q T. destruct (ring_writer_order st Q) as (Hw & Hlen & Hnth).
  apply NoDup_nth_error. intros i j Hi Hij. rewrite Hlen in Hi.
  assert (Hj : j < n1 st).
  { destruct (nth_error (wseq st) i) eqn:E; [|apply nth_error_None in E; lia].
    symmetry in Hij. assert (nth_error (wseq st) j <> None) by congruence. apply nth_error_Some in H. lia. }
  rewrite Hw in Hij.
  rewrite !nth_error_map in Hij. rewrite !nth_error_nth' with (d := 0) in Hij by (rewrite seq_length; lia).
  rewrite !seq_nth in Hij by lia. cbn [option_map Nat.add] in Hij. inversion Hij as [Hit]. clear Hij.
  (* both positions carry the same item: same slot (the item's own), same lap *)
  pose proof (Hnth (S i) ltac:(lia)) as Ni. pose proof (Hnth (S j) ltac:(lia)) as Nj.
  rewrite Hit in Ni.
  assert (Si : sof (item_at st (S j)) = sof (S i)).
  { apply (fillseq_slot st _ _ T). eapply nth_error_In. exact Ni. }
  assert (Sj : sof (item_at st (S j)) = sof (S j)).
  { apply (fillseq_slot st _ _ T). eapply nth_error_In. exact Nj. }
  assert (Hs : sof (S i) = sof (S j)) by congruence.
  rewrite Hs in Ni.
  assert (Hl : lap (S i) = lap (S j)).
  { pose proof (fillseq_nodup st (sof (S j)) T) as Hnd. rewrite NoDup_nth_error in Hnd. apply Hnd; [|congruence].
    apply nth_error_Some. congruence. }
  (* same slot and same lap => same position *)
  unfold lap in Hl. rewrite Hs in Hl. replace (S i - 1) with i in Hl by lia. replace (S j - 1) with j in Hl by lia.
  destruct (Nat.lt_trichotomy i j) as [L|[L|L]]; [|exact L|].
  - exfalso. pose proof (cntpos_mono k start (S i) j (sof (S j)) L) as Hm.
    rewrite <- Hs in Hm at 1. rewrite cntpos_succ_same in Hm. rewrite Hs in Hm. lia.
  - exfalso. pose proof (cntpos_mono k start (S j) i (sof (S j)) L) as Hm.
    rewrite cntpos_succ_same in Hm. lia.
Qed.

(** what is handed to the writer was put: every dequeued item is a ticket holder that filled the slot of its ticket *)
Theorem ring_dequeued_were_put : forall st p, Que k start st -> Tkt k start st -> In p (wseq st) ->
  1 <= p <= nw st /\ In p (fillseq (slots st (sof p))).
Proof.
  intros st p Q T Hin. destruct (ring_writer_order st Q) as (Hw & Hlen & Hnth).
  rewrite Hw in Hin. apply in_map_iff in Hin. destruct Hin as (j & Hj & Hjs). apply in_seq in Hjs.
  pose proof (Hnth j ltac:(lia)) as N. rewrite Hj in N. apply nth_error_In in N.
  destruct (fillseq_slot st _ _ T N) as [S1 S2]. split; [exact S2|]. rewrite S1. exact N.
Qed.

Theorem ring_own_result : forall st p st', Own st -> lstep k st (RDeliver p) = Some st' ->
  exists s, rpc st = RHold s (Some p) /\ wt (slots st s) = [p] /\ bc (slots st s) = [] /\ recv st' = (p, p) :: recv st.
Proof.
  intros st p st' O Hl.
  apply lstep_rstep in Hl. rstep_inv Hl.
  pose proof (o_slot _ O s) as Os. rewrite (held_hold st s _ Hrp) in Os.
  destruct (own_wt _ _ _ Os Hp) as (B & W & U). destruct Os as (_ & M & _).
  unfold undel in U. rewrite (M i eq_refl) in U. injection U as ->. exists s. auto.
Qed.

(** the reader holds the slot mutex from NextResultCh to FinishResult: no putter can touch the slot *)
Theorem ring_lock_tenure : forall st s it, Own st -> rpc st = RHold s it ->
  forall p m, lstep k st (PutLock p s m) = None.
Proof.
  intros st s it O Hrp p m.
  assert (H : rlock (slots st s) = true) by (apply (own_lock_iff st s O); eexists; exact Hrp).
  cbn [lstep]. rewrite H. reflexivity.
Qed.

(** while a result is undelivered nobody else can occupy the slot *)
Theorem ring_slot_owner : forall st s i p m st', Own st -> und st s = Some i ->
  lstep k st (PutLock p s m) = Some st' -> fillseq (slots st' s) = fillseq (slots st s) /\ und st' s = Some i.
Proof.
  intros st s i p m st' O Hu Hl.
  apply lstep_rstep in Hl. rstep_inv Hl.
  - (* a fill needs the slot free and unlocked: nothing is undelivered there *)
    exfalso. pose proof (o_slot _ O s) as Os. rewrite und_held, (own_free _ _ Os Hr) in Hu.
    unfold undel in Hu. rewrite Hm in Hu. discriminate.
  - unfold und in *. rst. rewrite upd_same. auto.
Qed.

End Theorems.
