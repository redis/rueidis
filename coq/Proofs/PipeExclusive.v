(** C01_exclusive_conn: the counting invariant of the waits counter, uniqueness of the caller that
    saw waits = 1, and the exclusive use of the connection (one synchronous caller or the background
    loops, never both). *)
From Coq Require Import List NArith ZArith Bool Arith Lia.
Require Import RV.Model.Base RV.Model.PipeQueue RV.Model.Pipe RV.Model.PipeLts RV.Proofs.PipeLtsBasics.
Import ListNotations.
Open Scope N_scope.

(** the token: the thread saw waits = 1 when it incremented and has not decremented yet *)
Definition tokc (c : crec) : bool :=
  match k_pc c with
  | PLoad 1 | PBg | PSyncW | PSyncR _ | PDecr true | PBgAfter => true
  | _ => false
  end.
Definition tokk (k : kpc) : bool :=
  match k with K1 1 | K2 true _ => true | _ => false end.

Definition st_closed (s : pstate) : Prop := p_st s = 2 \/ p_st s = 4.

(** [a_nodup] .. [a_kidle]: thread ids are distinct and a thread that has not started is idle;
    [a_count]: waits is the number of counts held; [a_st], [a_bgst], [a_bgw]: the state word is 0, 1, 2 or 4, it is
    not 0 once bgState is set, and writer and reader do not exist before;
    [a_tok1] .. [a_tok3]: at most one thread, caller or closer, holds the token;
    [a_n1]: before background() ran nothing is completed; [a_n2], [a_n3]: a caller on the error path, or a closer
    past its compare-and-swap, sees a closed pipe; [a_e2]: once bgState is set nobody uses the connection
    synchronously; [a_dr]: only a call that returned has a drainer. *)
Record InvA (s : pstate) : Prop := mkInvA {
  a_nodup : NoDup (p_tids s);
  a_knodup : NoDup (p_ktids s);
  a_disj : forall t, In t (p_tids s) -> In t (p_ktids s) -> False;
  a_idle : forall t, ~ In t (p_tids s) -> k_pc (p_calls s t) = PIdle /\ k_drain (p_calls s t) = DNone;
  a_kidle : forall t, ~ In t (p_ktids s) -> p_closers s t = KIdle;
  a_count : p_waits s = hsum s;
  a_st : p_st s = 0 \/ p_st s = 1 \/ p_st s = 2 \/ p_st s = 4;
  a_bgst : p_bg s = true -> p_st s <> 0;
  a_bgw : p_bg s = false -> p_w s = WOff /\ p_b s = BOff;
  a_tok1 : forall t u, tokc (p_calls s t) = true -> tokc (p_calls s u) = true -> t = u;
  a_tok2 : forall t u, tokk (p_closers s t) = true -> tokk (p_closers s u) = true -> t = u;
  a_tok3 : forall t u, tokc (p_calls s t) = true -> tokk (p_closers s u) = true -> False;
  a_n1 : p_bg s = false -> forall t, k_comp (p_calls s t) = false /\ k_pc (p_calls s t) <> PGot /\ k_drain (p_calls s t) <> DGot;
  a_n2 : forall t, k_pc (p_calls s t) = PErr -> st_closed s;
  a_n3 : forall t, match p_closers s t with K2 _ _ | KWait _ | K5 => True | _ => False end -> st_closed s;
  a_e2 : p_bg s = true -> forall t, sync_user (p_calls s t) = false;
  a_dr : forall t, k_drain (p_calls s t) <> DNone -> k_pc (p_calls s t) = PRet
}.

Lemma sync_tok c : sync_user c = true -> tokc c = true.
Proof. unfold sync_user, tokc. destruct (k_pc c); try discriminate; reflexivity. Qed.

Lemma tokc_holds c : tokc c = true -> (1 <= holds c)%nat.
Proof. unfold tokc, holds. destruct (k_pc c) as [| |w| | |k| |b| | | | |]; try discriminate; intros _; lia. Qed.

Lemma tokk_holds k : tokk k = true -> kholds k = 1%nat.
Proof. destruct k as [|w|b p|t| |]; cbn; try discriminate; reflexivity. Qed.

Lemma hsum_zero_c s : InvA s -> hsum s = 0%nat -> forall t, holds (p_calls s t) = 0%nat.
Proof.
  intros I H t. unfold hsum in H.
  destruct (in_dec N.eq_dec t (p_tids s)) as [Hin|Hn].
  - apply (sumf_zero (fun t => holds (p_calls s t)) (p_tids s)); [lia|assumption].
  - destruct (a_idle s I t Hn) as [E1 E2]. unfold holds. now rewrite E1, E2.
Qed.

Lemma hsum_zero_k s : InvA s -> hsum s = 0%nat -> forall t, kholds (p_closers s t) = 0%nat.
Proof.
  intros I H t. unfold hsum in H.
  destruct (in_dec N.eq_dec t (p_ktids s)) as [Hin|Hn].
  - apply (sumf_zero (fun t => kholds (p_closers s t)) (p_ktids s)); [lia|assumption].
  - now rewrite (a_kidle s I t Hn).
Qed.

Lemma hsum_zero_notok s : InvA s -> hsum s = 0%nat ->
  (forall t, tokc (p_calls s t) = false) /\ (forall t, tokk (p_closers s t) = false).
Proof.
  intros I H. split; intros t.
  - destruct (tokc (p_calls s t)) eqn:E; [|reflexivity].
    apply tokc_holds in E. rewrite (hsum_zero_c s I H t) in E. lia.
  - destruct (tokk (p_closers s t)) eqn:E; [|reflexivity].
    apply tokk_holds in E. rewrite (hsum_zero_k s I H t) in E. lia.
Qed.

Lemma inva_init g : InvA (p_init g).
Proof.
  constructor; cbn.
  - constructor.
  - constructor.
  - intros t [].
  - intros t _. split; reflexivity.
  - intros; reflexivity.
  - reflexivity.
  - now left.
  - discriminate.
  - intros _; split; reflexivity.
  - intros t u H; discriminate.
  - intros t u H; discriminate.
  - intros t u H; discriminate.
  - intros _ t. repeat split; discriminate.
  - intros t H; discriminate.
  - intros t [].
  - discriminate.
  - intros t H. contradiction.
Qed.

(** s' differs from s only in what InvA does not read: wire, buffers, queue, ghost logs, results *)
Definition ctl_eq (s s' : pstate) : Prop :=
  p_st s' = p_st s /\ p_bg s' = p_bg s /\ p_waits s' = p_waits s /\
  (p_bg s = false -> p_w s' = p_w s) /\ (p_bg s = false -> p_b s' = p_b s) /\
  p_tids s' = p_tids s /\ p_closers s' = p_closers s /\ p_ktids s' = p_ktids s /\
  (forall t, k_pc (p_calls s' t) = k_pc (p_calls s t) /\ k_drain (p_calls s' t) = k_drain (p_calls s t)) /\
  (p_bg s = false -> forall t, k_comp (p_calls s' t) = k_comp (p_calls s t)).

Lemma holds_eq c c' : k_pc c' = k_pc c -> k_drain c' = k_drain c -> holds c' = holds c.
Proof. unfold holds. intros -> ->. reflexivity. Qed.

Lemma tokc_eq c c' : k_pc c' = k_pc c -> tokc c' = tokc c.
Proof. unfold tokc. intros ->. reflexivity. Qed.

Lemma sync_eq c c' : k_pc c' = k_pc c -> sync_user c' = sync_user c.
Proof. unfold sync_user. intros ->. reflexivity. Qed.

Lemma hsum_ctl_eq s s' : ctl_eq s s' -> hsum s' = hsum s.
Proof.
  intros (e1&e2&e3&e4&e5&e6&e7&e8&e9&e10). unfold hsum. rewrite e6, e7, e8. f_equal.
  apply sumf_ext. intros t _. destruct (e9 t). now apply holds_eq.
Qed.

Lemma inva_ctl_eq s s' : ctl_eq s s' -> InvA s -> InvA s'.
Proof.
  intros E I. pose proof (hsum_ctl_eq s s' E) as Hh.
  destruct E as (e1&e2&e3&e4&e5&e6&e7&e8&e9&e10).
  assert (Epc : forall t, k_pc (p_calls s' t) = k_pc (p_calls s t)) by (intros t; apply e9).
  assert (Edr : forall t, k_drain (p_calls s' t) = k_drain (p_calls s t)) by (intros t; apply e9).
  assert (Etok : forall t, tokc (p_calls s' t) = tokc (p_calls s t)) by (intros t; apply tokc_eq, Epc).
  assert (Esy : forall t, sync_user (p_calls s' t) = sync_user (p_calls s t)) by (intros t; apply sync_eq, Epc).
  destruct I as [a_nodup a_knodup a_disj a_idle a_kidle a_count a_st a_bgst a_bgw a_tok1 a_tok2 a_tok3 a_n1 a_n2 a_n3 a_e2 a_dr]. constructor; unfold st_closed in *; rewrite ?e1, ?e2, ?e3, ?e6, ?e7, ?e8, ?Hh; auto.
  - intros t Ht. rewrite Epc, Edr. auto.
  - intros Hb. rewrite (e4 Hb), (e5 Hb). auto.
  - intros t u. rewrite !Etok. auto.
  - intros t u. rewrite Etok. eauto.
  - intros Hb t. rewrite Epc, Edr, (e10 Hb). auto.
  - intros t. rewrite Epc. eauto.
  - intros Hb t. rewrite Esy. auto.
  - intros t. rewrite Epc, Edr. auto.
Qed.

Lemma hsum_upd_call s s' t c' :
  InvA s -> In t (p_tids s) ->
  p_tids s' = p_tids s -> p_ktids s' = p_ktids s -> p_closers s' = p_closers s ->
  (forall u, p_calls s' u = upd (p_calls s) t c' u) ->
  (hsum s' + holds (p_calls s t) = hsum s + holds c')%nat.
Proof.
  intros I Hin e1 e2 e3 e4. unfold hsum. rewrite e1, e2, e3.
  rewrite (sumf_ext (fun u => holds (p_calls s' u)) (fun u => holds (upd (p_calls s) t c' u))) by (intros; now rewrite e4).
  pose proof (sumf_upd_in holds (p_calls s) t c' (p_tids s) (a_nodup s I) Hin). lia.
Qed.

Lemma in_tids_pc s t : InvA s -> k_pc (p_calls s t) <> PIdle -> In t (p_tids s).
Proof.
  intros I H. destruct (in_dec N.eq_dec t (p_tids s)) as [|Hn]; [assumption|].
  destruct (a_idle s I t Hn). contradiction.
Qed.

Lemma fresh_idle s t : InvA s -> fresh s t = true -> k_pc (p_calls s t) = PIdle.
Proof. intros I K. apply (a_idle s I), (fresh_notin s t K). Qed.

Lemma in_ktids s t : InvA s -> p_closers s t <> KIdle -> In t (p_ktids s).
Proof.
  intros I H. destruct (in_dec N.eq_dec t (p_ktids s)) as [|Hn]; [assumption|].
  rewrite (a_kidle s I t Hn) in H. contradiction.
Qed.

Lemma drain_none s t : InvA s -> k_pc (p_calls s t) <> PRet -> k_drain (p_calls s t) = DNone.
Proof.
  intros I H. destruct (k_drain (p_calls s t)) eqn:Ed; [reflexivity| | |];
    exfalso; apply H; apply (a_dr s I); congruence.
Qed.

(** caller t replaces its record by c'; the counter moves with the number of counts t holds, and t may
    become the token holder only by incrementing a counter that was 0 *)
Section CallStep.
  Variables (s s' : pstate) (t : N) (c' : crec).
  Hypothesis I : InvA s.
  Hypothesis Hlive : k_pc (p_calls s t) <> PIdle.
  Hypothesis e_tids : p_tids s' = p_tids s.
  Hypothesis e_ktids : p_ktids s' = p_ktids s.
  Hypothesis e_closers : p_closers s' = p_closers s.
  Hypothesis e_calls : forall u, p_calls s' u = upd (p_calls s) t c' u.
  Hypothesis e_st : p_st s' = p_st s.
  Hypothesis e_bg : p_bg s' = p_bg s.
  Hypothesis e_w : p_w s' = p_w s.
  Hypothesis e_b : p_b s' = p_b s.

  Let c := p_calls s t.

  Lemma inva_call :
    (p_waits s' + holds c = p_waits s + holds c')%nat ->
    (tokc c' = true -> tokc c = true \/ p_waits s = 0%nat) ->
    (p_bg s = false -> k_comp c' = false /\ k_pc c' <> PGot /\ k_drain c' <> DGot) ->
    (k_pc c' = PErr -> st_closed s) ->
    (sync_user c' = true -> sync_user c = true \/ (p_st s = 0 /\ tokc c = true)) ->
    (k_drain c' <> DNone -> k_pc c' = PRet) ->
    InvA s'.
  Proof using I Hlive e_tids e_ktids e_closers e_calls e_st e_bg e_w e_b.
    intros e_waits Htok Hn1 Hn2 Hsy Hdr.
    assert (Et : p_calls s' t = c') by (rewrite e_calls; apply upd_same).
    assert (Eo : forall u, u <> t -> p_calls s' u = p_calls s u) by (intros u Hu; rewrite e_calls; now apply upd_other).
    pose proof (in_tids_pc s t I Hlive) as Hin.
    pose proof (hsum_upd_call s s' t c' I Hin e_tids e_ktids e_closers e_calls) as Hs. fold c in Hs.
    pose proof (a_count s I) as Hc.
    (* a token taken from a counter that was 0: nobody else holds one *)
    assert (Hnew : tokc c' = true -> tokc c = true \/
                   (forall u, tokc (p_calls s u) = false) /\ (forall u, tokk (p_closers s u) = false)).
    { intros Hu. destruct (Htok Hu) as [K|K]; [now left|right]. rewrite Hc in K. exact (hsum_zero_notok s I K). }
    destruct I as [a_nodup a_knodup a_disj a_idle a_kidle a_count a_st a_bgst a_bgw a_tok1 a_tok2 a_tok3 a_n1 a_n2 a_n3 a_e2 a_dr]. constructor; unfold st_closed in *; rewrite ?e_tids, ?e_ktids, ?e_closers, ?e_st, ?e_bg, ?e_w, ?e_b; auto.
    - intros u Hu. rewrite Eo by (intros ->; contradiction). auto.
    - lia.
    - intros u v Hu Hv. destruct (N.eq_dec u t) as [->|Nu]; destruct (N.eq_dec v t) as [->|Nv]; auto.
      + rewrite Et in Hu. rewrite Eo in Hv by assumption.
        destruct (Hnew Hu) as [K|[K _]]; [symmetry; auto|rewrite K in Hv; discriminate].
      + rewrite Et in Hv. rewrite Eo in Hu by assumption.
        destruct (Hnew Hv) as [K|[K _]]; [auto|rewrite K in Hu; discriminate].
      + rewrite Eo in Hu, Hv by assumption. auto.
    - intros u v Hu Hv. destruct (N.eq_dec u t) as [->|Nu]; [|rewrite Eo in Hu by assumption; eauto].
      rewrite Et in Hu. destruct (Hnew Hu) as [K|[_ K]]; [eauto|rewrite K in Hv; discriminate].
    - intros Hb u. destruct (N.eq_dec u t) as [->|Nu]; [rewrite Et; auto|rewrite Eo by assumption; auto].
    - intros u Hu. destruct (N.eq_dec u t) as [->|Nu]; [rewrite Et in Hu; auto|rewrite Eo in Hu by assumption; eauto].
    - intros Hb v. destruct (N.eq_dec v t) as [->|Nv]; [rewrite Et|rewrite Eo by assumption; auto].
      destruct (sync_user c') eqn:E; [|reflexivity].
      destruct (Hsy eq_refl) as [H1|[H1 H2]].
      + rewrite <- (a_e2 Hb t). symmetry. exact H1.
      + exfalso. apply (a_bgst Hb). exact H1.
    - intros u. destruct (N.eq_dec u t) as [->|Nu]; [rewrite Et; auto|rewrite Eo by assumption; auto].
  Qed.
End CallStep.

Lemma inva_do_background s :
  InvA s -> (forall u, sync_user (p_calls s u) = false) -> InvA (do_background s).
Proof.
  intros I Hns.
  assert (Hh : hsum (do_background s) = hsum s) by (unfold do_background; destruct (p_bg s); reflexivity).
  destruct I as [a_nodup a_knodup a_disj a_idle a_kidle a_count a_st a_bgst a_bgw a_tok1 a_tok2 a_tok3 a_n1 a_n2 a_n3 a_e2 a_dr].
  assert (Est : p_st (do_background s) = if N.eqb (p_st s) 0 then 1 else p_st s)
    by (unfold do_background; destruct (p_bg s); reflexivity).
  assert (Ebg : p_bg (do_background s) = true) by (unfold do_background; destruct (p_bg s); reflexivity).
  assert (Ecalls : p_calls (do_background s) = p_calls s) by (unfold do_background; destruct (p_bg s); reflexivity).
  assert (Etids : p_tids (do_background s) = p_tids s) by (unfold do_background; destruct (p_bg s); reflexivity).
  assert (Ekt : p_ktids (do_background s) = p_ktids s) by (unfold do_background; destruct (p_bg s); reflexivity).
  assert (Ecl : p_closers (do_background s) = p_closers s) by (unfold do_background; destruct (p_bg s); reflexivity).
  assert (Ew : p_waits (do_background s) = p_waits s) by (unfold do_background; destruct (p_bg s); reflexivity).
  assert (Hcl : st_closed s -> st_closed (do_background s)).
  { unfold st_closed. rewrite Est. intros [H|H]; rewrite H; cbn; auto. }
  constructor; rewrite ?Ecalls, ?Etids, ?Ekt, ?Ecl, ?Ew, ?Hh, ?Ebg; auto; try discriminate.
  - rewrite Est. destruct (N.eqb (p_st s) 0) eqn:E0; [auto|]. apply N.eqb_neq in E0. destruct a_st as [K|K]; [contradiction|auto].
  - intros _. rewrite Est. destruct (N.eqb (p_st s) 0) eqn:E0; [discriminate|]. now apply N.eqb_neq in E0.
  - intros t Ht. apply Hcl. eauto.
  - intros t Ht. apply Hcl. eauto.
Qed.

Lemma inva_do_exit s e : InvA s -> InvA (do_exit s e).
Proof.
  intros I. destruct I as [a_nodup a_knodup a_disj a_idle a_kidle a_count a_st a_bgst a_bgw a_tok1 a_tok2 a_tok3 a_n1 a_n2 a_n3 a_e2 a_dr].
  assert (Hcl : st_closed s -> st_closed (do_exit s e)).
  { unfold st_closed; cbn. intros [H|H]; rewrite H; cbn; auto. }
  constructor; cbn; auto.
  - destruct (N.eqb (p_st s) 1) eqn:E1; [auto|]. assumption.
  - intros Hb. destruct (N.eqb (p_st s) 1) eqn:E1; [discriminate|]. auto.
  - intros t Ht. apply Hcl. eauto.
  - intros t Ht. apply Hcl. eauto.
Qed.

Lemma ctl_eq_set_call s t c' :
  k_pc c' = k_pc (p_calls s t) -> k_drain c' = k_drain (p_calls s t) -> k_comp c' = k_comp (p_calls s t) ->
  ctl_eq s (set_call s t c').
Proof.
  intros e1 e2 e3.
  assert (K : forall u, k_pc (upd (p_calls s) t c' u) = k_pc (p_calls s u) /\
    k_drain (upd (p_calls s) t c' u) = k_drain (p_calls s u) /\
    k_comp (upd (p_calls s) t c' u) = k_comp (p_calls s u)).
  { intros u. unfold upd. destruct (N.eqb u t) eqn:E; [apply N.eqb_eq in E; subst; auto|auto]. }
  unfold ctl_eq; cbn. repeat split; try reflexivity; try apply K. intros _ u. apply K.
Qed.

(* [call_step s t c'] applies [inva_call] to a step that leaves caller t with record c'; the frame
   equations hold by computation, what remains are the side conditions on c'. *)
Ltac call_step s t c' :=
  eapply (inva_call s _ t c');
  [eassumption | | reflexivity | reflexivity | reflexivity | intros ?; reflexivity | reflexivity | reflexivity
   | reflexivity | reflexivity | ..].

(* Once the pc of t is known ([Epc]) those side conditions are closed facts about pc constructors,
   except two that are inherited from the invariant of t's old record: [a_n1] (nothing is complete
   before the background loops exist) and [a_dr] (only a returned call has a drainer).  [fin] closes
   whichever of them it can and leaves the rest. *)
Ltac n1_from I t :=
  let Hb := fresh "Hb" in
  intros Hb; destruct (a_n1 _ I Hb t) as (?&?&?); repeat split; cbn; auto; try discriminate; try congruence.

Ltac dr_from I t Epc :=
  let Hd := fresh "Hd" in
  intros Hd; try reflexivity; try (exfalso; apply Hd; reflexivity);
  pose proof (a_dr _ I t Hd) as Hd'; rewrite Epc in Hd'; try discriminate Hd'; try exact Hd'.

Ltac fin I t Epc :=
  cbn; unfold holds, tokc, sync_user; cbn; rewrite ?Epc;
  try solve [ reflexivity | discriminate | lia | intros; discriminate | intros [?|?]; discriminate
            | n1_from I t | auto | dr_from I t Epc ].

Lemma tok_no_sync_other s t : InvA s -> tokc (p_calls s t) = true -> sync_user (p_calls s t) = false ->
  forall u, sync_user (p_calls s u) = false.
Proof.
  intros I Ht Hs u. destruct (sync_user (p_calls s u)) eqn:E; [|reflexivity].
  pose proof (sync_tok _ E) as Hu. rewrite <- (a_tok1 s I t u Ht Hu) in E. congruence.
Qed.

Lemma waits_pos s t : InvA s -> k_pc (p_calls s t) <> PIdle -> (1 <= holds (p_calls s t))%nat -> (1 <= p_waits s)%nat.
Proof.
  intros I Hin Hh. rewrite (a_count s I). unfold hsum.
  pose proof (sumf_ge (fun t => holds (p_calls s t)) (p_tids s) t (in_tids_pc s t I Hin)) as K. cbn beta in K. lia.
Qed.

Lemma bg_of_b s : InvA s -> p_b s <> BOff -> p_bg s = true.
Proof. intros I H. destruct (p_bg s) eqn:E; [reflexivity|]. destruct (a_bgw s I E). contradiction. Qed.
Lemma bg_of_w s : InvA s -> p_w s <> WOff -> p_bg s = true.
Proof. intros I H. destruct (p_bg s) eqn:E; [reflexivity|]. destruct (a_bgw s I E). contradiction. Qed.

(** a step of the background goroutines *)
Lemma inva_bg_only s s' :
  InvA s -> p_bg s = true ->
  p_st s' = p_st s -> p_bg s' = p_bg s -> p_waits s' = p_waits s -> p_tids s' = p_tids s ->
  p_closers s' = p_closers s -> p_ktids s' = p_ktids s ->
  (forall t, k_pc (p_calls s' t) = k_pc (p_calls s t) /\ k_drain (p_calls s' t) = k_drain (p_calls s t)) ->
  InvA s'.
Proof.
  intros I Hb e1 e2 e3 e4 e5 e6 e7. apply (inva_ctl_eq s); [|assumption].
  unfold ctl_eq. repeat split; auto; try apply e7; intros K; congruence.
Qed.

(** a new thread t whose record starts at PIncr (a call) or at PPut with its count taken (a PING) *)
Lemma inva_add s s' t c' :
  InvA s -> fresh s t = true ->
  p_tids s' = t :: p_tids s -> p_ktids s' = p_ktids s -> p_closers s' = p_closers s ->
  (forall u, p_calls s' u = upd (p_calls s) t c' u) ->
  p_st s' = p_st s -> p_bg s' = p_bg s -> (p_bg s = false -> p_w s' = p_w s /\ p_b s' = p_b s) ->
  k_pc c' = PIncr \/ k_pc c' = PPut -> k_comp c' = false -> k_drain c' = DNone ->
  p_waits s' = (p_waits s + holds c')%nat ->
  InvA s'.
Proof.
  intros I Hfr e1 e2 e3 e4 e5 e6 e7 Hpc Hcomp Hdr e8. destruct (fresh_notin s t Hfr) as [Hn1 Hn2].
  assert (Eo : forall u, u <> t -> p_calls s' u = p_calls s u) by (intros u Hu; rewrite e4; now apply upd_other).
  assert (Et : p_calls s' t = c') by (rewrite e4; apply upd_same).
  assert (Hs : hsum s' = (hsum s + holds c')%nat).
  { unfold hsum. rewrite e1, e2, e3. cbn [sumf]. rewrite Et.
    rewrite (sumf_ext (fun u => holds (p_calls s' u)) (fun u => holds (upd (p_calls s) t c' u))) by (intros; now rewrite e4).
    rewrite (sumf_upd_notin holds (p_calls s) t c' (p_tids s) Hn1). lia. }
  assert (Htok : tokc c' = false /\ sync_user c' = false /\ k_pc c' <> PGot /\ k_pc c' <> PErr).
  { unfold tokc, sync_user. destruct Hpc as [-> | ->]; repeat split; discriminate. }
  destruct Htok as (Htok&Hsy&Hg&He).
  pose proof (a_count s I) as Hc.
  destruct I as [a_nodup a_knodup a_disj a_idle a_kidle a_count a_st a_bgst a_bgw a_tok1 a_tok2 a_tok3 a_n1 a_n2 a_n3 a_e2 a_dr]. constructor; unfold st_closed in *; rewrite ?e1, ?e2, ?e3, ?e5, ?e6, ?e8, ?Hs; auto.
  - constructor; assumption.
  - intros u [->|Hu] Hk; [contradiction|eauto].
  - intros u Hu. assert (u <> t) by (intros ->; apply Hu; now left). rewrite Eo by assumption. apply a_idle. intros K. apply Hu. now right.
  - intros Hb. destruct (e7 Hb) as [-> ->]. auto.
  - intros u v Hu Hv. destruct (N.eq_dec u t) as [->|Nu]; destruct (N.eq_dec v t) as [->|Nv]; auto; try congruence.
    rewrite Eo in Hu, Hv by assumption. auto.
  - intros u v Hu Hv. destruct (N.eq_dec u t) as [->|Nu]; [congruence|rewrite Eo in Hu by assumption; eauto].
  - intros Hb u. destruct (N.eq_dec u t) as [->|Nu]; [rewrite Et, Hdr; repeat split; auto; discriminate|rewrite Eo by assumption; auto].
  - intros u Hu. destruct (N.eq_dec u t) as [->|Nu]; [congruence|rewrite Eo in Hu by assumption; eauto].
  - intros Hb v. destruct (N.eq_dec v t) as [->|Nv]; [congruence|rewrite Eo by assumption; auto].
  - intros u. destruct (N.eq_dec u t) as [->|Nu]; [congruence|rewrite Eo by assumption; auto].
Qed.

Lemma hsum_upd_closer s s' t k' :
  InvA s -> In t (p_ktids s) ->
  p_tids s' = p_tids s -> p_ktids s' = p_ktids s -> p_calls s' = p_calls s ->
  (forall u, p_closers s' u = upd (p_closers s) t k' u) ->
  (hsum s' + kholds (p_closers s t) = hsum s + kholds k')%nat.
Proof.
  intros I Hin e1 e2 e3 e4. unfold hsum. rewrite e1, e2, e3.
  rewrite (sumf_ext (fun u => kholds (p_closers s' u)) (fun u => kholds (upd (p_closers s) t k' u))) by (intros; now rewrite e4).
  pose proof (sumf_upd_in kholds (p_closers s) t k' (p_ktids s) (a_knodup s I) Hin). lia.
Qed.

Lemma inva_closer s s' t k' :
  InvA s -> p_closers s t <> KIdle ->
  p_tids s' = p_tids s -> p_ktids s' = p_ktids s -> p_calls s' = p_calls s ->
  (forall u, p_closers s' u = upd (p_closers s) t k' u) ->
  p_st s' = p_st s -> p_bg s' = p_bg s -> p_w s' = p_w s -> p_b s' = p_b s ->
  (p_waits s' + kholds (p_closers s t) = p_waits s + kholds k')%nat ->
  (tokk k' = true -> tokk (p_closers s t) = true) ->
  (match k' with K2 _ _ | KWait _ | K5 => True | _ => False end -> st_closed s) ->
  InvA s'.
Proof.
  intros I Hin e1 e2 e3 e4 e5 e6 e7 e8 e9 Htok Hn3. apply (in_ktids s t I) in Hin.
  pose proof (hsum_upd_closer s s' t k' I Hin e1 e2 e3 e4) as Hs.
  assert (Eo : forall u, u <> t -> p_closers s' u = p_closers s u) by (intros u Hu; rewrite e4; now apply upd_other).
  assert (Et : p_closers s' t = k') by (rewrite e4; apply upd_same).
  pose proof (a_count s I) as Hc.
  destruct I as [a_nodup a_knodup a_disj a_idle a_kidle a_count a_st a_bgst a_bgw a_tok1 a_tok2 a_tok3 a_n1 a_n2 a_n3 a_e2 a_dr]. constructor; unfold st_closed in *; rewrite ?e1, ?e2, ?e3, ?e5, ?e6, ?e7, ?e8; auto.
  - intros u Hu. rewrite Eo by (intros ->; contradiction). auto.
  - lia.
  - intros u v Hu Hv. destruct (N.eq_dec u t) as [->|Nu]; destruct (N.eq_dec v t) as [->|Nv]; auto.
    + rewrite Et in Hu. rewrite Eo in Hv by assumption. symmetry. apply a_tok2; auto.
    + rewrite Et in Hv. rewrite Eo in Hu by assumption. apply a_tok2; auto.
    + rewrite Eo in Hu, Hv by assumption. auto.
  - intros u v Hu Hv. destruct (N.eq_dec v t) as [->|Nv].
    + rewrite Et in Hv. eapply a_tok3; eauto.
    + rewrite Eo in Hv by assumption. eauto.
  - intros u Hu. destruct (N.eq_dec u t) as [->|Nu]; [rewrite Et in Hu; auto|rewrite Eo in Hu by assumption; eauto].
Qed.

(** Close() enters: error latched, waits incremented; it holds the token if it saw 1 *)
Lemma inva_close1 s t : InvA s -> fresh s t = true ->
  InvA (add_ktid (set_closer (set_waits (latch s EClosing false) (S (p_waits s))) t (K1 (S (p_waits s)))) t).
Proof.
  intros I G. destruct (fresh_notin s t G) as [Hn1 Hn2].
  set (w := S (p_waits s)).
  match goal with |- InvA ?x => set (s' := x) end.
  assert (Eo : forall u, u <> t -> p_closers s' u = p_closers s u) by (intros u Hu; cbn; now apply upd_other).
  assert (Et : p_closers s' t = K1 w) by (cbn; apply upd_same).
  assert (Hs : hsum s' = S (hsum s)).
  { unfold hsum, s'; cbn. rewrite upd_same. cbn.
    rewrite (sumf_upd_notin kholds (p_closers s) t (K1 w) (p_ktids s) Hn2). lia. }
  pose proof (a_count s I) as Hc.
  assert (Htok : tokk (K1 w) = true -> (forall u, tokc (p_calls s u) = false) /\ (forall u, tokk (p_closers s u) = false)).
  { intros K. apply (hsum_zero_notok s I). revert K. unfold tokk, w. rewrite <- Hc. destruct (p_waits s); [reflexivity|discriminate]. }
  destruct I as [a_nodup a_knodup a_disj a_idle a_kidle a_count a_st a_bgst a_bgw a_tok1 a_tok2 a_tok3 a_n1 a_n2 a_n3 a_e2 a_dr]. constructor; fold s'; cbn [p_tids p_ktids p_calls p_st p_bg p_w p_b p_waits s' set_closer set_waits add_ktid latch]; auto.
  - constructor; assumption.
  - intros u Hu [->|Hk]; [contradiction|eauto].
  - intros u Hu. assert (u <> t) by (intros ->; apply Hu; now left). rewrite Eo by assumption. apply a_kidle. intros K. apply Hu. now right.
  - change (S (p_waits s) = hsum s'). lia.
  - intros u v Hu Hv. destruct (N.eq_dec u t) as [->|Nu]; destruct (N.eq_dec v t) as [->|Nv]; auto.
    + rewrite Et in Hu. rewrite Eo in Hv by assumption. destruct (Htok Hu) as [_ K]. rewrite K in Hv. discriminate.
    + rewrite Et in Hv. rewrite Eo in Hu by assumption. destruct (Htok Hv) as [_ K]. rewrite K in Hu. discriminate.
    + rewrite Eo in Hu, Hv by assumption. auto.
  - intros u v Hu Hv. destruct (N.eq_dec v t) as [->|Nv].
    + rewrite Et in Hv. destruct (Htok Hv) as [K _]. rewrite K in Hu. discriminate.
    + rewrite Eo in Hv by assumption. eauto.
  - intros u Hu. destruct (N.eq_dec u t) as [->|Nu]; [rewrite Et in Hu; contradiction|rewrite Eo in Hu by assumption; eauto].
Qed.

Lemma inva_close_cas s :
  InvA s ->
  InvA (mkP (if N.eqb (p_st s) 0 || N.eqb (p_st s) 1 then 2 else p_st s) (p_bg s) (p_waits s) (p_err s) (p_q s) (p_w s) (p_wbuf s)
            (p_wclosed s) (p_conn s) (p_c2s s) (p_s2c s) (p_b s) (p_cache_closed s) (p_calls s) (p_tids s) (p_closers s)
            (p_ktids s) (p_wlog s) (p_dlog s) (p_sent s)).
Proof.
  intros I.
  assert (Hcl : st_closed s -> (if N.eqb (p_st s) 0 || N.eqb (p_st s) 1 then 2 else p_st s) = 2 \/
                               (if N.eqb (p_st s) 0 || N.eqb (p_st s) 1 then 2 else p_st s) = 4).
  { intros [K|K]; rewrite K; cbn; auto. }
  assert (Hne : (if N.eqb (p_st s) 0 || N.eqb (p_st s) 1 then 2 else p_st s) <> 0).
  { destruct (N.eqb (p_st s) 0) eqn:E0; [cbn; discriminate|]. destruct (N.eqb (p_st s) 1); cbn; [discriminate|]. now apply N.eqb_neq. }
  destruct I as [a_nodup a_knodup a_disj a_idle a_kidle a_count a_st a_bgst a_bgw a_tok1 a_tok2 a_tok3 a_n1 a_n2 a_n3 a_e2 a_dr]. constructor; cbn; unfold st_closed; cbn; auto.
  - destruct (N.eqb (p_st s) 0 || N.eqb (p_st s) 1); auto.
  - intros t Ht. apply Hcl. eauto.
  - intros t Ht. apply Hcl. eauto.
Qed.

Section Steps.
  Variable g : config.

  Theorem inva_step s l s' : InvA s -> pstep g s l = Some s' -> InvA s'.
  Proof.
    intros I H.
    assert (Hwire : forall s1, ctl_eq s s1 -> InvA s1) by (intros s1 K; now apply (inva_ctl_eq s)).
    destruct (pstep_inv g s l s' H); subst;
      try (apply Hwire; unfold ctl_eq; cbn; repeat split; reflexivity);
      try (assert (Hlive : k_pc (p_calls s t) <> PIdle) by congruence).
    - (* LCall *) eapply (inva_add s _ t _ I Hfr); try reflexivity; cbn; auto.
    - (* LCtxDone *) apply Hwire, ctl_eq_set_call; reflexivity.
    - (* LIncr, context done *)
      pose proof (drain_none s t I) as Hd. rewrite Epc in Hd.
      call_step s t (mkC (k_cmds (p_calls s t)) (k_multi (p_calls s t)) (k_ctx (p_calls s t)) (k_ctxput (p_calls s t)) true true PRet []
                         false (Some (errs_for (p_calls s t) ECtx)) DNone); fin I t Epc.
      all: rewrite ?Hd by discriminate; try reflexivity; try (intros; repeat split; discriminate).
    - (* LIncr *)
      pose proof (drain_none s t I) as Hd. rewrite Epc in Hd.
      call_step s t (with_pc (p_calls s t) (PLoad (S (p_waits s)))); fin I t Epc.
      all: rewrite ?Hd by discriminate; try lia.
      destruct (p_waits s); [auto|discriminate].
    - (* LLoad *)
      call_step s t (with_pc (p_calls s t) x); destruct Hx as [Hx|Hx Hw Hn|Hx Hw Hn|Hx Hx']; subst; fin I t Epc.
      intros _. destruct (a_st s I) as [?|[?|[?|?]]]; unfold st_closed; auto; contradiction.
    - (* LBg *)
      assert (I1 : InvA (do_background s)).
      { apply inva_do_background; [assumption|]. apply (tok_no_sync_other s t I); unfold tokc, sync_user; now rewrite Epc. }
      pose proof (calls_do_background s) as Ec.
      assert (Epc1 : k_pc (p_calls (do_background s) t) = PBg) by (now rewrite Ec).
      rewrite <- Ec.
      call_step (do_background s) t (with_pc (p_calls (do_background s) t) PPut); try congruence; fin I1 t Epc1.
    - (* LSyncW *)
      call_step s t (with_pc (p_calls s t) (PSyncR (List.length (k_cmds (p_calls s t))))); fin I t Epc.
    - (* LSyncR *)
      destruct k as [|k];
        [call_step s t (with_pc (with_res (p_calls s t) (k_res (p_calls s t) ++ [RMsg f])) (PDecr true))
        |call_step s t (with_pc (with_res (p_calls s t) (k_res (p_calls s t) ++ [RMsg f])) (PSyncR (S k)))]; fin I t Epc.
    - (* LSyncFail *)
      set (e := if ctxerr then ECtx else EConn).
      set (s0 := set_wire (latch s e true) [] []).
      assert (I0 : InvA s0) by (apply Hwire; unfold ctl_eq; cbn; repeat split; reflexivity).
      set (c' := with_pc (with_res (p_calls s t) (errs_for (p_calls s t) e)) (PDecr true)).
      assert (Hpc : k_pc (p_calls s0 t) = PSyncW \/ exists k, k_pc (p_calls s0 t) = PSyncR k).
      { cbn. unfold sync_user in Hsy. destruct (k_pc (p_calls s t)); try discriminate; eauto. }
      assert (I1 : InvA (set_call s0 t c')).
      { call_step s0 t c'; try reflexivity; cbn.
        all: try (unfold holds, tokc, sync_user; cbn; destruct Hpc as [Hp|[k Hp]]; cbn in Hp; rewrite Hp; cbn).
        all: try solve [reflexivity | discriminate | intros; discriminate | intros [?|?]; discriminate | auto].
        all: try (intros Hb; destruct (a_n1 s0 I0 Hb t) as (?&?&?); repeat split; auto; discriminate).
        all: try (intros Hd; pose proof (a_dr s0 I0 t Hd) as Hd'; destruct Hpc as [Hp|[k Hp]]; rewrite Hp in Hd'; discriminate). }
      rewrite do_background_set_call.
      apply inva_do_background; [assumption|].
      apply (tok_no_sync_other _ t I1); cbn; rewrite upd_same; reflexivity.
    - (* LErr *)
      call_step s t (with_pc (with_res (p_calls s t) (errs_for (p_calls s t) (the_err s))) (PDecr false)); fin I t Epc.
    - (* LDecr: others are counted after a synchronous call, background() comes next, the count is kept *)
      call_step s t (with_pc (p_calls s t) PBgAfter); fin I t Epc.
    - (* LDecr *)
      pose proof (drain_none s t I) as Hd. rewrite Epc in Hd.
      pose proof (waits_pos s t I Hlive) as Hp. unfold holds in Hp. rewrite Epc in Hp.
      call_step s t (with_ret (p_calls s t) (k_res (p_calls s t))); fin I t Epc.
      all: rewrite ?Hd by discriminate; try lia; try reflexivity.
    - (* LBgAfter *)
      assert (Hns : forall u, sync_user (p_calls s u) = false).
      { apply (tok_no_sync_other s t I); unfold tokc, sync_user; now rewrite Epc. }
      assert (I1 : InvA (do_background s)) by (apply inva_do_background; assumption).
      pose proof (calls_do_background s) as Ec.
      assert (Epc1 : k_pc (p_calls (do_background s) t) = PBgAfter) by (now rewrite Ec).
      rewrite <- Ec.
      call_step (do_background s) t (with_pc (p_calls (do_background s) t) (PDecr false)); try congruence; fin I1 t Epc1.
    - (* LPut *) call_step s t (with_pc (p_calls s t) PWait); fin I t Epc.
    - (* LPutFail *)
      pose proof (drain_none s t I) as Hd. rewrite Epc in Hd.
      pose proof (waits_pos s t I Hlive) as Hp. unfold holds in Hp. rewrite Epc in Hp.
      call_step s t (with_ret (p_calls s t) (errs_for (p_calls s t) ECtx)); fin I t Epc.
      all: rewrite ?Hd by discriminate; try lia; try reflexivity.
    - (* LRecv *) call_step s t (with_pc (with_comp (p_calls s t) false) PGot); fin I t Epc.
    - (* LAbort *)
      pose proof (drain_none s t I) as Hd. rewrite Epc in Hd.
      call_step s t (with_drain (with_ret (p_calls s t) (errs_for (p_calls s t) ECtx)) DWait); fin I t Epc.
      all: rewrite ?Hd by discriminate; try reflexivity.
    - (* LFin *)
      pose proof (drain_none s t I) as Hd. rewrite Epc in Hd.
      pose proof (waits_pos s t I Hlive) as Hp. unfold holds in Hp. rewrite Epc in Hp.
      call_step s t (with_ret (p_calls s t) (k_res (p_calls s t))); fin I t Epc.
      all: rewrite ?Hd by discriminate; try lia; try reflexivity.
      all: try (intros Hb _ _; destruct (a_n1 s I Hb t) as (_&K&_); congruence).
    - (* LDrainRecv *)
      assert (Epc : k_pc (p_calls s t) = PRet) by (apply (a_dr s I); congruence).
      assert (Hlive : k_pc (p_calls s t) <> PIdle) by congruence.
      call_step s t (with_drain (with_comp (p_calls s t) false) DGot); fin I t Epc.
      all: rewrite ?Edr; try reflexivity; try (intros; discriminate).
      all: try (intros Hb; destruct (a_n1 s I Hb t) as (K&_&_); congruence).
    - (* LDrainFin *)
      assert (Epc : k_pc (p_calls s t) = PRet) by (apply (a_dr s I); congruence).
      assert (Hlive : k_pc (p_calls s t) <> PIdle) by congruence.
      pose proof (waits_pos s t I Hlive) as Hp. unfold holds in Hp. rewrite Epc, Edr in Hp.
      call_step s t (with_drain (p_calls s t) DDone); fin I t Epc.
      all: rewrite ?Edr; try lia; try reflexivity; try (intros; discriminate).
      all: try (intros Hb _ _; destruct (a_n1 s I Hb t) as (_&_&K); congruence).
    - (* LWExit *)
      assert (Hbg : p_bg s = true) by (apply bg_of_w; [assumption|congruence]).
      apply (inva_bg_only (do_exit s EConn)); auto. apply inva_do_exit. assumption.
    - (* LRStep *)
      assert (Hbg : p_bg s = true) by (apply bg_of_b; [assumption|congruence]).
      pose proof (fold_apply_frame (r_owner r') (r_resps r') acts (set_wire s (p_c2s s) rest)) as K.
      pose proof (act_frame_pc _ _ K) as Kpc. destruct K as (q'&cs&dl&E&_).
      apply (inva_bg_only s); auto; cbn; rewrite ?E; auto.
    - (* LRFail *)
      assert (Hbg : p_bg s = true) by (apply bg_of_b; [assumption|congruence]).
      match goal with |- InvA (set_b (do_exit ?s1 _) BPost) => set (s1' := s1) end.
      assert (I1 : InvA s1').
      { unfold s1'. destruct complete; [|assumption].
        apply (inva_bg_only s); auto.
        intros t. cbn. unfold upd. destruct (N.eqb t (r_owner r)) eqn:E; [apply N.eqb_eq in E; subst; cbn; auto|auto]. }
      assert (Hbg1 : p_bg s1' = true) by (unfold s1'; destruct complete; assumption).
      apply (inva_bg_only (do_exit s1' (the_err s))); auto. now apply inva_do_exit.
    - (* LPostSkip *)
      assert (Hbg : p_bg s = true) by (apply bg_of_b; [assumption|congruence]).
      apply (inva_bg_only s); auto.
    - (* LPostPing *)
      assert (Hbg : p_bg s = true) by (apply bg_of_b; [assumption|congruence]).
      eapply (inva_add s _ t' _ I Hfr); try reflexivity; cbn; auto; try lia. intros K. congruence.
    - (* LCleanNR *)
      assert (Hbg : p_bg s = true) by (apply bg_of_b; [assumption|congruence]).
      apply (inva_bg_only s); auto.
      intros t. cbn. unfold upd. destruct (N.eqb t (s_owner sl)) eqn:E; [apply N.eqb_eq in E; subst; cbn; auto|auto].
    - (* LCleanExit *)
      assert (Hbg : p_bg s = true) by (apply bg_of_b; [assumption|congruence]).
      apply (inva_bg_only s); auto.
    - (* LFinal *)
      assert (Hbg : p_bg s = true) by (apply bg_of_b; [assumption|congruence]).
      destruct I as [a_nodup a_knodup a_disj a_idle a_kidle a_count a_st a_bgst a_bgw a_tok1 a_tok2 a_tok3 a_n1 a_n2 a_n3 a_e2 a_dr]. constructor; cbn; auto; unfold st_closed; cbn; auto.
      all: try (intros; discriminate); try congruence.
    - (* LExtExit *) now apply inva_do_exit.
    - (* LClose1 *) exact (inva_close1 s t I Hfr).
    - (* LClose2 *)
      pose proof (inva_close_cas s I) as I1.
      match type of I1 with InvA ?x => set (s1 := x) in * end.
      assert (Hst1 : st_closed s1).
      { unfold st_closed, s1; cbn. destruct (a_st s I) as [K|[K|[K|K]]]; rewrite K; cbn; auto. }
      eapply (inva_closer s1 _ t); try eassumption; try reflexivity; cbn; rewrite ?Ek; cbn; try lia; try discriminate; auto.
      unfold tokk. destruct (N.eqb (p_st s) 0); cbn; [|discriminate].
      destruct w as [|[|w]]; cbn; auto; discriminate.
    - (* LClose3, background() *)
      assert (Hcl : st_closed s) by (apply (a_n3 s I t); now rewrite Ek).
      assert (Hns : forall u, sync_user (p_calls s u) = false).
      { intros u. destruct (sync_user (p_calls s u)) eqn:E; [|reflexivity]. apply sync_tok in E.
        exfalso. apply (a_tok3 s I u t E). now rewrite Ek. }
      pose proof (inva_do_background s I Hns) as I1.
      assert (Hcl1 : st_closed (do_background s)).
      { unfold st_closed. rewrite do_background_eq. destruct Hcl as [K|K]; cbn; rewrite K; cbn; auto. }
      eapply (inva_closer (do_background s) _ t); try eassumption; try reflexivity; try (intros _; exact Hcl1);
        rewrite do_background_eq; cbn; rewrite ?Ek; cbn; try lia; try discriminate; auto.
    - (* LClose3 *)
      assert (Hcl : st_closed s) by (apply (a_n3 s I t); now rewrite Ek).
      eapply (inva_closer s _ t); try eassumption; try reflexivity; rewrite ?Ek; cbn; try lia; try discriminate; auto.
    - (* LClose4 *)
      assert (Hcl : st_closed s) by (apply (a_n3 s I t); now rewrite Ek).
      set (s1 := add_tid (set_call (set_waits s (S (p_waits s))) t' ping_call) t').
      assert (I1 : InvA s1).
      { eapply (inva_add s s1 t' _ I Hfr); try reflexivity; cbn; auto; lia. }
      eapply (inva_closer s1 _ t); try eassumption; try reflexivity; cbn; rewrite ?Ek; cbn; try lia; try discriminate; auto.
    - (* LCloseJoin *)
      assert (Hcl : st_closed s) by (apply (a_n3 s I t); now rewrite Ek).
      eapply (inva_closer s _ t); try eassumption; try reflexivity; rewrite ?Ek; cbn; try lia; try discriminate; auto.
    - (* LClose5 *)
      assert (Hw : (1 <= p_waits s)%nat).
      { rewrite (a_count s I). unfold hsum.
        pose proof (sumf_ge (fun t => kholds (p_closers s t)) (p_ktids s) t) as K. cbn beta in K. rewrite Ek in K.
        specialize (K (in_ktids s t I ltac:(congruence))). cbn in K. lia. }
      eapply (inva_closer s _ t); try eassumption; try reflexivity; cbn; rewrite ?Ek; cbn; try lia; try discriminate; auto.
  Qed.
End Steps.

(** the connection has at most one user: one synchronous caller, or the background loops *)
Lemma exclusive s : InvA s -> (users s <= 1)%nat.
Proof.
  intros I. unfold users. destruct (bg_user s) eqn:Eb.
  - (* the background loops exist: no synchronous caller *)
    assert (Hbg : p_bg s = true).
    { unfold bg_user in Eb. destruct (p_bg s) eqn:E; [reflexivity|]. destruct (a_bgw s I E) as [K1 K2]. rewrite K1, K2 in Eb. discriminate. }
    rewrite (filter_nil (fun t => sync_user (p_calls s t))); [cbn; lia|]. intros x _. apply (a_e2 s I Hbg).
  - (* synchronous callers hold the token, of which there is one *)
    rewrite Nat.add_0_r. apply (filter_atmost1 (fun t => sync_user (p_calls s t)) (p_tids s) (a_nodup s I)).
    intros x y _ _ Hx Hy. apply (a_tok1 s I); now apply sync_tok.
Qed.

Section Reach.
  Variable g : config.

  Theorem inva_run sched : forall s s', InvA s -> prun g sched s = Some s' -> InvA s'.
  Proof. exact (prun_inv g InvA (inva_step g) sched). Qed.
End Reach.
