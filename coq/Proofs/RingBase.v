(** Arithmetic of the uint32 tickets, list lemmas, and the shape of the steps of the ring LTS. *)
From Coq Require Import List NArith ZArith Bool Arith Lia.
Require Import RV.Model.Base RV.Model.Ring.
Import ListNotations.
Local Open Scope nat_scope.

(** slot of position j (the j-th value the counters take after [start]) *)
Definition sof (k : nat) (start : N) (j : nat) : nat := idx k (u32 (start + N.of_nat j)).

Lemma u32_succ : forall start a, u32 (u32 (start + N.of_nat a) + 1) = u32 (start + N.of_nat (S a)).
Proof.
  intros start a. unfold u32. rewrite Nat2N.inj_succ.
  rewrite N.add_mod_idemp_l by (apply N.pow_nonzero; discriminate).
  f_equal. lia.
Qed.

Lemma u32_idem : forall x, u32 (u32 x) = u32 x.
Proof. intro x. unfold u32. apply N.mod_mod. apply N.pow_nonzero. discriminate. Qed.

(** the uint32 wrap of a counter does not change the slot it selects *)
Lemma idx_u32 : forall k x, k <= 32 -> idx k (u32 x) = N.to_nat (x mod 2 ^ N.of_nat k)%N.
Proof.
  intros k x Hk. unfold idx, u32. rewrite N.land_ones. f_equal.
  assert (E : (2 ^ 32 = 2 ^ N.of_nat k * 2 ^ (32 - N.of_nat k))%N).
  { rewrite <- N.pow_add_r. f_equal. lia. }
  rewrite E. set (a := (2 ^ N.of_nat k)%N). set (b := (2 ^ (32 - N.of_nat k))%N).
  assert (Ha : a <> 0%N) by (apply N.pow_nonzero; discriminate).
  assert (Hb : b <> 0%N) by (apply N.pow_nonzero; discriminate).
  rewrite (N.mod_mul_r x a b Ha Hb). rewrite (N.mul_comm a). rewrite N.mod_add by exact Ha.
  apply N.mod_mod. exact Ha.
Qed.

Lemma idx_lt : forall k c, idx k c < 2 ^ k.
Proof.
  intros k c. unfold idx. rewrite N.land_ones.
  assert (H : (c mod 2 ^ N.of_nat k < 2 ^ N.of_nat k)%N) by (apply N.mod_lt; apply N.pow_nonzero; discriminate).
  assert (E : 2 ^ k = N.to_nat (2 ^ N.of_nat k)%N).
  { clear. induction k as [|k IH]; [reflexivity|]. rewrite Nat2N.inj_succ, N.pow_succ_r', N2Nat.inj_mul, <- IH. cbn [Nat.pow]. reflexivity. }
  rewrite E. lia.
Qed.

(** number of positions 1..n on slot s *)
Fixpoint cntpos (k : nat) (start : N) (n s : nat) : nat :=
  match n with
  | O => 0
  | S m => cntpos k start m s + (if Nat.eqb (sof k start (S m)) s then 1 else 0)
  end.

Lemma cntpos_mono : forall k start n m s, n <= m -> cntpos k start n s <= cntpos k start m s.
Proof.
  intros k start n m s H. induction H as [|m H IH]; [lia|]. cbn [cntpos]. lia.
Qed.

Lemma cntpos_succ_same : forall k start n, cntpos k start (S n) (sof k start (S n)) = S (cntpos k start n (sof k start (S n))).
Proof. intros. cbn [cntpos]. rewrite Nat.eqb_refl. lia. Qed.

Lemma cntpos_succ_other : forall k start n s, s <> sof k start (S n) -> cntpos k start (S n) s = cntpos k start n s.
Proof.
  intros k start n s H. cbn [cntpos]. destruct (Nat.eqb (sof k start (S n)) s) eqn:E; [apply Nat.eqb_eq in E; congruence|lia].
Qed.

Lemma cntpos_lt_at : forall k start j n, 1 <= j -> j <= n ->
  cntpos k start (j - 1) (sof k start j) < cntpos k start n (sof k start j).
Proof.
  intros k start j n H1 H2. destruct j as [|j]; [lia|]. replace (S j - 1) with j by lia.
  pose proof (cntpos_mono k start (S j) n (sof k start (S j)) H2) as Hm.
  rewrite cntpos_succ_same in Hm. lia.
Qed.

Lemma memb_In : forall x l, memb x l = true <-> In x l.
Proof.
  intros x l. induction l as [|y r IH]; cbn [memb In].
  - split; [discriminate|tauto].
  - rewrite orb_true_iff, IH, Nat.eqb_eq. split; intros [H|H]; auto.
Qed.

Lemma remove1_length : forall x l, memb x l = true -> S (length (remove1 x l)) = length l.
Proof.
  intros x l. induction l as [|y r IH]; cbn [memb remove1 length]; [discriminate|].
  intro H. destruct (Nat.eqb x y) eqn:E; [reflexivity|].
  cbn [orb] in H. cbn [length]. rewrite (IH H). reflexivity.
Qed.

Lemma remove1_In : forall x y l, In y (remove1 x l) -> In y l.
Proof.
  intros x y l. induction l as [|z r IH]; cbn [remove1 In]; [tauto|].
  destruct (Nat.eqb x z); cbn [In]; intros H; [right; exact H|].
  destruct H as [H|H]; [left; exact H|right; apply IH; exact H].
Qed.

Lemma is_nil_true : forall (A : Type) (l : list A), is_nil l = true <-> l = [].
Proof. intros A l. destruct l; cbn; split; intro H; congruence. Qed.

Lemma memb_head : forall x l, memb x (x :: l) = true.
Proof. intros. cbn [memb]. rewrite Nat.eqb_refl. reflexivity. Qed.

Lemma app_single_inv : forall (a b : list nat) i, a ++ b = [i] -> (a = [i] /\ b = []) \/ (a = [] /\ b = [i]).
Proof.
  intros a b i H. destruct a as [|x a]; cbn [app] in H.
  - right. split; [reflexivity|exact H].
  - inversion H; subst. destruct a; [|discriminate]. cbn [app] in *. subst. left. split; reflexivity.
Qed.

Lemma memb_single : forall p i, memb p [i] = true -> p = i.
Proof. intros p i H. cbn [memb] in H. rewrite orb_false_r in H. apply Nat.eqb_eq. exact H. Qed.

Lemma remove1_single : forall p, remove1 p [p] = [].
Proof. intro p. cbn [remove1]. rewrite Nat.eqb_refl. reflexivity. Qed.

Lemma app_single_nonempty : forall (A : Type) (l : list A) p, l ++ [p] <> [].
Proof. intros A l p H. apply app_eq_nil in H. destruct H as [_ H]. discriminate H. Qed.

Lemma hd_memb : forall l, l <> [] -> exists p, memb p l = true.
Proof. intros [|p r] H; [congruence|]. exists p. apply memb_head. Qed.

Lemma firstn_map_seq : forall (f : nat -> nat) a n m, m <= n -> firstn m (map f (seq a n)) = map f (seq a m).
Proof.
  intros f a n m H. rewrite firstn_map. f_equal. revert a n H. induction m as [|m IH]; intros a n H; [reflexivity|].
  destruct n as [|n]; [lia|]. cbn [seq firstn]. f_equal. apply IH. lia.
Qed.

Lemma upd_same : forall f i v, upd f i v i = v.
Proof. intros. unfold upd. rewrite Nat.eqb_refl. reflexivity. Qed.

Lemma upd_other : forall f i v j, j <> i -> upd f i v j = f j.
Proof. intros f i v j H. unfold upd. destruct (Nat.eqb j i) eqn:E; [apply Nat.eqb_eq in E; congruence|reflexivity]. Qed.

Lemma upd_upd : forall f i a b j, upd (upd f i a) i b j = upd f i b j.
Proof. intros. unfold upd. destruct (Nat.eqb j i); reflexivity. Qed.

(** [st'] has the slots of [st], except that slot [s] holds [v] *)
Definition rewrites (st st' : state) (s : nat) (v : slot) : Prop := forall j, slots st' j = upd (slots st) s v j.

Lemma rewrites_same : forall st st' s v, rewrites st st' s v -> slots st' s = v.
Proof. intros st st' s v H. rewrite H. apply upd_same. Qed.

Lemma rewrites_other : forall st st' s v j, rewrites st st' s v -> j <> s -> slots st' j = slots st j.
Proof. intros st st' s v j H E. rewrite H. apply upd_other. exact E. Qed.

Lemma rewrites_proj : forall (A : Type) (g : slot -> A) st st' s v, rewrites st st' s v -> g v = g (slots st s) ->
  forall j, g (slots st' j) = g (slots st j).
Proof.
  intros A g st st' s v H E j. destruct (Nat.eq_dec j s) as [->|N].
  - rewrite (rewrites_same _ _ _ _ H). exact E.
  - rewrite (rewrites_other _ _ _ _ _ H N). reflexivity.
Qed.

Lemma rewrites_none : forall st st' s, (forall j, slots st' j = slots st j) -> rewrites st st' s (slots st s).
Proof.
  intros st st' s H j. rewrite H. destruct (Nat.eq_dec j s) as [->|N]; [rewrite upd_same|rewrite upd_other by exact N]; reflexivity.
Qed.

Notation cnt := (count_occ Nat.eq_dec).

Definition ind (a x : nat) : nat := if Nat.eq_dec a x then 1 else 0.

Lemma cnt_cons : forall a l x, cnt (a :: l) x = ind a x + cnt l x.
Proof. intros a l x. unfold ind. cbn [count_occ]. destruct (Nat.eq_dec a x); reflexivity. Qed.

Lemma cnt_app1 : forall l a x, cnt (l ++ [a]) x = cnt l x + ind a x.
Proof. intros l a x. rewrite count_occ_app, cnt_cons. cbn [count_occ]. lia. Qed.

Lemma cnt_remove1 : forall a l x, cnt (remove1 a l) x = cnt l x - ind a x.
Proof.
  intros a l x. unfold ind. induction l as [|y r IH]; cbn [remove1 count_occ].
  - destruct (Nat.eq_dec a x); reflexivity.
  - destruct (Nat.eqb a y) eqn:E.
    + apply Nat.eqb_eq in E. subst y. destruct (Nat.eq_dec a x); lia.
    + apply Nat.eqb_neq in E. cbn [count_occ]. destruct (Nat.eq_dec y x) as [Y|Y]; destruct (Nat.eq_dec a x) as [A|A]; try lia; congruence.
Qed.

Lemma memb_cnt : forall a l, memb a l = true -> 1 <= cnt l a.
Proof. intros a l H. apply memb_In in H. apply (count_occ_In Nat.eq_dec) in H. lia. Qed.

Lemma In_cnt : forall a l, In a l <-> 1 <= cnt l a.
Proof. intros a l. rewrite (count_occ_In Nat.eq_dec). lia. Qed.

Lemma notIn_cnt : forall a l, ~ In a l -> cnt l a = 0.
Proof. intros a l H. apply (count_occ_not_In Nat.eq_dec) in H. exact H. Qed.

Lemma ind_refl : forall a, ind a a = 1.
Proof. intro a. unfold ind. destruct (Nat.eq_dec a a); [reflexivity|congruence]. Qed.

Lemma ind_neq : forall a x, a <> x -> ind a x = 0.
Proof. intros a x H. unfold ind. destruct (Nat.eq_dec a x); [congruence|reflexivity]. Qed.

(** case split on [a = x], rewriting every [ind a x] *)
Ltac case_ind a x := destruct (Nat.eq_dec a x) as [?E|?E]; [subst x; rewrite ?ind_refl in *|rewrite ?(ind_neq a x) in * by assumption].

(** a slot [s'] is the one just written, or it is untouched *)
Ltac slot_cases s' s E := destruct (Nat.eq_dec s' s) as [E|E]; [subst s'; rewrite ?upd_same|rewrite ?upd_other by exact E].

Lemma some_inj : forall (A : Type) (a b : A), Some a = Some b -> a = b.
Proof. intros A a b H. inversion H. reflexivity. Qed.

(** putter [p] leaves the list it waits in: the ticket holders if it is there, else the woken *)
Definition unwait (p : nat) (x : slot) : slot :=
  sl_lists x (if memb p (tk x) then remove1 p (tk x) else tk x) (parked1 x)
             (if memb p (tk x) then woken1 x else remove1 p (woken1 x)) (bc x) (wt x).

(** [p] fills the free slot; it owes the writer a broadcast if the writer sleeps, else it waits for its result *)
Definition filled (p : nat) (m : bool) (x : slot) : slot :=
  sl_lists (sl_fill x p m) (tk x) (parked1 x) (woken1 x)
           (if slept x then bc x ++ [p] else bc x) (if slept x then wt x else wt x ++ [p]).

(** the writer takes the command [x] holds in slot [s] *)
Definition taken (st : state) (s : nat) (x : slot) (r1' : N) : state :=
  set_counts (set_slot st s (sl_mark x 2 (payload x))) (write st) r1' (read2 st) (nw st) (S (n1 st)) (n2 st)
             (wseq st ++ opt_list (payload x)) (rseq st).

(** projections of the state and slot updates, computed everywhere *)
Ltac rst := cbn [write read1 read2 slots wpc rpc nw n1 n2 wseq rseq recv
                 set_slots set_slot set_counts set_wpc set_rpc add_recv
                 mark payload pm c_one c_multi c_resps slept rlock tk parked1 woken1 bc wt wparked wwoken fillseq
                 sl_lists sl_fill sl_mark sl_clear sl_writer sl_rlock taken] in *.

(** One constructor per enabled branch of [lstep]: the guards as propositions and the successor state, with the
    new slot written so that each of its fields is an explicit expression (projections reduce by computation).
    [WWaitRetry] first clears the writer's flags, then takes or sleeps again: two updates of the same slot. *)
Inductive rstep (k : nat) (st : state) : label -> state -> Prop :=
| R_ticket : forall s x (Hs : s = idx k (u32 (write st + 1))) (Hx : x = slots st s),
    rstep k st PutTicket
      (set_counts (set_slot st s (sl_lists x (tk x ++ [S (nw st)]) (parked1 x) (woken1 x) (bc x) (wt x)))
                  (u32 (write st + 1)) (read1 st) (read2 st) (S (nw st)) (n1 st) (n2 st) (wseq st) (rseq st))
| R_fill : forall p s m x (Hx : x = slots st s) (Hr : rlock x = false)
                  (Hp : memb p (tk x) || memb p (woken1 x) = true) (Hm : mark x = 0),
    rstep k st (PutLock p s m) (set_slot st s (filled p m (unwait p x)))
| R_park : forall p s m x y (Hx : x = slots st s) (Hr : rlock x = false)
                  (Hp : memb p (tk x) || memb p (woken1 x) = true) (Hm : mark x <> 0) (Hy : y = unwait p x),
    rstep k st (PutLock p s m) (set_slot st s (sl_lists y (tk y) (parked1 y ++ [p]) (woken1 y) (bc y) (wt y)))
| R_bcast : forall p s x (Hx : x = slots st s) (Hp : memb p (bc x) = true),
    rstep k st (PutBcast p s)
      (set_slot st s (sl_writer (sl_lists x (tk x) (parked1 x) (woken1 x) (remove1 p (bc x)) (wt x ++ [p]))
                                (slept x) false (wparked x || wwoken x)))
| R_take : forall l s x (Hl : l = WNext \/ l = WWaitEnter) (Hw : wpc st = WIdle) (Hs : s = idx k (u32 (read1 st + 1)))
                  (Hx : x = slots st s) (Hr : rlock x = false) (Hm : mark x = 1),
    rstep k st l (taken st s x (u32 (read1 st + 1)))
| R_poll : forall l (Hl : l = WNext \/ l = WNextBusy) (Hw : wpc st = WIdle), rstep k st l st
| R_sleep : forall s x (Hw : wpc st = WIdle) (Hs : s = idx k (u32 (read1 st + 1))) (Hx : x = slots st s)
                   (Hr : rlock x = false) (Hm : mark x <> 1),
    rstep k st WWaitEnter
      (set_wpc (set_slot (set_counts st (write st) (u32 (read1 st + 1)) (read2 st) (nw st) (n1 st) (n2 st) (wseq st) (rseq st))
                         s (sl_writer x true true false)) (WWait s))
| R_retry_take : forall s x y (Hw : wpc st = WWait s) (Hx : x = slots st s) (Hww : wwoken x = true) (Hr : rlock x = false)
                        (Hm : mark x = 1) (Hy : y = sl_writer x false false false),
    rstep k st WWaitRetry (set_wpc (taken (set_slot st s y) s y (read1 st)) WIdle)
| R_retry_sleep : forall s x (Hw : wpc st = WWait s) (Hx : x = slots st s) (Hww : wwoken x = true) (Hr : rlock x = false)
                         (Hm : mark x <> 1),
    rstep k st WWaitRetry (set_slot (set_slot st s (sl_writer x false false false)) s (sl_writer x true true false))
| R_complete : forall s x (Hrp : rpc st = RIdle) (Hs : s = idx k (u32 (read2 st + 1))) (Hx : x = slots st s)
                      (Hr : rlock x = false) (Hm : mark x = 2),
    rstep k st RNext
      (set_rpc (set_counts (set_slot st s (sl_rlock (sl_clear x) true)) (write st) (read1 st) (u32 (read2 st + 1))
                           (nw st) (n1 st) (S (n2 st)) (wseq st) (rseq st ++ opt_list (payload x)))
               (RHold s (Some (match payload x with Some i => i | None => 0 end))))
| R_lock : forall s x (Hrp : rpc st = RIdle) (Hs : s = idx k (u32 (read2 st + 1))) (Hx : x = slots st s)
                  (Hr : rlock x = false) (Hm : mark x <> 2),
    rstep k st RNext (set_rpc (set_slot st s (sl_rlock x true)) (RHold s None))
| R_deliver : forall p s i x (Hrp : rpc st = RHold s (Some i)) (Hx : x = slots st s) (Hp : memb p (wt x) = true),
    rstep k st (RDeliver p)
      (set_rpc (add_recv (set_slot st s (sl_lists x (tk x) (parked1 x) (woken1 x) (bc x) (remove1 p (wt x)))) p i) (RHold s None))
| R_unlock : forall s x (Hrp : rpc st = RHold s None) (Hx : x = slots st s),
    rstep k st RUnlock (set_rpc (set_slot st s (sl_rlock x false)) (RSig s))
| R_signal : forall p s x (Hrp : rpc st = RSig s) (Hx : x = slots st s) (Hp : memb p (parked1 x) = true),
    rstep k st (RSignal (Some p))
      (set_rpc (set_slot st s (sl_lists x (tk x) (remove1 p (parked1 x)) (woken1 x ++ [p]) (bc x) (wt x))) RIdle)
| R_nosignal : forall s (Hrp : rpc st = RSig s) (Hp : parked1 (slots st s) = []), rstep k st (RSignal None) (set_rpc st RIdle).

Lemma lstep_rstep : forall k st l st', lstep k st l = Some st' -> rstep k st l st'.
Proof.
  intros k st l st' Hl. destruct l; cbn [lstep] in Hl.
  - apply some_inj in Hl. subst st'. eapply R_ticket; reflexivity.
  - destruct (rlock (slots st s)) eqn:Hr; [discriminate|]. cbn [negb andb] in Hl.
    destruct (memb p (tk (slots st s)) || memb p (woken1 (slots st s))) eqn:G; [|discriminate].
    assert (E : forall x, (if memb p (tk x) then sl_lists x (remove1 p (tk x)) (parked1 x) (woken1 x) (bc x) (wt x)
                           else sl_lists x (tk x) (parked1 x) (remove1 p (woken1 x)) (bc x) (wt x)) = unwait p x).
    { intro x. unfold unwait. destruct (memb p (tk x)); reflexivity. }
    rewrite E in Hl. change (mark (unwait p (slots st s))) with (mark (slots st s)) in Hl.
    destruct (Nat.eqb (mark (slots st s)) 0) eqn:Hm; apply some_inj in Hl; subst st'.
    + apply Nat.eqb_eq in Hm. replace (if slept _ then _ else _) with (filled p m (unwait p (slots st s))).
      * eapply R_fill; eauto.
      * unfold filled, unwait. rst. destruct (slept (slots st s)); reflexivity.
    + apply Nat.eqb_neq in Hm. eapply R_park; eauto.
  - destruct (memb p (bc (slots st s))) eqn:G; [|discriminate]. apply some_inj in Hl. subst st'.
    replace (if wparked _ then _ else _) with
      (sl_writer (sl_lists (slots st s) (tk (slots st s)) (parked1 (slots st s)) (woken1 (slots st s))
                           (remove1 p (bc (slots st s))) (wt (slots st s) ++ [p]))
                 (slept (slots st s)) false (wparked (slots st s) || wwoken (slots st s))).
    + eapply R_bcast; eauto.
    + rst. destruct (slots st s) as [? ? ? ? ? ? ? ? ? ? ? ? ? [|] ? ?]; reflexivity.
  - destruct (wpc st) eqn:Hw; [|discriminate]. destruct (rlock _) eqn:Hr; [discriminate|].
    unfold writer_take in Hl. destruct (Nat.eqb _ 1) eqn:Hm; apply some_inj in Hl; subst st'.
    + apply Nat.eqb_eq in Hm. eapply R_take; eauto.
    + apply R_poll; auto.
  - destruct (wpc st) eqn:Hw; [|discriminate]. destruct (rlock _) eqn:Hr; [discriminate|].
    unfold writer_take in Hl. destruct (Nat.eqb _ 1) eqn:Hm; apply some_inj in Hl; subst st'.
    + apply Nat.eqb_eq in Hm. eapply R_take; eauto.
    + apply Nat.eqb_neq in Hm. eapply R_sleep; eauto.
  - destruct (wpc st) as [|s] eqn:Hw; [discriminate|].
    destruct (wwoken (slots st s)) eqn:Hww; [|discriminate]. destruct (rlock (slots st s)) eqn:Hr; [discriminate|].
    cbn [negb andb] in Hl. unfold writer_take in Hl. rst. rewrite !upd_same in Hl. rst.
    destruct (Nat.eqb (mark (slots st s)) 1) eqn:Hm; apply some_inj in Hl; subst st'.
    + apply Nat.eqb_eq in Hm. apply (R_retry_take k st s (slots st s) (sl_writer (slots st s) false false false)); auto.
    + apply Nat.eqb_neq in Hm. apply (R_retry_sleep k st s (slots st s)); auto.
  - destruct (rpc st) eqn:Hrp; try discriminate. destruct (rlock _) eqn:Hr; [discriminate|].
    destruct (Nat.eqb _ 2) eqn:Hm; apply some_inj in Hl; subst st'.
    + apply Nat.eqb_eq in Hm. rst. eapply R_complete; eauto.
    + apply Nat.eqb_neq in Hm. eapply R_lock; eauto.
  - destruct (rpc st) as [|s [i|]|] eqn:Hrp; try discriminate.
    destruct (memb p (wt (slots st s))) eqn:G; [|discriminate]. apply some_inj in Hl. subst st'. eapply R_deliver; eauto.
  - destruct (rpc st) as [|s [i|]|] eqn:Hrp; try discriminate. apply some_inj in Hl. subst st'. eapply R_unlock; eauto.
  - destruct (rpc st) as [| |s] eqn:Hrp; try discriminate. destruct o as [p|].
    + destruct (memb p (parked1 (slots st s))) eqn:G; [|discriminate]. apply some_inj in Hl. subst st'. eapply R_signal; eauto.
    + destruct (is_nil (parked1 (slots st s))) eqn:G; [|discriminate]. apply is_nil_true in G.
      apply some_inj in Hl. subst st'. apply (R_nosignal k st s); assumption.
  - destruct (wpc st) eqn:Hw; [|discriminate]. apply some_inj in Hl. subst st'. apply R_poll; auto.
Qed.

(** the cases of a step with a known label ([R_take] and [R_poll] stand for two labels each) *)
Ltac rstep_inv H :=
  inversion H; subst; try match goal with X : _ = _ \/ _ = _ |- _ => destruct X; discriminate end.
