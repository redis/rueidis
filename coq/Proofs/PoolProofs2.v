(** Pool LTS: exclusivity of wires and the behaviour after Close. *)
From Coq Require Import List ZArith Bool Arith Lia.
Require Import RV.Model.Base RV.Model.Pool RV.Proofs.PoolBase RV.Proofs.PoolProofs.
Require Import RV.Proofs.ListFacts.
Import ListNotations.
Open Scope Z_scope.

(** A connection is in at most one of: the idle list (once), one holder. *)
Definition occ (s : state) (id : nat) : nat := (cnt (idle s) id + cnt (real_ids (held s)) id)%nat.

Definition Inv2 (s : state) : Prop := forall id, (occ s id <= 1)%nat /\ ((1 <= occ s id)%nat -> In id (used s)).

(** Only [MakeOk] makes an occurrence count grow, and it does so for an id never used before. *)
Lemma inv2_mono : forall s s', Inv2 s -> (forall x, (occ s' x <= occ s x)%nat) ->
  (forall x, In x (used s) -> In x (used s')) -> Inv2 s'.
Proof.
  intros s s' I Ho Hu x. destruct (I x) as [I1 I2]. specialize (Ho x).
  split; [lia|intro H; apply Hu, I2; lia].
Qed.

Lemma cnt_real_ids_remove_le : forall w l x, (cnt (real_ids (wremove1 w l)) x <= cnt (real_ids l) x)%nat.
Proof.
  intros w l x. induction l as [|y r IH]; cbn [wremove1 real_ids]; [lia|].
  destruct (wire_eqb w y).
  - destruct y; cbn [real_ids count_occ]; try lia. destruct (Nat.eq_dec id x); lia.
  - destruct y; cbn [real_ids count_occ]; try exact IH. destruct (Nat.eq_dec id x); lia.
Qed.

Lemma cnt_real_ids_remove_real : forall id l x, In (Real id) l ->
  (cnt (real_ids (wremove1 (Real id) l)) x + cnt [id] x = cnt (real_ids l) x)%nat.
Proof.
  intros id l x. rewrite <- wmemb_In. induction l as [|y r IH]; cbn [wmemb wremove1 real_ids]; [discriminate|].
  intro H. destruct (wire_eqb (Real id) y) eqn:E.
  - apply wire_eqb_eq in E. subst y. cbn [real_ids count_occ]. destruct (Nat.eq_dec id x); lia.
  - cbn [orb] in H. specialize (IH H). destruct y; cbn [real_ids count_occ] in *; try exact IH.
    destruct (Nat.eq_dec id0 x); lia.
Qed.

Lemma cnt_skipn_le : forall n (l : list nat) x, (cnt (skipn n l) x <= cnt l x)%nat.
Proof.
  intros n l x. rewrite <- (firstn_skipn n l) at 2. rewrite count_occ_app. lia.
Qed.

Lemma inv2_acquire_eval : forall cfg t s, Inv2 s -> Inv2 (acquire_eval cfg t s).
Proof.
  intros cfg t s I.
  destruct (acquire_eval_spec cfg t s) as [_ _ _|_|_ _|_ _ _|cl id l' F1 _ _ _ _]; try exact I;
    apply (inv2_mono s); try exact I; try (intros x Hx; exact Hx); intro x; unfold occ; pst; cbn [count_occ].
  - lia.
  - lia.
  - rewrite F1, count_occ_app. cbn [real_ids count_occ]. destruct (Nat.eq_dec id x); lia.
Qed.

Lemma inv2_step : forall cfg s l s', Inv2 s -> lstep cfg s l = Some s' -> Inv2 s'.
Proof.
  intros cfg s l s' I Hl.
  destruct (lstep_pstep _ _ _ _ Hl) as [| | |t id brk _ Hu| |t id _ _ _| | | |id Hw _ _ _|w _ _ _| | | | | | |]; clear Hl.
  (* AcqEnter, AcqWake, MakeBad end with an evaluation *)
  1,3,6: apply inv2_acquire_eval.
  (* most steps leave idle, the real wires in held, and used alone *)
  all: try exact I.
  - (* MakeBad *) apply (inv2_mono s); [exact I|intro x; apply le_n|intros x Hx; right; exact Hx].
  - (* MakeOk: the new id occurs nowhere yet *)
    intro x. destruct (I x) as [I1 I2]. unfold occ in *. pst. cbn [real_ids count_occ In].
    destruct (Nat.eq_dec id x) as [<-|Hx].
    + split; [|left; reflexivity]. pose proof (fun X => Hu (I2 X)). lia.
    + split; [exact I1|intro H; right; exact (I2 H)].
  - (* Store, wire becomes idle *)
    apply (inv2_mono s); [exact I| |intros x Hx; exact Hx].
    intro x. pose proof (cnt_real_ids_remove_real id _ x Hw). unfold occ. pst. cbn [count_occ] in *.
    destruct (Nat.eq_dec id x); lia.
  - (* Store, wire dropped *)
    apply (inv2_mono s); [exact I| |intros x Hx; exact Hx].
    intro x. pose proof (cnt_real_ids_remove_le w (held s) x). unfold occ. pst. lia.
  - (* IdleCleanup *)
    apply (inv2_mono s); [exact I| |intros x Hx; exact Hx].
    intro x. unfold occ. pst. apply Nat.add_le_mono_r, cnt_skipn_le.
Qed.

Theorem inv2_reachable : forall cfg s, reachable cfg s -> Inv2 s.
Proof.
  intros cfg s Hr. eapply reachable_ind; [| |exact Hr].
  - intro id. unfold occ. cbn. split; lia.
  - intros s0 l s1 I Hl. eapply inv2_step; eassumption.
Qed.

Lemma inv2_nodup : forall s, Inv2 s -> NoDup (idle s ++ real_ids (held s)).
Proof.
  intros s I. apply (NoDup_count_occ Nat.eq_dec). intro x. rewrite count_occ_app. apply (I x).
Qed.

(** idle wires are all closed once the pool is down *)
Definition InvC (s : state) : Prop := down s = true -> forall id, In id (idle s) -> In id (broken s).

(** No step but [CloseCS] sets [down], and while it is set nothing becomes idle and no wire is repaired. *)
Lemma invC_mono : forall s s', InvC s -> (down s' = true -> down s = true) ->
  (forall x, In x (idle s') -> In x (idle s)) -> (forall x, In x (broken s) -> In x (broken s')) -> InvC s'.
Proof. intros s s' I Hd Hi Hb D x Hx. apply Hb, (I (Hd D)), Hi, Hx. Qed.

Lemma invC_acquire_eval : forall cfg t s, InvC s -> InvC (acquire_eval cfg t s).
Proof.
  intros cfg t s I.
  destruct (acquire_eval_spec cfg t s) as [_ _ _|_|_ _|_ _ _|cl id l' F1 _ _ _ _]; try exact I.
  - intros _ x [].
  - intros _ x [].
  - apply (invC_mono s); pst; [exact I|trivial| |intros x Hx; apply in_or_app; right; exact Hx].
    intros x Hx. rewrite F1. apply in_or_app. right. right. exact Hx.
Qed.

Lemma invC_step : forall cfg s l s', InvC s -> lstep cfg s l = Some s' -> InvC s'.
Proof.
  intros cfg s l s' I Hl.
  destruct (lstep_pstep _ _ _ _ Hl) as [| | |t id brk _ _| |t id _ _ _| | | |id _ _ Hd _|w _ _ _| | |b _| | |id _|id _]; clear Hl.
  (* AcqEnter, AcqWake, MakeBad end with an evaluation *)
  1,3,6: apply invC_acquire_eval.
  (* most steps leave down, idle and broken alone *)
  all: try exact I.
  (* MakeBad, WBreak, WExpire: one more broken wire *)
  1,7,8: apply (invC_mono s); pst; [exact I|trivial|trivial|]; intros x Hx; right; exact Hx.
  - (* MakeOk *) apply (invC_mono s); pst; [exact I|trivial|trivial|]. intros x Hx. destruct brk; [right|]; exact Hx.
  - (* Store, wire becomes idle: the pool is not down *) intro X. destruct (eq_true_false_abs (down s) X Hd).
  - (* Store, wire dropped *) apply (invC_mono s); pst; [exact I|trivial|trivial|]. intros x Hx. destruct w; try right; exact Hx.
  - (* CloseCS *) intros _ x Hx. apply in_or_app. left. exact Hx.
  - (* IdleCleanup *) apply (invC_mono s); pst; [exact I|trivial| |intros x Hx; apply in_or_app; right; exact Hx].
    intros x Hx. exact (In_skipn _ _ _ Hx).
Qed.

Theorem invC_reachable : forall cfg s, reachable cfg s -> InvC s.
Proof.
  intros cfg s Hr. eapply reachable_ind; [| |exact Hr].
  - discriminate.
  - intros s0 l s1 I Hl. eapply invC_step; eassumption.
Qed.

Lemma down_acquire_eval : forall cfg t s, down (acquire_eval cfg t s) = down s.
Proof. intros cfg t s. destruct (acquire_eval_spec cfg t s); reflexivity. Qed.

Lemma down_stable : forall cfg s l s', lstep cfg s l = Some s' -> down s = true -> down s' = true.
Proof.
  intros cfg s l s' Hl Hd.
  destruct (lstep_pstep _ _ _ _ Hl); try rewrite down_acquire_eval; try exact Hd. reflexivity.
Qed.

Lemma acquire_eval_when_down : forall cfg t s, down s = true ->
  exists w, held (acquire_eval cfg t s) = w :: held s /\ (w = CtxDead \/ w = DeadDown) /\
            idle (acquire_eval cfg t s) = idle s /\ down (acquire_eval cfg t s) = true.
Proof.
  intros cfg t s Hd. destruct (acquire_eval_spec cfg t s); try congruence.
  - exists CtxDead. repeat split; auto.
  - exists DeadDown. repeat split; auto.
Qed.
