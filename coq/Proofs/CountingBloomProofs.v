(** Model/CountingBloom.v (C36).  [cremove_script_spec]: the remove script is, item by item, "subtract the item's
    index multiplicities if every counter can pay"; [Inv_run]: counters = sums over the bag of items. *)
From Coq Require Import List NArith ZArith Bool Lia ZifyBool.
Require Import RV.Model.Base RV.Model.Bloom RV.Model.CountingBloom RV.Proofs.BloomProofs.
Import ListNotations.
Open Scope Z_scope.

(** counters are used only through [getc]: pointwise equality, and no negative value *)
Definition ceq (a b : counters) : Prop := forall j, getc a j = getc b j.
Definition nonneg (a : counters) : Prop := forall j, 0 <= getc a j.

(** how often index [j] occurs in a chunk; in [Z] because it is subtracted from counters *)
Definition ind (j x : N) : Z := if N.eqb j x then 1 else 0.

Fixpoint occ (j : N) (c : list N) : Z :=
  match c with
  | [] => 0
  | x :: r => ind j x + occ j r
  end.

Lemma ind_range : forall j x, 0 <= ind j x <= 1.
Proof. intros. unfold ind. destruct (N.eqb j x); lia. Qed.

Lemma occ_nonneg : forall j c, 0 <= occ j c.
Proof. induction c as [|x r IH]; cbn [occ]; [lia|]. pose proof (ind_range j x). lia. Qed.

Lemma occ_app : forall j a b, occ j (a ++ b) = occ j a + occ j b.
Proof. induction a as [|x r IH]; intros b; cbn [app occ]; [lia|]. rewrite IH. lia. Qed.

Lemma occ_In : forall j c, In j c -> 1 <= occ j c.
Proof.
  induction c as [|x r IH]; intros H; [contradiction|]. cbn [occ].
  pose proof (occ_nonneg j r). destruct H as [->|H].
  - unfold ind. rewrite N.eqb_refl. lia.
  - specialize (IH H). pose proof (ind_range j x). lia.
Qed.

Lemma getc_hincrby : forall cs i d j, getc (hincrby cs i d) j = getc cs j + d * ind j i.
Proof.
  intros. unfold hincrby, ind. cbn [getc]. destruct (N.eqb j i) eqn:E.
  - apply N.eqb_eq in E. subst. lia.
  - lia.
Qed.

Lemma getc_fold_incr : forall d l cs j,
  getc (fold_left (fun a ix => hincrby a ix d) l cs) j = getc cs j + d * occ j l.
Proof.
  intros d l. induction l as [|x r IH]; intros cs j; cbn [fold_left occ]; [lia|].
  rewrite IH, getc_hincrby. lia.
Qed.

Lemma ceq_refl : forall a, ceq a a.
Proof. intros a j. reflexivity. Qed.

Lemma ceq_trans : forall a b c, ceq a b -> ceq b c -> ceq a c.
Proof. intros a b c H1 H2 j. rewrite H1. apply H2. Qed.

Lemma nonneg_ceq : forall a b, ceq a b -> nonneg b -> nonneg a.
Proof. intros a b H Hn j. rewrite H. apply Hn. Qed.

(** the script's test, as a specification: every decrement in sequence finds a counter >= 1 *)
Fixpoint can_remove (ic : counters) (c : list N) : bool :=
  match c with
  | [] => true
  | ix :: r => (1 <=? getc ic ix) && can_remove (hincrby ic ix (-1)) r
  end.

Definition dec_all (ic : counters) (c : list N) : counters := fold_left (fun a ix => hincrby a ix (-1)) c ic.

(** what one outer iteration does to the simulated counters *)
Definition item_spec (ic : counters) (c : list N) : counters :=
  if can_remove ic c then dec_all ic c else ic.

Lemma can_remove_ceq : forall c a b, ceq a b -> can_remove a c = can_remove b c.
Proof.
  induction c as [|x r IH]; intros a b H; cbn [can_remove]; [reflexivity|].
  rewrite (H x). f_equal. apply IH. intros j. rewrite !getc_hincrby, H. reflexivity.
Qed.

Lemma getc_item_spec : forall ic c j,
  getc (item_spec ic c) j = getc ic j - (if can_remove ic c then occ j c else 0).
Proof. intros. unfold item_spec, dec_all. destruct (can_remove ic c); [rewrite getc_fold_incr|]; lia. Qed.

Lemma item_spec_ceq : forall c a b, ceq a b -> ceq (item_spec a c) (item_spec b c).
Proof. intros c a b H j. rewrite !getc_item_spec, (can_remove_ceq c a b H), H. reflexivity. Qed.

Lemma try_dec_spec : forall c ic v ic1 able n,
  try_dec ic c v = (ic1, able, n) ->
  able = can_remove ic c /\
  exists p rest, c = p ++ rest /\ n = (v + length p)%nat /\ ic1 = dec_all ic p /\ (able = true -> rest = []).
Proof.
  induction c as [|x r IH]; intros ic v ic1 able n H; cbn [try_dec can_remove] in *.
  - injection H as <- <- <-. split; [reflexivity|]. exists [], []. rewrite Nat.add_0_r. auto.
  - rewrite getc_hincrby in H. unfold ind in H. rewrite N.eqb_refl in H.
    replace (getc ic x + -1 * 1 <? 0) with (negb (1 <=? getc ic x)) in H by lia.
    destruct (1 <=? getc ic x); cbn [negb andb] in *.
    + apply IH in H. destruct H as (Hable & p & rest & -> & -> & -> & Hr). split; [exact Hable|].
      exists (x :: p), rest. cbn [length]. rewrite Nat.add_succ_r. auto.
    + injection H as <- <- <-. split; [reflexivity|]. exists [x], r. cbn [length]. rewrite Nat.add_1_r.
      repeat split. discriminate.
Qed.

(** one outer iteration: whether it succeeded is [can_remove], and the simulated counters it leaves to the next
    iteration are [item_spec] (a failed attempt is completely rolled back) *)
Lemma outer_iteration : forall c ic ic1 able visited,
  try_dec ic c 0 = (ic1, able, visited) ->
  able = can_remove ic c /\ ceq (if able then ic1 else rollback ic1 c visited) (item_spec ic c).
Proof.
  intros c ic ic1 able visited H. apply try_dec_spec in H.
  destruct H as (Hable & p & rest & -> & -> & -> & Hr). split; [exact Hable|].
  intros j. rewrite getc_item_spec, <- Hable. destruct able.
  - rewrite (Hr eq_refl), app_nil_r. unfold dec_all. rewrite getc_fold_incr. reflexivity.
  - unfold rollback, dec_all. cbn [Nat.add].
    rewrite firstn_app, Nat.sub_diag, firstn_all, app_nil_r, !getc_fold_incr. lia.
Qed.

Definition spec_loop (chunks : list (list N)) (ic : counters) : counters := fold_left item_spec chunks ic.

Fixpoint spec_removed (chunks : list (list N)) (ic : counters) : Z :=
  match chunks with
  | [] => 0
  | c :: r => (if can_remove ic c then 1 else 0) + spec_removed r (item_spec ic c)
  end.

(** [ic0]: the specification runs on any counters that agree pointwise with the script's *)
Lemma remove_loop_spec : forall chunks ic ic0 dec n ic' dec' n',
  ceq ic ic0 -> remove_loop chunks ic dec n = (ic', dec', n') ->
  ceq ic' (spec_loop chunks ic0) /\
  (forall j, occ j dec' - occ j dec = getc ic j - getc ic' j) /\
  n' = n + spec_removed chunks ic0.
Proof.
  induction chunks as [|c r IH]; intros ic ic0 dec n ic' dec' n' He H; cbn [remove_loop spec_loop fold_left spec_removed] in *.
  - inversion H; subst. split; [exact He|]. split; [intros; lia|lia].
  - destruct (try_dec ic c 0) as [[ic1 able] visited] eqn:E.
    apply outer_iteration in E. destruct E as [Hable Hnext].
    pose proof (ceq_trans _ _ _ Hnext (item_spec_ceq c _ _ He)) as Hnext0.
    rewrite <- (can_remove_ceq c ic ic0 He), <- Hable.
    destruct able; apply (IH _ _ _ _ _ _ _ Hnext0) in H; destruct H as (H1 & H2 & H3);
    (split; [exact H1|split; [|lia]]); intros j; specialize (H2 j); specialize (Hnext j);
    rewrite getc_item_spec, <- Hable in Hnext; rewrite ?occ_app in H2; lia.
Qed.

(** the script = per item, in order: remove it if [can_remove], otherwise leave everything as it is *)
Theorem cremove_script_spec : forall chunks f,
  ceq (ctrs (cremove_script chunks f)) (spec_loop chunks (ctrs f)) /\
  total (cremove_script chunks f) = total f - spec_removed chunks (ctrs f).
Proof.
  intros chunks f. unfold cremove_script.
  destruct (remove_loop chunks (ctrs f) [] 0) as [[ic' dec'] n'] eqn:E.
  apply (remove_loop_spec _ _ _ _ _ _ _ _ (ceq_refl _)) in E. destruct E as [H1 [H2 H3]]. cbn [ctrs total]. split.
  - intros j. rewrite getc_fold_incr. specialize (H2 j). cbn [occ] in H2. rewrite <- (H1 j). lia.
  - lia.
Qed.

Lemma can_remove_occ : forall c ic, nonneg ic ->
  (can_remove ic c = true <-> forall j, occ j c <= getc ic j).
Proof.
  induction c as [|x r IH]; intros ic Hn; cbn [can_remove occ].
  - split; [intros _ j; apply Hn|reflexivity].
  - assert (Hn' : 1 <= getc ic x -> nonneg (hincrby ic x (-1))).
    { intros H1 j. rewrite getc_hincrby. specialize (Hn j). unfold ind.
      destruct (N.eqb j x) eqn:E; [apply N.eqb_eq in E; subst; lia|lia]. }
    split.
    + intros H. apply andb_prop in H. destruct H as [H1 H2]. apply Z.leb_le in H1.
      pose proof (proj1 (IH _ (Hn' H1)) H2) as H3. intros j. specialize (H3 j). rewrite getc_hincrby in H3. lia.
    + intros H. assert (H1 : 1 <= getc ic x).
      { specialize (H x). pose proof (occ_nonneg x r). unfold ind in H. rewrite N.eqb_refl in H. lia. }
      apply andb_true_intro. split; [apply Z.leb_le; exact H1|].
      apply (proj2 (IH _ (Hn' H1))). intros j. rewrite getc_hincrby. specialize (H j). lia.
Qed.

Lemma item_spec_nonneg : forall c ic, nonneg ic -> nonneg (item_spec ic c).
Proof.
  intros c ic Hn j. rewrite getc_item_spec. destruct (can_remove ic c) eqn:E; [|specialize (Hn j); lia].
  pose proof (proj1 (can_remove_occ c ic Hn) E j). lia.
Qed.

Lemma spec_loop_nonneg : forall chunks ic, nonneg ic -> nonneg (spec_loop chunks ic).
Proof.
  induction chunks as [|c r IH]; intros ic Hn; cbn [spec_loop fold_left]; [exact Hn|].
  apply IH. apply item_spec_nonneg. exact Hn.
Qed.

Definition min_list (m : Z) (l : list Z) : Z := fold_left (fun a v => Z.min v a) l m.

(** on counters that AsUint64 accepts, both loops are instances of [chunked] *)
Lemma agg_exists_chunked : forall kk vals i ok, Forall (fun v => 0 <= v) vals ->
  agg_exists kk i ok vals = Ok (chunked Z bool bool (fun ok v => ok && negb (v =? 0)) true (fun ok => ok) kk i ok vals).
Proof.
  intros kk vals. induction vals as [|v r IH]; intros i ok Hnn; cbn [agg_exists chunked]; [reflexivity|].
  pose proof (Forall_inv Hnn) as Hv. cbn beta in Hv. assert (v <? 0 = false) as -> by lia.
  rewrite !IH by exact (Forall_inv_tail Hnn). destruct (boundary kk i); reflexivity.
Qed.

Lemma agg_min_chunked : forall kk vals i m, Forall (fun v => 0 <= v) vals ->
  agg_min kk i m vals = Ok (chunked Z Z Z (fun a v => Z.min v a) max_uint64 (fun a => a) kk i m vals).
Proof.
  intros kk vals. induction vals as [|v r IH]; intros i m Hnn; cbn [agg_min chunked]; [reflexivity|].
  pose proof (Forall_inv Hnn) as Hv. cbn beta in Hv. assert (v <? 0 = false) as -> by lia.
  assert ((if v <? m then v else m) = Z.min v m) as -> by (destruct (v <? m) eqn:E; lia).
  rewrite !IH by exact (Forall_inv_tail Hnn). destruct (boundary kk i); reflexivity.
Qed.

Lemma fold_andb : forall (A : Type) (p : A -> bool) l ok, fold_left (fun ok v => ok && p v) l ok = ok && forallb p l.
Proof.
  intros A p l. induction l as [|x l IH]; intros ok; cbn [fold_left forallb]; [symmetry; apply andb_true_r|].
  rewrite IH. symmetry. apply andb_assoc.
Qed.

Lemma agg_exists_chunks : forall kk chunks,
  kk <> 0%N -> Forall (fun c => N.of_nat (length c) = kk) chunks ->
  Forall (Forall (fun v => 0 <= v)) chunks ->
  agg_exists kk 1 true (concat chunks) = Ok (map (forallb (fun v => negb (v =? 0))) chunks).
Proof.
  intros kk chunks Hk Hlen Hnn. rewrite agg_exists_chunked by (apply Forall_concat; exact Hnn).
  rewrite (chunked_chunks _ _ _ _ true _ kk chunks 0 Hk Hlen). f_equal. apply map_ext. intros c. apply fold_andb.
Qed.

Lemma agg_min_chunks : forall kk chunks,
  kk <> 0%N -> Forall (fun c => N.of_nat (length c) = kk) chunks ->
  Forall (Forall (fun v => 0 <= v)) chunks ->
  agg_min kk 1 max_uint64 (concat chunks) = Ok (map (min_list max_uint64) chunks).
Proof.
  intros kk chunks Hk Hlen Hnn. rewrite agg_min_chunked by (apply Forall_concat; exact Hnn).
  rewrite (chunked_chunks _ _ _ _ max_uint64 _ kk chunks 0 Hk Hlen). reflexivity.
Qed.

(** [min_list m l] is the greatest lower bound of [m] and the elements of [l] *)
Lemma min_list_glb : forall l m b, b <= min_list m l <-> b <= m /\ Forall (fun v => b <= v) l.
Proof.
  induction l as [|x r IH]; intros m b; unfold min_list; cbn [fold_left].
  - split; [intros H; split; [exact H|constructor]|intros [H _]; exact H].
  - fold (min_list (Z.min x m) r). rewrite IH, Forall_cons_iff. intuition lia.
Qed.

Lemma min_list_le_elem : forall l m v, In v l -> min_list m l <= v.
Proof.
  intros l m v Hin. destruct (proj1 (min_list_glb l m _) (Z.le_refl _)) as [_ H].
  rewrite Forall_forall in H. exact (H v Hin).
Qed.

Lemma min_list_pos : forall l m, 0 < m -> Forall (fun v => 0 <= v) l ->
  (0 <? min_list m l) = forallb (fun v => negb (v =? 0)) l.
Proof.
  intros l m Hm Hl. apply eq_true_iff_eq. rewrite Z.ltb_lt, forallb_forall.
  rewrite <- Z.le_succ_l, min_list_glb, !Forall_forall in *.
  split; [intros [_ H] v Hv|intros H; split; [lia|intros v Hv]]; specialize (H v Hv); specialize (Hl v Hv); lia.
Qed.

Section Client.
  Variable K : Type.
  Variable hash : K -> N * N.
  Variable size k : N.
  Hypothesis Hk : (1 <= k)%N.
  Hypothesis Hsize : (0 < size)%N.

  Notation idx := (cindexes_of K hash size k).
  Notation cstep := (cstep K hash size k).
  Notation crun := (crun K hash size k).
  Notation min_of := (min_of K hash size k).

  Lemma sane_true : sane size k = true.
  Proof. exact (sane_params size k Hk Hsize). Qed.

  Lemma idx_nonempty : forall x, exists i r, idx x = i :: r.
  Proof using Hk Hsize.
    intros x. pose proof (indexes_of_length K hash size k x) as H. fold (idx x) in H. destruct (idx x) as [|i r]; [cbn [length] in H; lia|].
    exists i, r. reflexivity.
  Qed.

  Lemma cstep_nonneg : forall f o, nonneg (ctrs f) -> nonneg (ctrs (fst (cstep f o))).
  Proof using Hk Hsize.
    intros f o Hn. destruct o as [keys|keys|keys|keys| |]; cbn [CountingBloom.cstep].
    - destruct keys as [|y ys]; [exact Hn|]. rewrite sane_true. cbn [fst cadd_script ctrs]. intros j.
      rewrite getc_fold_incr. specialize (Hn j). pose proof (occ_nonneg j (flat_map idx (y :: ys))). lia.
    - destruct keys; [exact Hn|]. rewrite sane_true. cbn [fst].
      eapply nonneg_ceq; [apply cremove_script_spec|]. apply spec_loop_nonneg, Hn.
    - destruct keys; [exact Hn|]. rewrite sane_true. exact Hn.
    - destruct keys; [exact Hn|]. rewrite sane_true. exact Hn.
    - exact Hn.
    - cbn [fst cdelete_script empty_cfilter ctrs]. intros j. cbn. lia.
  Qed.

  Lemma hmget_concat : forall f keys,
    hmget K hash size k f keys = concat (map (fun x => map (getc (ctrs f)) (idx x)) keys).
  Proof.
    intros f keys. unfold hmget. rewrite flat_map_concat_map, concat_map, map_map. reflexivity.
  Qed.

  Lemma min_of_eq : forall f x, min_of f x = min_list max_uint64 (map (getc (ctrs f)) (idx x)).
  Proof.
    intros f x. unfold CountingBloom.min_of, min_list.
    generalize max_uint64. induction (idx x) as [|i r IH]; intros m; cbn [fold_left map]; [reflexivity|].
    apply IH.
  Qed.

  Lemma chunks_shape : forall f keys,
    Forall (fun c => N.of_nat (length c) = k) (map (fun x => map (getc (ctrs f)) (idx x)) keys).
  Proof.
    intros f keys. apply Forall_map, Forall_forall. intros x _.
    rewrite map_length. apply indexes_of_length.
  Qed.

  Lemma chunks_nonneg : forall f keys, nonneg (ctrs f) ->
    Forall (Forall (fun v => 0 <= v)) (map (fun x => map (getc (ctrs f)) (idx x)) keys).
  Proof.
    intros f keys Hn. apply Forall_map, Forall_forall. intros x _.
    apply Forall_map, Forall_forall. intros i _. apply Hn.
  Qed.

  (** ItemMinCountMulti = per key, in order, the smallest of the key's counters *)
  Lemma mincount_positional : forall f qs, nonneg (ctrs f) ->
    snd (cstep f (CMinCount qs)) = WCounts (Ok (map (min_of f) qs)).
  Proof.
    intros f qs Hn. destruct qs as [|q qs']; [reflexivity|].
    cbn [CountingBloom.cstep]. rewrite sane_true. cbn [snd]. rewrite hmget_concat.
    rewrite agg_min_chunks; [|lia|apply chunks_shape|apply chunks_nonneg; exact Hn].
    rewrite map_map. f_equal. f_equal. apply map_ext. intros x. symmetry. apply min_of_eq.
  Qed.

  (** ExistsMulti = per key, in order, "the smallest counter is positive" *)
  Lemma cexists_positional : forall f qs, nonneg (ctrs f) ->
    snd (cstep f (CExists qs)) = WBools (Ok (map (fun q => 0 <? min_of f q) qs)).
  Proof.
    intros f qs Hn. destruct qs as [|q qs']; [reflexivity|].
    cbn [CountingBloom.cstep]. rewrite sane_true. cbn [snd]. rewrite hmget_concat.
    rewrite agg_exists_chunks; [|lia|apply chunks_shape|apply chunks_nonneg; exact Hn].
    rewrite map_map. f_equal. f_equal. apply map_ext. intros x. rewrite min_of_eq.
    symmetry. apply min_list_pos; [reflexivity|].
    apply Forall_map, Forall_forall. intros i _. apply Hn.
  Qed.

  Lemma single_removal : forall f x,
    (forall j, getc (ctrs (fst (cstep f (CRemove [x])))) j =
               getc (ctrs f) j - (if can_remove (ctrs f) (idx x) then occ j (idx x) else 0)) /\
    total (fst (cstep f (CRemove [x]))) = total f - (if can_remove (ctrs f) (idx x) then 1 else 0).
  Proof using Hk Hsize.
    intros f x. cbn [CountingBloom.cstep]. rewrite sane_true. cbn [fst map].
    destruct (cremove_script_spec [idx x] f) as [Hs Ht]. cbn [spec_loop fold_left spec_removed] in Hs, Ht.
    split; [intros j; rewrite Hs; apply getc_item_spec|rewrite Ht; apply f_equal, Z.add_0_r].
  Qed.

End Client.

Section Bag.
  Variable K : Type.
  Variable K_eqb : K -> K -> bool.
  Hypothesis K_eqb_spec : forall a b, K_eqb a b = true <-> a = b.
  Variable hash : K -> N * N.
  Variable size k : N.
  Hypothesis Hk : (1 <= k)%N.
  Hypothesis Hsize : (0 < size)%N.

  Notation idx := (cindexes_of K hash size k).
  Notation cstep := (cstep K hash size k).
  Notation crun := (crun K hash size k).
  Notation min_of := (min_of K hash size k).

  Lemma K_eqb_refl : forall x, K_eqb x x = true.
  Proof. intros x. apply K_eqb_spec. reflexivity. Qed.

  Fixpoint remove_one (x : K) (bag : list K) : list K :=
    match bag with
    | [] => []
    | y :: r => if K_eqb x y then r else y :: remove_one x r
    end.

  Fixpoint mult (bag : list K) (x : K) : Z :=
    match bag with
    | [] => 0
    | y :: r => (if K_eqb x y then 1 else 0) + mult r x
    end.

  Fixpoint bagsum (bag : list K) (j : N) : Z :=
    match bag with
    | [] => 0
    | y :: r => occ j (idx y) + bagsum r j
    end.

  Lemma bagsum_nonneg : forall bag j, 0 <= bagsum bag j.
  Proof. induction bag as [|y r IH]; intros j; cbn [bagsum]; [lia|]. pose proof (occ_nonneg j (idx y)). specialize (IH j). lia. Qed.

  Lemma bagsum_app : forall a b j, bagsum (a ++ b) j = bagsum a j + bagsum b j.
  Proof. induction a as [|y r IH]; intros b j; cbn [app bagsum]; [lia|]. rewrite IH. lia. Qed.

  Lemma bagsum_remove_one : forall bag x j, In x bag -> bagsum (remove_one x bag) j = bagsum bag j - occ j (idx x).
  Proof.
    induction bag as [|y r IH]; intros x j Hin; [contradiction|]. cbn [remove_one bagsum].
    destruct (K_eqb x y) eqn:E.
    - apply K_eqb_spec in E. subst. lia.
    - destruct Hin as [->|Hin]; [rewrite K_eqb_refl in E; discriminate E|].
      cbn [bagsum]. rewrite IH by exact Hin. lia.
  Qed.

  Lemma bagsum_mult : forall bag x j, mult bag x * occ j (idx x) <= bagsum bag j.
  Proof.
    induction bag as [|y r IH]; intros x j; cbn [mult bagsum]; [lia|].
    specialize (IH x j). pose proof (occ_nonneg j (idx y)).
    destruct (K_eqb x y) eqn:E; [apply K_eqb_spec in E; subst; lia|lia].
  Qed.

  Lemma mult_nonneg : forall bag x, 0 <= mult bag x.
  Proof. induction bag as [|y r IH]; intros x; cbn [mult]; [lia|]. specialize (IH x). destruct (K_eqb x y); lia. Qed.

  Lemma mult_In : forall bag x, 1 <= mult bag x <-> In x bag.
  Proof.
    induction bag as [|y r IH]; intros x; cbn [mult In]; [split; [lia|contradiction]|].
    pose proof (mult_nonneg r x). destruct (K_eqb x y) eqn:E.
    - apply K_eqb_spec in E. subst. split; [left; reflexivity|lia].
    - split.
      + intros H1. right. apply IH. lia.
      + intros [->|Hin]; [rewrite K_eqb_refl in E; discriminate E|].
        apply IH in Hin. lia.
  Qed.

  Lemma mult_remove_one : forall bag x y, In x bag -> mult (remove_one x bag) y = mult bag y - (if K_eqb y x then 1 else 0).
  Proof using K_eqb_spec hash Hk Hsize.
    induction bag as [|z r IH]; intros x y Hin; [contradiction|]. cbn [remove_one mult].
    destruct (K_eqb x z) eqn:E.
    - apply K_eqb_spec in E. subst. lia.
    - destruct Hin as [->|Hin]; [assert (K_eqb x x = true) by (apply K_eqb_spec; reflexivity); congruence|].
      cbn [mult]. rewrite IH by exact Hin. lia.
  Qed.

  (** the invariant: every counter is the number of (item, position) pairs hashing to it, the total
      is the number of items *)
  Definition Inv (f : cfilter) (bag : list K) : Prop :=
    (forall j, getc (ctrs f) j = bagsum bag j) /\ total f = Z.of_nat (length bag).

  (** removals of items that are present, processed in order *)
  Fixpoint wf_remove (bag : list K) (keys : list K) : Prop :=
    match keys with
    | [] => True
    | x :: r => In x bag /\ wf_remove (remove_one x bag) r
    end.

  Definition bag_remove (bag : list K) (keys : list K) : list K := fold_left (fun b x => remove_one x b) keys bag.

  Lemma length_remove_one : forall bag x, In x bag -> length bag = S (length (remove_one x bag)).
  Proof.
    induction bag as [|y r IH]; intros x Hin; [contradiction|]. cbn [remove_one].
    destruct (K_eqb x y) eqn:E; [reflexivity|].
    destruct Hin as [->|Hin]; [rewrite K_eqb_refl in E; discriminate E|].
    cbn [length]. f_equal. apply IH. exact Hin.
  Qed.

  Lemma bagsum_In : forall bag x j, In x bag -> occ j (idx x) <= bagsum bag j.
  Proof.
    intros bag x j Hin. pose proof (bagsum_remove_one bag x j Hin).
    pose proof (bagsum_nonneg (remove_one x bag) j). lia.
  Qed.

  Lemma spec_loop_bag : forall keys cs bag,
    (forall j, getc cs j = bagsum bag j) -> wf_remove bag keys ->
    (forall j, getc (spec_loop (map idx keys) cs) j = bagsum (bag_remove bag keys) j) /\
    spec_removed (map idx keys) cs = Z.of_nat (length keys) /\
    length bag = (length keys + length (bag_remove bag keys))%nat.
  Proof.
    induction keys as [|x r IH]; intros cs bag Hinv Hwf.
    - split; [exact Hinv|]. split; reflexivity.
    - destruct Hwf as [Hin Hwf].
      assert (Hcan : can_remove cs (idx x) = true).
      { apply can_remove_occ; [intros j; rewrite Hinv; apply bagsum_nonneg|].
        intros j. rewrite Hinv. apply bagsum_In, Hin. }
      assert (Hinv' : forall j, getc (item_spec cs (idx x)) j = bagsum (remove_one x bag) j).
      { intros j. rewrite getc_item_spec, Hcan, Hinv, bagsum_remove_one by exact Hin. reflexivity. }
      destruct (IH _ _ Hinv' Hwf) as (H1 & H2 & H3). split; [exact H1|]. split.
      + cbn [map spec_removed length]. rewrite Hcan, H2. lia.
      + change (bag_remove bag (x :: r)) with (bag_remove (remove_one x bag) r).
        rewrite (length_remove_one bag x Hin), H3. reflexivity.
  Qed.

  (** abstract effect of an operation on the multiset, and when a history only removes present items *)
  Definition bag_step (bag : list K) (o : cop K) : list K :=
    match o with
    | CAdd keys => keys ++ bag
    | CRemove keys => bag_remove bag keys
    | CDelete => []
    | _ => bag
    end.

  Definition wf_op (bag : list K) (o : cop K) : Prop :=
    match o with
    | CRemove keys => wf_remove bag keys
    | _ => True
    end.

  Fixpoint wf_hist (bag : list K) (ops : list (cop K)) : Prop :=
    match ops with
    | [] => True
    | o :: r => wf_op bag o /\ wf_hist (bag_step bag o) r
    end.

  Definition bag_run (bag : list K) (ops : list (cop K)) : list K := fold_left bag_step ops bag.

  Lemma bagsum_flat : forall keys j, occ j (flat_map idx keys) = bagsum keys j.
  Proof. induction keys as [|x r IH]; intros j; cbn [flat_map bagsum occ]; [reflexivity|]. rewrite occ_app, IH. reflexivity. Qed.

  Lemma Inv_step : forall f bag o, Inv f bag -> wf_op bag o -> Inv (fst (cstep f o)) (bag_step bag o).
  Proof.
    intros f bag o [Hc Ht] Hwf. destruct o as [keys|keys|keys|keys| |]; cbn [CountingBloom.cstep bag_step].
    - destruct keys as [|x r]; [split; assumption|]. rewrite (sane_true size k Hk Hsize). cbn [fst]. split.
      + intros j. unfold cadd_script. cbn [ctrs]. rewrite getc_fold_incr, Hc, bagsum_app, bagsum_flat. lia.
      + unfold cadd_script. cbn [total]. rewrite Ht, app_length. lia.
    - destruct keys as [|x r]; [split; assumption|]. rewrite (sane_true size k Hk Hsize). cbn [fst].
      cbn [wf_op] in Hwf. destruct (spec_loop_bag (x :: r) (ctrs f) bag Hc Hwf) as [H1 [H2 H3]].
      destruct (cremove_script_spec (map idx (x :: r)) f) as [Hs Htot]. split.
      + intros j. rewrite Hs. apply H1.
      + rewrite Htot, H2, Ht. lia.
    - destruct keys; [split; assumption|]. rewrite (sane_true size k Hk Hsize). split; assumption.
    - destruct keys; [split; assumption|]. rewrite (sane_true size k Hk Hsize). split; assumption.
    - split; assumption.
    - split; [intros j; reflexivity|reflexivity].
  Qed.

  Theorem Inv_run : forall ops f bag, Inv f bag -> wf_hist bag ops -> Inv (crun f ops) (bag_run bag ops).
  Proof.
    induction ops as [|o r IH]; intros f bag HI Hwf; cbn [CountingBloom.crun bag_run fold_left]; [exact HI|].
    destruct Hwf as [Hw Hr]. apply IH; [apply Inv_step; assumption|exact Hr].
  Qed.

  Lemma Inv_empty : Inv empty_cfilter [].
  Proof. split; [intros j; reflexivity|reflexivity]. Qed.

  Lemma Inv_min : forall f bag x, Inv f bag -> Z.min (mult bag x) max_uint64 <= min_of f x.
  Proof.
    intros f bag x [Hc _]. rewrite min_of_eq. apply min_list_glb. split; [lia|].
    apply Forall_forall. intros v Hv. apply in_map_iff in Hv. destruct Hv as [i [<- Hi]].
    rewrite Hc. pose proof (bagsum_mult bag x i). pose proof (occ_In i (idx x) Hi).
    pose proof (mult_nonneg bag x). nia.
  Qed.

  Lemma Inv_nonneg : forall f bag, Inv f bag -> nonneg (ctrs f).
  Proof. intros f bag [Hc _] j. rewrite Hc. apply bagsum_nonneg. Qed.

End Bag.
