(** Proofs for the lock model (Model/Lock.v): counting monitors and owned keys, what the scripts do to a key,
    the transitions of one attempt as instances of [move], the mutual-exclusion invariant [inv] of the runs
    that satisfy [run_good], the cancel-before-release invariant [acc] of every run, the gate invariant. *)
From Coq Require Import List Arith NArith ZArith Bool Lia.
Require Import RV.Model.Base RV.Proofs.BytesProofs RV.Model.ListUpd RV.Proofs.ListUpdProofs RV.Model.Lock.
Import ListNotations.
Open Scope nat_scope.

Lemma mon_eqb_eq x y : mon_eqb x y = true <-> x = y.
Proof. destruct x, y; cbn; split; congruence. Qed.

Lemma count_mon_upd z i x l y : nth_error l i = Some y ->
  count_mon z (upd i x l) + (if mon_eqb z y then 1 else 0) = count_mon z l + (if mon_eqb z x then 1 else 0).
Proof.
  revert i. induction l as [|w l IH]; intros [|i] H; cbn [nth_error upd count_mon] in *; try discriminate.
  - injection H as ->. lia.
  - specialize (IH i H). lia.
Qed.

Lemma count_mon_le_length z l : count_mon z l <= length l.
Proof. induction l as [|w l IH]; cbn [count_mon length]; [lia|]. destruct (mon_eqb z w); lia. Qed.

Lemma count_mon_total l :
  count_mon MNone l + count_mon MRun l + count_mon MDel l + count_mon MExit l = length l.
Proof. induction l as [|x l IH]; cbn [count_mon length]; [reflexivity|]. destruct x; cbn [mon_eqb]; lia. Qed.

Lemma count_mon_none_zero l : (forall j, j < length l -> nth_error l j <> Some MNone) -> count_mon MNone l = 0.
Proof.
  induction l as [|x l IH]; intros H; cbn [count_mon]; [reflexivity|].
  rewrite IH. 2:{ intros j Hj. apply (H (S j)). cbn. lia. }
  destruct x; cbn [mon_eqb]; try reflexivity. exfalso. apply (H 0); [cbn; lia|reflexivity].
Qed.

Definition owned (a : nat) (keys : list (option (nat * Z))) (i : nat) : Prop :=
  exists k, nth_error keys i = Some k /\ is_owner a k = true.

(** the counting fact behind both "a live holder owns a majority" and "a holder below its majority has a
    monitor on a lost key" *)
Lemma run_owned_or_lost a : forall mons keys, length mons = length keys ->
  count_mon MRun mons <= count_owner a keys \/
  exists i k, nth_error mons i = Some MRun /\ nth_error keys i = Some k /\ is_owner a k = false.
Proof.
  induction mons as [|mo mons IH]; intros [|k keys] HL; cbn [length] in HL; try discriminate; [left; cbn; lia|].
  destruct (IH keys ltac:(lia)) as [H|(i & k0 & H)]; [|right; exists (S i), k0; exact H].
  cbn [count_mon count_owner]. destruct mo; cbn [mon_eqb]; try (left; lia).
  destruct (is_owner a k) eqn:E; [left; lia|right; exists 0, k; auto].
Qed.

Lemma count_owner_disjoint a b keys : a <> b -> count_owner a keys + count_owner b keys <= length keys.
Proof.
  intros N. induction keys as [|k keys IH]; cbn [count_owner length]; [lia|].
  destruct k as [[o e]|]; cbn [is_owner].
  - destruct (Nat.eqb a o) eqn:Ea, (Nat.eqb b o) eqn:Eb; try lia.
    apply Nat.eqb_eq in Ea, Eb. congruence.
  - lia.
Qed.

Lemma is_owner_true a k : is_owner a k = true -> exists e, k = Some (a, e).
Proof. destruct k as [[b e]|]; cbn; [|discriminate]. intros H. apply Nat.eqb_eq in H. subst. eauto. Qed.

Lemma is_owner_same a e : is_owner a (Some (a, e)) = true.
Proof. cbn. apply Nat.eqb_refl. Qed.

Lemma is_owner_other a b k : is_owner b k = true -> b <> a -> is_owner a k = false.
Proof. intros H N. destruct (is_owner_true b k H) as (e & ->). cbn. apply Nat.eqb_neq. congruence. Qed.

Lemma put_future now a exp : (now < exp)%Z -> put now a exp = Some (a, exp).
Proof. intros H. unfold put. destruct (exp <=? now)%Z eqn:E; [lia|reflexivity]. Qed.

Lemma acquire_noforce now a exp k (executed : bool) k' ok : (now < exp)%Z ->
  (if executed then srv_acquire now false a exp k else (k, false)) = (k', ok) ->
  (ok = true -> k' = Some (a, exp)) /\ (forall b, is_owner b k = true -> k' = k).
Proof.
  intros H. cbn [srv_acquire]. rewrite (put_future _ _ _ H).
  destruct executed, k; intros [= <- <-]; split; intros; try reflexivity; discriminate.
Qed.

Lemma srv_extend_owner now a exp k : is_owner a k = true -> (now < exp)%Z -> srv_extend now a exp k = (Some (a, exp), true).
Proof. intros H L. unfold srv_extend. rewrite H, (put_future _ _ _ L). reflexivity. Qed.

Lemma srv_delete_other a b k : is_owner b k = true -> b <> a -> srv_delete a k = (k, false).
Proof. intros H N. unfold srv_delete. rewrite (is_owner_other a b k H N). reflexivity. Qed.

(** [count_result] touches the three fields of the loop in [try] only *)
Definition set_loop (t : attempt) (acq fl : nat) (ld : bool) : attempt :=
  {| a_force := a_force t; a_next := a_next t; a_acquired := acq; a_failures := fl; a_loop_done := ld;
     a_ret := a_ret t; a_tm := a_tm t; a_mon := a_mon t;
     a_exiting := a_exiting t; a_released := a_released t; a_cancelled := a_cancelled t |}.

Lemma count_result_set_loop c t e :
  count_result c t e = set_loop t (a_acquired (count_result c t e)) (a_failures (count_result c t e))
                                  (a_loop_done (count_result c t e)).
Proof. unfold count_result. destruct t as [? ? ? ? []]; reflexivity. Qed.

(** the counters of the loop: frozen once the loop is over; [acquired] grows only with a nil result *)
Lemma count_result_acquired c t e :
  a_acquired (count_result c t e) = if a_loop_done t then a_acquired t else
                                    match e with ENone => S (a_acquired t) | _ => a_acquired t end.
Proof. unfold count_result. destruct (a_loop_done t); reflexivity. Qed.

Lemma count_result_loop c t e :
  (a_loop_done t = true -> c_m c <= a_acquired t \/ c_m c <= a_failures t) ->
  a_loop_done (count_result c t e) = true ->
  c_m c <= a_acquired (count_result c t e) \/ c_m c <= a_failures (count_result c t e).
Proof.
  unfold count_result. destruct (a_loop_done t) eqn:L; [auto|].
  cbn. intros _ H. apply orb_true_iff in H. destruct H as [H|H]; apply Nat.leb_le in H; auto.
Qed.

Definition rank (x : mon) : nat := match x with MNone => 0 | MRun => 1 | MDel => 2 | MExit => 3 end.

Definition leaves (x y : mon) : bool := (rank x <? 2) && (2 <=? rank y).

(** A monitor only ever moves forward in the order MNone < MRun < MDel < MExit.  [move c t i x y] is what
    [monitoring] does to the attempt when monitor i goes from x to y: it counts one more exit when the monitor
    leaves its loop (or never enters it), one more release when it finishes, each with its cancel at the
    majority, and [try] (or its background goroutine) passes on to the next key when the monitor is spawned.
    Every transition of [lstep_r] that touches a monitor is an instance, up to conversion ([move_exit_notlocked],
    [move_leave]; the delete script of a monitor that sees the context done is again [move c t i MRun MExit]). *)
Definition move (c : cfg) (t : attempt) (i : nat) (x y : mon) : attempt :=
  let ex := (if leaves x y then 1 else 0) + a_exiting t in
  let re := (if mon_eqb MExit y then 1 else 0) + a_released t in
  let left := if leaves x y then a_cancelled t || (c_early c && Nat.leb (c_m c) ex) else a_cancelled t in
  {| a_force := a_force t; a_next := match x with MNone => S i | _ => a_next t end;
     a_acquired := a_acquired t; a_failures := a_failures t; a_loop_done := a_loop_done t;
     a_ret := a_ret t; a_tm := a_tm t; a_mon := upd i y (a_mon t); a_exiting := ex; a_released := re;
     a_cancelled := if mon_eqb MExit y then left || Nat.leb (c_m c) re else left |}.

Lemma move_exit_notlocked c t i : exit_notlocked c t i = move c t i MRun MExit.
Proof. reflexivity. Qed.

Lemma move_leave c t i : leave c (set_mon t i MDel) = move c t i MRun MDel.
Proof. reflexivity. Qed.

Lemma move_cancelled c t i x y : a_cancelled t = true -> a_cancelled (move c t i x y) = true.
Proof. intros H. cbn [move a_cancelled]. rewrite H. destruct (leaves x y), (mon_eqb MExit y); reflexivity. Qed.

(** the attempt after the acquire script on its next key was answered with [e] *)
Definition after_acquire (c : cfg) (t : attempt) (e : errk) : attempt :=
  let i := a_next t in
  let t1 := count_result c t e in
  match e with
  | ENone => move c t1 i MNone MRun
  | EOther => move c t1 i MNone MDel
  | ENotLocked => set_next (skip_rest c t1 i (nkeys c - i)) (nkeys c)
  end.

(** the sticky error: skipping the remaining keys is one [move] from MNone to MExit per key, so whatever each
    of these preserves holds afterwards *)
Lemma skip_rest_inv c (P : attempt -> Prop) :
  (forall t, P t -> a_next t < nkeys c -> P (move c t (a_next t) MNone MExit)) ->
  forall t, a_next t <= nkeys c -> P t -> P (set_next (skip_rest c t (a_next t) (nkeys c - a_next t)) (nkeys c)).
Proof.
  intros St t Hn Ht.
  assert (G : forall n u i, i + n = nkeys c -> P (set_next u i) -> P (set_next (skip_rest c u i n) (nkeys c))).
  { induction n; intros u i E H; cbn [skip_rest].
    - rewrite Nat.add_0_r in E. rewrite <- E. exact H.
    - apply (IHn _ (S i)); [lia|]. apply (St _ H). cbn [set_next a_next]. lia. }
  apply G; [lia|]. destruct t; exact Ht.
Qed.

(** monitors not yet spawned: the keys from [a_next] on *)
Definition unspawned (c : cfg) (t : attempt) : Prop :=
  forall j, a_next t <= j -> j < nkeys c -> nth_error (a_mon t) j = Some MNone.

Lemma unspawned_move c t i x y : unspawned c t -> nth_error (a_mon t) i = Some x -> i < nkeys c ->
  (x = MNone -> i = a_next t) -> unspawned c (move c t i x y).
Proof.
  intros H Hx Hi Hn j Hj Hk. cbn [move a_next a_mon] in *.
  destruct (Nat.eq_dec i j) as [<-|N].
  - destruct x; try (rewrite (H i Hj Hk) in Hx; discriminate). lia.
  - rewrite nth_error_upd_other by exact N. apply H; [|exact Hk]. destruct x; try exact Hj. rewrite <- Hn by reflexivity. lia.
Qed.

Record att_inv (c : cfg) (keys : list (option (nat * Z))) (a : nat) (t : attempt) : Prop := {
  ai_len : length (a_mon t) = nkeys c;
  ai_own : forall i, nth_error (a_mon t) i = Some MRun -> owned a keys i;
  ai_noforce : a_force t = false;
  ai_next : unspawned c t;
  ai_run : a_cancelled t = false -> a_acquired t <= count_mon MRun (a_mon t);
  ai_held : a_ret t = RHeld -> c_m c <= a_acquired t;
  ai_loop : a_loop_done t = true -> c_m c <= a_acquired t \/ c_m c <= a_failures t }.

Definition inv (c : cfg) (s : state) : Prop :=
  length (s_keys s) = nkeys c /\
  forall a t, nth_error (s_att s) a = Some t -> att_inv c (s_keys s) a t.

Lemma inv_init c now : inv c (init c now).
Proof. split; [apply repeat_n_length|]. intros [|a] t H; discriminate. Qed.

Lemma att_inv_new c keys a : att_inv c keys a (new_attempt c false).
Proof.
  constructor; cbn [new_attempt a_mon a_cancelled a_acquired a_ret a_force a_next a_loop_done a_failures]; try easy.
  - apply repeat_n_length.
  - intros i H. apply repeat_n_nth_inv in H. discriminate.
  - intros j _ L. apply repeat_n_nth, L.
  - lia.
Qed.

Lemma att_inv_keys c keys keys' a t :
  att_inv c keys a t -> (forall i, nth_error (a_mon t) i = Some MRun -> owned a keys i -> owned a keys' i) ->
  att_inv c keys' a t.
Proof. intros [H1 H2 H3 H4 H5 H6 H7] Hk. constructor; auto. Qed.

Lemma att_inv_upd_key c keys a t i k' :
  att_inv c keys a t -> (nth_error (a_mon t) i = Some MRun -> is_owner a k' = true) -> att_inv c (upd i k' keys) a t.
Proof.
  intros H Hk. apply (att_inv_keys c keys _ a t H). intros j Hj (k & Ek & Ho).
  destruct (Nat.eq_dec i j) as [<-|N].
  - exists k'. rewrite nth_error_upd_same by (eapply nth_error_lt; eauto). auto.
  - exists k. rewrite nth_error_upd_other by exact N. auto.
Qed.

(** the monitors, [a_next] and [a_force] as before: what is left to show is about the counters of [try] *)
Lemma att_inv_same_mon c keys a t t' :
  att_inv c keys a t -> a_mon t' = a_mon t -> a_next t' = a_next t -> a_force t' = a_force t ->
  (a_cancelled t' = false -> a_acquired t' <= count_mon MRun (a_mon t)) ->
  (a_ret t' = RHeld -> c_m c <= a_acquired t') ->
  (a_loop_done t' = true -> c_m c <= a_acquired t' \/ c_m c <= a_failures t') ->
  att_inv c keys a t'.
Proof.
  intros [H1 H2 H3 H4 H5 H6 H7] Em En Ef Hr Hh Hl. unfold unspawned in H4.
  constructor; unfold unspawned; rewrite ?Em, ?En, ?Ef; auto.
Qed.

(** [count_result c t e] laid over an attempt u that has t's counters and, for a nil result, one more
    running monitor than [acquired] needs *)
Lemma att_inv_counted c keys a t u e :
  att_inv c keys a u -> a_acquired u = a_acquired t -> a_failures u = a_failures t -> a_loop_done u = a_loop_done t ->
  (e = ENone -> a_cancelled u = false -> a_acquired u < count_mon MRun (a_mon u)) ->
  att_inv c keys a (set_loop u (a_acquired (count_result c t e)) (a_failures (count_result c t e))
                              (a_loop_done (count_result c t e))).
Proof.
  intros H Ea Ef El Hs.
  apply (att_inv_same_mon c keys a u _ H); try reflexivity; cbn [set_loop a_cancelled a_acquired a_ret a_loop_done a_failures].
  - intros Hc. pose proof (ai_run _ _ _ _ H Hc). rewrite count_result_acquired, <- Ea.
    destruct (a_loop_done t); [assumption|]. destruct e; try assumption. apply Hs; auto.
  - intros Hh. pose proof (ai_held _ _ _ _ H Hh). rewrite count_result_acquired, <- Ea. destruct (a_loop_done t), e; lia.
  - apply count_result_loop. rewrite <- Ea, <- Ef, <- El. apply H.
Qed.

(** a monitor starts running only on a key that carries the attempt's value, and stops running
    only when the context is done *)
Lemma att_inv_move c keys a t i x y :
  att_inv c keys a t -> nth_error (a_mon t) i = Some x -> (x = MNone -> i = a_next t) ->
  (y = MRun -> owned a keys i) -> (x = MRun -> a_cancelled t = true) ->
  att_inv c keys a (move c t i x y).
Proof.
  intros [H1 H2 H3 H4 H5 H6 H7] Hx Hn Hy Hc.
  assert (Hi : i < nkeys c) by (rewrite <- H1; eapply nth_error_lt; eauto).
  constructor; cbn [move a_mon a_force a_acquired a_failures a_loop_done a_ret]; auto.
  - rewrite length_upd. exact H1.
  - intros j Hj. apply nth_error_upd_inv in Hj as [[-> E]|[_ Hj]]; [apply Hy; congruence|auto].
  - apply unspawned_move; assumption.
  - intros Hc'. assert (Hc0 : a_cancelled t = false).
    { destruct (a_cancelled t) eqn:E; [|reflexivity]. rewrite move_cancelled in Hc' by exact E. discriminate. }
    pose proof (count_mon_upd MRun i y (a_mon t) x Hx) as C. specialize (H5 Hc0).
    destruct x; cbn [mon_eqb] in C; try lia. rewrite Hc in Hc0 by reflexivity. discriminate.
Qed.

Lemma att_inv_acquire c keys a t e :
  att_inv c keys a t -> a_next t < nkeys c -> (e = ENone -> owned a keys (a_next t)) ->
  att_inv c keys a (after_acquire c t e).
Proof.
  intros H Hi Hk. pose proof (ai_next _ _ _ _ H _ (le_n _) Hi) as Hnone.
  unfold after_acquire. rewrite count_result_set_loop.
  assert (H1 : e <> ENone -> att_inv c keys a (set_loop t (a_acquired (count_result c t e))
                                 (a_failures (count_result c t e)) (a_loop_done (count_result c t e)))).
  { intros He. apply att_inv_counted; auto. intros E. contradiction. }
  destruct e.
  - (* the new running monitor makes room for the count of [acquired] *)
    apply (att_inv_counted c keys a t (move c t (a_next t) MNone MRun) ENone); try reflexivity.
    + apply att_inv_move; auto; discriminate.
    + intros _ Hc. pose proof (ai_run _ _ _ _ H Hc).
      pose proof (count_mon_upd MRun (a_next t) MRun (a_mon t) MNone Hnone) as C. cbn [mon_eqb] in C.
      cbn [move a_acquired a_mon]. lia.
  - refine (skip_rest_inv c (att_inv c keys a) _ (set_loop t _ _ _) (Nat.lt_le_incl _ _ Hi) (H1 _)); [|discriminate].
    intros u Hu Lu. apply att_inv_move; auto; try discriminate. exact (ai_next _ _ _ _ Hu _ (le_n _) Lu).
  - apply att_inv_move; try discriminate; [apply H1; discriminate|exact Hnone|reflexivity].
Qed.

(** the step of attempt a replaces it and rewrites key i: the others keep what they own *)
Lemma inv_update c s a t t' i k k' :
  inv c s -> nth_error (s_att s) a = Some t -> nth_error (s_keys s) i = Some k ->
  att_inv c (upd i k' (s_keys s)) a t' ->
  (forall b, b <> a -> is_owner b k = true -> k' = k) ->
  inv c (with_key_att s i k' a t').
Proof.
  intros [HL HA] Ha Hk Ht' Ho. split; [cbn; rewrite length_upd; exact HL|]. cbn [with_key_att s_att s_keys].
  intros b tb Hb. apply nth_error_upd_inv in Hb as [[-> ->]|[N Hb]]; [exact Ht'|].
  apply att_inv_upd_key; [apply HA, Hb|]. intros Hm.
  destruct (ai_own _ _ _ _ (HA b tb Hb) i Hm) as (k0 & Ek & Eo). rewrite Hk in Ek. injection Ek as <-.
  rewrite (Ho b N Eo). exact Eo.
Qed.

Lemma set_cancelled_ret t : set_cancelled t = set_ret t (a_ret t) (a_tm t) true.
Proof. unfold set_cancelled, set_ret. rewrite orb_true_r. reflexivity. Qed.

(** the return of [try], the timer and the cancel touch [a_ret], [a_tm] and [a_cancelled] only, and never
    take a cancel back *)
Lemma inv_set_ret c s a t r tm b :
  inv c s -> nth_error (s_att s) a = Some t -> (r = RHeld -> c_m c <= a_acquired t) ->
  inv c (with_att s a (set_ret t r tm b)).
Proof.
  intros [HL HA] Ha Hr. split; [exact HL|]. cbn [with_att s_att s_keys].
  intros a' t' Hb. apply nth_error_upd_inv in Hb as [[-> ->]|[_ Hb]]; [|apply HA, Hb].
  apply (att_inv_same_mon c _ a t _ (HA a t Ha)); try reflexivity;
    cbn [set_ret a_cancelled a_acquired a_ret a_loop_done a_failures]; [|exact Hr|apply (HA a t Ha)].
  intros Hc. apply orb_false_iff in Hc as [Hc _]. apply (HA a t Ha), Hc.
Qed.

(** an enabled delete script: the monitor is past its loop, or it runs and sees the context done *)
Lemma lstep_delkey c s a i executed s' : lstep c s (LDelkey a i executed) = Some s' ->
  exists t k x, nth_error (s_att s) a = Some t /\ nth_error (s_keys s) i = Some k /\ nth_error (a_mon t) i = Some x /\
    (x = MDel \/ x = MRun /\ a_cancelled t = true) /\
    s' = with_key_att s i (fst (if executed then srv_delete a k else (k, false))) a (move c t i x MExit).
Proof.
  unfold lstep. cbn [lstep_r].
  destruct (nth_error (s_att s) a) as [t|]; [|discriminate].
  destruct (nth_error (s_keys s) i) as [k|]; [|discriminate].
  destruct (nth_error (a_mon t) i) as [x|] eqn:Hx; [|discriminate].
  destruct x; try discriminate; [destruct (a_cancelled t) eqn:Ec; [|discriminate]|];
    destruct (if executed then srv_delete a k else (k, false)) as [k' del] eqn:E; intros [= <-].
  - exists t, k, MRun. rewrite E. repeat split; auto.
  - exists t, k, MDel. rewrite E. repeat split; auto.
Qed.

Lemma lstep_delkey_att c s a i executed s' t :
  lstep c s (LDelkey a i executed) = Some s' -> nth_error (s_att s) a = Some t ->
  exists x, nth_error (a_mon t) i = Some x /\ (x = MDel \/ x = MRun /\ a_cancelled t = true) /\
            nth_error (s_att s') a = Some (move c t i x MExit).
Proof.
  intros HS Ha. apply lstep_delkey in HS as (t0 & k & x & Ha0 & _ & Hx & Hd & ->).
  rewrite Ha in Ha0. injection Ha0 as <-. exists x. repeat split; auto.
  cbn [with_key_att s_att]. apply nth_error_upd_same. eapply nth_error_lt; eauto.
Qed.

(** the extension of a monitor whose key is lost is answered 0 or fails: either way the monitor leaves its loop *)
Lemma lstep_extend_lost c s a t i k exp executed replied :
  nth_error (s_att s) a = Some t -> nth_error (a_mon t) i = Some MRun ->
  nth_error (s_keys s) i = Some k -> is_owner a k = false ->
  exists y, leaves MRun y = true /\
            lstep c s (LExtend a i exp executed replied) = Some (with_key_att s i k a (move c t i MRun y)).
Proof.
  intros Ha Hm Hk Ho. unfold lstep. cbn [lstep_r]. rewrite Ha, Hk, Hm. unfold srv_extend. rewrite Ho.
  destruct executed, replied; [exists MExit|exists MDel..]; split; reflexivity.
Qed.

(** the context is done once a majority of the monitors has left (repaired order) or finished *)
Definition cancel_ok (c : cfg) (t : attempt) : Prop :=
  (c_early c = true -> c_m c <= a_exiting t -> a_cancelled t = true) /\
  (c_m c <= a_released t -> a_cancelled t = true).

Lemma cancel_ok_move c t i x y : cancel_ok c t -> cancel_ok c (move c t i x y).
Proof.
  intros [H1 H2]. split; cbn [move a_exiting a_released a_cancelled]; intros Hm.
  - intros Hx. destruct (leaves x y); [rewrite Hm, (proj2 (Nat.leb_le _ _) Hx), orb_true_r|rewrite (H1 Hm Hx)];
      destruct (mon_eqb MExit y); reflexivity.
  - destruct (mon_eqb MExit y); [rewrite (proj2 (Nat.leb_le _ _) Hm); apply orb_true_r|].
    rewrite (H2 Hm). destruct (leaves x y); reflexivity.
Qed.

(** the accounting of [monitoring], in every schedule: the counters [exiting] / [released] agree with the monitor
    list, the cancel happened at the majority, monitors are spawned in key order *)
Record att_acc (c : cfg) (t : attempt) : Prop := {
  ac_len : length (a_mon t) = nkeys c;
  ac_exiting : a_exiting t = count_mon MDel (a_mon t) + count_mon MExit (a_mon t);
  ac_released : a_released t = count_mon MExit (a_mon t);
  ac_cancel : cancel_ok c t;
  ac_next : unspawned c t;
  ac_next_le : a_next t <= nkeys c;
  ac_spawned : forall j, j < a_next t -> nth_error (a_mon t) j <> Some MNone }.

Definition acc (c : cfg) (s : state) : Prop :=
  length (s_keys s) = nkeys c /\ forall a t, nth_error (s_att s) a = Some t -> att_acc c t.

Lemma count_mon_repeat_none z n : z <> MNone -> count_mon z (repeat_n MNone n) = 0.
Proof. intros H. induction n; cbn [repeat_n count_mon]; [reflexivity|]. destruct z; cbn [mon_eqb]; try exact IHn. congruence. Qed.

Lemma att_acc_new c force : 1 <= c_m c -> att_acc c (new_attempt c force).
Proof.
  intros Hm. constructor; cbn [new_attempt a_mon a_exiting a_released a_cancelled a_next]; try lia.
  - apply repeat_n_length.
  - rewrite !count_mon_repeat_none by discriminate. reflexivity.
  - rewrite count_mon_repeat_none by discriminate. reflexivity.
  - split; cbn; lia.
  - intros j _ L. apply repeat_n_nth, L.
Qed.

Lemma att_acc_same c t t' : att_acc c t ->
  a_mon t' = a_mon t -> a_exiting t' = a_exiting t -> a_released t' = a_released t -> a_next t' = a_next t ->
  (a_cancelled t = true -> a_cancelled t' = true) -> att_acc c t'.
Proof.
  intros [H1 H2 H3 H4 H5 H6 H7] Em Ee Er En Hc. unfold unspawned in H5.
  constructor; unfold unspawned, cancel_ok in *; rewrite ?Em, ?Ee, ?Er, ?En; auto. destruct H4; auto.
Qed.

Lemma leaves_counts x y : rank x < rank y ->
  mon_eqb MExit x = false /\
  (if leaves x y then 1 else 0) + (if mon_eqb MDel x then 1 else 0) =
  (if mon_eqb MDel y then 1 else 0) + (if mon_eqb MExit y then 1 else 0).
Proof. intros H. apply Nat.ltb_lt in H. destruct x, y; try discriminate H; split; reflexivity. Qed.

Lemma att_acc_move c t i x y :
  att_acc c t -> nth_error (a_mon t) i = Some x -> rank x < rank y -> (x = MNone -> i = a_next t) ->
  att_acc c (move c t i x y).
Proof.
  intros [H1 H2 H3 H4 H5 H6 H7] Hx Hr Hn.
  assert (Hi : i < nkeys c) by (rewrite <- H1; eapply nth_error_lt; eauto).
  pose proof (count_mon_upd MDel i y (a_mon t) x Hx) as C1.
  pose proof (count_mon_upd MExit i y (a_mon t) x Hx) as C2.
  destruct (leaves_counts x y Hr) as [E L]. rewrite E in C2.
  constructor; cbn [move a_mon a_exiting a_released a_next]; try lia.
  - rewrite length_upd. exact H1.
  - apply cancel_ok_move, H4.
  - apply unspawned_move; assumption.
  - destruct x; try exact H6. lia.
  - intros j Hj Hj'. apply nth_error_upd_inv in Hj' as [[_ <-]|[N Hj']]; [cbn in Hr; lia|].
    apply (H7 j); [|exact Hj']. destruct x; try exact Hj. rewrite <- Hn by reflexivity. lia.
Qed.

Lemma att_acc_acquire c t e : att_acc c t -> a_next t < nkeys c -> att_acc c (after_acquire c t e).
Proof.
  intros H Hi. pose proof (ac_next _ _ H _ (le_n _) Hi) as Hnone.
  unfold after_acquire. rewrite count_result_set_loop.
  assert (H1 : att_acc c (set_loop t (a_acquired (count_result c t e)) (a_failures (count_result c t e))
                                   (a_loop_done (count_result c t e)))) by (apply (att_acc_same c t); auto).
  destruct e.
  - apply att_acc_move; auto.
  - refine (skip_rest_inv c (att_acc c) _ (set_loop t _ _ _) (Nat.lt_le_incl _ _ Hi) H1).
    intros u Hu Lu. apply att_acc_move; auto; [exact (ac_next _ _ Hu _ (le_n _) Lu)|cbn; lia].
  - apply att_acc_move; auto. cbn. lia.
Qed.

Lemma acc_upd_att c s a t' : acc c s -> att_acc c t' -> acc c (with_att s a t').
Proof.
  intros [HL HA] Ht'. split; [exact HL|]. cbn [with_att s_att].
  intros b tb Hb. apply nth_error_upd_inv in Hb as [[_ ->]|[_ Hb]]; [exact Ht'|apply (HA b), Hb].
Qed.

Lemma acc_set_ret c s a t r tm b :
  acc c s -> nth_error (s_att s) a = Some t -> acc c (with_att s a (set_ret t r tm b)).
Proof.
  intros HI Ha. apply acc_upd_att; [exact HI|]. apply (att_acc_same c t _ (proj2 HI a t Ha)); try reflexivity.
  cbn [set_ret a_cancelled]. intros ->. reflexivity.
Qed.

Lemma acc_upd_key_att c s i k a t' : acc c s -> att_acc c t' -> acc c (with_key_att s i k a t').
Proof.
  intros [HL HA] Ht'. split; [cbn; rewrite length_upd; exact HL|]. cbn [with_key_att s_att].
  intros b tb Hb. apply nth_error_upd_inv in Hb as [[_ ->]|[_ Hb]]; [exact Ht'|apply (HA b), Hb].
Qed.

(** one case analysis of the step function for both invariants: [acc] holds along every step, [inv] along those
    that satisfy [good] *)
Lemma step_invariants c s l s' : lstep c s l = Some s' ->
  (1 <= c_m c -> acc c s -> acc c s') /\ (good s l -> inv c s -> inv c s').
Proof.
  intros HS.
  destruct l as [force|a exp executed replied|a|a|a|a i exp executed replied|a i|a i executed|dt|i];
    try apply lstep_delkey in HS as (t & k & x & Ha & Hk & Hx & Hc & ->);
    try (unfold lstep in HS; cbn [lstep_r] in HS).
  - (* LStart *) injection HS as <-. split.
    + intros Hm [HL HA]. split; [exact HL|]. cbn [s_att]. intros b tb Hb.
      apply nth_error_snoc in Hb as [Hb| ->]; [apply (HA b), Hb|apply att_acc_new, Hm].
    + intros HG [HL HA]. cbn [good] in HG. subst force. split; [exact HL|]. cbn [s_att s_keys].
      intros b tb Hb. apply nth_error_snoc in Hb as [Hb| ->]; [apply HA, Hb|apply att_inv_new].
  - (* LAcquire *) destruct (nth_error (s_att s) a) as [t|] eqn:Ha; [|discriminate].
    destruct (nth_error (s_keys s) (a_next t)) as [k|] eqn:Hk; [|discriminate].
    destruct (if executed then srv_acquire (s_now s) (a_force t) a exp k else (k, false)) as [k' ok] eqn:E.
    injection HS as <-.
    assert (Hi : length (s_keys s) = nkeys c -> a_next t < nkeys c) by (intros <-; eapply nth_error_lt; eauto).
    split.
    + intros _ HI. apply acc_upd_key_att, att_acc_acquire; [exact HI|exact (proj2 HI a t Ha)|exact (Hi (proj1 HI))].
    + intros HG HI. pose proof HI as [HL HA]. pose proof (HA a t Ha) as AI. specialize (Hi HL).
      rewrite (ai_noforce _ _ _ _ AI) in E. destruct (acquire_noforce _ _ _ _ _ _ _ HG E) as [Hok Hoth].
      apply (inv_update c s a t _ _ k k' HI Ha Hk); [|intros b _; apply Hoth].
      apply att_inv_acquire; [|exact Hi|].
      * apply att_inv_upd_key; [exact AI|]. rewrite (ai_next _ _ _ _ AI _ (le_n _) Hi). discriminate.
      * intros He. exists k'. rewrite nth_error_upd_same by (rewrite HL; exact Hi). split; [reflexivity|].
        destruct (executed && replied), ok; try discriminate. rewrite Hok by reflexivity. apply is_owner_same.
  - (* LReturn *) destruct (nth_error (s_att s) a) as [t|] eqn:Ha; [|discriminate].
    destruct (a_ret t) eqn:Er; try discriminate;
      [destruct (a_loop_done t) eqn:El|destruct (Nat.eqb (a_released t) (nkeys c))]; try discriminate;
      injection HS as <-; (split; [intros _ HI; exact (acc_set_ret c s a t _ _ _ HI Ha)|]);
      intros _ HI; apply (inv_set_ret c s a t _ _ _ HI Ha); try discriminate.
    (* [try] returns nil only if the timer was stopped in time and fewer than a majority of acquisitions failed *)
    intros Hh. destruct (a_tm t); cbn [andb] in Hh; try discriminate.
    destruct (Nat.ltb_spec (a_failures t) (c_m c)) as [Lf|Lf]; [|discriminate].
    destruct (ai_loop _ _ _ _ (proj2 HI a t Ha) El); lia.
  - (* LTimerFire *) destruct (nth_error (s_att s) a) as [t|] eqn:Ha; [|discriminate].
    destruct (a_tm t); try discriminate. injection HS as <-. split; intros _ HI.
    + exact (acc_set_ret c s a t _ _ _ HI Ha).
    + apply (inv_set_ret c s a t _ _ _ HI Ha), (ai_held c (s_keys s) a), (proj2 HI a t Ha).
  - (* LCancel *) destruct (nth_error (s_att s) a) as [t|] eqn:Ha; [|discriminate]. injection HS as <-.
    rewrite set_cancelled_ret. split; intros _ HI.
    + exact (acc_set_ret c s a t _ _ _ HI Ha).
    + apply (inv_set_ret c s a t _ _ _ HI Ha), (ai_held c (s_keys s) a), (proj2 HI a t Ha).
  - (* LExtend *) destruct (nth_error (s_att s) a) as [t|] eqn:Ha; [|discriminate].
    destruct (nth_error (s_keys s) i) as [k|] eqn:Hk; [|discriminate].
    destruct (nth_error (a_mon t) i) as [[]|] eqn:Hm; try discriminate.
    destruct (if executed then srv_extend (s_now s) a exp k else (k, false)) as [k' ok] eqn:E.
    injection HS as <-. split.
    + intros _ HI. apply acc_upd_key_att; [exact HI|].
      destruct (if executed && replied then if ok then ENone else ENotLocked else EOther);
        [exact (proj2 HI a t Ha)|apply (att_acc_move c t i MRun MExit)|apply (att_acc_move c t i MRun MDel)];
        try exact (proj2 HI a t Ha); try exact Hm; try discriminate; cbn; lia.
    + (* the running monitor's key is its own, so the extension is answered 1 *)
      intros (-> & -> & Hexp) HI. pose proof (proj2 HI a t Ha) as AI.
      destruct (ai_own _ _ _ _ AI i Hm) as (k0 & Ek & Eo). rewrite Hk in Ek. injection Ek as <-.
      rewrite (srv_extend_owner _ _ _ _ Eo Hexp) in E. injection E as <- <-.
      apply (inv_update c s a t _ _ k _ HI Ha Hk).
      * apply att_inv_upd_key; [exact AI|]. intros _. apply is_owner_same.
      * intros b N Hb. rewrite (is_owner_other a b k Hb N) in Eo. discriminate.
  - (* LClosed *) destruct (nth_error (s_att s) a) as [t|] eqn:Ha; [|discriminate].
    destruct (nth_error (a_mon t) i) as [[]|] eqn:Hm; try discriminate. injection HS as <-. split; [|intros []].
    intros _ HI. apply acc_upd_att; [exact HI|].
    apply (att_acc_move c t i MRun MDel (proj2 HI a t Ha) Hm); [cbn; lia|discriminate].
  - (* LDelkey *) split; intros _ HI.
    + apply acc_upd_key_att; [exact HI|].
      apply (att_acc_move c t i x MExit (proj2 HI a t Ha) Hx); destruct Hc as [->|[-> _]]; try discriminate; cbn; lia.
    + apply (inv_update c s a t _ _ k _ HI Ha Hk).
      * apply att_inv_upd_key.
        -- apply att_inv_move; [exact (proj2 HI a t Ha)|exact Hx| | |]; destruct Hc as [->|[-> Hc]]; intros; try discriminate; assumption.
        -- cbn [move a_mon]. rewrite nth_error_upd_same by (eapply nth_error_lt; eauto). discriminate.
      * intros b N Hb. destruct executed; [|reflexivity]. rewrite (srv_delete_other a b k Hb N). reflexivity.
  - (* LTick *) destruct (dt <? 0)%Z; [discriminate|]. injection HS as <-.
    assert (HL : length (expire_keys (s_now s + dt) (s_keys s)) = length (s_keys s)) by apply map_length.
    split; [intros _ [HL' HA]; split; [cbn; rewrite HL; exact HL'|exact HA]|].
    intros HG [HL' HA]. split; [cbn; rewrite HL; exact HL'|]. cbn [s_att s_keys].
    intros a t Ha. apply (att_inv_keys c (s_keys s) _ a t (HA a t Ha)).
    intros i Hm (k & Hk & Ho). destruct (is_owner_true a k Ho) as (e & ->).
    exists (Some (a, e)). unfold expire_keys. rewrite nth_error_map, Hk. cbn [option_map]. split; [|exact Ho].
    specialize (HG i a e t Hk Ha Hm). destruct (e <=? s_now s + dt)%Z eqn:E; [lia|reflexivity].
  - (* LEnvDel *) destruct (nth_error (s_keys s) i); [|discriminate]. injection HS as <-. split; [|intros []].
    intros _ [HL HA]. split; [cbn; rewrite length_upd; exact HL|exact HA].
Qed.

Lemma run_good_step c s l r s' : lstep c s l = Some s' -> good s l -> run_good c s' r -> run_good c s (l :: r).
Proof. intros E G R. cbn [run_good]. rewrite E. auto. Qed.

Lemma run_invariants c : forall ls s s', run c s ls = Some s' ->
  (1 <= c_m c -> acc c s -> acc c s') /\ (run_good c s ls -> inv c s -> inv c s').
Proof.
  induction ls as [|l ls IH]; intros s s' HR; cbn [run run_good] in *.
  - injection HR as <-. auto.
  - destruct (lstep c s l) as [s1|] eqn:E; [|discriminate].
    destruct (step_invariants c s l s1 E) as [A I1], (IH s1 s' HR) as [A' I']. split; [auto|].
    intros [Hg HG] HI. auto.
Qed.

Lemma acc_init c now : acc c (init c now).
Proof. split; [apply repeat_n_length|]. intros [|a] t H; discriminate. Qed.

Lemma reach_acc c now ls s : 1 <= c_m c -> run c (init c now) ls = Some s -> acc c s.
Proof. intros Hm HR. exact (proj1 (run_invariants c ls _ _ HR) Hm (acc_init c now)). Qed.

Lemma reach_inv c now ls s : run c (init c now) ls = Some s -> run_good c (init c now) ls -> inv c s.
Proof. intros HR HG. exact (proj2 (run_invariants c ls _ _ HR) HG (inv_init c now)). Qed.

Lemma live_owns_majority c s a : inv c s -> live s a = true -> c_m c <= owns s a.
Proof.
  intros [HL HA] Hl. unfold live in Hl.
  destruct (nth_error (s_att s) a) as [t|] eqn:Ha; [|discriminate].
  unfold live_att in Hl. destruct (a_ret t) eqn:Er; try discriminate.
  apply negb_true_iff in Hl. pose proof (HA a t Ha) as AI.
  pose proof (ai_held _ _ _ _ AI Er). pose proof (ai_run _ _ _ _ AI Hl).
  destruct (run_owned_or_lost a (a_mon t) (s_keys s)) as [L|(i & k & Hm & Hk & Ho)]; [rewrite HL; apply AI|unfold owns; lia|].
  destruct (ai_own _ _ _ _ AI i Hm) as (k' & Hk' & Ho'). congruence.
Qed.

Theorem mutex c now ls s : 1 <= c_m c ->
  run c (init c now) ls = Some s -> run_good c (init c now) ls ->
  forall a b, a <> b -> live s a = true -> live s b = true -> False.
Proof.
  intros Hm HR HG a b Hab La Lb.
  pose proof (reach_inv c now ls s HR HG) as HI.
  pose proof (live_owns_majority c s a HI La). pose proof (live_owns_majority c s b HI Lb).
  pose proof (count_owner_disjoint a b (s_keys s) Hab) as Hd.
  destruct HI as [HL _]. unfold owns in *. rewrite HL in Hd. unfold nkeys in Hd. lia.
Qed.

Lemma count_run_all_spawned c t : att_acc c t -> a_next t = nkeys c ->
  count_mon MRun (a_mon t) + a_exiting t = nkeys c.
Proof.
  intros AC Hn. pose proof (count_mon_total (a_mon t)) as T.
  rewrite (ac_len _ _ AC) in T. rewrite (ac_exiting _ _ AC).
  rewrite count_mon_none_zero in T; [lia|].
  intros j Hj. apply (ac_spawned _ _ AC). rewrite Hn, <- (ac_len _ _ AC). exact Hj.
Qed.

Lemma live_not_left c t : att_acc c t -> c_early c = true -> a_cancelled t = false -> a_exiting t < c_m c.
Proof.
  intros AC He Hc. destruct (Nat.ltb_spec (a_exiting t) (c_m c)) as [L|L]; [exact L|].
  rewrite (proj1 (ac_cancel _ _ AC) He L) in Hc. discriminate.
Qed.

(** The release step.  A monitor that runs its delete script while the lock context is not done has left its
    loop before, so the release costs no further exit: fewer than a majority of the monitors have left, the
    context stays live, and once all keys have been attempted a majority of monitors still runs. *)
Lemma att_acc_release c t i :
  att_acc c t -> c_early c = true -> a_cancelled t = false -> nth_error (a_mon t) i = Some MDel ->
  a_exiting (move c t i MDel MExit) < c_m c /\ a_cancelled (move c t i MDel MExit) = false /\
  (a_next t = nkeys c -> c_m c <= count_mon MRun (a_mon (move c t i MDel MExit))).
Proof.
  intros At He Hc Hx. pose proof (live_not_left c t At He Hc) as Hex.
  pose proof (att_acc_move c t i MDel MExit At Hx ltac:(cbn; lia) ltac:(discriminate)) as At'.
  pose proof (count_mon_upd MDel i MExit (a_mon t) MDel Hx) as C. cbn [mon_eqb] in C.
  pose proof (ac_exiting _ _ At). pose proof (ac_released _ _ At).
  split; [exact Hex|]. split.
  - cbn. rewrite Hc. apply Nat.leb_gt. lia.
  - intros Hn. pose proof (count_run_all_spawned c _ At' Hn) as T. cbn in T |- *. unfold nkeys in *. lia.
Qed.

Lemma live_after_release c s a i executed s' :
  acc c s -> c_early c = true -> lstep c s (LDelkey a i executed) = Some s' -> live s a = true -> live s' a = true.
Proof.
  intros AC He HS Hl. unfold live in *. destruct (nth_error (s_att s) a) as [t|] eqn:Ha; [|discriminate].
  destruct (lstep_delkey_att c s a i executed s' t HS Ha) as (x & Hx & Hd & ->).
  unfold live_att in *. cbn [move a_ret]. destruct (a_ret t); try discriminate. apply negb_true_iff in Hl.
  destruct Hd as [->|[_ Hd]]; [|congruence].
  destruct (att_acc_release c t i (proj2 AC a t Ha) He Hl Hx) as (_ & -> & _). reflexivity.
Qed.

(** a holder below its majority has a monitor still running on a key it has lost *)
Theorem lost_monitor_exists c s a t :
  acc c s -> c_early c = true -> nth_error (s_att s) a = Some t ->
  a_cancelled t = false -> a_next t = nkeys c -> owns s a < c_m c ->
  exists i k, nth_error (a_mon t) i = Some MRun /\ nth_error (s_keys s) i = Some k /\ is_owner a k = false.
Proof.
  intros [HL HA] He Ha Hc Hn Ho. pose proof (HA a t Ha) as At.
  pose proof (live_not_left c t At He Hc) as Hex.
  pose proof (count_run_all_spawned c t At Hn) as T.
  destruct (run_owned_or_lost a (a_mon t) (s_keys s)) as [H|H]; [rewrite HL; apply At| |exact H].
  unfold owns, nkeys in *. lia.
Qed.

Definition waits_for (g : gate) : option nat :=
  match g_wait g with WFailed i | WBlocked i => Some i | _ => None end.

(** the write that will wake the waiter is still tracked, or its invalidation is on its way, or the token is there *)
Definition gate_inv (g : gate) : Prop :=
  forall i, waits_for g = Some i -> nth_error (g_tracked g) i = Some true \/ In i (g_inflight g) \/ g_token g = true.

Lemma gate_inv_step g l g' : gate_inv g -> gstep g l = Some g' -> gate_inv g'.
Proof.
  unfold gate_inv, waits_for. intros HI HS j. destruct l as [i|i| | | | |]; cbn [gstep] in HS.
  - destruct (g_wait g); try discriminate. destruct (nth_error (g_tracked g) i) eqn:E; [|discriminate].
    injection HS as <-. cbn. intros [= <-]. left. apply nth_error_upd_same. eapply nth_error_lt; eauto.
  - destruct (nth_error (g_tracked g) i) as [[|]|] eqn:E; try discriminate; injection HS as <-; [|apply HI].
    cbn [g_wait g_tracked g_inflight g_token]. intros Hj.
    destruct (HI j Hj) as [H|[H|H]]; auto; [|right; left; apply in_or_app; auto].
    destruct (Nat.eq_dec i j) as [->|N].
    + right. left. apply in_or_app. right. left. reflexivity.
    + left. rewrite nth_error_upd_other by exact N. exact H.
  - destruct (g_inflight g) as [|h r]; [discriminate|]. injection HS as <-.
    cbn [g_wait g_tracked g_inflight g_token]. destruct (g_wait g); intros [=]; auto.
  - injection HS as <-. cbn [g_wait g_tracked g_inflight g_token]. destruct (g_wait g); intros [=]; auto.
  - destruct (g_wait g) eqn:E; try discriminate. injection HS as <-. cbn. apply HI.
  - destruct (g_wait g); try discriminate. destruct (g_token g); [|discriminate]. injection HS as <-. discriminate.
  - destruct (g_wait g); try discriminate; injection HS as <-; discriminate.
Qed.

Lemma gate_inv_run : forall ls g g', gate_inv g -> grun g ls = Some g' -> gate_inv g'.
Proof.
  induction ls as [|l ls IH]; intros g g' HI HR; cbn [grun] in HR.
  - injection HR as <-. exact HI.
  - destruct (gstep g l) as [g1|] eqn:E; [|discriminate]. eapply IH; [eapply gate_inv_step; eauto|exact HR].
Qed.

Lemma gate_inv_init n : gate_inv (ginit n).
Proof. intros i H. discriminate. Qed.

(** delivering everything that is on its way *)
Fixpoint delivers (n : nat) : list glabel := match n with O => [] | S k => GDeliver :: delivers k end.

Lemma deliver_all : forall n g, length (g_inflight g) = n -> g_wait g <> WGone -> n <> 0 \/ g_token g = true ->
  exists g', grun g (delivers n) = Some g' /\ g_wait g' = g_wait g /\ g_token g' = true.
Proof.
  induction n; intros g HL HW Ht; cbn [delivers grun].
  - exists g. destruct Ht as [Ht|Ht]; [contradiction|auto].
  - cbn [gstep]. destruct (g_inflight g) as [|h r] eqn:E; [discriminate|].
    set (g1 := {| g_tracked := g_tracked g; g_inflight := r;
                  g_token := match g_wait g with WGone => g_token g | _ => true end; g_wait := g_wait g |}).
    destruct (IHn g1) as (g' & H1 & H2 & H3); [cbn in *; lia|exact HW|right; cbn; destruct (g_wait g); congruence|].
    exists g'. auto.
Qed.

(** No lost wake-up.  If the waiter is blocked after failing on key i and key i has been written since (its
    tracking entry is gone), then after the invalidations on their way have been delivered the gate holds a
    token, i.e. the waiter's wake-up step is enabled. *)
Lemma gate_inv_wakeup g i :
  gate_inv g -> g_wait g = WBlocked i -> nth_error (g_tracked g) i = Some false ->
  exists g', grun g (delivers (length (g_inflight g))) = Some g' /\ g_wait g' = WBlocked i /\ g_token g' = true /\
             exists g'', gstep g' GWake = Some g'' /\ g_wait g'' = WTrying.
Proof.
  intros HI HW HT. specialize (HI i). unfold waits_for in HI. rewrite HW in HI. specialize (HI eq_refl).
  destruct (deliver_all (length (g_inflight g)) g eq_refl) as (g' & H1 & H2 & Ht); [rewrite HW; discriminate| |].
  { destruct HI as [H|[H|H]]; [congruence|left; destruct (g_inflight g); [destruct H|discriminate]|right; exact H]. }
  exists g'. repeat split; [exact H1|congruence|exact Ht|].
  cbn [gstep]. rewrite H2, HW, Ht. eexists; split; reflexivity.
Qed.
