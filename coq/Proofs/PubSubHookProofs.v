(** Proofs about the hook-channel life cycle and the invalidation callbacks of Model/PubSub.v (C26_hook_chan, C27). *)
From Coq Require Import String List Arith NArith ZArith Bool Lia.
Require Import RV.Model.Base RV.Model.PsBase RV.Model.PubSub RV.Proofs.PsListProofs.
Import ListNotations.
Open Scope N_scope.
Open Scope list_scope.

Lemma run_app : forall pm ls1 ls2 s, run pm s (ls1 ++ ls2) =
  match run pm s ls1 with Some s' => run pm s' ls2 | None => None end.
Proof.
  induction ls1 as [|l ls1 IH]; intros ls2 s; [reflexivity|].
  cbn [app run]. destruct (step pm s l); [apply IH|reflexivity].
Qed.

Lemma run_invariant : forall pm (P : state -> Prop),
  (forall s l s', P s -> step pm s l = Some s' -> P s') ->
  forall ls s s', P s -> run pm s ls = Some s' -> P s'.
Proof.
  intros pm P Hstep. induction ls as [|l ls IH]; intros s s' HP H.
  - cbn in H. injection H as <-. exact HP.
  - cbn in H. destruct (step pm s l) as [s1|] eqn:E; [|discriminate].
    apply (IH s1 s'); [exact (Hstep s l s1 HP E)|exact H].
Qed.

Definition find_hook_in := find_in hk_id find_hook (fun _ => eq_refl) (fun _ _ _ => eq_refl).
Definition find_hook_none := find_none hk_id find_hook (fun _ _ _ => eq_refl).
Definition find_hook_some := find_some hk_id find_hook (fun _ => eq_refl) (fun _ _ _ => eq_refl).

Lemma upd_hook_ids : forall f id l, (forall h, hk_id (f h) = hk_id h) -> map hk_id (upd_hook f id l) = map hk_id l.
Proof.
  intros f id l Hf. unfold upd_hook. rewrite map_map. apply map_ext. intros h.
  destruct (N.eqb (hk_id h) id); [apply Hf|reflexivity].
Qed.

Lemma in_upd_hook : forall f id l h', In h' (upd_hook f id l) ->
  exists h, In h l /\ h' = (if N.eqb (hk_id h) id then f h else h).
Proof. intros f id l h' H. unfold upd_hook in H. apply in_map_iff in H. destruct H as [h [A B]]. eauto. Qed.

(** the invariant of the hook machinery; [ex] = a hook that has just been swapped out and is about to be closed *)
Record hinv' (ex : option N) (s : state) : Prop := {
  hi_nodup : NoDup (map hk_id (st_hooks s));
  hi_cur : forall id, st_cur s = Some id ->
             exists h, In h (st_hooks s) /\ hk_id h = id /\ hk_closed h = 0%nat /\ hk_err h = [] /\ hk_to h = None;
  hi_ex : forall id, ex = Some id -> st_cur s <> Some id /\
             exists h, In h (st_hooks s) /\ hk_id h = id /\ hk_closed h = 0%nat /\ hk_err h = [] /\ hk_to h = None;
  hi_old : forall h, In h (st_hooks s) -> st_cur s <> Some (hk_id h) -> ex <> Some (hk_id h) ->
             hk_closed h = 1%nat /\ (length (hk_err h) <= 1)%nat /\ hk_to h <> None;
  hi_panic : st_panic s = false;
  hi_cleaned : st_cleaned s = true -> st_perr s <> None;
  hi_pending : st_cleaned s = true -> st_cur s <> None -> st_check s <> [];
  hi_from : forall h, In h (st_hooks s) -> (hk_from h <= length (st_handled s))%nat;
  hi_to : forall h t c, In h (st_hooks s) -> hk_to h = Some (t, c) -> (hk_from h <= t <= length (st_handled s))%nat
}.

Definition hinv := hinv' None.

Lemma hinv_init : forall b, hinv (init b).
Proof.
  intros b. constructor; cbn; try (intros; contradiction); try (intros; discriminate); try constructor; auto.
Qed.

(** closing the swapped-out hook: no panic, and it is now closed exactly once with at most one error *)
Lemma retire_inv : forall send cleanup old s, hinv' (Some old) s -> hinv (retire send cleanup old s).
Proof.
  intros send cleanup old s [Hnd Hcur Hex Hold Hp Hc Hpe Hf Ht].
  destruct (Hex old eq_refl) as [Hne [ho [Hin [Hid [Hc0 [He0 Ht0]]]]]].
  assert (Hfind : find_hook old (st_hooks s) = Some ho) by (apply find_hook_some; auto).
  unfold retire. rewrite Hfind, Hc0. cbn [Nat.eqb negb]. rewrite orb_false_r.
  constructor; cbn; auto.
  - rewrite upd_hook_ids; [exact Hnd|]. intros h. destruct send; reflexivity.
  - intros id Hid'. destruct (Hcur id Hid') as [h [A [B [C [D E]]]]].
    exists h. split; [|auto]. unfold upd_hook. apply in_map_iff. exists h. split; [|exact A].
    destruct (N.eqb (hk_id h) old) eqn:Eq; [|reflexivity]. apply N.eqb_eq in Eq. congruence.
  - intros id Hx. discriminate.
  - intros h' Hin' Hnc _. apply in_upd_hook in Hin'. destruct Hin' as [h [A B]].
    destruct (N.eqb (hk_id h) old) eqn:Eq.
    + apply N.eqb_eq in Eq.
      assert (h = ho) by (apply (keyed_unique hk_id (st_hooks s)); congruence).
      subst h h'. destruct send; cbn; rewrite Hc0, He0; repeat split; auto; discriminate.
    + subst h'. apply Hold; auto. apply N.eqb_neq in Eq. congruence.
  - intros h' Hin'. apply in_upd_hook in Hin'. destruct Hin' as [h [A B]].
    destruct (N.eqb (hk_id h) old); subst h'; [destruct send; cbn|]; auto.
  - intros h' t c Hin' Hto. apply in_upd_hook in Hin'. destruct Hin' as [h [A B]].
    destruct (N.eqb (hk_id h) old); subst h'.
    + assert (t = length (st_handled s)) by (destruct send; cbn in Hto; congruence). subst t.
      specialize (Hf h A). destruct send; cbn; lia.
    + eapply Ht; eauto.
Qed.

(** every swap closes what was installed before, if anything was *)
Lemma retire_cur : forall send cleanup s s1,
  hinv' (st_cur s) s1 -> hinv (match st_cur s with Some old => retire send cleanup old s1 | None => s1 end).
Proof. intros send cleanup s s1 H. destruct (st_cur s); [apply retire_inv|]; exact H. Qed.

(** steps that leave the hooks and the installed one alone; SetPubSubHooks callers may leave their check only
    while no error is latched *)
Lemma hinv_frame : forall ex s s',
  st_hooks s' = st_hooks s -> st_cur s' = st_cur s -> st_panic s' = st_panic s -> st_cleaned s' = st_cleaned s ->
  (st_perr s <> None -> st_perr s' <> None) -> (st_check s' = st_check s \/ st_perr s = None) ->
  (length (st_handled s) <= length (st_handled s'))%nat ->
  hinv' ex s -> hinv' ex s'.
Proof.
  intros ex s s' Hh Hc Hp Hcl Hpe Hck Hlen [Hnd Hcur Hex Hold Hpa Hcle Hpen Hf Ht].
  constructor; rewrite ?Hh, ?Hc, ?Hp, ?Hcl; auto.
  - intros Hx Hy. destruct Hck as [->|Hck]; [auto|]. destruct (Hcle Hx Hck).
  - intros h Hin. specialize (Hf h Hin). lia.
  - intros h t c Hin Hto. specialize (Ht h t c Hin Hto). lia.
Qed.

(** the installed hooks are swapped out for none *)
Lemma hinv_swap_out : forall s s',
  st_hooks s' = st_hooks s -> st_cur s' = None -> st_panic s' = st_panic s ->
  (st_cleaned s' = true -> st_perr s' <> None) -> st_handled s' = st_handled s ->
  hinv s -> hinv' (st_cur s) s'.
Proof.
  intros s s' Hh Hc Hp Hcl Hl [Hnd Hcur _ Hold Hpa _ _ Hf Ht].
  constructor; rewrite ?Hh, ?Hc, ?Hp, ?Hl; auto; try congruence.
  intros id Hid. split; [discriminate|auto].
Qed.

Lemma handle_push_hooks : forall s f,
  st_hooks (handle_push s f) = st_hooks s /\ st_cur (handle_push s f) = st_cur s /\
  st_panic (handle_push s f) = st_panic s /\ st_cleaned (handle_push s f) = st_cleaned s /\
  st_perr (handle_push s f) = st_perr s /\ st_check (handle_push s f) = st_check s /\
  st_handled (handle_push s f) = st_handled s ++ [f] /\ st_oninval (handle_push s f) = st_oninval s.
Proof.
  intros s f. unfold handle_push. destruct f as [k m|k c [r|]|k c|keys]; cbn; repeat split; reflexivity.
Qed.

(** inversion of an enabled step: one case per branch of the model's [match] / [if] that yields a state *)
Ltac step_inv H :=
  match type of H with
  | Some _ = Some _ => injection H as <-
  | None = Some _ => discriminate H
  | (match ?x with _ => _ end) = Some _ => let E := fresh "E" in destruct x eqn:E; step_inv H
  | (if ?x then _ else _) = Some _ => let E := fresh "E" in destruct x eqn:E; step_inv H
  | _ => idtac
  end.

(** the steps of the Receive callers and the reader's sends touch only the receivers and the sends in progress *)
Definition recv_label (l : label) : bool :=
  match l with
  | LSubscribe _ _ _ _ | LCmdErr _ _ | LRecv _ | LEnd _ | LCtx _ | LRemove _ | LSend => true
  | _ => false
  end.

Lemma step_recv : forall pm s l s', recv_label l = true -> step pm s l = Some s' ->
  s' = with_pend (with_recvs s (st_recvs s')) (st_pend s').
Proof.
  intros pm s l s' Hl H. destruct l; try discriminate; cbn [step] in H; step_inv H; try reflexivity.
  destruct s; reflexivity.
Qed.

(** the server's steps only extend the wire and the publish log and change the subscription sets *)
Definition srv_label (l : label) : bool :=
  match l with LSrvSub _ _ _ | LSrvUnsub _ _ | LSrvPublish _ _ _ | LSrvInval _ => true | _ => false end.

Lemma step_srv : forall pm s l s', srv_label l = true -> step pm s l = Some s' ->
  exists ssub frames plog, s' = srv s ssub frames plog.
Proof. intros pm s l s' Hl H. destruct l; try discriminate; injection H as <-; eauto. Qed.

(** SetPubSubHooks touches only the hooks, the installed one, the pending checks and the panic flag *)
Definition hook_label (l : label) : bool :=
  match l with LSetHooks _ _ | LClearHooks | LCheckHooks _ => true | _ => false end.

Definition with_hooks (s : state) (cur : option N) (hs : list hook) (ck : list N) (panic : bool) : state :=
  mkState (st_live s) (st_recvs s) (st_pend s) (st_hist s) (st_perr s) (st_cleaned s) cur hs (st_onmsg s) (st_hinval s)
          (st_oninval s) (st_cb s) ck panic (st_ssub s) (st_wire s) (st_handled s) (st_publog s).

Lemma step_hook : forall pm s l s', hook_label l = true -> step pm s l = Some s' ->
  s' = with_hooks s (st_cur s') (st_hooks s') (st_check s') (st_panic s').
Proof.
  intros pm s l s' Hl H. destruct l; try discriminate; cbn [step] in H; step_inv H; cbn [st_cur st_perr] in *;
    try destruct (st_cur s); try reflexivity; destruct s; reflexivity.
Qed.

(** the reader takes the next frame off the wire, outside Publish and before the clean-up, and handles it *)
Definition with_wire (s : state) (w : list frame) : state :=
  mkState (st_live s) (st_recvs s) (st_pend s) (st_hist s) (st_perr s) (st_cleaned s) (st_cur s) (st_hooks s) (st_onmsg s)
          (st_hinval s) (st_oninval s) (st_cb s) (st_check s) (st_panic s) (st_ssub s) w (st_handled s) (st_publog s).

Lemma step_push : forall pm s s', step pm s LPush = Some s' ->
  exists f w, st_wire s = f :: w /\ st_pend s = [] /\ st_cleaned s = false /\ s' = handle_push (with_wire s w) f.
Proof. intros pm s s' H. cbn [step] in H. step_inv H. exists f, l. unfold with_wire. rewrite E, E1. auto. Qed.

(** the clean-up of _background, once an error is latched and the reader is outside Publish: every receiver still
    registered is removed, both invalidation callbacks get their final nil, then what is installed is closed *)
Definition cleaned_up (s : state) : state :=
  mkState (fun _ => false) (map (fun r => if rc_reg r then removed (length (st_hist s)) RemCleanup r else r) (st_recvs s)) []
          (st_hist s) (st_perr s) true None (st_hooks s) (st_onmsg s)
          (match cur_hook s with
           | Some h => if hk_inval h then st_hinval s ++ [(hk_id h, None)] else st_hinval s
           | None => st_hinval s
           end)
          (st_oninval s) (if st_oninval s then st_cb s ++ [None] else st_cb s) (st_check s) (st_panic s)
          (st_ssub s) (st_wire s) (st_handled s) (st_publog s).

Lemma step_cleanup : forall pm s s', step pm s LCleanup = Some s' ->
  exists e, st_perr s = Some e /\ st_pend s = [] /\ st_cleaned s = false /\
            s' = match st_cur s with Some id => retire (Some e) true id (cleaned_up s) | None => cleaned_up s end.
Proof. intros pm s s' H. cbn [step] in H. step_inv H. exists p. unfold cleaned_up. rewrite E. auto. Qed.

(** a new hook is installed; the one it replaces, if any, is still to be closed *)
Lemma hinv_install : forall s h inval, hinv s -> find_hook h (st_hooks s) = None ->
  hinv' (st_cur s) (with_hooks s (Some h) (st_hooks s ++ [mkHook h inval [] 0 (length (st_handled s)) None])
                               (st_check s ++ [h]) (st_panic s)).
Proof.
  intros s h inval [Hnd Hcur Hex Hold Hpa Hcle Hpen Hf Ht] E. pose proof (find_hook_none _ _ E) as Hfresh.
  constructor; cbn; auto.
  - rewrite map_app. cbn. apply NoDup_snoc; [exact Hnd|]. intros Hin. apply in_map_iff in Hin.
    destruct Hin as [x [A B]]. apply (Hfresh x B). exact A.
  - intros id Hid. injection Hid as <-. eexists. split; [apply in_or_app; right; left; reflexivity|]. cbn. auto.
  - intros id Hid. destruct (Hcur id Hid) as [ho [A [B [C [D F]]]]].
    split. { intros Hx. injection Hx as Hx. apply (Hfresh ho A). congruence. }
    exists ho. split; [apply in_or_app; left; exact A|auto].
  - intros x Hin Hnc Hne. apply in_app_or in Hin. destruct Hin as [Hin|[<-|[]]].
    + apply Hold; [exact Hin|exact Hne|discriminate].
    + cbn in Hnc. congruence.
  - intros _ _. destruct (st_check s); discriminate.
  - intros x Hin. apply in_app_or in Hin. destruct Hin as [Hin|[<-|[]]]; [auto|cbn; lia].
  - intros x t c Hin Hto. apply in_app_or in Hin. destruct Hin as [Hin|[<-|[]]]; [eauto|discriminate].
Qed.

(** ClientOption.OnInvalidations is fixed when the client is made *)
Lemma step_oninval : forall pm s l s', step pm s l = Some s' -> st_oninval s' = st_oninval s.
Proof.
  intros pm s l s' H.
  destruct (recv_label l) eqn:Lr; [rewrite (step_recv _ _ _ _ Lr H); reflexivity|].
  destruct (srv_label l) eqn:Ls; [destruct (step_srv _ _ _ _ Ls H) as [? [? [? ->]]]; reflexivity|].
  destruct (hook_label l) eqn:Lh; [rewrite (step_hook _ _ _ _ Lh H); reflexivity|].
  destruct l; try discriminate; [destruct (step_push pm _ _ H) as [f [w [_ [_ [_ ->]]]]]; apply (handle_push_hooks (with_wire s w))|..];
    cbn [step] in H; step_inv H; try reflexivity; destruct (st_cur s); reflexivity.
Qed.

Lemma hinv_step : forall pm s l s', hinv s -> step pm s l = Some s' -> hinv s'.
Proof.
  intros pm s l s' HI H. unfold hinv in *.
  destruct (recv_label l) eqn:Lr.
  { rewrite (step_recv _ _ _ _ Lr H). eapply hinv_frame; [..|exact HI]; auto. }
  destruct (srv_label l) eqn:Ls.
  { destruct (step_srv _ _ _ _ Ls H) as [ssub [fr [pl ->]]]. eapply hinv_frame; [..|exact HI]; auto. }
  destruct l; try discriminate; cbn [step] in H.
  - (* LPush *) destruct (step_push pm _ _ H) as [f [w [_ [_ [_ ->]]]]].
    destruct (handle_push_hooks (with_wire s w) f) as [A [B [C [D [E' [F [G _]]]]]]].
    eapply hinv_frame; [exact A|exact B|exact C|exact D|rewrite E'; auto|left; exact F| |].
    + rewrite G, app_length. cbn. lia.
    + eapply hinv_frame; [..|exact HI]; auto.
  - (* LSetErr *) step_inv H. eapply hinv_frame; [..|exact HI]; auto. cbn. destruct (st_perr s); intros; congruence.
  - (* LCleanup *) destruct (step_cleanup pm _ _ H) as [e [Ee [_ [_ ->]]]]. apply retire_cur.
    apply hinv_swap_out; auto. cbn. congruence.
  - (* LSetHooks *) step_inv H. apply retire_cur. exact (hinv_install s h inval HI E).
  - (* LClearHooks *) step_inv H. destruct (st_cur s) eqn:Ec; [|exact HI].
    apply retire_inv. rewrite <- Ec. apply hinv_swap_out; auto. apply (hi_cleaned _ _ HI).
  - (* LCheckHooks *) step_inv H; cbn [st_cur st_perr] in *.
    + (* an error is latched: the caller closes what is installed *)
      destruct (st_cur s) eqn:Ec.
      * apply retire_inv. rewrite <- Ec. apply hinv_swap_out; auto. apply (hi_cleaned _ _ HI).
      * rewrite <- Ec. apply hinv_swap_out; auto. apply (hi_cleaned _ _ HI).
    + eapply hinv_frame; [..|exact HI]; auto.
Qed.

Lemma slice_app_old : forall {A} (l : list A) x from t, (t <= length l)%nat -> slice (l ++ [x]) from t = slice l from t.
Proof.
  intros A l x from t Ht. unfold slice.
  destruct (Nat.le_gt_cases from (length l)) as [Hf|Hf].
  - rewrite skipn_app. replace (from - length l)%nat with 0%nat by lia. cbn [skipn].
    rewrite firstn_app. rewrite skipn_length. replace (t - from - (length l - from))%nat with 0%nat by lia.
    cbn [firstn]. apply app_nil_r.
  - replace (t - from)%nat with 0%nat by lia. reflexivity.
Qed.

Lemma slice_app_cur : forall {A} (l : list A) x from, (from <= length l)%nat ->
  slice (l ++ [x]) from (length (l ++ [x])) = slice l from (length l) ++ [x].
Proof.
  intros A l x from Hf. unfold slice. rewrite app_length. cbn [length].
  rewrite skipn_app. replace (from - length l)%nat with 0%nat by lia. cbn [skipn].
  rewrite !firstn_all2; [reflexivity| |].
  - rewrite skipn_length. lia.
  - rewrite app_length, skipn_length. cbn. lia.
Qed.

Lemma invals_app : forall a b, invals (a ++ b) = invals a ++ invals b.
Proof. intros. unfold invals. apply flat_map_app. Qed.

Lemma msgs_of_app : forall a b, msgs_of (a ++ b) = msgs_of a ++ msgs_of b.
Proof. intros. unfold msgs_of. apply flat_map_app. Qed.

(** the invalidation callbacks: the client-wide log and each hook's log are what the handled frames prescribe;
    every logged hook id is a hook; the message history is the messages among the handled frames *)
Record cinv (s : state) : Prop := {
  ci_cb : st_cb s = cb_spec s;
  ci_hooks : forall h, In h (st_hooks s) -> hook_inval_log s (hk_id h) = hook_inval_spec s h;
  ci_ids : forall x, In x (st_hinval s) -> exists h, In h (st_hooks s) /\ hk_id h = fst x;
  ci_hist : st_hist s = msgs_of (st_handled s)
}.

Lemma cinv_init : forall b, cinv (init b).
Proof. intros b. constructor; cbn; auto; try (intros; contradiction). unfold cb_spec. cbn. destruct b; reflexivity. Qed.

(** steps that touch neither the callbacks nor the handled frames *)
Lemma cinv_frame : forall s s',
  st_cb s' = st_cb s -> st_oninval s' = st_oninval s -> st_handled s' = st_handled s -> st_cleaned s' = st_cleaned s ->
  st_hinval s' = st_hinval s -> st_hooks s' = st_hooks s -> st_hist s' = st_hist s ->
  cinv s -> cinv s'.
Proof.
  intros s s' A B C D E F G [H1 H2 H3 H4]. constructor; auto.
  - unfold cb_spec. rewrite A, B, C, D. exact H1.
  - intros h Hin. rewrite F in Hin. unfold hook_inval_log, hook_inval_spec. rewrite E, C. apply H2. exact Hin.
  - intros x Hin. rewrite E in Hin. rewrite F. apply H3. exact Hin.
  - rewrite G, C. exact H4.
Qed.

Lemma hook_log_app : forall s id x,
  map snd (filter (fun y : N * option (list bytes) => N.eqb (fst y) id) (st_hinval s ++ [x])) =
  hook_inval_log s id ++ (if N.eqb (fst x) id then [snd x] else []).
Proof.
  intros s id x. unfold hook_inval_log. rewrite filter_app, map_app. cbn. destruct (N.eqb (fst x) id); reflexivity.
Qed.

Lemma spec_handled_app : forall s s' h f,
  st_handled s' = st_handled s ++ [f] ->
  (hk_from h <= length (st_handled s))%nat ->
  (forall t c, hk_to h = Some (t, c) -> (t <= length (st_handled s))%nat) ->
  hook_inval_spec s' h =
    hook_inval_spec s h ++
    (if hk_inval h then match hk_to h with None => invals [f] | Some _ => [] end else []).
Proof.
  intros s s' h f Hh Hf Ht. unfold hook_inval_spec. rewrite Hh. destruct (hk_inval h); [|reflexivity].
  destruct (hk_to h) as [[t c]|].
  - rewrite slice_app_old by (eapply Ht; eauto). rewrite app_nil_r. reflexivity.
  - rewrite slice_app_cur by exact Hf. rewrite invals_app. reflexivity.
Qed.

Lemma cur_hook_spec : forall s id, hinv s -> st_cur s = Some id ->
  exists h, cur_hook s = Some h /\ In h (st_hooks s) /\ hk_id h = id /\ hk_to h = None.
Proof.
  intros s id HI Hc. destruct (hi_cur _ _ HI id Hc) as [h [A [B [_ [_ D]]]]].
  exists h. unfold cur_hook. rewrite Hc. rewrite (find_hook_some id _ h (hi_nodup _ _ HI) A B). auto.
Qed.

Lemma cinv_push : forall s f, hinv s -> cinv s -> st_cleaned s = false -> cinv (handle_push s f).
Proof.
  intros s f HI [H1 H2 H3 H4] Hcl.
  destruct (handle_push_hooks s f) as [A [B [C [D [E [F [G Ho]]]]]]].
  assert (Hspec : forall h, In h (st_hooks s) ->
            hook_inval_spec (handle_push s f) h =
            hook_inval_spec s h ++ (if hk_inval h then match hk_to h with None => invals [f] | Some _ => [] end else [])).
  { intros h Hin. apply spec_handled_app; [exact G|eapply hi_from; eauto|].
    intros t c Hto. destruct (hi_to _ _ HI h t c Hin Hto). lia. }
  constructor; auto.
  - (* option-level callback *)
    unfold cb_spec. rewrite Ho, G, D, Hcl, invals_app, !app_nil_r.
    unfold cb_spec in H1. rewrite Hcl, app_nil_r in H1.
    unfold handle_push. destruct f as [k m|k c [r|]|k c|keys]; cbn; rewrite ?H1; destruct (st_oninval s); cbn; rewrite ?app_nil_r; reflexivity.
  - (* hook callbacks *)
    intros h Hin. rewrite A in Hin. rewrite (Hspec h Hin), <- (H2 h Hin).
    unfold handle_push. destruct f as [k m|k c [r|]|k c|keys]; cbn [invals flat_map app];
      try (unfold hook_inval_log; cbn; destruct (hk_inval h); [destruct (hk_to h)|]; rewrite app_nil_r; reflexivity).
    (* an invalidation *)
    unfold hook_inval_log at 1. cbn [st_hinval].
    destruct (st_cur s) as [cid|] eqn:Ec.
    + destruct (cur_hook_spec s cid HI Ec) as [hc [Hch [Hcin [Hcid Hcto]]]].
      unfold cur_hook in *. cbn [st_cur st_hooks]. rewrite Ec in *. rewrite Hch.
      destruct (N.eq_dec (hk_id h) cid) as [Heq|Hne].
      * assert (h = hc) by (apply (keyed_unique hk_id (st_hooks s)); [apply (hi_nodup _ _ HI)|..]; congruence).
        subst hc. rewrite Hcto. destruct (hk_inval h) eqn:Ei.
        -- rewrite hook_log_app. cbn. rewrite Hcid, N.eqb_refl. reflexivity.
        -- rewrite app_nil_r. reflexivity.
      * assert (Hto : hk_to h <> None).
        { destruct (hi_old _ _ HI h Hin) as [_ [_ X]]; [congruence|discriminate|exact X]. }
        destruct (hk_to h) as [[t c]|] eqn:Et; [|congruence].
        replace (if hk_inval h then [] else []) with (@nil (option (list bytes))) by (destruct (hk_inval h); reflexivity).
        rewrite app_nil_r. destruct (hk_inval hc).
        -- rewrite hook_log_app. cbn. destruct (N.eqb (hk_id hc) (hk_id h)) eqn:Eq; [|apply app_nil_r].
           apply N.eqb_eq in Eq. congruence.
        -- reflexivity.
    + unfold cur_hook. cbn [st_cur]. rewrite ?Ec.
      assert (Hto : hk_to h <> None).
      { destruct (hi_old _ _ HI h Hin) as [_ [_ X]]; [congruence|discriminate|exact X]. }
      destruct (hk_to h) as [[t c]|] eqn:Et; [|congruence].
      replace (if hk_inval h then [] else []) with (@nil (option (list bytes))) by (destruct (hk_inval h); reflexivity).
      rewrite app_nil_r. reflexivity.
  - (* ids *)
    intros x Hin. rewrite A.
    unfold handle_push in Hin. destruct f as [k m|k c [r|]|k c|keys]; cbn in Hin; try (apply H3; exact Hin).
    unfold cur_hook in Hin. cbn [st_cur st_hooks] in Hin.
    destruct (st_cur s) as [cid|]; [|apply H3; exact Hin].
    destruct (find_hook cid (st_hooks s)) as [hc|] eqn:Ech; [|apply H3; exact Hin].
    destruct (hk_inval hc); [|apply H3; exact Hin].
    apply in_app_or in Hin. destruct Hin as [Hin|[<-|[]]]; [apply H3; exact Hin|].
    apply find_hook_in in Ech. exists hc. cbn. tauto.
  - (* hist *)
    rewrite G, msgs_of_app, <- H4.
    unfold handle_push. destruct f as [k m|k c [r|]|k c|keys]; cbn; rewrite ?app_nil_r; reflexivity.
Qed.

Lemma retire_fields : forall send cl old s,
  st_cb (retire send cl old s) = st_cb s /\ st_oninval (retire send cl old s) = st_oninval s /\
  st_handled (retire send cl old s) = st_handled s /\ st_cleaned (retire send cl old s) = st_cleaned s /\
  st_hinval (retire send cl old s) = st_hinval s /\ st_hist (retire send cl old s) = st_hist s /\
  st_hooks (retire send cl old s) =
    upd_hook (fun h => hook_close (length (st_handled s)) cl (match send with Some e => hook_send e h | None => h end)) old (st_hooks s).
Proof. intros. unfold retire. cbn. repeat split; reflexivity. Qed.

Lemma cinv_retire : forall send (cl : bool) old s ho,
  NoDup (map hk_id (st_hooks s)) -> In ho (st_hooks s) -> hk_id ho = old -> hk_to ho = None ->
  st_cb s = cb_spec s ->
  (forall h, In h (st_hooks s) -> hk_id h <> old -> hook_inval_log s (hk_id h) = hook_inval_spec s h) ->
  hook_inval_log s old =
    (if hk_inval ho then invals (slice (st_handled s) (hk_from ho) (length (st_handled s))) ++ (if cl then [@None (list bytes)] else @nil (option (list bytes))) else @nil (option (list bytes))) ->
  (forall x, In x (st_hinval s) -> exists h, In h (st_hooks s) /\ hk_id h = fst x) ->
  st_hist s = msgs_of (st_handled s) ->
  cinv (retire send cl old s).
Proof.
  intros send cl old s ho Hnd Hin Hid Hto H1 H2 H2' H3 H4.
  destruct (retire_fields send cl old s) as [A [B [C [D [E [F G]]]]]].
  constructor.
  - unfold cb_spec. rewrite A, B, C, D. exact H1.
  - intros h' Hin'. rewrite G in Hin'. apply in_upd_hook in Hin'. destruct Hin' as [h [Hh Heq]].
    unfold hook_inval_log, hook_inval_spec. rewrite E, C.
    destruct (N.eqb (hk_id h) old) eqn:Eq.
    + apply N.eqb_eq in Eq.
      assert (h = ho) by (apply (keyed_unique hk_id (st_hooks s)); congruence).
      subst h h'. replace (hk_id (hook_close _ _ _)) with old by (destruct send; cbn; congruence).
      fold (hook_inval_log s old). rewrite H2'. destruct send; cbn; reflexivity.
    + subst h'. apply N.eqb_neq in Eq. apply (H2 h Hh Eq).
  - intros x Hx. rewrite E in Hx. destruct (H3 x Hx) as [h [Hh Hi]].
    rewrite G. exists (if N.eqb (hk_id h) old then hook_close (length (st_handled s)) cl (match send with Some e => hook_send e h | None => h end) else h).
    split.
    + unfold upd_hook. apply in_map_iff. exists h. split; [reflexivity|exact Hh].
    + destruct (N.eqb (hk_id h) old); [destruct send; cbn; exact Hi|exact Hi].
  - rewrite F, C. exact H4.
Qed.

Lemma cur_log : forall s ho, cinv s -> In ho (st_hooks s) -> hk_to ho = None ->
  hook_inval_log s (hk_id ho) =
    (if hk_inval ho then invals (slice (st_handled s) (hk_from ho) (length (st_handled s))) else []).
Proof.
  intros s ho [_ H2 _ _] Hin Hto. rewrite (H2 ho Hin). unfold hook_inval_spec. rewrite Hto. reflexivity.
Qed.

(** closing a swapped-out hook without a final nil keeps its log equal to what it must be *)
Lemma cinv_retire_keep : forall send old s, hinv' (Some old) s -> cinv s -> cinv (retire send false old s).
Proof.
  intros send old s HI [H1 H2 H3 H4]. destruct (hi_ex _ _ HI old eq_refl) as [_ [ho [Hin [Hid [_ [_ Hto]]]]]].
  apply (cinv_retire send false old s ho); auto. { apply (hi_nodup _ _ HI). }
  rewrite <- Hid, (H2 ho Hin). unfold hook_inval_spec. rewrite Hto, app_nil_r. reflexivity.
Qed.

(** a hook with a fresh id starts with an empty log *)
Lemma cinv_install : forall s h inval cur ck pa, cinv s -> find_hook h (st_hooks s) = None ->
  cinv (with_hooks s cur (st_hooks s ++ [mkHook h inval [] 0 (length (st_handled s)) None]) ck pa).
Proof.
  intros s h inval cur ck pa [H1 H2 H3 H4] E. pose proof (find_hook_none _ _ E) as Hfresh.
  constructor; cbn [with_hooks st_cb st_hooks st_hinval st_hist st_handled]; auto.
  - intros x Hx. unfold hook_inval_log, hook_inval_spec. cbn [with_hooks st_hinval st_handled].
    apply in_app_or in Hx. destruct Hx as [Hx|[<-|[]]]; [apply (H2 x Hx)|]. cbn [hk_id hk_inval hk_to hk_from].
    rewrite (filter_key_none fst).
    + unfold slice. rewrite Nat.sub_diag. destruct inval; reflexivity.
    + intros x Hx Heq. destruct (H3 x Hx) as [h0 [A B]]. apply (Hfresh h0 A). congruence.
  - intros x Hx. destruct (H3 x Hx) as [h0 [A B]]. exists h0. split; [apply in_or_app; left; exact A|exact B].
Qed.

Lemma cinv_step : forall pm s l s', hinv s -> cinv s -> step pm s l = Some s' -> cinv s'.
Proof.
  intros pm s l s' HI HC H.
  destruct (recv_label l) eqn:Lr.
  { rewrite (step_recv _ _ _ _ Lr H). eapply cinv_frame; [..|exact HC]; auto. }
  destruct (srv_label l) eqn:Ls.
  { destruct (step_srv _ _ _ _ Ls H) as [ssub [fr [pl ->]]]. eapply cinv_frame; [..|exact HC]; auto. }
  destruct l; try discriminate; cbn [step] in H.
  - (* LPush *) destruct (step_push pm _ _ H) as [f [w [_ [_ [Ecl ->]]]]]. apply cinv_push; auto.
    + eapply hinv_frame; [..|exact HI]; auto.
    + eapply cinv_frame; [..|exact HC]; auto.
  - (* LSetErr *) step_inv H; (eapply cinv_frame; [..|exact HC]; auto).
  - (* LCleanup *) destruct (step_cleanup pm _ _ H) as [e [Ee [_ [E1 ->]]]]. pose proof HC as [H1 H2 H3 H4].
    unfold cleaned_up. destruct (st_cur s) as [old|] eqn:Ec.
    + destruct (cur_hook_spec s old HI Ec) as [ho [Hch [Hin [Hid Hto]]]]. rewrite Hch.
      eapply (cinv_retire _ _ old _ ho); cbn; auto.
      * apply (hi_nodup _ _ HI).
      * unfold cb_spec in *. cbn. rewrite E1 in H1. rewrite H1. destruct (st_oninval s); rewrite ?app_nil_r; reflexivity.
      * intros h Hh Hne.
        assert (Es : forall s0, st_handled s0 = st_handled s -> hook_inval_spec s0 h = hook_inval_spec s h)
          by (intros s0 E0'; unfold hook_inval_spec; rewrite E0'; reflexivity).
        rewrite Es by reflexivity. rewrite <- (H2 h Hh). unfold hook_inval_log. cbn [st_hinval].
        destruct (hk_inval ho); [|reflexivity]. rewrite filter_app, map_app. cbn.
        destruct (N.eqb (hk_id ho) (hk_id h)) eqn:Eq; [apply N.eqb_eq in Eq; congruence|apply app_nil_r].
      * unfold hook_inval_log. cbn. pose proof (cur_log s ho HC Hin Hto) as L. rewrite Hid in L.
        destruct (hk_inval ho).
        -- rewrite filter_app, map_app. cbn. rewrite Hid, N.eqb_refl. cbn. fold (hook_inval_log s old). rewrite L. reflexivity.
        -- exact L.
      * intros x Hx. destruct (hk_inval ho); [|apply H3; exact Hx].
        apply in_app_or in Hx. destruct Hx as [Hx|[<-|[]]]; [apply H3; exact Hx|]. exists ho. cbn. auto.
    + unfold cur_hook. rewrite Ec. constructor; cbn; auto.
      unfold cb_spec in *. cbn. rewrite E1 in H1. rewrite H1. destruct (st_oninval s); rewrite ?app_nil_r; reflexivity.
  - (* LSetHooks *) step_inv H. pose proof (cinv_install s h inval (Some h) (st_check s ++ [h]) (st_panic s) HC E) as C1.
    destruct (st_cur s) eqn:Ec; [|exact C1].
    apply cinv_retire_keep; [|exact C1]. rewrite <- Ec. exact (hinv_install s h inval HI E).
  - (* LClearHooks *) step_inv H. destruct (st_cur s) eqn:Ec; [|exact HC].
    apply cinv_retire_keep; [|eapply cinv_frame; [..|exact HC]; auto].
    rewrite <- Ec. apply hinv_swap_out; auto. apply (hi_cleaned _ _ HI).
  - (* LCheckHooks *) step_inv H; cbn [st_cur st_perr] in *; try destruct (st_cur s) eqn:Ec;
      try solve [eapply cinv_frame; [..|exact HC]; auto].
    apply cinv_retire_keep; [|eapply cinv_frame; [..|exact HC]; auto].
    rewrite <- Ec. apply hinv_swap_out; auto. cbn. intros _. congruence.
Qed.

Lemma option_eq_dec_N : forall a b : option N, {a = b} + {a <> b}.
Proof. decide equality. apply N.eq_dec. Qed.

Theorem hook_reach : forall pm b ls s, run pm (init b) ls = Some s -> hinv s /\ cinv s.
Proof.
  intros pm b ls s H.
  apply (run_invariant pm (fun s => hinv s /\ cinv s)) with (ls := ls) (s := init b); auto.
  - intros s0 l s1 [A B] Hs. split; [eapply hinv_step; eauto|eapply cinv_step; eauto].
  - split; [apply hinv_init|apply cinv_init].
Qed.

