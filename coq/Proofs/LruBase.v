(** List / lookup lemmas for the lru model (Model/Lru.v), its structural invariant [inv], the moves that only
    permute the list ([same_frame]), the eviction walk, and [inv] through the pieces a step is made of. *)
From Coq Require Import List NArith ZArith Bool Lia Permutation.
Require Import RV.Model.Base RV.Model.Lru RV.Proofs.BytesProofs.
Require Export RV.Proofs.ListFacts.
Import ListNotations.
Open Scope Z_scope.

Lemma list_eqb_eq {A : Type} (eqb : A -> A -> bool) :
  (forall a b, eqb a b = true <-> a = b) ->
  forall l1 l2, list_eqb eqb l1 l2 = true <-> l1 = l2.
Proof.
  intros Heq l1. induction l1 as [|x r IH]; intros [|y r2]; cbn [list_eqb]; split; intro H; try reflexivity; try discriminate.
  - apply andb_true_iff in H. destruct H as [H1 H2]. apply Heq in H1. apply IH in H2. subst. reflexivity.
  - injection H as -> ->. apply andb_true_iff. split; [apply Heq; reflexivity|apply IH; reflexivity].
Qed.

(** the test every (key, cmd) match of the two stores is an instance of *)
Lemma kc_eqb_iff k c k' c' : bytes_eqb k k' && bytes_eqb c c' = true <-> (k', c') = (k, c).
Proof.
  rewrite andb_true_iff, !bytes_eqb_eq. split.
  - intros [-> ->]. reflexivity.
  - intro H. injection H as <- <-. split; reflexivity.
Qed.

Definition kc (e : entry) : bytes * bytes := (ekey e, ecmd e).

Lemma ematch_iff k c e : ematch k c e = true <-> kc e = (k, c).
Proof. apply kc_eqb_iff. Qed.

Lemma ematch_false k c e : ematch k c e = false <-> kc e <> (k, c).
Proof. rewrite <- ematch_iff. symmetry. apply not_true_iff_false. Qed.

Lemma has_id_iff id e : has_id id e = true <-> eid e = id.
Proof. unfold has_id. apply N.eqb_eq. Qed.

Lemma m_xat_set v x : m_xat (set_xat v x) = x.
Proof. destruct v. reflexivity. Qed.

Lemma set_xat_self v : v = set_xat v (m_xat v).
Proof. destruct v. reflexivity. Qed.

Lemma min_xat_spec cx sx : 0 <= sx -> min_xat cx sx = if sx =? 0 then cx else Z.min cx sx.
Proof.
  intro H. unfold min_xat. destruct (sx =? 0) eqn:E0.
  - rewrite orb_true_r. reflexivity.
  - rewrite orb_false_r. destruct (cx <? sx) eqn:E; [apply Z.ltb_lt in E|apply Z.ltb_ge in E]; lia.
Qed.

Lemma trunc56_id x : 0 <= x < two56 -> trunc56 x = x.
Proof. intro H. unfold trunc56. apply Z.mod_small. exact H. Qed.

Lemma trunc56_range x : 0 <= trunc56 x < two56.
Proof. unfold trunc56. apply Z.mod_pos_bound. reflexivity. Qed.

Lemma sum_cons e l : sum_sizes (e :: l) = esize e + sum_sizes l.
Proof. reflexivity. Qed.

Lemma sum_nil : sum_sizes [] = 0.
Proof. reflexivity. Qed.

Lemma sum_app l1 l2 : sum_sizes (l1 ++ l2) = sum_sizes l1 + sum_sizes l2.
Proof. induction l1 as [|e r IH]; cbn [app]; rewrite ?sum_cons, ?sum_nil; lia. Qed.

Lemma sum_filter_split (p : entry -> bool) l :
  sum_sizes l = sum_sizes (filter p l) + sum_sizes (filter (fun e => negb (p e)) l).
Proof.
  induction l as [|e r IH]; [reflexivity|].
  cbn [filter]. destruct (p e); cbn [negb]; rewrite !sum_cons; lia.
Qed.

Lemma sum_perm l1 l2 : Permutation l1 l2 -> sum_sizes l1 = sum_sizes l2.
Proof. induction 1; rewrite ?sum_cons in *; lia. Qed.

Lemma sum_zero l : (forall e, In e l -> esize e = 0) -> sum_sizes l = 0.
Proof.
  induction l as [|e r IH]; intro H; [reflexivity|].
  rewrite sum_cons, (H e (or_introl eq_refl)), IH; [reflexivity|]. intros x Hx. apply H. right. exact Hx.
Qed.

Lemma filter_none {A : Type} (p : A -> bool) l : (forall x, In x l -> p x = false) -> filter p l = [].
Proof.
  induction l as [|x r IH]; intro H; [reflexivity|].
  cbn [filter]. rewrite (H x (or_introl eq_refl)). apply IH. intros y Hy. apply H. right. exact Hy.
Qed.

Lemma filter_all {A : Type} (p : A -> bool) l : (forall x, In x l -> p x = true) -> filter p l = l.
Proof.
  induction l as [|x r IH]; intro H; [reflexivity|].
  cbn [filter]. rewrite (H x (or_introl eq_refl)). f_equal. apply IH. intros y Hy. apply H. right. exact Hy.
Qed.

Lemma NoDup_map_inj {A B : Type} (f : A -> B) l x y : NoDup (map f l) -> In x l -> In y l -> f x = f y -> x = y.
Proof.
  induction l as [|z r IH]; intros Hnd Hx Hy E; [contradiction|].
  cbn [map] in Hnd. inversion Hnd as [|? ? Hz Hr]; subst.
  destruct Hx as [->|Hx], Hy as [->|Hy]; [reflexivity| | |apply IH; assumption];
    exfalso; apply Hz; [rewrite E|rewrite <- E]; apply in_map; assumption.
Qed.

Lemma filter_unique {A B : Type} (f : A -> B) (p : A -> bool) l e :
  NoDup (map f l) -> (forall x y, p x = true -> p y = true -> f x = f y) ->
  In e l -> p e = true -> filter p l = [e].
Proof.
  intros Hnd Hp. induction l as [|x r IH]; intros Hin He; [contradiction|].
  pose proof (NoDup_map_inj f (x :: r) x) as Hinj.
  cbn [map] in Hnd. inversion Hnd as [|? ? Hx Hr]; subst.
  cbn [filter]. destruct (p x) eqn:Epx.
  - assert (x = e) by (apply Hinj; [constructor; assumption|left; reflexivity|exact Hin|apply Hp; assumption]).
    subst x. f_equal. apply filter_none. intros y Hy.
    destruct (p y) eqn:Epy; [|reflexivity]. exfalso. apply Hx. rewrite (Hp e y He Epy). apply in_map. exact Hy.
  - destruct Hin as [->|Hin]; [congruence|]. apply IH; assumption.
Qed.

Lemma filter_split_perm {A : Type} (p : A -> bool) l :
  Permutation (filter (fun x => negb (p x)) l ++ filter p l) l.
Proof.
  induction l as [|x r IH]; [constructor|].
  cbn [filter]. destruct (p x); cbn [negb app].
  - apply Permutation_sym. apply Permutation_cons_app. apply Permutation_sym. exact IH.
  - constructor. exact IH.
Qed.

Lemma find_some_in {A : Type} (p : A -> bool) l e : find p l = Some e -> In e l /\ p e = true.
Proof. apply find_some. Qed.

Lemma find_none_all {A : Type} (p : A -> bool) l : find p l = None -> forall x, In x l -> p x = false.
Proof. intros H x Hx. exact (find_none p l H x Hx). Qed.

Lemma lookup_some k c l e : lookup k c l = Some e -> In e l /\ kc e = (k, c).
Proof. intro H. apply find_some in H. rewrite ematch_iff in H. exact H. Qed.

Lemma lookup_none k c l : lookup k c l = None -> forall e, In e l -> kc e <> (k, c).
Proof. intros H e He. apply ematch_false. exact (find_none _ _ H e He). Qed.

Lemma lookup_unique k c l e :
  NoDup (map kc l) -> In e l -> kc e = (k, c) -> lookup k c l = Some e.
Proof.
  intros Hnd Hin He. destruct (lookup k c l) as [e'|] eqn:El.
  - apply lookup_some in El. f_equal. apply (NoDup_map_inj kc l); [exact Hnd|apply El|exact Hin|]. destruct El. congruence.
  - exfalso. exact (lookup_none k c l El e Hin He).
Qed.

Lemma remove_kc_sum k c l e :
  NoDup (map kc l) -> lookup k c l = Some e -> sum_sizes (remove_kc k c l) = sum_sizes l - esize e.
Proof.
  intros Hnd Hl. apply lookup_some in Hl. destruct Hl as [Hin He].
  unfold remove_kc. rewrite (sum_filter_split (ematch k c) l).
  rewrite (filter_unique kc (ematch k c) l e Hnd); [rewrite sum_cons, sum_nil; lia| |exact Hin|apply ematch_iff; exact He].
  intros x y Hx Hy. apply ematch_iff in Hx, Hy. congruence.
Qed.

Lemma remove_kc_in k c l x : In x (remove_kc k c l) <-> In x l /\ kc x <> (k, c).
Proof. unfold remove_kc. rewrite filter_In, negb_true_iff, ematch_false. tauto. Qed.

Lemma remove_kc_lookup k c l : lookup k c (remove_kc k c l) = None.
Proof.
  destruct (lookup k c (remove_kc k c l)) eqn:E; [|reflexivity].
  apply lookup_some in E. destruct E as [E1 E2]. apply remove_kc_in in E1. tauto.
Qed.

Lemma move_to_back_perm id l : NoDup (map eid l) -> Permutation (move_to_back id l) l.
Proof.
  intro Hnd. unfold move_to_back. destruct (find (has_id id) l) as [e|] eqn:E; [|apply Permutation_refl].
  apply find_some in E. destruct E as [Hin He].
  rewrite <- (filter_unique eid (has_id id) l e Hnd); [apply filter_split_perm| |exact Hin|exact He].
  intros x y Hx Hy. apply has_id_iff in Hx, Hy. congruence.
Qed.

Lemma NoDup_map_perm {A B : Type} (f : A -> B) l1 l2 : Permutation l1 l2 -> NoDup (map f l1) -> NoDup (map f l2).
Proof. intros Hp. apply Permutation_NoDup. apply Permutation_map. exact Hp. Qed.

Lemma NoDup_map_app_r {A B : Type} (f : A -> B) l1 l2 : NoDup (map f (l1 ++ l2)) -> NoDup (map f l2).
Proof.
  rewrite map_app. induction (map f l1) as [|x r IH]; cbn [app]; [tauto|].
  intro H. inversion H; subst. apply IH. assumption.
Qed.

Lemma nth_snoc_cases {A : Type} (l : list A) x j y :
  nth_error (l ++ [x]) j = Some y -> ((j < length l)%nat /\ nth_error l j = Some y) \/ (j = length l /\ y = x).
Proof.
  intro H. destruct (Nat.lt_ge_cases j (length l)) as [Hl|Hl].
  - left. split; [exact Hl|]. rewrite nth_error_app1 in H by exact Hl. exact H.
  - right. rewrite nth_error_app2 in H by exact Hl.
    destruct (j - length l)%nat as [|m] eqn:E; [|destruct m; discriminate]. injection H as <-. split; [lia|reflexivity].
Qed.

Lemma nth_snoc_last {A : Type} (l : list A) x : nth_error (l ++ [x]) (length l) = Some x.
Proof. rewrite nth_error_app2, Nat.sub_diag by lia. reflexivity. Qed.

Lemma none_after_snoc {A : Type} (P : A -> Prop) l x u :
  (forall j o, (u < j)%nat -> nth_error l j = Some o -> ~ P o) -> ~ P x ->
  forall j o, (u < j)%nat -> nth_error (l ++ [x]) j = Some o -> ~ P o.
Proof.
  intros H Hx j o Hj Hn. apply nth_snoc_cases in Hn. destruct Hn as [[_ Hn]|[_ ->]]; [exact (H j o Hj Hn)|exact Hx].
Qed.

Lemma none_after_last {A : Type} (P : A -> Prop) l x :
  forall j o, (length l < j)%nat -> nth_error (l ++ [x]) j = Some o -> ~ P o.
Proof.
  intros j o Hj Hn. assert (nth_error (l ++ [x]) j = None); [|congruence]. apply nth_error_None. rewrite app_length. cbn. lia.
Qed.

Record inv (s : state) : Prop := mkInv {
  inv_kc : NoDup (map kc (order s));                                   (* one entry per (key, cmd) *)
  inv_ids : forall e, In e (order s) -> (eid e < next_id s)%N;
  inv_idnd : NoDup (map eid (order s));
  inv_pend0 : forall e, In e (order s) -> pending e = true -> esize e = 0;
  inv_size : closed s = false -> size s = sum_sizes (order s);
  inv_closed : closed s = true -> order s = []
}.

Lemma inv_init : inv init.
Proof. constructor; cbn; try constructor; intros; try contradiction; try discriminate; reflexivity. Qed.

Lemma unique_entry s e e' : inv s -> In e (order s) -> In e' (order s) -> kc e' = kc e -> e' = e.
Proof. intros Hi He He'. apply (NoDup_map_inj kc (order s)); [apply (inv_kc s Hi)|exact He'|exact He]. Qed.

Lemma inv_lookup s e : inv s -> In e (order s) -> lookup (ekey e) (ecmd e) (order s) = Some e.
Proof. intros Hi He. apply lookup_unique; [apply (inv_kc s Hi)|exact He|reflexivity]. Qed.

(** What the read-locked sections, MoveToBack and a slow-path hit do to the store: the list is permuted,
    the hit counters change, nothing else.  [inv] does not look at the counters. *)
Definition same_frame (s s' : state) : Prop :=
  Permutation (order s') (order s) /\ size s' = size s /\ closed s' = closed s /\ next_id s' = next_id s.

Lemma same_frame_refl s : same_frame s s.
Proof. repeat split. apply Permutation_refl. Qed.

Lemma same_frame_trans s1 s2 s3 : same_frame s1 s2 -> same_frame s2 s3 -> same_frame s1 s3.
Proof.
  intros [A1 [B1 [C1 D1]]] [A2 [B2 [C2 D2]]]. split; [eapply Permutation_trans; eassumption|]. repeat split; congruence.
Qed.

Lemma inv_frame s s' : same_frame s s' -> inv s -> inv s'.
Proof.
  intros [Hp [Hs [Hc Hn]]] [I1 I2 I3 I4 I5 I6]. apply Permutation_sym in Hp. constructor.
  - apply (NoDup_map_perm kc (order s)); assumption.
  - intros e He. rewrite Hn. apply I2. eapply Permutation_in; [apply Permutation_sym|]; eassumption.
  - apply (NoDup_map_perm eid (order s)); assumption.
  - intros e He. apply I4. eapply Permutation_in; [apply Permutation_sym|]; eassumption.
  - rewrite Hc, Hs. intro H. rewrite (I5 H). apply sum_perm. exact Hp.
  - rewrite Hc. intro H. rewrite (I6 H) in Hp. apply Permutation_nil. exact Hp.
Qed.

Lemma bump_order s k : order (fst (bump s k)) = order s. Proof. reflexivity. Qed.
Lemma bump_size s k : size (fst (bump s k)) = size s. Proof. reflexivity. Qed.
Lemma bump_closed s k : closed (fst (bump s k)) = closed s. Proof. reflexivity. Qed.
Lemma bump_next s k : next_id (fst (bump s k)) = next_id s. Proof. reflexivity. Qed.

Lemma flight_fast_frame s k c now : same_frame s (fst (flight_fast s k c now)).
Proof.
  unfold flight_fast. destruct (lookup k c (order s)) as [e|]; [destruct (live (eval e) now)|];
    [exact (same_frame_refl s)|apply same_frame_refl..].
Qed.

(** the first pass of Flights answers every item from the list it started on *)
Definition fast_res (l : list entry) (now : Z) (it : fitem) : fres :=
  match lookup (fi_key it) (fi_cmd it) l with
  | Some e => if live (eval e) now then (if pending e then FWait (eid e) else FHit (eval e)) else FMiss
  | None => FMiss
  end.

Lemma flights_fast_spec now items : forall s,
  same_frame s (fst (fst (flights_fast s now items))) /\
  snd (fst (flights_fast s now items)) = map (fast_res (order s) now) items.
Proof.
  induction items as [|[k c t] r IH]; intro s; [split; [apply same_frame_refl|reflexivity]|].
  cbn [flights_fast map]. unfold fast_res at 1. cbn [fi_key fi_cmd].
  destruct (lookup k c (order s)) as [e|]; [destruct (live (eval e) now)|].
  - specialize (IH (fst (bump s k))). unfold bump in *. cbn [fst] in IH.
    destruct (flights_fast (set_hit s k (N.succ (get_hits k (hits s)))) now r) as [[s2 rs] mv]. cbn [fst snd] in *.
    destruct IH as [F ->]. split; [exact F|reflexivity].
  - specialize (IH s). destruct (flights_fast s now r) as [[s2 rs] mv]. cbn [fst snd] in *.
    destruct IH as [F ->]. split; [exact F|reflexivity].
  - specialize (IH s). destruct (flights_fast s now r) as [[s2 rs] mv]. cbn [fst snd] in *.
    destruct IH as [F ->]. split; [exact F|reflexivity].
Qed.

Lemma flights_fast_frame now items s : same_frame s (fst (fst (flights_fast s now items))).
Proof. apply flights_fast_spec. Qed.

Lemma flights_fast_res now items s : snd (fst (flights_fast s now items)) = map (fast_res (order s) now) items.
Proof. apply flights_fast_spec. Qed.

Lemma touch_frame s ids : inv s -> same_frame s (touch s ids).
Proof.
  intro H. unfold touch. destruct (closed s); [apply same_frame_refl|].
  split; [|repeat split]. cbn [set_order order]. pose proof (inv_idnd s H) as Hnd. clear H.
  generalize dependent (order s). induction ids as [|id r IH]; intros l Hnd; [apply Permutation_refl|].
  cbn [fold_left]. pose proof (move_to_back_perm id l Hnd) as Hp.
  eapply Permutation_trans; [apply IH|exact Hp].
  apply (NoDup_map_perm eid l); [apply Permutation_sym; exact Hp|exact Hnd].
Qed.

Lemma inv_push s k c ttl now :
  inv s -> closed s = false -> lookup k c (order s) = None -> inv (fst (push_pending s k c ttl now)).
Proof.
  intros [I1 I2 I3 I4 I5 I6] Hc Hl. unfold push_pending. cbn [fst].
  constructor; cbn [order size closed next_id].
  - rewrite map_app. cbn [map]. apply NoDup_snoc; [exact I1|].
    intro Hin. apply in_map_iff in Hin. destruct Hin as [x [Hx Hin]].
    exact (lookup_none k c _ Hl x Hin Hx).
  - intros e He. apply in_app_or in He. destruct He as [He|[<-|[]]].
    + specialize (I2 e He). lia.
    + cbn. lia.
  - rewrite map_app. cbn [map]. apply NoDup_snoc; [exact I3|].
    intro Hin. apply in_map_iff in Hin. destruct Hin as [x [Hx Hin]].
    specialize (I2 x Hin). cbn in Hx. lia.
  - intros e He Hp. apply in_app_or in He. destruct He as [He|[<-|[]]]; [apply I4; assumption|reflexivity].
  - intro H. rewrite sum_app, (I5 H). cbn. lia.
  - intro H. congruence.
Qed.

Lemma inv_remove_entry s k c e :
  inv s -> closed s = false -> lookup k c (order s) = Some e ->
  inv (mkS (size s - esize e) (remove_kc k c (order s)) (hits s) (closed s) (next_id s)).
Proof.
  intros [I1 I2 I3 I4 I5 I6] Hc Hl. constructor; cbn [order size closed next_id].
  - apply NoDup_map_filter. exact I1.
  - intros x Hx. apply remove_kc_in in Hx. apply I2. apply Hx.
  - apply NoDup_map_filter. exact I3.
  - intros x Hx. apply remove_kc_in in Hx. apply I4. apply Hx.
  - intro H. rewrite (remove_kc_sum k c _ e I1 Hl), (I5 H). reflexivity.
  - intro H. congruence.
Qed.

Lemma inv_slow_one s k c ttl now : inv s -> closed s = false -> inv (fst (slow_one s k c ttl now)).
Proof.
  intros Hi Hc. unfold slow_one. destruct (lookup k c (order s)) as [e|] eqn:El; [destruct (live (eval e) now)|].
  - cbn [bump fst]. refine (inv_frame s _ _ Hi).
    split; [|repeat split]. apply move_to_back_perm. apply (inv_idnd s Hi).
  - apply (inv_push _ k c ttl now (inv_remove_entry s k c e Hi Hc El) Hc (remove_kc_lookup k c (order s))).
  - apply (inv_push s k c ttl now Hi Hc El).
Qed.

(** [evict] walks a prefix [l1] of the list while the size is above the limit, removes exactly the
    completed entries of that prefix, and stops as soon as the size fits (or the list ends) *)
Lemma evict_lru_first max : forall l sz z keep ev,
  evict max sz l = (z, keep, ev) ->
  exists l1 l2, l = l1 ++ l2 /\ ev = filter (fun e => negb (pending e)) l1 /\ keep = filter pending l1 ++ l2 /\
    z = sz - sum_sizes ev /\
    (forall a e b, l1 = a ++ e :: b -> max < sz - sum_sizes (filter (fun e => negb (pending e)) a)) /\
    (z <= max \/ l2 = []).
Proof.
  induction l as [|e r IH]; intros sz z keep ev H; cbn [evict] in H.
  - injection H as <- <- <-. exists [], []. cbn [app filter]. rewrite sum_nil.
    split; [reflexivity|]. split; [reflexivity|]. split; [reflexivity|]. split; [lia|]. split.
    + intros a e b Hab. destruct a; discriminate.
    + right. reflexivity.
  - destruct (max <? sz) eqn:Em.
    + apply Z.ltb_lt in Em. destruct (pending e) eqn:Ep.
      * destruct (evict max sz r) as [[z1 k1] e1] eqn:Er. injection H as <- <- <-.
        destruct (IH _ _ _ _ Er) as [l1 [l2 [A [B [C [D [E F]]]]]]]. exists (e :: l1), l2.
        cbn [app filter]. rewrite Ep. cbn [negb app].
        split; [congruence|]. split; [exact B|]. split; [congruence|]. split; [exact D|]. split; [|exact F].
        intros a x b Hab. destruct a as [|y a]; cbn [app filter] in *; [cbn; lia|].
        injection Hab as <- Hab. rewrite Ep. cbn [negb]. eapply E. exact Hab.
      * destruct (evict max (sz - esize e) r) as [[z1 k1] e1] eqn:Er. injection H as <- <- <-.
        destruct (IH _ _ _ _ Er) as [l1 [l2 [A [B [C [D [E F]]]]]]]. exists (e :: l1), l2.
        cbn [app filter]. rewrite Ep. cbn [negb app].
        split; [congruence|]. split; [congruence|]. split; [exact C|]. split; [rewrite sum_cons; lia|]. split; [|exact F].
        intros a x b Hab. destruct a as [|y a]; cbn [app filter] in *; [cbn; lia|].
        injection Hab as <- Hab. rewrite Ep. cbn [negb]. rewrite sum_cons.
        pose proof (E a x b Hab). lia.
    + injection H as <- <- <-. exists [], (e :: r). cbn [app filter]. rewrite sum_nil.
      split; [reflexivity|]. split; [reflexivity|]. split; [reflexivity|]. split; [lia|]. split.
      * intros a x b Hab. destruct a; discriminate.
      * left. apply Z.ltb_ge in Em. exact Em.
Qed.

Lemma evict_spec max l sz z keep ev :
  evict max sz l = (z, keep, ev) ->
  z = sz - sum_sizes ev /\
  Permutation (ev ++ keep) l /\
  (forall e, In e ev -> pending e = false) /\
  (z <= max \/ forall e, In e keep -> pending e = true).
Proof.
  intro H. destruct (evict_lru_first max l sz z keep ev H) as [l1 [l2 [-> [-> [-> [A [_ D]]]]]]].
  split; [exact A|]. split; [|split].
  - rewrite app_assoc. apply Permutation_app_tail. apply filter_split_perm.
  - intros e He. apply filter_In in He. apply negb_true_iff, He.
  - destruct D as [D| ->]; [left; exact D|right]. rewrite app_nil_r. intros e He. apply filter_In in He. apply He.
Qed.

(** the store after the walk of Update *)
Definition after_evict (g : cfg) (s1 : state) : state :=
  let '(z, keep, _) := evict (cmax g) (size s1) (order s1) in
  mkS z keep (gc_hits keep (hits s1)) (closed s1) (next_id s1).

Lemma after_evict_spec g s1 :
  (forall e, In e (order (after_evict g s1)) -> In e (order s1)) /\
  (forall e, In e (order s1) -> In e (order (after_evict g s1)) \/ pending e = false) /\
  (inv s1 -> inv (after_evict g s1) /\
             (closed s1 = false -> 0 <= cmax g -> size (after_evict g s1) <= cmax g)).
Proof.
  unfold after_evict. destruct (evict (cmax g) (size s1) (order s1)) as [[z keep] ev] eqn:E. cbn [order size closed].
  destruct (evict_spec _ _ _ _ _ _ E) as [A [B [C D]]].
  assert (Hsub : forall e, In e keep -> In e (order s1)).
  { intros e He. eapply Permutation_in; [exact B|]. apply in_or_app. right. exact He. }
  split; [exact Hsub|]. split.
  - intros e He. apply (Permutation_in _ (Permutation_sym B)) in He. apply in_app_or in He.
    destruct He as [He|He]; [right; apply C; exact He|left; exact He].
  - intros [I1 I2 I3 I4 I5 I6]. apply Permutation_sym in B. split.
    + constructor; cbn [order size closed next_id].
      * apply (NoDup_map_app_r kc ev). apply (NoDup_map_perm kc (order s1)); assumption.
      * intros x Hx. apply I2, Hsub, Hx.
      * apply (NoDup_map_app_r eid ev). apply (NoDup_map_perm eid (order s1)); assumption.
      * intros x Hx. apply I4, Hsub, Hx.
      * intro H. rewrite A, (I5 H), (sum_perm _ _ B), sum_app. lia.
      * intro H. rewrite (I6 H) in E. cbn in E. injection E as _ <- _. reflexivity.
    + intros Hc Hmax. destruct D as [D|D]; [exact D|].
      rewrite A, (I5 Hc), (sum_perm _ _ B), sum_app.
      rewrite (sum_zero keep); [lia|]. intros e He. apply I4; [apply Hsub|apply D]; exact He.
Qed.

Definition wf_msg (v : msg) : Prop := m_typ v <> 0%N.

Lemma wf_msg_done v x : wf_msg v -> is_pending_msg (set_xat v x) = false.
Proof. destruct v. apply N.eqb_neq. Qed.

Lemma upd_kc_map k c f l {B : Type} (h : entry -> B) : (forall e, h (f e) = h e) -> map h (upd_kc k c f l) = map h l.
Proof.
  intro Hf. unfold upd_kc. rewrite map_map. apply map_ext. intro e. destruct (ematch k c e); [apply Hf|reflexivity].
Qed.

Lemma upd_kc_in k c f l x :
  In x (upd_kc k c f l) <-> exists e, In e l /\ ((kc e = (k, c) /\ x = f e) \/ (kc e <> (k, c) /\ x = e)).
Proof.
  unfold upd_kc. rewrite in_map_iff. split; intros [e [A B]]; exists e.
  - split; [exact B|]. destruct (ematch k c e) eqn:Em; [left; apply ematch_iff in Em|right; apply ematch_false in Em]; auto.
  - split; [|exact A]. destruct B as [[B ->]|[B ->]]; [apply ematch_iff in B|apply ematch_false in B]; rewrite B; reflexivity.
Qed.

Lemma upd_kc_sum k c f l e :
  NoDup (map kc l) -> lookup k c l = Some e -> sum_sizes (upd_kc k c f l) = sum_sizes l - esize e + esize (f e).
Proof.
  intros Hnd Hl. induction l as [|x r IH]; [discriminate|].
  pose proof (NoDup_map_inj kc (x :: r) x) as Hinj.
  cbn [map] in Hnd. inversion Hnd as [|? ? Hx Hr]; subst.
  unfold lookup in Hl. cbn [find] in Hl. unfold upd_kc. cbn [map]. fold (upd_kc k c f r). rewrite !sum_cons.
  destruct (ematch k c x) eqn:Em.
  - injection Hl as <-.
    assert (Hr' : upd_kc k c f r = r); [|rewrite Hr'; lia].
    unfold upd_kc. rewrite <- (map_id r) at 2. apply map_ext_in. intros y Hy.
    destruct (ematch k c y) eqn:Ey; [|reflexivity]. exfalso. apply Hx.
    apply ematch_iff in Em, Ey. rewrite Em, <- Ey. apply in_map. exact Hy.
  - rewrite (IH Hr Hl). lia.
Qed.

Lemma inv_cancel s k c : inv s -> inv (fst (cancel s k c)).
Proof.
  intro Hi. unfold cancel. destruct (lookup k c (order s)) as [e|] eqn:El; [|exact Hi].
  destruct (pending e) eqn:Ep; [|exact Hi]. cbn [fst].
  destruct (closed s) eqn:Hc.
  - rewrite (inv_closed s Hi Hc) in El. discriminate.
  - pose proof (inv_remove_entry s k c e Hi Hc El) as H.
    apply lookup_some in El. rewrite (inv_pend0 s Hi e (proj1 El) Ep), Z.sub_0_r in H.
    refine (inv_frame _ _ _ H). split; [apply Permutation_refl|]. repeat split. symmetry. exact Hc.
Qed.

Lemma inv_purge_if p s : inv s -> inv (purge_if p s).
Proof.
  intros [I1 I2 I3 I4 I5 I6]. unfold purge_if. constructor; cbn [order size closed next_id].
  - apply NoDup_map_filter. exact I1.
  - intros x Hx. apply filter_In in Hx. apply I2. apply Hx.
  - apply NoDup_map_filter. exact I3.
  - intros x Hx. apply filter_In in Hx. apply I4. apply Hx.
  - intro H. rewrite (I5 H). rewrite (sum_filter_split (fun e => p e && negb (pending e)) (order s)). lia.
  - intro H. rewrite (I6 H). reflexivity.
Qed.

Lemma inv_delete s keys : inv s -> inv (delete s keys).
Proof. intro H. unfold delete. destruct keys; apply inv_purge_if; exact H. Qed.

Lemma inv_close s : inv (fst (close s)).
Proof. constructor; cbn; try constructor; intros; try contradiction; try discriminate; reflexivity. Qed.

Definition wf_op (o : op) : Prop := match o with Update _ _ v => wf_msg v | _ => True end.

Lemma run_app g ops1 ops2 s : run g (ops1 ++ ops2) s = run g ops2 (run g ops1 s).
Proof. unfold run. apply fold_left_app. Qed.

Lemma run_cons g o ops s : run g (o :: ops) s = run g ops (fst (step g s o)).
Proof. reflexivity. Qed.
