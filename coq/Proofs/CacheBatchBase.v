(** List-level lemmas for the batched cache reads: boolean equalities, [upd], lists laid out in blocks of
    equal length (what the stride walks index into), the scan-and-fill walk. *)
From Coq Require Import String Ascii.
From Coq Require Import List Arith NArith ZArith Bool Lia.
Require Import RV.Model.Base RV.Model.CacheBatch RV.Proofs.BytesProofs.
Import ListNotations.
Open Scope nat_scope.

Lemma bytes_eqb_neq a b : bytes_eqb a b = false <-> a <> b.
Proof. apply BytesProofs.bytes_eqb_neq. Qed.

Lemma ck_eqb_eq a b : ck_eqb a b = true <-> a = b.
Proof.
  destruct a as [a1 a2], b as [b1 b2]. unfold ck_eqb. cbn [fst snd]. rewrite andb_true_iff, !bytes_eqb_eq.
  split; [intros [-> ->]; reflexivity|intro H; inversion H; auto].
Qed.

Lemma ck_eqb_refl a : ck_eqb a a = true.
Proof. now apply ck_eqb_eq. Qed.

Lemma ck_mem_In x l : ck_mem x l = true <-> In x l.
Proof.
  induction l as [|y l IH]; cbn [ck_mem In]; [split; [discriminate|tauto]|].
  rewrite orb_true_iff, ck_eqb_eq, IH. split; intros [H|H]; auto.
Qed.

Lemma ck_mem_app x l1 l2 : ck_mem x (l1 ++ l2) = ck_mem x l1 || ck_mem x l2.
Proof. induction l1 as [|y l1 IH]; cbn [ck_mem app]; [reflexivity|]. now rewrite IH, orb_assoc. Qed.

Lemma assoc_ck_app {B} x (l1 l2 : list ((key * bytes) * B)) :
  assoc_ck x (l1 ++ l2) = match assoc_ck x l1 with Some b => Some b | None => assoc_ck x l2 end.
Proof.
  induction l1 as [|[y b] l1 IH]; cbn [app assoc_ck]; [reflexivity|].
  destruct (ck_eqb x y); [reflexivity|exact IH].
Qed.

Lemma snoc_app {A} (l : list A) a m : (l ++ [a]) ++ m = l ++ a :: m.
Proof. now rewrite <- app_assoc. Qed.

Lemma flat_map_map {A B C} (f : B -> list C) (g : A -> B) l :
  flat_map f (map g l) = flat_map (fun x => f (g x)) l.
Proof. induction l as [|x l IH]; cbn; [reflexivity|now rewrite IH]. Qed.

Lemma match_nonempty {A B} (l : list A) (p x : B) :
  l <> [] -> match l with [] => p | _ :: _ => x end = x.
Proof. destruct l; [contradiction|reflexivity]. Qed.

Lemma Forall2_imp {A B} (P Q : A -> B -> Prop) l1 l2 :
  (forall a b, P a b -> Q a b) -> Forall2 P l1 l2 -> Forall2 Q l1 l2.
Proof. intros H; induction 1; constructor; auto. Qed.

Lemma Forall2_len {A B} (R : A -> B -> Prop) l1 l2 : Forall2 R l1 l2 -> length l1 = length l2.
Proof. induction 1; cbn; auto. Qed.

(** [l1] related to the images of [l2] under [f], read from the side of [l2] (through [g]) *)
Lemma Forall2_of_map_r {A B C D} (R : B -> C -> Prop) (Q : D -> B -> Prop) (f : A -> C) (g : A -> D) l1 l2 :
  Forall2 R l1 (map f l2) -> (forall a b, In a l2 -> R b (f a) -> Q (g a) b) -> Forall2 Q (map g l2) l1.
Proof.
  revert l1; induction l2 as [|a l2 IH]; intros l1 H HQ; inversion H; subst; constructor; auto using in_eq, in_cons.
Qed.

Lemma map_snd_combine {A B} (l1 : list A) (l2 : list B) : length l1 = length l2 -> map snd (combine l1 l2) = l2.
Proof. revert l2; induction l1; intros [|] H; try discriminate; cbn; [reflexivity|]. f_equal. auto. Qed.

Lemma repeat_n_S {A} (x : A) n : repeat_n x (S n) = x :: repeat_n x n.
Proof. reflexivity. Qed.

Lemma upd_length {A} i (x : A) l : length (upd i x l) = length l.
Proof. revert i; induction l as [|a l IH]; intros [|i]; cbn; auto. Qed.

Lemma upd_app_here {A} (pre : list A) x y t : upd (length pre) x (pre ++ y :: t) = pre ++ x :: t.
Proof. induction pre as [|a pre IH]; cbn; [reflexivity|now rewrite IH]. Qed.

Lemma upd_app_r {A} (pre : list A) i x t : upd (length pre + i) x (pre ++ t) = pre ++ upd i x t.
Proof. induction pre as [|a pre IH]; cbn; [reflexivity|now rewrite IH]. Qed.

Lemma set_nth_app_here {A} (pre : list A) x y t : set_nth (length pre) x (pre ++ y :: t) = Ok (pre ++ x :: t).
Proof.
  unfold set_nth. rewrite app_length. cbn [length].
  destruct (Nat.ltb_spec (length pre) (length pre + S (length t))); [|lia]. now rewrite upd_app_here.
Qed.

Lemma indexed_cons_seq {A} (l : list A) off :
  combine (seq off (length l)) l =
  match l with [] => [] | a :: r => (off, a) :: combine (seq (S off) (length r)) r end.
Proof. destruct l; reflexivity. Qed.

Lemma rnth_app_r pre k t : rnth (length pre + k) (pre ++ t) = rnth k t.
Proof. apply app_nth2_plus. Qed.

(** Blocks: [pre ++ flat_map blk (a :: rest)] read at [length pre + k], for blocks of length [n].
    The replies to a batch of strides are such a list, and every walk of the model over them reads block
    [a] at fixed offsets, then moves on by [n]. *)
Section Blocks.
  Context {A B : Type} (blk : A -> list B) (n : nat).
  Hypothesis blk_length : forall a, length (blk a) = n.

  Lemma nth_block pre a rest k d :
    k < n -> nth (length pre + k) (pre ++ flat_map blk (a :: rest)) d = nth k (blk a) d.
  Proof.
    intro Hk. cbn [flat_map]. rewrite app_nth2_plus. apply app_nth1. now rewrite blk_length.
  Qed.

  Lemma in_block pre a rest k : k < n -> (length pre + k <? length (pre ++ flat_map blk (a :: rest))) = true.
  Proof. intro Hk. apply Nat.ltb_lt. cbn [flat_map]. rewrite !app_length, blk_length. lia. Qed.

  Lemma past_blocks pre k : (length pre + k <? length (pre ++ flat_map blk [])) = false.
  Proof. apply Nat.ltb_ge. cbn [flat_map]. rewrite app_nil_r. lia. Qed.

  Lemma next_block pre a k : length pre + k + n = length (pre ++ blk a) + k.
  Proof. rewrite app_length, blk_length. lia. Qed.

  Lemma blocks_fuel l : 0 < n -> length l < S (length (flat_map blk l)).
  Proof.
    intro Hn. induction l as [|a l IH]; cbn [flat_map length]; [lia|]. rewrite app_length, blk_length. lia.
  Qed.
End Blocks.

(** The scan-and-fill walk: [for ; j < len; j++ { if zero(slot j) { slot j = x; break } }] per value [x].
    Stated once, over the slot type: the model's [find_unfilled] / [scan] are [find_zero] / [scan_zero] at [unfilled],
    [find_unfilled_m] / [scan_m] / [refill_m] are [find_zero] / [scan_zero] / [fill_walk] at [typ_unfilled] - the same
    fixpoints, so the instances below hold by conversion. *)

Definition filled (r : rres) : Prop := unfilled r = false.

Lemma unfilled_zero : unfilled zero_res = true.
Proof. reflexivity. Qed.

Lemma filled_new_error e : filled (new_error e).
Proof. reflexivity. Qed.

Lemma filled_new_result m : m_typ m <> 0%N -> filled (new_result m).
Proof.
  intro H. unfold filled, unfilled, new_result. cbn [r_val r_err].
  destruct (N.eqb_spec (m_typ m) 0); [contradiction|reflexivity].
Qed.

Section Fill.
  Context {A : Type} (zero : A) (isz : A -> bool).
  Hypothesis isz_zero : isz zero = true.

  Fixpoint find_zero (l : list A) : option nat :=
    match l with
    | [] => None
    | x :: t => if isz x then Some O else option_map S (find_zero t)
    end.

  Definition scan_zero (j : nat) (l : list A) : option nat :=
    option_map (fun d => j + d) (find_zero (skipn j l)).

  Fixpoint fill_walk (fills : list A) (j : nat) (l : list A) : list A :=
    match fills with
    | [] => l
    | x :: r =>
      match scan_zero j l with
      | Some j' => fill_walk r j' (upd j' x l)
      | None => fill_walk r (length l) l
      end
    end.

  Definition nonzero (x : A) : Prop := isz x = false.

  Lemma find_zero_none l : Forall nonzero l -> find_zero l = None.
  Proof. induction 1 as [|x l Hx _ IH]; cbn; [reflexivity|]. now rewrite Hx, IH. Qed.

  Lemma find_zero_app pre t : Forall nonzero pre -> find_zero (pre ++ zero :: t) = Some (length pre).
  Proof.
    induction 1 as [|x pre Hx _ IH]; cbn [app find_zero length]; [now rewrite isz_zero|]. now rewrite Hx, IH.
  Qed.

  Lemma scan_zero_app pre t j :
    j <= length pre -> Forall nonzero pre -> scan_zero j (pre ++ zero :: t) = Some (length pre).
  Proof.
    intros Hj Hp. unfold scan_zero. rewrite skipn_app.
    replace (j - length pre) with 0 by lia. cbn [skipn].
    rewrite find_zero_app, skipn_length; [cbn [option_map]; f_equal; lia|].
    rewrite <- (firstn_skipn j pre) in Hp. now apply Forall_app in Hp.
  Qed.

  (** [xs] describes the slots: [miss x] says that slot [x] is still zero, [v x] is its final value.  Filling
      the values of the missing slots in from the left restores [map v xs], provided final values are nonzero. *)
  Lemma fill_walk_spec {X} (miss : X -> bool) (v : X -> A) xs : forall pre j,
    j <= length pre -> Forall nonzero pre -> Forall (fun x => nonzero (v x)) xs ->
    fill_walk (map v (filter miss xs)) j (pre ++ map (fun x => if miss x then zero else v x) xs)
    = pre ++ map v xs.
  Proof.
    induction xs as [|x xs IH]; intros pre j Hj Hpre Hxs; [reflexivity|].
    inversion Hxs as [|? ? Hx Hxs']; subst. cbn [filter map].
    assert (Hnext : forall j', j' <= S (length pre) ->
      fill_walk (map v (filter miss xs)) j' (pre ++ v x :: map (fun x => if miss x then zero else v x) xs)
      = pre ++ v x :: map v xs).
    { intros j' Hj'. rewrite <- (snoc_app pre), <- (snoc_app pre (v x) (map v xs)).
      apply IH; [rewrite last_length; exact Hj'| |assumption]. apply Forall_app. auto. }
    destruct (miss x); [|apply Hnext; lia].
    cbn [map fill_walk]. rewrite scan_zero_app, upd_app_here by assumption. apply Hnext. lia.
  Qed.
End Fill.

Lemma find_unfilled_none l : Forall filled l -> find_unfilled l = None.
Proof. exact (find_zero_none unfilled l). Qed.

(** the stride walks of DoMultiCache, with the values to fill in already extracted *)
Definition fill_seq : list rres -> nat -> list rres -> list rres := fill_walk unfilled.

Lemma fill_seq_spec {X} (miss : X -> bool) (v : X -> rres) xs :
  Forall (fun x => filled (v x)) xs ->
  fill_seq (map v (filter miss xs)) 0 (map (fun x => if miss x then zero_res else v x) xs) = map v xs.
Proof. exact (fill_walk_spec zero_res unfilled eq_refl miss v xs [] 0 (le_n 0) (Forall_nil _)). Qed.

Lemma refill_m_spec {X} (miss : X -> bool) (v : X -> msg) xs :
  Forall (fun x => typ_unfilled (v x) = false) xs ->
  refill_m (map v (filter miss xs)) 0 (map (fun x => if miss x then zero_msg else v x) xs) = map v xs.
Proof. exact (fill_walk_spec zero_msg typ_unfilled eq_refl miss v xs [] 0 (le_n 0) (Forall_nil _)). Qed.

Lemma fill_seq_cons x r j rs :
  fill_seq (x :: r) j rs
  = match scan j rs with Some j' => fill_seq r j' (upd j' x rs) | None => fill_seq r (length rs) rs end.
Proof. reflexivity. Qed.
