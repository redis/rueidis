(** Proofs about Model/ClusterBatch.v: results are positional (C20_order), the policy bounds the rounds (C28).
    The loops are taken apart once: [dstep_cases] says what one position of [doresultfn] does, [do_group] is two
    [pass]es, [rounds_rule] is the loop rule of [rounds]; the properties are instances. *)
From Coq Require Import List Arith NArith ZArith Bool Lia Permutation.
Require Import RV.Model.Base RV.Model.ClusterTopo RV.Model.Retry RV.Model.ClusterDo RV.Model.ClusterBatch.
Require Import RV.Proofs.ClusterTopoProofs.
Import ListNotations.
Open Scope Z_scope.

Lemma fold_left_inv {A B} (f : A -> B -> A) (P : A -> Prop) : forall l a,
  (forall a b, In b l -> P a -> P (f a b)) -> P a -> P (fold_left f l a).
Proof.
  induction l as [|b l IH]; intros a H Ha; cbn [fold_left]; [exact Ha|].
  apply IH; [intros; apply H; auto; now right|apply H; auto; now left].
Qed.

Lemma if_chain_ind {A} (P : A -> Prop) (b1 b2 b3 : bool) (x a b c : A) :
  (b1 = true -> P x) -> (b1 = false -> P a /\ P b /\ P c) ->
  P (if b1 then x else if b2 then a else if b3 then b else c).
Proof. destruct b1, b2, b3; intros H1 H2; try (apply H1; reflexivity); apply H2; reflexivity. Qed.

Section Regroup.
Variable Q : list ipair -> Prop.
Hypothesis Qnil : Q [].
Hypothesis Qapp : forall a b, Q a -> Q b -> Q (a ++ b).

Definition rmap_all (m : rmap) : Prop := Forall (fun ag => Q (rg_cmds (snd ag)) /\ Q (rg_asks (snd ag))) m.

Lemma rmap_add_all a ask ps m : Q ps -> rmap_all m -> rmap_all (rmap_add a ask ps m).
Proof.
  intros Hp. induction m as [|[k g] r IH]; intro Hm; cbn [rmap_add].
  - constructor; [|constructor]. destruct ask; split; cbn; auto.
  - inversion Hm as [|? ? Hg Hr]; subst. destruct (addr_eqb a k); constructor; [|exact Hr|exact Hg|exact (IH Hr)].
    cbn [snd] in *. destruct Hg. destruct ask; split; cbn; auto.
Qed.

(** the next round's map, in whatever order the appends hit the mutex *)
Lemma apply_actions_all acts acts' :
  Permutation acts' acts -> Forall (fun a => Q (a_ps a)) acts -> rmap_all (apply_actions acts').
Proof.
  intros P H. unfold apply_actions. apply fold_left_inv; [|constructor]. intros m a Hin Hm. apply rmap_add_all; [|exact Hm].
  rewrite Forall_forall in H. apply H. exact (Permutation_in _ P Hin).
Qed.
End Regroup.

Lemma dstep_skip pol cc hasinit attempts fl ps resps d i :
  nth_error ps i = None \/ nth_error resps i = None -> dstep pol cc hasinit attempts fl ps resps d i = d.
Proof. unfold dstep. intros [->| ->]; [|destruct (nth_error ps i) as [[]|]]; reflexivity. Qed.

(** one position of doresultfn, as far as any invariant looks at it *)
Definition dstep_post pol attempts fl (ps : list ipair) (d : drs) ii cm r (d' : drs) : Prop :=
  exists mi ei acts rd dl,
    d' = mkDrs mi ei (d_acts d ++ acts) rd dl (d_results d ++ [(ii, r)]) /\
    (acts = [] \/ exists nc ask, acts = [mkAct nc ask (block ps mi ei)] \/ acts = [mkAct nc ask [(ii, cm)]]) /\
    (dl = d_delay d \/ dl = Z.max (d_delay d) (p_delay pol attempts r) /\ 0 <= p_delay pol attempts r) /\
    match classify r (rf_ctx fl) (rf_closed fl) with
    | ModeNone => acts = []
    | ModeRetry => acts <> [] -> p_retry pol = true /\ b_retryable cm = true /\ 0 <= p_delay pol attempts r
    | _ => True
    end.

Lemma dstep_cases pol cc hasinit attempts fl ps resps d i ii cm r :
  nth_error ps i = Some (ii, cm) -> nth_error resps i = Some r ->
  dstep_post pol attempts fl ps d ii cm r (dstep pol cc hasinit attempts fl ps resps d i).
Proof.
  intros Ep Er. unfold dstep. rewrite Ep, Er.
  assert (K : dstep_post pol attempts fl ps d ii cm r
                (mkDrs (d_mi d) (d_ei d) (d_acts d) (d_redirects d) (d_delay d) (d_results d ++ [(ii, r)]))).
  { exists (d_mi d), (d_ei d), [], (d_redirects d), (d_delay d). rewrite app_nil_r. repeat split; auto.
    destruct (classify r (rf_ctx fl) (rf_closed fl)); auto. intro X. now contradiction X. }
  destruct (classify r (rf_ctx fl) (rf_closed fl)) eqn:CL; [exact K| | |]; cbv zeta; cbn [d_acts d_delay d_results d_redirects];
    apply if_chain_ind; try (intros _; exact K); intro G; cbn [andb] in G |- *; unfold dstep_post; rewrite CL.
  3: apply orb_false_iff in G; destruct G as [G1 G]; apply negb_false_iff, andb_true_iff in G1; apply Z.ltb_ge in G;
     assert ((0 <=? p_delay pol attempts r) = true) as -> by now apply Z.leb_le.
  (* the three branches of the inner [if], in this order: a whole block is queued / the member sits inside a
     carried block and nothing is queued / the member is queued alone *)
  all: split; [|split];
    [eexists _, _, [_], _, _|eexists _, _, [], _, _; rewrite app_nil_r|eexists _, _, [_], _, _];
    (split; [reflexivity|split; [eauto 6|split; [first [left; reflexivity|right; split; [reflexivity|assumption]]|first [exact I|intros _; tauto]]]]).
Qed.

(** [do_group] is an exchange over the plain list, then one over the asking list *)
Section Pass.
Variables (pol : policy) (srv : servers) (hasinit : bool) (attempts : nat) (fl : rflags).

Definition pass (a : addr) (asking : bool) (st : rstate) (ps : list ipair) : rstate :=
  match ps with
  | [] => st
  | _ =>
    let '(rs, cn) := exchange_on srv a (r_cnt st) ps in
    let d := doresultfn pol a hasinit attempts fl ps rs (r_acts st) (r_redirects st) (r_delay st) (r_results st) in
    mkRstate (d_acts d) (d_redirects d) (d_delay d) (d_results d) cn
             (r_sends st ++ [mkWsend a asking (if asking then asking_wire ps false else map Some ps)])
  end.

Lemma do_group_pass st a g :
  do_group pol srv hasinit attempts fl st (a, g) = pass a true (pass a false st (rg_cmds g)) (rg_asks g).
Proof. unfold do_group, pass. destruct (rg_cmds g), (rg_asks g); reflexivity. Qed.

Lemma round_inv (G : list ipair -> Prop) (P : rstate -> Prop) :
  (forall a asking st ps, G ps -> P st -> P (pass a asking st ps)) ->
  forall m st, rmap_all G m -> P st -> P (fold_left (do_group pol srv hasinit attempts fl) m st).
Proof.
  intros Hp m st Hm. apply fold_left_inv. intros st' [a g] Hin Hs. rewrite do_group_pass.
  unfold rmap_all in Hm. rewrite Forall_forall in Hm. destruct (Hm _ Hin) as [H1 H2]. auto.
Qed.
End Pass.

(** the loop rule of [rounds]: [I] holds before every round, [R] of what any round leaves behind *)
Section Rounds.
Variables (c : bcfg) (srv : servers) (hasinit : bool).

Definition round_st (k : nat) (m : rmap) (attempts : nat) (asg : list (nat * reply)) (cn : counts) : rstate :=
  fold_left (do_group (bc_policy c) srv hasinit attempts (bc_flags c k)) m (mkRstate [] 0 (-1) asg cn []).

Variable I : nat -> rmap -> nat -> Z -> list (nat * reply) -> list (nat * wsend) -> Prop.
Variable R : list (nat * reply) -> list (nat * wsend) -> Prop.
Hypothesis Hout : forall k m a rd asg sends, I k m a rd asg sends -> R asg sends.
Hypothesis Hstep : forall k m a rd asg cn sends, I k m a rd asg sends ->
  let st := round_st k m a asg cn in
  let m' := apply_actions (bc_perm c k (r_acts st)) in
  let sends' := sends ++ map (fun w => (k, w)) (r_sends st) in
  R (r_results st) sends' /\
  ((0 < r_redirects st)%nat -> bc_max c <= 0 \/ rd + 1 <= bc_max c -> I (S k) m' a (rd + 1) (r_results st) sends') /\
  (r_redirects st = 0%nat -> 0 <= r_delay st -> I (S k) m' (S a) rd (r_results st) sends').

Lemma rounds_rule : forall f k m a rd asg cn sends asg' sends' out,
  I k m a rd asg sends -> rounds f c srv hasinit k m a rd asg cn sends = (asg', sends', out) -> R asg' sends'.
Proof.
  induction f as [|f IH]; intros k m a rd asg cn sends asg' sends' out Hi H; [injection H as <- <- _; eauto|].
  cbn [rounds] in H. destruct (Hstep _ _ _ _ _ cn _ Hi) as [HR [Hrd Hrt]]. unfold round_st in *.
  set (st := fold_left _ m _) in *.
  destruct (apply_actions (bc_perm c k (r_acts st))) as [|x m']; [injection H as <- <- _; exact HR|].
  destruct (Nat.ltb_spec 0 (r_redirects st)).
  - destruct ((0 <? bc_max c) && (bc_max c <? rd + 1)) eqn:G; [injection H as <- <- _; exact HR|].
    eapply IH; [|exact H]. apply Hrd; [assumption|].
    apply andb_false_iff in G. destruct G as [G|G]; apply Z.ltb_ge in G; lia.
  - destruct (Z.leb_spec 0 (r_delay st)); [|injection H as <- <- _; exact HR].
    eapply IH; [|exact H]. apply Hrt; lia.
Qed.
End Rounds.

Lemma pick_multi_init_flag t str nsel fc cs m init : pick_multi t str nsel fc cs = PickOk m init -> init = has_init cs.
Proof.
  unfold pick_multi. destruct (_ && str).
  - destruct (pick_multi_repl _ _ _ _ _); [now intros [= _ <-]|discriminate].
  - destruct (scan_plain _ _ _ _) as [last| |]; try discriminate. destruct (match last with Some _ => _ | None => _ end); [|discriminate].
    destruct (pick_multi_plain _ _ _ _ _); [now intros [= _ <-]|discriminate].
Qed.

Section Order.
Variable multi : list bcmd.        (* the batch handed to DoMulti *)
Variable srv : servers.

(** an (index, command) pair is in step with the batch *)
Definition pair_ok (p : ipair) : Prop := nth_error multi (fst p) = Some (snd p).
Definition group_ok (g : rgroup) : Prop := Forall pair_ok (rg_cmds g) /\ Forall pair_ok (rg_asks g).
Definition rmap_ok (m : rmap) : Prop := Forall (fun ag => group_ok (snd ag)) m.

(** an assignment results.s[i] = r is the reply of some node to the command multi[i] *)
Definition asg_ok (ir : nat * reply) : Prop :=
  exists cm a k, nth_error multi (fst ir) = Some cm /\ snd ir = srv cm a k.

(** the replies of one exchange are the node's replies to the commands, position by position *)
Lemma exchange_on_spec a : forall ps cn rs cn',
  exchange_on srv a cn ps = (rs, cn') ->
  length rs = length ps /\
  forall i p r, nth_error ps i = Some p -> nth_error rs i = Some r -> exists k, r = srv (snd p) a k.
Proof.
  induction ps as [|[j c] ps IH]; intros cn rs cn' H; cbn [exchange_on] in H.
  - inversion H; subst. split; [reflexivity|]. intros i p r Hp. destruct i; discriminate.
  - destruct (exchange_on srv a (cnt_inc cn (b_id c) a) ps) as [rs0 cn0] eqn:E. inversion H; subst.
    destruct (IH _ _ _ E) as [L S]. split; [cbn; now rewrite L|].
    intros i p r Hp Hr. destruct i as [|i]; cbn in Hp, Hr.
    + inversion Hp; inversion Hr; subst. cbn [snd]. eauto.
    + eauto.
Qed.

Lemma block_ok ps lo hi : Forall pair_ok ps -> Forall pair_ok (block ps lo hi).
Proof.
  rewrite !Forall_forall. intros H p Hp. apply H. unfold block in Hp. apply In_firstn in Hp. now apply In_skipn in Hp.
Qed.

Definition acts_ok (acts : list action) : Prop := Forall (fun a => Forall pair_ok (a_ps a)) acts.

Lemma dstep_ok pol cc hasinit attempts fl ps resps d i :
  Forall pair_ok ps ->
  (forall j p r, nth_error ps j = Some p -> nth_error resps j = Some r -> exists k, r = srv (snd p) cc k) ->
  acts_ok (d_acts d) /\ Forall asg_ok (d_results d) ->
  acts_ok (d_acts (dstep pol cc hasinit attempts fl ps resps d i)) /\
  Forall asg_ok (d_results (dstep pol cc hasinit attempts fl ps resps d i)).
Proof.
  intros Hps Hrs [Ha Hr].
  destruct (nth_error ps i) as [[ii cm]|] eqn:Ep; [|rewrite dstep_skip; auto].
  destruct (nth_error resps i) as [r|] eqn:Er; [|rewrite dstep_skip; auto].
  assert (Hpair : pair_ok (ii, cm)) by (rewrite Forall_forall in Hps; apply Hps; eapply nth_error_In; eauto).
  destruct (dstep_cases pol cc hasinit attempts fl ps resps d i ii cm r Ep Er) as [mi [ei [acts [rd [dl [-> [A _]]]]]]].
  cbn [d_acts d_results]. split; apply Forall_app; (split; [assumption|]).
  - destruct A as [->|[nc [ask [->| ->]]]]; repeat constructor; [now apply block_ok|exact Hpair].
  - destruct (Hrs i _ _ Ep Er) as [k Hk]. repeat constructor. exists cm, cc, k. auto.
Qed.

Definition rstate_ok (s : rstate) : Prop := acts_ok (r_acts s) /\ Forall asg_ok (r_results s).

Lemma pass_ok pol hasinit attempts fl a asking st ps :
  Forall pair_ok ps -> rstate_ok st -> rstate_ok (pass pol srv hasinit attempts fl a asking st ps).
Proof.
  intros Hps Hs. unfold pass. destruct ps as [|p ps']; [exact Hs|].
  destruct (exchange_on srv a (r_cnt st) (p :: ps')) as [rs cn] eqn:E. destruct (exchange_on_spec a _ _ _ _ E) as [_ S].
  unfold rstate_ok, doresultfn. cbn [r_acts r_results]. apply fold_left_inv; [|exact Hs]. intros d i _. now apply dstep_ok.
Qed.

Lemma round_ok (c : bcfg) hasinit k m attempts asg cn :
  rmap_ok m -> Forall asg_ok asg -> rstate_ok (round_st c srv hasinit k m attempts asg cn).
Proof.
  intros Hm Ha. unfold round_st. apply (round_inv _ _ _ _ _ (Forall pair_ok)); [intros; now apply pass_ok|exact Hm|].
  split; [constructor|exact Ha].
Qed.

(** every round keeps the assignments honest, whatever order the appends hit the mutex in *)
Lemma rounds_ok (c : bcfg) hasinit :
  (forall k l, Permutation (bc_perm c k l) l) ->
  forall fuel k m attempts redirects asg cn sends asg' sends' out,
  rmap_ok m -> Forall asg_ok asg ->
  rounds fuel c srv hasinit k m attempts redirects asg cn sends = (asg', sends', out) ->
  Forall asg_ok asg'.
Proof.
  intros Hperm fuel k m attempts redirects asg cn sends asg' sends' out Hm Ha.
  apply (rounds_rule c srv hasinit (fun _ m _ _ asg _ => rmap_ok m /\ Forall asg_ok asg) (fun asg _ => Forall asg_ok asg));
    [tauto| |auto].
  clear - Hperm. intros k m a rd asg cn sends [Hm Ha]. destruct (round_ok c hasinit k m a asg cn Hm Ha) as [Hacts Hres].
  assert (rmap_ok (apply_actions (bc_perm c k (r_acts (round_st c srv hasinit k m a asg cn))))).
  { apply (apply_actions_all (Forall pair_ok)) with (3 := Hperm _ _) (4 := Hacts); [constructor|intros; now apply Forall_app]. }
  cbv zeta. auto.
Qed.

Lemma result_at_In asg i r : result_at asg i = Some r -> In (i, r) asg.
Proof.
  induction asg as [|[j x] rest IH]; cbn [result_at]; [discriminate|].
  destruct (result_at rest i) eqn:E.
  - intro H; inversion H; subst. right. auto.
  - destruct (Nat.eqb_spec j i); [|discriminate]. intro H; inversion H; subst. now left.
Qed.

Lemma result_at_some asg i : (exists r, In (i, r) asg) -> exists r, result_at asg i = Some r.
Proof.
  induction asg as [|[j x] rest IH]; intros [r H]; [destruct H|].
  cbn [result_at]. destruct (result_at rest i) eqn:E; [eauto|].
  destruct H as [H|H].
  - inversion H; subst. rewrite Nat.eqb_refl. eauto.
  - destruct (IH (ex_intro _ r H)) as [r' Hr']. congruence.
Qed.

Definition covered (m : rmap) (i : nat) : Prop :=
  exists a g c, In (a, g) m /\ (In (i, c) (rg_cmds g) \/ In (i, c) (rg_asks g)).

Lemma covered_cons k g m i :
  covered ((k, g) :: m) i <-> (exists c, In (i, c) (rg_cmds g) \/ In (i, c) (rg_asks g)) \/ covered m i.
Proof.
  split.
  - intros [a [g0 [c [[E|Hin] Hc]]]]; [injection E as _ <-; eauto|right; exists a, g0, c; auto].
  - intros [[c Hc]|[a [g0 [c [Hin Hc]]]]]; [exists k, g, c; split; [now left|exact Hc]|exists a, g0, c; split; [now right|exact Hc]].
Qed.

Lemma covered_rmap_add a ask ps m i :
  covered m i \/ (exists c, In (i, c) ps) -> covered (rmap_add a ask ps m) i.
Proof.
  induction m as [|[k g] r IH]; cbn [rmap_add]; rewrite ?covered_cons.
  - intros [[a0 [g0 [c0 [[] _]]]]|[c Hc]]. left. exists c. destruct ask; cbn; auto.
  - destruct (addr_eqb a k); rewrite covered_cons; [|tauto].
    intros [[[c Hc]|H]|[c Hc]]; [left; exists c|now right|left; exists c];
      destruct ask; cbn [rg_cmds rg_asks]; rewrite ?in_app_iff; tauto.
Qed.

(** both grouping loops of _pickMulti file the pair (i, c) under the node picked for it *)
Lemma pick_loop_spec (step : nat -> bcmd -> option addr) (pick : nat -> list bcmd -> rmap -> option rmap) :
  (forall i acc, pick i [] acc = Some acc) ->
  (forall i c r acc, pick i (c :: r) acc =
     match step i c with Some a => pick (S i) r (rmap_add a false [(i, c)] acc) | None => None end) ->
  forall cs pre acc m,
  multi = pre ++ cs -> rmap_ok acc -> (forall j, (j < length pre)%nat -> covered acc j) ->
  pick (length pre) cs acc = Some m ->
  rmap_ok m /\ forall j, (j < length multi)%nat -> covered m j.
Proof.
  intros P0 PS. induction cs as [|c r IH]; intros pre acc m Em Hok Hcov H.
  - rewrite P0 in H. injection H as <-. split; [exact Hok|]. intros j Hj. apply Hcov. now rewrite Em, app_nil_r in Hj.
  - rewrite PS in H. destruct (step (length pre) c) as [a|]; [|discriminate].
    apply (IH (pre ++ [c]) (rmap_add a false [(length pre, c)] acc) m).
    + now rewrite <- app_assoc.
    + apply (rmap_add_all (Forall pair_ok)); [constructor|intros; now apply Forall_app| |exact Hok].
      repeat constructor. unfold pair_ok. cbn [fst snd]. now rewrite Em, nth_error_app2, Nat.sub_diag by lia.
    + intros j Hj. rewrite app_length in Hj. cbn in Hj. apply covered_rmap_add.
      destruct (Nat.eq_dec j (length pre)) as [->|Hne]; [right; exists c; now left|left; apply Hcov; lia].
    + rewrite app_length. cbn [length]. now rewrite Nat.add_1_r.
Qed.

Lemma pick_multi_spec t str nsel fc m init :
  pick_multi t str nsel fc multi = PickOk m init ->
  rmap_ok m /\ forall j, (j < length multi)%nat -> covered m j.
Proof.
  assert (H0 : forall j, (j < @length bcmd [])%nat -> covered [] j) by (cbn; intros; lia).
  unfold pick_multi. destruct (negb (has_init multi) && tb_rinit t && str).
  - destruct (pick_multi_repl t nsel 0 multi []) as [m0|] eqn:E; [|discriminate]. intro H; injection H as <- _.
    apply (pick_loop_spec (fun i c => match b_slot c with Some s => pick_slot t s (b_replica c) (nsel i) | None => None end)
                          (pick_multi_repl t nsel)) with (cs := multi) (pre := []) (acc := []); auto; [|constructor].
    intros i c r acc. cbn [pick_multi_repl]. now destruct (b_slot c).
  - destruct (scan_plain t (has_init multi) multi None) as [last| |]; try discriminate.
    destruct (match last with Some l => tb_w t l | None => fc end) as [d|] eqn:Ed; [|discriminate].
    destruct (pick_multi_plain t (Some d) 0 multi []) as [m0|] eqn:E; [|discriminate]. intro H; injection H as <- _.
    apply (pick_loop_spec (fun _ c => match b_slot c with Some s => tb_w t s | None => Some d end)
                          (pick_multi_plain t (Some d))) with (cs := multi) (pre := []) (acc := []); auto. constructor.
Qed.

(** results only grow, and one pass over a sub-batch assigns every one of its indices *)
Lemma dstep_grows pol cc hasinit attempts fl ps resps d i :
  incl (d_results d) (d_results (dstep pol cc hasinit attempts fl ps resps d i)) /\
  (forall ii cm r, nth_error ps i = Some (ii, cm) -> nth_error resps i = Some r ->
     In (ii, r) (d_results (dstep pol cc hasinit attempts fl ps resps d i))).
Proof.
  destruct (nth_error ps i) as [[ii cm]|] eqn:Ep; [|rewrite dstep_skip by auto; split; [apply incl_refl|discriminate]].
  destruct (nth_error resps i) as [r|] eqn:Er; [|rewrite dstep_skip by auto; split; [apply incl_refl|discriminate]].
  destruct (dstep_cases pol cc hasinit attempts fl ps resps d i ii cm r Ep Er) as [mi [ei [acts [rd [dl [-> _]]]]]].
  cbn [d_results]. split; [apply incl_appl, incl_refl|]. intros ? ? ? [= <- _] [= <-]. apply in_or_app. right. now left.
Qed.

Lemma pass_assigns pol hasinit attempts fl a asking st ps :
  let st' := pass pol srv hasinit attempts fl a asking st ps in
  incl (r_results st) (r_results st') /\ forall ii cm, In (ii, cm) ps -> exists r, In (ii, r) (r_results st').
Proof.
  unfold pass. destruct ps as [|p0 ps0]; [split; [apply incl_refl|intros ? ? []]|]. set (ps := p0 :: ps0).
  destruct (exchange_on srv a (r_cnt st) ps) as [rs cn] eqn:E. destruct (exchange_on_spec a _ _ _ _ E) as [L _].
  cbn [r_results]. unfold doresultfn. set (F := dstep pol a hasinit attempts fl ps rs).
  assert (G : forall l d0, incl (d_results d0) (d_results (fold_left F l d0)) /\
                           forall i ii cm r, In i l -> nth_error ps i = Some (ii, cm) -> nth_error rs i = Some r ->
                                             In (ii, r) (d_results (fold_left F l d0))).
  { induction l as [|i l IH]; intros d0; cbn [fold_left]; [split; [apply incl_refl|intros ? ? ? ? []]|].
    destruct (IH (F d0 i)) as [I1 I2]. destruct (dstep_grows pol a hasinit attempts fl ps rs d0 i) as [S1 S2].
    split; [eapply incl_tran; eauto|].
    intros j ii cm r [<-|Hin] Hp Hr; [apply I1; eapply S2; eauto|eauto]. }
  destruct (G (seq 0 (length rs)) (mkDrs (-1) (-1) (r_acts st) (r_redirects st) (r_delay st) (r_results st))) as [G1 G2].
  split; [exact G1|]. intros ii cm Hin. apply In_nth_error in Hin. destruct Hin as [i Hi].
  assert (Hl : (i < length ps)%nat) by (apply nth_error_Some; rewrite Hi; discriminate).
  destruct (nth_error rs i) as [r|] eqn:Er; [|apply nth_error_None in Er; lia].
  exists r. eapply G2; eauto. apply in_seq. lia.
Qed.

Lemma fold_groups_assigns pol hasinit attempts fl : forall m st,
  let st' := fold_left (do_group pol srv hasinit attempts fl) m st in
  incl (r_results st) (r_results st') /\ forall i, covered m i -> exists r, In (i, r) (r_results st').
Proof.
  induction m as [|[a g] m IH]; intros st; cbn [fold_left].
  - split; [apply incl_refl|]. intros i [a0 [g0 [c0 [[] _]]]].
  - destruct (IH (do_group pol srv hasinit attempts fl st (a, g))) as [I1 I2]. rewrite do_group_pass in *.
    destruct (pass_assigns pol hasinit attempts fl a false st (rg_cmds g)) as [J1 J2].
    destruct (pass_assigns pol hasinit attempts fl a true (pass pol srv hasinit attempts fl a false st (rg_cmds g)) (rg_asks g)) as [K1 K2].
    split; [eauto using incl_tran|].
    intros i Hc. apply covered_cons in Hc. destruct Hc as [[c [Hc|Hc]]|Hc]; [| |now apply I2].
    + destruct (J2 i c Hc) as [r Hr]. exists r. auto.
    + destruct (K2 i c Hc) as [r Hr]. exists r. auto.
Qed.

Lemma rounds_grows (c : bcfg) hasinit : forall fuel k m attempts redirects asg cn sends asg' sends' out,
  rounds fuel c srv hasinit k m attempts redirects asg cn sends = (asg', sends', out) -> incl asg asg'.
Proof.
  intros fuel k m attempts redirects asg cn sends asg' sends' out.
  apply (rounds_rule c srv hasinit (fun _ _ _ _ asg1 _ => incl asg asg1) (fun asg1 _ => incl asg asg1)); [auto| |apply incl_refl].
  intros k0 m0 a rd asg0 cn0 sends0 Hi.
  pose proof (proj1 (fold_groups_assigns (bc_policy c) hasinit a (bc_flags c k0) m0 (mkRstate [] 0 (-1) asg0 cn0 []))) as X.
  cbn [r_results] in X. pose proof (incl_tran Hi X). cbv zeta. unfold round_st. auto.
Qed.

Lemma rounds_covers (c : bcfg) hasinit f k m attempts redirects asg cn sends asg' sends' out :
  rounds (S f) c srv hasinit k m attempts redirects asg cn sends = (asg', sends', out) ->
  forall i, covered m i -> exists r, In (i, r) asg'.
Proof.
  intros H i Hc.
  destruct (proj2 (fold_groups_assigns (bc_policy c) hasinit attempts (bc_flags c k) m (mkRstate [] 0 (-1) asg cn [])) i Hc) as [r Hr].
  exists r. cbn [rounds] in H. revert H.
  destruct (apply_actions _); [|destruct (_ <? _)%nat; [destruct (_ && _)|destruct (_ <=? _)]]; intro H;
    first [injection H as <- _ _; exact Hr|exact (rounds_grows c hasinit _ _ _ _ _ _ _ _ _ _ _ H _ Hr)].
Qed.

Lemma rounds_positional (c : bcfg) hasinit f k m attempts redirects cn sends asg sends' out :
  (forall k l, Permutation (bc_perm c k l) l) ->
  rmap_ok m -> (forall j, (j < length multi)%nat -> covered m j) ->
  rounds (S f) c srv hasinit k m attempts redirects [] cn sends = (asg, sends', out) ->
  forall i cmd, nth_error multi i = Some cmd -> exists r a k, result_at asg i = Some r /\ r = srv cmd a k.
Proof.
  intros Hperm Hok Hcov H i cmd Hi.
  pose proof (rounds_ok c hasinit Hperm _ _ _ _ _ _ _ _ _ _ _ Hok (Forall_nil _) H) as Hall.
  assert (Hlt : (i < length multi)%nat) by (apply nth_error_Some; congruence).
  destruct (result_at_some asg i (rounds_covers c hasinit _ _ _ _ _ _ _ _ _ _ _ H i (Hcov i Hlt))) as [r Hr].
  exists r. apply result_at_In in Hr as Hin. rewrite Forall_forall in Hall. destruct (Hall _ Hin) as [cm [a [k0 [Hn Hs]]]].
  cbn [fst snd] in *. rewrite Hi in Hn. injection Hn as <-. exists a, k0. auto.
Qed.

End Order.

(** when the policy declines at [attempts] the round's delay stays at its initial -1, whatever the servers answer *)
Lemma round_delay_declined (c : bcfg) srv hasinit k m attempts asg cn :
  (forall r, p_delay (bc_policy c) attempts r < 0) -> r_delay (round_st c srv hasinit k m attempts asg cn) = -1.
Proof.
  intro Hd. unfold round_st. apply (round_inv _ _ _ _ _ (fun _ => True) (fun st => r_delay st = -1)); [|now apply Forall_forall|reflexivity].
  intros a asking st ps _ Hs. unfold pass. destruct ps as [|p ps']; [exact Hs|].
  destruct (exchange_on srv a (r_cnt st) (p :: ps')) as [rs cn']. cbn [r_delay]. unfold doresultfn.
  apply fold_left_inv; [|exact Hs]. intros d i _ Hdl.
  destruct (nth_error (p :: ps') i) as [[ii cm]|] eqn:Ep; [|now rewrite dstep_skip by auto].
  destruct (nth_error rs i) as [r|] eqn:Er; [|now rewrite dstep_skip by auto].
  destruct (dstep_cases (bc_policy c) a hasinit attempts (bc_flags c k) (p :: ps') rs d i ii cm r Ep Er)
    as [mi [ei [acts [rd [dl [-> [_ [[->|[_ D]] _]]]]]]]]; [exact Hdl|specialize (Hd r); lia].
Qed.

(** with a redirect limit: the round index of every write is at most (B - 1) + MaxMovedRedirections, where B is
    an attempt number from which the policy declines — the call makes at most B + MaxMovedRedirections rounds *)
Lemma rounds_index_bound (c : bcfg) srv hasinit B :
  (forall a r, (B <= a)%nat -> p_delay (bc_policy c) a r < 0) -> 0 < bc_max c ->
  forall fuel k m attempts redirects asg cn sends asg' sends' out,
  rounds fuel c srv hasinit k m attempts redirects asg cn sends = (asg', sends', out) ->
  (attempts <= B)%nat -> redirects <= bc_max c ->
  Z.of_nat k = Z.of_nat attempts - 1 + redirects ->
  (forall k' w, In (k', w) sends -> Z.of_nat k' <= Z.of_nat B - 1 + bc_max c) ->
  forall k' w, In (k', w) sends' -> Z.of_nat k' <= Z.of_nat B - 1 + bc_max c.
Proof.
  intros Hd Hmax fuel k m attempts redirects asg cn sends asg' sends' out H Ha Hr Hk Hs.
  set (bounded := fun sends : list (nat * wsend) => forall k' w, In (k', w) sends -> Z.of_nat k' <= Z.of_nat B - 1 + bc_max c).
  apply (rounds_rule c srv hasinit
           (fun k _ a rd _ sends => (a <= B)%nat /\ rd <= bc_max c /\ Z.of_nat k = Z.of_nat a - 1 + rd /\ bounded sends)
           (fun _ sends => bounded sends)) with (4 := H); [tauto| |auto].
  clear - Hd Hmax. intros k m a rd asg cn sends [Ha [Hr [Hk Hs]]]. cbv zeta.
  assert (Hs' : bounded (sends ++ map (fun w => (k, w)) (r_sends (round_st c srv hasinit k m a asg cn)))).
  { intros k' w Hin. apply in_app_or in Hin. destruct Hin as [Hin|Hin]; [eapply Hs; eauto|].
    apply in_map_iff in Hin. destruct Hin as [w0 [E _]]. inversion E; subst. lia. }
  split; [exact Hs'|]. split; [intros _ [?|?]; repeat split; auto; lia|]. intros _ G.
  (* a retry round: the policy accepted a delay at [a], so [a] is below the bound *)
  assert (a < B)%nat; [|repeat split; auto; lia].
  destruct (le_lt_dec B a) as [Hge|]; [|assumption].
  rewrite round_delay_declined in G by (intro; now apply Hd). lia.
Qed.
