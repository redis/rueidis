(** The readers of resp.go below readNextMessage: the unfolding equations of its recursion, and what the
    readers of lines, integers and length-prefixed payloads return on the bytes the specification's
    encoder writes. *)
From Coq Require Import List Arith NArith ZArith Bool Lia ZifyN ZifyNat ZifyBool.
Require Import RV.Model.Base RV.Model.RespWrite RV.Model.Resp.
Require Import RV.Proofs.BinaryProofs RV.Proofs.RespWriteProofs RV.Proofs.RespIOProofs RV.Proofs.RespBaseProofs RV.Proofs.RespMsgProofs.
Import ListNotations.
Open Scope N_scope.

(** the recursion of readNextMessage: one iteration of each loop, over the recursive calls *)

(** msgs[n], err = readNextMessage(i) with capacity [cap'], then the rest of the loop of readA;
    the index is checked when the call has returned *)
Definition read_a_next (rn : option msg -> prog (result msg)) (ral : Z -> Z -> Z -> list msg -> prog (result (list msg)))
    (length n cap' : Z) (acc : list msg) : prog (result (list msg)) :=
  bind (rn None) (fun r =>
    if (n <? cap')%Z then
      match r with
      | Ok m => ral length (n + 1)%Z cap' (acc ++ [m])
      | Err e => Ret (Err e)
      | Panic => Ret Panic
      end
    else Ret Panic).

Definition read_a_body rn ral (length n cap : Z) (acc : list msg) : prog (result (list msg)) :=
  if (n =? length)%Z then Ret (Ok acc)
  else if (n =? cap)%Z then
    bindr (alloc_make msg_size (Z.min length (n * 2))) (fun _ => read_a_next rn ral length n (Z.min length (n * 2)) acc)
  else read_a_next rn ral length n cap acc.

Definition read_e_body (rn : option msg -> prog (result msg)) (rel : list msg -> prog (result (list msg)))
    (acc : list msg) : prog (result (list msg)) :=
  bindr (rn None) (fun m =>
    if m_typ m =? tEnd then Ret (Ok acc)
    else bind (alloc (Z.to_N msg_size)) (fun _ => rel (acc ++ [m]))).

Lemma read_next_S f a : read_next (S f) a = read_next_body (read_next f) (read_a_loop f) (read_e_loop f) f a.
Proof. reflexivity. Qed.

Lemma read_a_loop_S f length n cap acc :
  read_a_loop (S f) length n cap acc = read_a_body (read_next f) (read_a_loop f) length n cap acc.
Proof. reflexivity. Qed.

Lemma read_e_loop_S f acc : read_e_loop (S f) acc = read_e_body (read_next f) (read_e_loop f) acc.
Proof. reflexivity. Qed.

Lemma find_lf_nolf_app a r : no_lf a = true -> find_lf (a ++ 10 :: r) = Some (length a).
Proof.
  induction a as [|x a IH]; intros H; cbn [app find_lf length].
  - reflexivity.
  - cbn [no_lf forallb] in H. apply andb_true_iff in H as [Hx Ha].
    unfold LFb. destruct (N.eqb_spec x 10) as [->|_]; [discriminate|].
    fold (no_lf a) in Ha. now rewrite (IH Ha).
Qed.

Lemma no_lf_app a b : no_lf (a ++ b) = no_lf a && no_lf b.
Proof. unfold no_lf. apply forallb_app. Qed.

Lemma find_lf_line ds rest : no_lf ds = true -> find_lf (ds ++ crlf ++ rest) = Some (S (length ds)).
Proof.
  intros H. unfold crlf, CR, LF. cbn [app].
  replace (ds ++ 13 :: 10 :: rest) with ((ds ++ [13]) ++ 10 :: rest) by (now rewrite <- app_assoc).
  rewrite find_lf_nolf_app; [rewrite app_length; cbn; f_equal; lia|].
  rewrite no_lf_app, H. reflexivity.
Qed.

Lemma firstn_line ds rest : firstn (S (S (length ds))) (ds ++ crlf ++ rest) = ds ++ crlf.
Proof.
  rewrite app_assoc. replace (S (S (length ds))) with (length (ds ++ crlf)) by (rewrite app_length; cbn; lia).
  apply firstn_app_exact.
Qed.

Lemma skipn_line ds rest : skipn (S (S (length ds))) (ds ++ crlf ++ rest) = rest.
Proof.
  rewrite app_assoc. replace (S (S (length ds))) with (length (ds ++ crlf)) by (rewrite app_length; cbn; lia).
  apply skipn_app_exact.
Qed.

Lemma step_read_slice_line B ds rest : no_lf ds = true -> (length ds + 2 <= B)%nat ->
  flat_step B OReadSlice (ds ++ crlf ++ rest) = (Ok (ds ++ crlf), rest).
Proof.
  intros Hn HB. cbn [flat_step].
  assert (E : find_lf (firstn B (ds ++ crlf ++ rest)) = Some (S (length ds))).
  { rewrite app_assoc. rewrite firstn_app.
    apply find_lf_app_some. rewrite firstn_all2 by (rewrite app_length; cbn; lia).
    rewrite <- (app_nil_r (ds ++ crlf)), <- app_assoc. now apply find_lf_line. }
  rewrite E. now rewrite firstn_line, skipn_line.
Qed.

Lemma step_read_bytes_line B ds rest : no_lf ds = true ->
  flat_step B OReadBytes (ds ++ crlf ++ rest) = (Ok (ds ++ crlf), rest).
Proof. intros Hn. cbn [flat_step]. rewrite find_lf_line by assumption. now rewrite firstn_line, skipn_line. Qed.

Lemma step_discard B k (pre rest : bytes) : Z.of_nat (length pre) = k ->
  flat_step B (ODiscard k) (pre ++ rest) = (Ok [], rest).
Proof.
  intros H. cbn [flat_step]. destruct (Z.ltb_spec k 0) as [Hx|_]; [lia|].
  destruct (N.leb_spec (Z.to_N k) (blen (pre ++ rest))) as [_|Hx].
  - replace (Z.to_nat k) with (length pre) by lia. now rewrite skipn_app_exact.
  - unfold blen in Hx. rewrite app_length in Hx. lia.
Qed.

Lemma step_read_full B n s : n <= blen s ->
  flat_step B (OReadFull n) s = (Ok (firstn (N.to_nat n) s), skipn (N.to_nat n) s).
Proof.
  intros H. cbn [flat_step]. destruct (N.eqb_spec n 0) as [->|_]; [reflexivity|].
  destruct (N.leb_spec n (blen s)); [reflexivity|lia].
Qed.

Lemma run_discard B k (pre rest : bytes) al : Z.of_nat (length pre) = k ->
  run B (do_op (ODiscard k)) (pre ++ rest) al = (Ok [], rest, al).
Proof. intros H. rewrite run_do_op, (step_discard B k pre rest H). reflexivity. Qed.

Lemma run_read_byte B b rest al : run B (do_op OReadByte) (b :: rest) al = (Ok [b], rest, al).
Proof. reflexivity. Qed.

Lemma run_copy_n B (c rest : bytes) al :
  run B (do_op (OCopyN (blen c))) (c ++ rest) al = (Ok c, rest, al).
Proof.
  rewrite run_do_op. cbn [flat_step].
  destruct (N.leb_spec (blen c) (blen (c ++ rest))) as [_|Hx].
  - unfold blen. rewrite Nat2N.id, firstn_app_exact, skipn_app_exact. reflexivity.
  - unfold blen in Hx. rewrite app_length in Hx. lia.
Qed.


Lemma blen_skipn k (s : bytes) : blen (skipn k s) = blen s - N.of_nat k.
Proof. unfold blen. rewrite skipn_length. lia. Qed.

(** make([]T, n) succeeds when the length is not negative and the bytes fit Go's allocation limit *)
Lemma run_alloc_make B sz n s al : (0 <= n)%Z -> (n * sz <= max_alloc)%Z ->
  run B (alloc_make sz n) s al = (Ok tt, s, al + Z.to_N (n * sz)).
Proof.
  intros H0 H1. unfold alloc_make, make_ok. apply Z.leb_le in H0, H1. now rewrite H0, H1.
Qed.

Lemma dval_ge ds : forall a, a <= dval ds a.
Proof. induction ds as [|d r IH]; intros a; cbn [dval]; [lia|]. specialize (IH (a * 10 + (d - 48))). lia. Qed.

Lemma digits_loop_dval : forall ds v,
  Forall (fun d => is_digit d = true) ds -> (0 <= v)%Z ->
  (Z.of_N (dval ds (Z.to_N v)) < two63)%Z ->
  digits_loop ds v = Ok (Z.of_N (dval ds (Z.to_N v))).
Proof.
  induction ds as [|d r IH]; intros v Hd Hv Hb.
  - cbn. f_equal. lia.
  - inversion Hd as [|? ? Hd1 Hd2]; subst. cbn [digits_loop dval].
    change (is_dig d) with (is_digit d). rewrite Hd1.
    apply is_digit_spec in Hd1.
    cbn [dval] in Hb.
    pose proof (dval_ge r (Z.to_N v * 10 + (d - 48))) as Hge.
    assert (E : wrap64 (v * 10 + Z.of_N (d - 48)) = (v * 10 + Z.of_N (d - 48))%Z).
    { apply wrap64_small_z. unfold two63 in *. lia. }
    rewrite E. rewrite IH; try assumption; try lia.
    + do 2 f_equal. f_equal. lia.
    + replace (Z.to_N (v * 10 + Z.of_N (d - 48))) with (Z.to_N v * 10 + (d - 48)) by lia. exact Hb.
Qed.

Lemma no_lf_digits ds : Forall (fun d => is_digit d = true) ds -> no_lf ds = true.
Proof.
  induction 1 as [|d r Hd Hr IH]; [reflexivity|]. cbn [no_lf forallb]. fold (no_lf r). rewrite IH.
  apply is_digit_spec in Hd. destruct (N.eqb_spec d 10); [lia|reflexivity].
Qed.

(** number of digits *)
Lemma dec_aux_len : forall fuel n acc k, n < 10 ^ N.of_nat (S k) ->
  (length (dec_aux fuel n acc) <= S k + length acc)%nat.
Proof.
  induction fuel as [|f IH]; intros n acc k Hn; cbn [dec_aux]; [lia|].
  destruct (N.eqb_spec (n / 10) 0) as [Hz|Hnz]; [cbn [length]; lia|].
  destruct k as [|k].
  - cbn in Hn. assert (n / 10 = 0) by (apply N.div_small; lia). contradiction.
  - specialize (IH (n / 10) ((48 + n mod 10) :: acc) k). cbn [length] in IH.
    assert (n / 10 < 10 ^ N.of_nat (S k)).
    { rewrite (Nat2N.inj_succ (S k)), N.pow_succ_r' in Hn. apply N.div_lt_upper_bound; lia. }
    specialize (IH H). lia.
Qed.

Lemma dec_len_i64 n : (Z.of_N n <= two63)%Z -> (length (dec n) <= 19)%nat.
Proof.
  intros H. unfold dec. pose proof (dec_aux_len (S (N.size_nat n)) n [] 18) as L. cbn [length] in L.
  assert (n < 10 ^ N.of_nat 19) by (change (10 ^ N.of_nat 19) with 10000000000000000000; unfold two63 in H; lia).
  specialize (L H0). lia.
Qed.

Lemma dec_hd_digit n : exists d r, dec n = d :: r /\ 48 <= d <= 57.
Proof.
  pose proof (dec_nonempty n) as Hne. pose proof (dec_digits n) as Hd.
  destruct (dec n) as [|d r]; [congruence|]. inversion Hd; subst. exists d, r. split; [reflexivity|].
  now apply is_digit_spec.
Qed.

Lemma firstn_drop2 (l : bytes) : firstn (length (l ++ crlf) - 2) (l ++ crlf) = l.
Proof.
  replace (length (l ++ crlf) - 2)%nat with (length l) by (rewrite app_length; cbn; lia).
  apply firstn_app_exact.
Qed.

(** readI on a numeral with or without a minus sign *)
Lemma parse_int_signed (neg : bool) n : (Z.of_N n < two63)%Z ->
  parse_int_line ((if neg then [45] else []) ++ dec n ++ crlf) = Ok (if neg then (- Z.of_N n)%Z else Z.of_N n).
Proof.
  intros Hn. unfold parse_int_line.
  destruct (dec_hd_digit n) as (d & r & E & Hd).
  assert (Hlen : (3 <= length (dec n ++ crlf))%nat) by (rewrite E, app_length; cbn; lia).
  assert (Hdl : digits_loop (dec n) 0%Z = Ok (Z.of_N n)).
  { rewrite digits_loop_dval; change (Z.to_N 0) with 0; rewrite ?dec_val; try apply dec_digits; auto; lia. }
  destruct neg; cbn [app length hd tl].
  - destruct (Nat.ltb_spec (S (length (dec n ++ crlf))) 3); [lia|].
    change (45 =? 63) with false. change (45 =? 45) with true. cbv iota.
    rewrite firstn_drop2, Hdl. f_equal. rewrite <- Z.opp_eq_mul_m1. apply wrap64_id. unfold in_i64, two63 in *. lia.
  - destruct (Nat.ltb_spec (length (dec n ++ crlf)) 3); [lia|].
    replace (hd 0 (dec n ++ crlf)) with d by (rewrite E; reflexivity).
    destruct (N.eqb_spec d 63) as [->|_]; [lia|]. destruct (N.eqb_spec d 45) as [->|_]; [lia|].
    rewrite firstn_drop2, Hdl. f_equal. rewrite Z.mul_1_r. apply wrap64_small_z. lia.
Qed.

Lemma decZ_nonneg n : decZ (Z.of_N n) = dec n.
Proof. destruct n; reflexivity. Qed.

Lemma parse_int_decZ i : in_i64 i -> parse_int_line (decZ i ++ crlf) = Ok i.
Proof.
  intros [Hlo Hhi]. destruct i as [|p|p].
  - reflexivity.
  - apply (parse_int_signed false (N.pos p)). exact Hhi.
  - destruct (Z.eq_dec (Z.neg p) (- two63)) as [E|Hne].
    + (* the one numeral whose digits overflow before the sign is applied: both steps wrap *)
      unfold two63 in E. inversion E. subst p. vm_compute. reflexivity.
    + apply (parse_int_signed true (N.pos p)). unfold two63 in *. lia.
Qed.

Lemma no_lf_decZ i : no_lf (decZ i) = true.
Proof.
  destruct i; cbn [decZ]; try (apply no_lf_digits, dec_digits).
  cbn [no_lf forallb]. fold (no_lf (dec (N.pos p))). now rewrite (no_lf_digits _ (dec_digits _)).
Qed.

Lemma decZ_len i : in_i64 i -> (length (decZ i) <= 20)%nat.
Proof.
  intros [Hlo Hhi]. destruct i as [|p|p].
  - cbn. lia.
  - change (decZ (Z.pos p)) with (dec (N.pos p)).
    pose proof (dec_len_i64 (N.pos p) ltac:(unfold two63 in *; lia)). lia.
  - cbn [decZ length].
    pose proof (dec_len_i64 (N.pos p) ltac:(unfold two63 in *; lia)). lia.
Qed.

(** readI on a numeral line *)
Lemma run_read_i B i rest al : (32 <= B)%nat -> in_i64 i ->
  run B read_i (decZ i ++ crlf ++ rest) al = (Ok i, rest, al).
Proof.
  intros HB Hi. unfold read_i.
  erewrite run_bindr_ok.
  2:{ rewrite run_do_op, step_read_slice_line; [reflexivity|apply no_lf_decZ|].
      pose proof (decZ_len i Hi). lia. }
  cbn [run meter]. now rewrite parse_int_decZ.
Qed.

Lemma run_read_i_nat B n rest al : (32 <= B)%nat -> (Z.of_N n < two63)%Z ->
  run B read_i (dec n ++ crlf ++ rest) al = (Ok (Z.of_N n), rest, al).
Proof.
  intros HB Hn. rewrite <- decZ_nonneg. apply run_read_i; [assumption|].
  unfold in_i64, two63 in *. lia.
Qed.

(** readI on "?\r\n" and on "-1\r\n" *)
Lemma run_read_i_chunked B rest al : (32 <= B)%nat ->
  run B read_i ([63] ++ crlf ++ rest) al = (Err eChunked, rest, al).
Proof.
  intros HB. unfold read_i. erewrite run_bindr_ok.
  2:{ rewrite run_do_op, step_read_slice_line; [reflexivity|reflexivity|cbn; lia]. }
  reflexivity.
Qed.

Lemma run_read_i_minus1 B rest al : (32 <= B)%nat ->
  run B read_i ([45; 49] ++ crlf ++ rest) al = (Ok (-1)%Z, rest, al).
Proof. intros HB. apply (run_read_i B (-1)%Z rest al HB). unfold in_i64, two63. lia. Qed.

Lemma run_read_s B s rest al : no_lf s = true ->
  exists al', run B read_s (s ++ crlf ++ rest) al = (Ok s, rest, al').
Proof.
  intros Hn. unfold read_s.
  set (slow := bindr (do_op OReadBytes) _).
  assert (Hslow : exists al', run B slow (s ++ crlf ++ rest) al = (Ok s, rest, al')).
  { unfold slow. eexists. erewrite run_bindr_ok.
    2:{ rewrite run_do_op, step_read_bytes_line by assumption. reflexivity. }
    rewrite run_bind, run_alloc. rewrite app_length. cbn [crlf length].
    destruct (Nat.ltb_spec (length s + 2) 2) as [Hx|_]; [lia|].
    replace (length s + 2 - 2)%nat with (length s) by lia. rewrite firstn_app_exact. reflexivity. }
  rewrite run_bind, run_do_op. cbn [flat_step fst snd meter is_ok].
  destruct (bytes_eqb OKs (firstn 2 (s ++ crlf ++ rest))) eqn:E2; [|exact Hslow].
  rewrite run_bind, run_do_op. cbn [flat_step fst snd meter is_ok].
  destruct (bytes_eqb OKrn (firstn 4 (s ++ crlf ++ rest))) eqn:E4; [|exact Hslow].
  (* the fast path: the line is exactly "OK" *)
  assert (Hs : s = OKs).
  { apply list_eqb_bytes_true in E4. unfold OKrn, crlf, CR, LF in E4.
    destruct s as [|a [|b [|c [|d s']]]]; cbn [app firstn] in E4; inversion E4; subst; try reflexivity.
    exfalso. cbn [no_lf forallb] in Hn. rewrite !andb_true_iff in Hn. destruct Hn as (_ & _ & _ & H10 & _).
    discriminate H10. }
  subst s. eexists. rewrite run_bind, run_do_op.
  change (OKs ++ crlf ++ rest) with (OKrn ++ rest). rewrite (step_discard B 4 OKrn rest eq_refl). reflexivity.
Qed.

(** the loop: [n] bytes of the payload are in [acc], [cap] is the current buffer length *)
Lemma run_read_n_loop B (s rest : bytes) : forall fuel n cap al,
  (0 <= n <= cap)%Z -> (cap <= zlen s)%Z -> (zlen s <= max_alloc)%Z ->
  (0 < cap \/ zlen s = 0)%Z ->
  (zlen s <= cap * 2 ^ (Z.of_nat fuel - 1))%Z -> (1 <= fuel)%nat ->
  exists al',
    run B (read_n_loop fuel (zlen s) n cap (firstn (Z.to_nat n) s)) (skipn (Z.to_nat n) s ++ rest) al = (Ok s, rest, al').
Proof.
  induction fuel as [|f IH]; intros n cap al Hn Hcap Hmax Hpos Hf H1; [lia|].
  cbn [read_n_loop]. rewrite run_bind, run_do_op.
  assert (Hlen : Z.to_N (cap - n) <= blen (skipn (Z.to_nat n) s ++ rest)).
  { unfold blen, zlen in *. rewrite app_length, skipn_length. lia. }
  rewrite step_read_full by exact Hlen. cbn [fst snd meter].
  assert (Hacc : firstn (Z.to_nat n) s ++ firstn (N.to_nat (Z.to_N (cap - n))) (skipn (Z.to_nat n) s ++ rest) = firstn (Z.to_nat cap) s).
  { rewrite firstn_app_short by (rewrite skipn_length; unfold zlen in *; lia).
    replace (N.to_nat (Z.to_N (cap - n))) with (Z.to_nat cap - Z.to_nat n)%nat by lia.
    rewrite <- (firstn_skipn (Z.to_nat n) (firstn (Z.to_nat cap) s)).
    f_equal.
    - rewrite firstn_firstn. f_equal. lia.
    - rewrite skipn_firstn_comm. reflexivity. }
  assert (Hrest : skipn (N.to_nat (Z.to_N (cap - n))) (skipn (Z.to_nat n) s ++ rest) = skipn (Z.to_nat cap) s ++ rest).
  { rewrite skipn_app_short by (rewrite skipn_length; unfold zlen in *; lia).
    rewrite skipn_skipn. f_equal. f_equal. lia. }
  rewrite Hacc, Hrest.
  destruct (Z.eqb_spec cap (zlen s)) as [E|Hne].
  - eexists. cbn [run]. rewrite E. unfold zlen. rewrite Nat2Z.id, firstn_all, skipn_all. reflexivity.
  - assert (Hc0 : (0 < cap)%Z) by lia.
    erewrite run_bindr_ok.
    2:{ apply run_alloc_make; lia. }
    assert (Hf2 : (1 <= f)%nat).
    { destruct f; [|lia]. cbn in Hf. lia. }
    replace (Z.of_nat (S f) - 1)%Z with (Z.succ (Z.of_nat f - 1)) in Hf by lia.
    rewrite Z.pow_succ_r in Hf by lia.
    pose proof (Z.pow_pos_nonneg 2 (Z.of_nat f - 1) ltac:(lia) ltac:(lia)) as Hp.
    destruct (Z.min_spec (zlen s) (cap * 2)) as [[Hm ->]|[Hm ->]]; apply IH; try lia; nia.
Qed.

Lemma run_read_n B s rest al : (zlen s <= max_alloc)%Z ->
  exists al', run B (read_n (zlen s)) (s ++ rest) al = (Ok s, rest, al').
Proof.
  intros Hmax. unfold read_n.
  destruct (Z.ltb_spec (zlen s) 0) as [Hx|_]; [unfold zlen in Hx; lia|].
  pose proof (Zle_0_nat (length s)) as H0. fold (zlen s) in H0.
  erewrite run_bindr_ok.
  2:{ apply run_alloc_make; unfold max_prealloc_bytes; lia. }
  apply (run_read_n_loop B s rest 64 0 (Z.min (zlen s) max_prealloc_bytes)); unfold max_prealloc_bytes; try lia.
  destruct (Z.min_spec (zlen s) 65536) as [[_ ->]|[_ ->]].
  - change (2 ^ (Z.of_nat 64 - 1))%Z with 9223372036854775808%Z. lia.
  - unfold max_alloc in Hmax. change (2 ^ (Z.of_nat 64 - 1))%Z with 9223372036854775808%Z. lia.
Qed.

(** one iteration of the doubling loop when the stream still holds what the buffer has room for, and when it
    ends before that (stated over the length of the stream only: this is how a declared length far above
    what follows is followed through the doubling schedule without looking at the bytes) *)
Lemma run_read_n_loop_grow B f L n cap cap' acc (s : bytes) al :
  (cap =? L)%Z = false -> cap' = Z.min L (cap * 2) -> (0 <= cap' <= max_alloc)%Z -> Z.to_N (cap - n) <= blen s ->
  run B (read_n_loop (S f) L n cap acc) s al =
  run B (read_n_loop f L cap cap' (acc ++ firstn (Z.to_nat (cap - n)) s)) (skipn (Z.to_nat (cap - n)) s) (al + Z.to_N cap').
Proof.
  intros Hne -> Hc Hs. cbn [read_n_loop]. rewrite run_bind, run_do_op, step_read_full by assumption.
  cbn [fst snd meter]. rewrite Hne, Z_N_nat.
  erewrite run_bindr_ok by (apply run_alloc_make; lia). now rewrite Z.mul_1_r.
Qed.

Lemma run_read_n_loop_eof B f L n cap acc (s : bytes) al : 0 < blen s < Z.to_N (cap - n) ->
  run B (read_n_loop (S f) L n cap acc) s al = (Err eUnexpectedEOF, [], al).
Proof.
  intros Hs. cbn [read_n_loop]. rewrite run_bind, run_do_op. cbn [flat_step].
  destruct (N.eqb_spec (Z.to_N (cap - n)) 0); [lia|]. destruct (N.leb_spec (Z.to_N (cap - n)) (blen s)); [lia|].
  destruct s; [cbn in Hs; lia|reflexivity].
Qed.

Lemma blen_rep_bytes pat k : blen (rep_bytes pat k) = k * blen pat.
Proof.
  unfold rep_bytes. induction k as [|k IH] using N.peano_ind; [reflexivity|].
  rewrite N.iter_succ, blen_app, IH. lia.
Qed.

(** a declared length above 256 KiB with between 128 and 256 KiB of payload: the buffer is made 64, 128
    and 256 KiB long, and the third ReadFull meets the end of the stream *)
Lemma run_read_n_third_round B L (data : bytes) al : (262144 < L)%Z -> 131072 < blen data < 262144 ->
  run B (read_n L) data al = (Err eUnexpectedEOF, [], al + 458752).
Proof.
  intros HL Hd. unfold read_n, max_prealloc_bytes. destruct (Z.ltb_spec L 0); [lia|]. rewrite Z.min_r by lia.
  erewrite run_bindr_ok by (apply run_alloc_make; unfold max_alloc; lia).
  rewrite (run_read_n_loop_grow B 63 L 0 65536 131072), (run_read_n_loop_grow B 62 L 65536 131072 262144),
    run_read_n_loop_eof; rewrite ?blen_skipn; unfold max_alloc; try lia.
  f_equal. lia.
Qed.

Lemma run_read_b B s rest al : (32 <= B)%nat -> (zlen s <= max_alloc)%Z ->
  exists al', run B read_b (dec (blen s) ++ crlf ++ s ++ crlf ++ rest) al = (Ok s, rest, al').
Proof.
  intros HB Hmax. unfold read_b.
  assert (Hlt : (Z.of_N (blen s) < two63)%Z) by (unfold blen, zlen, max_alloc, two63 in *; lia).
  erewrite run_bindr_ok by (apply run_read_i_nat; assumption).
  replace (Z.of_N (blen s)) with (zlen s) by (unfold blen, zlen; lia).
  destruct (Z.eqb_spec (zlen s) (-1)) as [Hx|_]; [unfold zlen in Hx; lia|].
  destruct (run_read_n B s (crlf ++ rest) al Hmax) as [al' E].
  erewrite run_bindr_ok by exact E.
  eexists. erewrite run_bindr_ok by (rewrite run_do_op, (step_discard B 2 crlf _ eq_refl); reflexivity).
  reflexivity.
Qed.