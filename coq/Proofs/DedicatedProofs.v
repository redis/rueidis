(** Model/Dedicated.v (C25, C27_tracking_off): the invariant [dinv] with [replay] of the log against a map wire -> holder
    ([dinv_reach]); the mark of a released client and the clean-up of Store ([release_marks], [cleanup]); every step as
    the work of one holder ([acts], [dstep_acts]), whence nothing is sent for a recycled client. *)
From Coq Require Import String List Arith NArith ZArith Bool Lia.
Require Import RV.Model.Base RV.Model.PsBase RV.Model.Dedicated RV.Proofs.PsListProofs.
Import ListNotations.
Open Scope N_scope.
Open Scope list_scope.

(** replaying the log against the "set of holders" specification *)
Fixpoint replay (hs : list (N * holder)) (l : list ev) : option (list (N * holder)) :=
  match l with
  | [] => Some hs
  | EvAcq w h :: r => match holder_of w hs with Some _ => None | None => replay ((w, h) :: hs) r end
  | EvCmd w h _ :: r => match holder_of w hs with Some h' => if holder_eqb h h' then replay hs r else None | None => None end
  | EvRel w h _ :: r => match holder_of w hs with Some h' => if holder_eqb h h' then replay (drop_holder w hs) r else None | None => None end
  end.

Lemma log_ok_replay : forall l hs, log_ok hs l = true <-> exists hs', replay hs l = Some hs'.
Proof.
  induction l as [|e l IH]; intros hs; cbn.
  - split; eauto.
  - destruct e as [w h|w h c|w h i]; destruct (holder_of w hs) as [h'|]; try (split; [discriminate|intros [x Hx]; discriminate]).
    + apply IH.
    + destruct (holder_eqb h h'); cbn; [apply IH|split; [discriminate|intros [x Hx]; discriminate]].
    + destruct (holder_eqb h h'); cbn; [apply IH|split; [discriminate|intros [x Hx]; discriminate]].
Qed.

Lemma replay_app : forall l1 l2 hs, replay hs (l1 ++ l2) = match replay hs l1 with Some hs' => replay hs' l2 | None => None end.
Proof.
  induction l1 as [|e l1 IH]; intros l2 hs; [reflexivity|]. cbn.
  destruct e as [w h|w h c|w h i]; destruct (holder_of w hs) as [h'|]; auto; destruct (holder_eqb h h'); auto.
Qed.

Lemma holder_eqb_refl : forall h, holder_eqb h h = true.
Proof. destruct h; cbn; apply N.eqb_refl. Qed.

Lemma holder_of_drop_same : forall w hs, holder_of w (drop_holder w hs) = None.
Proof.
  induction hs as [|[w' h] hs IH]; [reflexivity|]. cbn. destruct (N.eqb w' w) eqn:E; [exact IH|]. cbn. rewrite E. exact IH.
Qed.

Lemma holder_of_drop_other : forall w w' hs, w' <> w -> holder_of w' (drop_holder w hs) = holder_of w' hs.
Proof.
  intros w w' hs Hne. induction hs as [|[w0 h] hs IH]; [reflexivity|]. cbn.
  destruct (N.eqb w0 w) eqn:E.
  - apply N.eqb_eq in E. subst w0. assert (N.eqb w w' = false) by (apply N.eqb_neq; congruence). rewrite H. exact IH.
  - cbn. destruct (N.eqb w0 w'); [reflexivity|exact IH].
Qed.

Definition find_wire_in := find_in w_id find_wire (fun _ => eq_refl) (fun _ _ _ => eq_refl).
Definition find_wire_app := find_app w_id find_wire (fun _ => eq_refl) (fun _ _ _ => eq_refl).
Definition find_dc_in := find_in dc_id find_dc (fun _ => eq_refl) (fun _ _ _ => eq_refl).
Definition find_dc_none := find_none dc_id find_dc (fun _ _ _ => eq_refl).
Definition find_dc_app := find_app dc_id find_dc (fun _ => eq_refl) (fun _ _ _ => eq_refl).

Lemma find_upd_wire : forall f w w0 l, (forall x, w_id (f x) = w_id x) ->
  find_wire w (upd_wire f w0 l) = if N.eqb w w0 then option_map f (find_wire w l) else find_wire w l.
Proof. intros f. exact (find_upd w_id find_wire (fun _ => eq_refl) (fun _ _ _ => eq_refl) f). Qed.

Lemma find_dc_upd : forall f d0 d l, (forall c, dc_id (f c) = dc_id c) ->
  find_dc d (upd_dc f d0 l) = if N.eqb d d0 then option_map f (find_dc d l) else find_dc d l.
Proof. intros f d0 d. exact (find_upd dc_id find_dc (fun _ => eq_refl) (fun _ _ _ => eq_refl) f d d0). Qed.

Lemma find_wire_none_lt : forall w l, (forall x, In x l -> w_id x < w) -> find_wire w l = None.
Proof.
  induction l as [|y l IH]; intros H; [reflexivity|]. cbn.
  destruct (N.eqb (w_id y) w) eqn:E.
  - apply N.eqb_eq in E. specialize (H y (or_introl eq_refl)). lia.
  - apply IH. intros x Hx. apply H. right. exact Hx.
Qed.

Definition held (s : dstate) (w : N) : option holder :=
  match find_wire w (d_wires s) with Some x => w_holder x | None => None end.

(** the log replays to the map wire -> holder that the wires record; wire ids lie below [d_next]; idle wires are
    unheld and alive; a client that is not marked holds its wire; client ids and idle wires are without duplicates *)
Record dinv (s : dstate) : Prop := {
  di_replay : exists hs, replay [] (d_log s) = Some hs /\ forall w, holder_of w hs = held s w;
  di_lt : forall x, In x (d_wires s) -> w_id x < d_next s;
  di_idle : forall w, In w (d_idle s) -> exists x, find_wire w (d_wires s) = Some x /\ w_holder x = None /\ w_dead x = false;
  di_clients : forall c, In c (d_clients s) -> dc_mark c = false ->
                 exists x, find_wire (dc_wire c) (d_wires s) = Some x /\ w_holder x = Some (HDed (dc_id c));
  di_cl_nodup : NoDup (map dc_id (d_clients s));
  di_idle_nodup : NoDup (d_idle s)
}.

Lemma dinv_init : forall f v, dinv (dinit f v).
Proof.
  intros f v. constructor; cbn; try (intros; contradiction); try constructor.
  exists []. split; [reflexivity|]. intros w. reflexivity.
Qed.

(** appending events issued by the current holder of a wire that stays held *)
Lemma replay_cmds : forall hs w h cs,
  holder_of w hs = Some h -> replay hs (map (fun c => EvCmd w h c) cs) = Some hs.
Proof.
  intros hs w h cs H. induction cs as [|c cs IH]; [reflexivity|]. cbn. rewrite H, holder_eqb_refl. exact IH.
Qed.

Lemma held_upd : forall s s' f w0 w, d_wires s' = upd_wire f w0 (d_wires s) -> (forall x, w_id (f x) = w_id x) ->
  held s' w = if N.eqb w w0 then match find_wire w (d_wires s) with Some x => w_holder (f x) | None => None end else held s w.
Proof.
  intros s s' f w0 w E Hf. unfold held. rewrite E, find_upd_wire by exact Hf.
  destruct (N.eqb w w0); [destruct (find_wire w (d_wires s)); reflexivity|reflexivity].
Qed.

(** an update that keeps the holder keeps who holds what *)
Lemma held_keep : forall s s' f w w', d_wires s' = upd_wire f w (d_wires s) ->
  (forall x, w_id (f x) = w_id x /\ w_holder (f x) = w_holder x) -> held s' w' = held s w'.
Proof.
  intros s s' f w w' E Hf. rewrite (held_upd s s' f w w' E) by (intros x; apply Hf). unfold held.
  destruct (N.eqb w' w); [|reflexivity]. destruct (find_wire w' (d_wires s)); [apply Hf|reflexivity].
Qed.

Lemma acquire_log : forall s h s1 w, pool_acquire s h = (s1, w) ->
  d_log s1 = d_log s ++ [EvAcq w h] /\ d_clients s1 = d_clients s /\ d_res s1 = d_res s.
Proof.
  intros s h s1 w H. unfold pool_acquire in H. destruct (d_idle s); injection H as <- <-; repeat split; reflexivity.
Qed.

(** pool.Acquire *)
Lemma acquire_inv : forall s h s1 w, dinv s -> pool_acquire s h = (s1, w) ->
  dinv s1 /\ held s1 w = Some h /\ held s w = None.
Proof.
  intros s h s1 w [Hrep Hlt Hidle Hcl Hnd Hind] Hacq. unfold pool_acquire in Hacq.
  destruct Hrep as [hs [Hr Hh]].
  destruct (d_idle s) as [|w0 rest] eqn:Ei.
  - (* a new connection *)
    injection Hacq as <- <-.
    assert (Hnone : find_wire (d_next s) (d_wires s) = None) by (apply find_wire_none_lt; exact Hlt).
    assert (Hheld : forall w', held {| d_wires := d_wires s ++ [mkWire (d_next s) (Some h) false false false false (d_v7 s) false false];
                         d_idle := []; d_next := d_next s + 1; d_clients := d_clients s; d_log := d_log s ++ [EvAcq (d_next s) h];
                         d_res := d_res s; d_shared := d_shared s; d_v7 := d_v7 s |} w' =
                     if N.eqb w' (d_next s) then Some h else held s w').
    { intros w'. unfold held. cbn [d_wires]. rewrite find_wire_app. cbn [find_wire w_id].
      destruct (N.eqb w' (d_next s)) eqn:E.
      - apply N.eqb_eq in E. subst w'. rewrite Hnone, N.eqb_refl. reflexivity.
      - destruct (find_wire w' (d_wires s)); [reflexivity|]. rewrite N.eqb_sym, E. reflexivity. }
    split; [constructor; cbn [d_wires d_idle d_next d_clients d_log]|].
    + exists ((d_next s, h) :: hs). split.
      * rewrite replay_app, Hr. cbn. rewrite Hh. unfold held. rewrite Hnone. reflexivity.
      * intros w'. rewrite Hheld. cbn. rewrite N.eqb_sym. destruct (N.eqb w' (d_next s)); [reflexivity|apply Hh].
    + intros x Hx. apply in_app_or in Hx. destruct Hx as [Hx|[<-|[]]]; [specialize (Hlt x Hx); lia|cbn; lia].
    + intros w' [].
    + intros c Hc Hm. destruct (Hcl c Hc Hm) as [x [A B]]. exists x. split; [|exact B]. rewrite find_wire_app, A. reflexivity.
    + exact Hnd.
    + constructor.
    + split; [rewrite Hheld, N.eqb_refl; reflexivity|]. unfold held. rewrite Hnone. reflexivity.
  - (* an idle wire *)
    injection Hacq as <- <-.
    destruct (Hidle w0 (or_introl eq_refl)) as [x0 [F0 [H0 D0]]].
    set (f := fun x => mkWire (w_id x) (Some h) (w_hooks x) (w_inval x) (w_bg x) (w_blocked x) (w_v7 x) (w_tracking x) (w_dead x)).
    assert (Hfid : forall x, w_id (f x) = w_id x) by reflexivity.
    assert (Hheld : forall w', held {| d_wires := upd_wire f w0 (d_wires s); d_idle := rest; d_next := d_next s; d_clients := d_clients s;
                         d_log := d_log s ++ [EvAcq w0 h]; d_res := d_res s; d_shared := d_shared s; d_v7 := d_v7 s |} w' =
                     if N.eqb w' w0 then Some h else held s w').
    { intros w'. rewrite (held_upd s _ f w0 w') by (reflexivity || exact Hfid).
      destruct (N.eqb w' w0) eqn:E; [|reflexivity]. apply N.eqb_eq in E. subst w'. rewrite F0. reflexivity. }
    inversion Hind as [|? ? Hnotin Hind']; subst.
    split; [constructor; cbn [d_wires d_idle d_next d_clients d_log]|].
    + exists ((w0, h) :: hs). split.
      * rewrite replay_app, Hr. cbn. rewrite Hh. unfold held. rewrite F0, H0. reflexivity.
      * intros w'. rewrite Hheld. cbn. rewrite N.eqb_sym. destruct (N.eqb w' w0); [reflexivity|apply Hh].
    + intros x Hx. unfold upd_wire in Hx. apply in_map_iff in Hx. destruct Hx as [y [<- Hy]].
      destruct (N.eqb (w_id y) w0); [cbn|]; apply Hlt; exact Hy.
    + intros w' Hw'. destruct (Hidle w' (or_intror Hw')) as [x [A [B C]]].
      assert (Hne : N.eqb w' w0 = false) by (apply N.eqb_neq; intros ->; contradiction).
      rewrite find_upd_wire by exact Hfid. rewrite Hne. eauto.
    + intros c Hc Hm. destruct (Hcl c Hc Hm) as [x [A B]]. rewrite find_upd_wire by exact Hfid.
      destruct (N.eqb (dc_wire c) w0) eqn:E.
      * apply N.eqb_eq in E. rewrite E in A. rewrite A in F0. injection F0 as <-. congruence.
      * eauto.
    + exact Hnd.
    + exact Hind'.
    + split; [rewrite Hheld, N.eqb_refl; reflexivity|]. unfold held. rewrite F0. exact H0.
Qed.

Lemma held_not_idle : forall s w h, dinv s -> held s w = Some h -> ~ In w (d_idle s).
Proof.
  intros s w h I Hh Hin. destruct (di_idle _ I w Hin) as [x [A [B _]]]. unfold held in Hh. rewrite A in Hh. congruence.
Qed.

(** a command (or a state change) of the holder on its wire *)
Lemma cmd_inv : forall s w h cs (f : wire -> wire),
  dinv s -> held s w = Some h ->
  (forall x, w_id (f x) = w_id x /\ w_holder (f x) = w_holder x) ->
  dinv (mkD (upd_wire f w (d_wires s)) (d_idle s) (d_next s) (d_clients s) (d_log s ++ map (fun c => EvCmd w h c) cs)
            (d_res s) (d_shared s) (d_v7 s)).
Proof.
  intros s w h cs f I Hh Hf. pose proof (held_not_idle s w h I Hh) as Hni.
  destruct I as [[hs [Hr Hhs]] Hlt Hidle Hcl Hnd Hind].
  assert (Hfid : forall x, w_id (f x) = w_id x) by (intros x; apply Hf).
  constructor; cbn [d_wires d_idle d_next d_clients d_log].
  - exists hs. split.
    + rewrite replay_app, Hr. apply replay_cmds. rewrite Hhs. exact Hh.
    + intros w'. rewrite (held_keep s _ f w w') by (reflexivity || exact Hf). apply Hhs.
  - intros x Hx. unfold upd_wire in Hx. apply in_map_iff in Hx. destruct Hx as [y [<- Hy]].
    destruct (N.eqb (w_id y) w); [rewrite Hfid|]; apply Hlt; exact Hy.
  - intros w' Hw'. destruct (Hidle w' Hw') as [x [A [B C]]].
    rewrite find_upd_wire by exact Hfid.
    destruct (N.eqb w' w) eqn:E; [apply N.eqb_eq in E; subst w'; contradiction|eauto].
  - intros c Hc Hm. destruct (Hcl c Hc Hm) as [x [A B]]. rewrite find_upd_wire by exact Hfid.
    destruct (N.eqb (dc_wire c) w); [rewrite A; cbn; eexists; split; [reflexivity|]; destruct (Hf x) as [_ X]; rewrite X; exact B|eauto].
  - exact Hnd.
  - exact Hind.
Qed.

(** giving a wire back: the holder's last commands, the release marker, the wire idle again unless it is dead *)
Lemma release_inv : forall s w h x cs (g : wire -> wire) idle',
  dinv s -> find_wire w (d_wires s) = Some x -> w_holder x = Some h ->
  (forall y, w_id (g y) = w_id y /\ w_holder (g y) = None) ->
  (forall c, In c (d_clients s) -> dc_mark c = false -> dc_wire c <> w) ->
  dinv (mkD (upd_wire g w (d_wires s)) (if w_dead (g x) then d_idle s else w :: d_idle s) (d_next s) (d_clients s)
            (d_log s ++ map (fun c => EvCmd w h c) cs ++ [EvRel w h idle']) (d_res s) (d_shared s) (d_v7 s)).
Proof.
  intros s w h x cs g idle' I Fw Hx Hg Hcw.
  assert (Hh : held s w = Some h) by (unfold held; rewrite Fw; exact Hx).
  pose proof (held_not_idle s w h I Hh) as Hni.
  destruct I as [[hs [Hr Hhs]] Hlt Hidle Hcl Hnd Hind].
  assert (Hgid : forall y, w_id (g y) = w_id y) by (intros y; apply Hg).
  assert (Hheld' : forall w', held (mkD (upd_wire g w (d_wires s)) (if w_dead (g x) then d_idle s else w :: d_idle s) (d_next s) (d_clients s)
            (d_log s ++ map (fun c => EvCmd w h c) cs ++ [EvRel w h idle']) (d_res s) (d_shared s) (d_v7 s)) w' =
            if N.eqb w' w then None else held s w').
  { intros w'. rewrite (held_upd s _ g w w') by (reflexivity || exact Hgid).
    destruct (N.eqb w' w) eqn:E; [|reflexivity]. apply N.eqb_eq in E. subst w'. rewrite Fw. apply Hg. }
  constructor; cbn [d_wires d_idle d_next d_clients d_log].
  - exists (drop_holder w hs). split.
    + rewrite replay_app, Hr, replay_app, replay_cmds by (rewrite Hhs; exact Hh). cbn. rewrite Hhs, Hh, holder_eqb_refl. reflexivity.
    + intros w'. rewrite Hheld'. destruct (N.eqb w' w) eqn:E.
      * apply N.eqb_eq in E. subst w'. apply holder_of_drop_same.
      * apply N.eqb_neq in E. rewrite holder_of_drop_other by exact E. apply Hhs.
  - intros y Hy. unfold upd_wire in Hy. apply in_map_iff in Hy. destruct Hy as [z [<- Hz]].
    destruct (N.eqb (w_id z) w); [rewrite Hgid|]; apply Hlt; exact Hz.
  - intros w' Hw'.
    assert (Hold : In w' (d_idle s) -> exists y, find_wire w' (upd_wire g w (d_wires s)) = Some y /\ w_holder y = None /\ w_dead y = false).
    { intros Hin. destruct (Hidle w' Hin) as [y [A [B C]]]. rewrite find_upd_wire by exact Hgid.
      destruct (N.eqb w' w) eqn:E; [apply N.eqb_eq in E; subst w'; contradiction|eauto]. }
    destruct (w_dead (g x)) eqn:Ed; [apply Hold; exact Hw'|].
    destruct Hw' as [<-|Hw']; [|apply Hold; exact Hw'].
    rewrite find_upd_wire by exact Hgid. rewrite N.eqb_refl, Fw. cbn. eexists. split; [reflexivity|]. split; [apply Hg|exact Ed].
  - intros c Hc Hm. destruct (Hcl c Hc Hm) as [y [A B]]. rewrite find_upd_wire by exact Hgid.
    specialize (Hcw c Hc Hm). apply N.eqb_neq in Hcw. rewrite Hcw. eauto.
  - exact Hnd.
  - destruct (w_dead (g x)); [exact Hind|]. constructor; assumption.
Qed.

Lemma store_events_shape : forall x h, exists cs b,
  store_events x h = map (fun c => EvCmd (w_id x) h c) cs ++ [EvRel (w_id x) h b].
Proof.
  intros x h. unfold store_events.
  destruct (w_dead x), (w_blocked x), (w_bg x), (w_inval x); cbn;
    first [ exists []; eexists; reflexivity
          | eexists [_]; eexists; reflexivity
          | eexists [_; _]; eexists; reflexivity ].
Qed.

Lemma store_inv : forall s w h x,
  dinv s -> find_wire w (d_wires s) = Some x -> w_holder x = Some h ->
  (forall c, In c (d_clients s) -> dc_mark c = false -> dc_wire c <> w) ->
  dinv (mux_store s w h).
Proof.
  intros s w h x I Fw Hx Hcw. unfold mux_store. rewrite Fw.
  destruct (store_events_shape x h) as [cs [b E]]. rewrite E.
  destruct (find_wire_in _ _ _ Fw) as [_ Hid]. rewrite Hid.
  apply (release_inv s w h x cs stored_wire b I Fw Hx); auto.
Qed.

Lemma dinv_frame : forall s s',
  d_wires s' = d_wires s -> d_idle s' = d_idle s -> d_next s' = d_next s -> d_clients s' = d_clients s -> d_log s' = d_log s ->
  dinv s -> dinv s'.
Proof.
  intros s s' A B C D E [Hr Hlt Hidle Hcl Hnd Hind].
  constructor; unfold held in *; rewrite ?A, ?B, ?C, ?D, ?E; auto.
Qed.

(** Release and Close mark the client *)
Definition mark_client (d : N) (l : list dclient) : list dclient :=
  upd_dc (fun c => mkDC (dc_id c) (dc_wire c) true) d l.

(** marking a client recycled only weakens what the invariant asks of the clients *)
Lemma dinv_mark : forall s d, dinv s ->
  dinv (set_clients s (mark_client d (d_clients s))).
Proof.
  intros s d [Hr Hlt Hidle Hcl Hnd Hind]. constructor; cbn; auto.
  - intros c Hc Hm. unfold mark_client, upd_dc in Hc. apply in_map_iff in Hc. destruct Hc as [c0 [<- Hc0]].
    destruct (N.eqb (dc_id c0) d); [discriminate|]. apply Hcl; assumption.
  - unfold mark_client, upd_dc. rewrite map_map. erewrite map_ext; [exact Hnd|]. intros c. destruct (N.eqb (dc_id c) d); reflexivity.
Qed.

(** two live dedicated clients never share a wire *)
Lemma live_wire_unique : forall s c1 c2, dinv s -> In c1 (d_clients s) -> In c2 (d_clients s) ->
  dc_mark c1 = false -> dc_mark c2 = false -> dc_wire c1 = dc_wire c2 -> dc_id c1 = dc_id c2.
Proof.
  intros s c1 c2 I H1 H2 M1 M2 E. destruct (di_clients _ I c1 H1 M1) as [x1 [A1 B1]]. destruct (di_clients _ I c2 H2 M2) as [x2 [A2 B2]].
  rewrite E in A1. rewrite A1 in A2. injection A2 as <-. congruence.
Qed.

Lemma in_upd_dc_other : forall d c l, In c (mark_client d l) -> dc_mark c = false ->
  In c l /\ dc_id c <> d.
Proof.
  intros d c l H Hm. unfold mark_client, upd_dc in H. apply in_map_iff in H. destruct H as [c0 [E Hc0]].
  destruct (N.eqb (dc_id c0) d) eqn:Eq; subst c; [discriminate|]. split; [exact Hc0|apply N.eqb_neq; exact Eq].
Qed.

Lemma user_cmd_inv : forall s w h a f, dinv s -> held s w = Some h ->
  (forall x, w_id (f x) = w_id x /\ w_holder (f x) = w_holder x) -> dinv (user_cmd s w h a f).
Proof.
  intros s w h a f I Hh Hf. unfold user_cmd. destruct (wire_dead s w); [exact I|].
  unfold log_cmd. apply (cmd_inv s w h [WUser a] f I Hh Hf).
Qed.

Lemma user_cmd_fields : forall s w h a f,
  d_clients (user_cmd s w h a f) = d_clients s /\ (forall w', (forall x, w_id (f x) = w_id x /\ w_holder (f x) = w_holder x) -> held (user_cmd s w h a f) w' = held s w').
Proof.
  intros s w h a f. unfold user_cmd. destruct (wire_dead s w); [split; auto|]. split; [reflexivity|].
  intros w' Hf. apply (held_keep s _ f w w'); [reflexivity|exact Hf].
Qed.

Lemma add_res_inv : forall s d r, dinv s -> dinv (add_res s d r).
Proof. intros s d r I. eapply dinv_frame; [..|exact I]; reflexivity. Qed.

Lemma client_holds : forall s d c, dinv s -> find_dc d (d_clients s) = Some c -> dc_mark c = false ->
  held s (dc_wire c) = Some (HDed d) /\ exists x, find_wire (dc_wire c) (d_wires s) = Some x /\ w_holder x = Some (HDed d).
Proof.
  intros s d c I F M. destruct (find_dc_in _ _ _ F) as [Hin Hid]. destruct (di_clients _ I c Hin M) as [x [A B]].
  rewrite Hid in B. split; [unfold held; rewrite A; exact B|eauto].
Qed.

(** an entry point of a dedicated client keeps the invariant if its body does on the wire the live client holds *)
Lemma entry_inv : forall s d k s', dinv s -> entry s d k = Some s' ->
  (forall c, held s (dc_wire c) = Some (HDed d) -> dinv (k c)) -> dinv s'.
Proof.
  intros s d k s' I H Hk. unfold entry in H. destruct (find_dc d (d_clients s)) as [c|] eqn:F; [|discriminate].
  destruct (dc_mark c) eqn:M; injection H as <-; apply add_res_inv; [exact I|].
  apply Hk. apply (client_holds s d c I F M).
Qed.

(** once [d] is marked, no live client is left on its wire *)
Lemma marked_others : forall s d c, dinv s -> find_dc d (d_clients s) = Some c -> dc_mark c = false ->
  forall c', In c' (mark_client d (d_clients s)) -> dc_mark c' = false ->
    dc_wire c' <> dc_wire c.
Proof.
  intros s d c I F M c' Hc' Hm' Ew. destruct (in_upd_dc_other _ _ _ Hc' Hm') as [Hin Hne].
  destruct (find_dc_in _ _ _ F) as [Hcin Hcid].
  apply Hne. rewrite <- Hcid. apply (live_wire_unique s c' c I Hin Hcin Hm' M Ew).
Qed.

Lemma dinv_step : forall s l s', dinv s -> dstep s l = Some s' -> dinv s'.
Proof.
  intros s l s' I H. destruct l; cbn [dstep] in H.
  - (* DAcquire *)
    destruct (find_dc d (d_clients s)) eqn:F; [discriminate|].
    destruct (pool_acquire s (HDed d)) as [s1 w] eqn:A. injection H as <-.
    destruct (acquire_inv s (HDed d) s1 w I A) as [I1 [Hh _]]. destruct (acquire_log _ _ _ _ A) as [_ [Hc _]].
    destruct I1 as [Hr Hlt Hidle Hcl Hnd Hind]. constructor; cbn; auto.
    + intros c Hin Hm. apply in_app_or in Hin. destruct Hin as [Hin|[<-|[]]]; [apply Hcl; assumption|].
      cbn. unfold held in Hh. destruct (find_wire w (d_wires s1)) as [x|]; [|discriminate]. eauto.
    + rewrite map_app. apply NoDup_snoc; [exact Hnd|]. rewrite Hc. intros Hin. apply in_map_iff in Hin.
      destruct Hin as [c [A' B]]. apply (find_dc_none _ _ F c B A').
  - (* DDo *) apply (entry_inv _ _ _ _ I H). intros c Hh. apply user_cmd_inv; auto.
  - (* DSubscribe *) apply (entry_inv _ _ _ _ I H). intros c Hh. apply user_cmd_inv; auto.
  - (* DBlockFail *) apply (entry_inv _ _ _ _ I H). intros c Hh.
    assert (I1 : dinv (user_cmd s (dc_wire c) (HDed d) a (fun x => x))) by (apply user_cmd_inv; auto).
    destruct (wire_dead s (dc_wire c)); [exact I1|].
    destruct (user_cmd_fields s (dc_wire c) (HDed d) a (fun x => x)) as [Ecl Hheld].
    assert (Hh1 : held (user_cmd s (dc_wire c) (HDed d) a (fun x => x)) (dc_wire c) = Some (HDed d)) by (rewrite Hheld; auto).
    destruct (find_wire (dc_wire c) (d_wires (user_cmd s (dc_wire c) (HDed d) a (fun x => x)))) as [x|]; [|exact I1].
    destruct (w_bg x).
    + pose proof (cmd_inv _ (dc_wire c) (HDed d) []
        (fun x => mkWire (w_id x) (w_holder x) (w_hooks x) (w_inval x) (w_bg x) true (w_v7 x) (w_tracking x) (w_dead x)) I1 Hh1) as I2.
      cbn [map] in I2. rewrite app_nil_r in I2. apply I2. auto.
    + unfold log_cmd. apply (cmd_inv _ (dc_wire c) (HDed d) [WCloseConn] _ I1 Hh1). auto.
  - (* DTrackingOn *) apply (entry_inv _ _ _ _ I H). intros c Hh. apply user_cmd_inv; auto.
  - (* DSetHooks *) apply (entry_inv _ _ _ _ I H). intros c Hh.
    pose proof (cmd_inv s (dc_wire c) (HDed d) []
      (fun x => mkWire (w_id x) (w_holder x) (negb zero) (negb zero && inval) (w_bg x || negb zero) (w_blocked x) (w_v7 x) (w_tracking x) (w_dead x))
      I Hh) as I2.
    cbn [map] in I2. rewrite app_nil_r in I2. apply I2. auto.
  - (* DRelease *)
    destruct (find_dc d (d_clients s)) as [c|] eqn:F; [|discriminate].
    destruct (dc_mark c) eqn:M; injection H as <-; [exact I|].
    destruct (client_holds s d c I F M) as [Hh [x [Fx Hx]]].
    apply (store_inv _ (dc_wire c) (HDed d) x (dinv_mark s d I) Fx Hx). exact (marked_others s d c I F M).
  - (* DClose *)
    destruct (find_dc d (d_clients s)) as [c|] eqn:F; [|discriminate].
    destruct (dc_mark c) eqn:M; injection H as <-; [exact I|].
    destruct (client_holds s d c I F M) as [Hh [x [Fx Hx]]].
    pose proof (dinv_mark s d I) as I1. pose proof (marked_others s d c I F M) as Hother.
    set (s0 := set_clients s (upd_dc (fun c => mkDC (dc_id c) (dc_wire c) true) d (d_clients s))) in *.
    destruct (wire_dead s0 (dc_wire c)).
    + apply (store_inv _ (dc_wire c) (HDed d) x I1 Fx Hx Hother).
    + assert (Hh0 : held s0 (dc_wire c) = Some (HDed d)) by exact Hh.
      set (f := fun x => mkWire (w_id x) (w_holder x) (w_hooks x) (w_inval x) (w_bg x) (w_blocked x) (w_v7 x) (w_tracking x) true).
      pose proof (cmd_inv s0 (dc_wire c) (HDed d) [WCloseConn] f I1 Hh0 ltac:(auto)) as I2.
      apply (store_inv _ (dc_wire c) (HDed d) (f x) I2); auto.
      unfold log_cmd. cbn [d_wires]. rewrite find_upd_wire by reflexivity. rewrite N.eqb_refl.
      change (d_wires s0) with (d_wires s). rewrite Fx. reflexivity.
  - (* BDo *)
    destruct (pool_acquire s (HBlock b)) as [s1 w] eqn:A. cbv beta iota zeta in H.
    destruct (acquire_inv s (HBlock b) s1 w I A) as [I1 [Hh Hfree]]. destruct (acquire_log _ _ _ _ A) as [_ [Hc _]].
    pose proof (cmd_inv s1 w (HBlock b) [WUser a] (fun x => x) I1 Hh ltac:(auto)) as I2.
    set (s2 := log_cmd s1 w (HBlock b) (WUser a) (fun x => x)) in *.
    assert (Hh2 : held s2 w = Some (HBlock b)) by (rewrite (held_keep s1 s2 (fun x => x) w w); auto).
    match type of H with context [find_wire w (d_wires ?t)] => set (s3 := t) in * end.
    set (fd := fun x => mkWire (w_id x) (w_holder x) (w_hooks x) (w_inval x) (w_bg x) (w_blocked x) (w_v7 x) (w_tracking x) true).
    assert (I3 : dinv s3 /\ held s3 w = Some (HBlock b) /\ d_clients s3 = d_clients s).
    { unfold s3. destruct fail; [|auto].
      split; [apply (cmd_inv s2 w (HBlock b) [WCloseConn] fd I2 Hh2); auto|]. split; [|exact Hc].
      rewrite (held_keep s2 _ fd w w); auto. }
    destruct I3 as [I3 [Hh3 Hc3]].
    destruct (find_wire w (d_wires s3)) as [x|] eqn:Fx; [|discriminate]. injection H as <-.
    assert (Hx : w_holder x = Some (HBlock b)) by (unfold held in Hh3; rewrite Fx in Hh3; exact Hh3).
    pose proof (release_inv s3 w (HBlock b) x []
                  (fun y => mkWire (w_id y) None (w_hooks y) (w_inval y) (w_bg y) (w_blocked y) (w_v7 y) (w_tracking y) (w_dead y))
                  (negb (w_dead x)) I3 Fx Hx ltac:(auto)) as R.
    cbn [map app w_dead] in R. apply R.
    intros c Hcin Hm Ew. rewrite Hc3 in Hcin.
    (* a live dedicated client's wire was held by it before the acquire, so it is not the wire just acquired *)
    destruct (di_clients _ I c Hcin Hm) as [y [Fy Hy]]. unfold held in Hfree. rewrite <- Ew, Fy in Hfree. congruence.
  - (* SDo *) injection H as <-. eapply dinv_frame; [..|exact I]; reflexivity.
  - (* DTry *)
    destruct (find_dc d (d_clients s)) as [c|] eqn:F; [|discriminate].
    destruct (dc_mark c) eqn:M; [discriminate|]. injection H as <-.
    destruct (client_holds s d c I F M) as [Hh _]. apply user_cmd_inv; auto.
Qed.

Theorem dinv_reach : forall f v ls s, drun (dinit f v) ls = Some s -> dinv s.
Proof.
  intros f v ls. assert (G : forall s0 s, dinv s0 -> drun s0 ls = Some s -> dinv s).
  { induction ls as [|l ls IH]; intros s0 s I H; cbn in H; [injection H as <-; exact I|].
    destruct (dstep s0 l) as [s1|] eqn:E; [|discriminate]. eapply IH; [eapply dinv_step; eauto|exact H]. }
  intros s H. eapply G; [apply dinv_init|exact H].
Qed.

(** events and results of one dedicated client *)
Definition ev_of (d : N) (e : ev) : bool :=
  match e with
  | EvAcq _ h | EvCmd _ h _ | EvRel _ h _ => holder_eqb h (HDed d)
  end.

Definition recycled (s : dstate) (d : N) : Prop := exists c, find_dc d (d_clients s) = Some c /\ dc_mark c = true.

(** every entry point of a recycled client: ErrDedicatedClientRecycled, nothing is written, nothing changes *)
Theorem recycled_rejects : forall s d, recycled s d ->
  (forall a, dstep s (DDo d a) = Some (add_res s d RRecycled)) /\
  (forall a, dstep s (DSubscribe d a) = Some (add_res s d RRecycled)) /\
  (forall a, dstep s (DBlockFail d a) = Some (add_res s d RRecycled)) /\
  (forall a, dstep s (DTrackingOn d a) = Some (add_res s d RRecycled)) /\
  (forall z i, dstep s (DSetHooks d z i) = Some (add_res s d RRecycled)) /\
  dstep s (DRelease d) = Some s /\ dstep s (DClose d) = Some s /\
  (forall a, dstep s (DTry d a) = None).
Proof.
  intros s d [c [F M]]. repeat split; intros; cbn [dstep]; unfold entry; rewrite F, M; reflexivity.
Qed.

Lemma mux_store_clients : forall s w h, d_clients (mux_store s w h) = d_clients s.
Proof. intros. unfold mux_store. destruct (find_wire w (d_wires s)); reflexivity. Qed.

(** release and Close mark the client *)
Theorem release_marks : forall s d s', (dstep s (DRelease d) = Some s' \/ dstep s (DClose d) = Some s') -> recycled s' d.
Proof.
  intros s d s' [H|H]; cbn [dstep] in H; destruct (find_dc d (d_clients s)) as [c|] eqn:F; try discriminate;
    destruct (dc_mark c) eqn:M; injection H as <-.
  - exists c. auto.
  - unfold recycled. rewrite mux_store_clients. cbn [set_clients d_clients].
    rewrite find_dc_upd by reflexivity. rewrite N.eqb_refl, F. cbn. eauto.
  - exists c. auto.
  - unfold recycled. rewrite mux_store_clients.
    match goal with |- context [if ?b then _ else _] => destruct b end; cbn [set_clients log_cmd d_clients];
      rewrite find_dc_upd by reflexivity; rewrite N.eqb_refl, F; cbn; eauto.
Qed.

Theorem cleanup : forall s d c x,
  find_dc d (d_clients s) = Some c -> dc_mark c = false -> find_wire (dc_wire c) (d_wires s) = Some x ->
  exists s', dstep s (DRelease d) = Some s' /\
    d_log s' = d_log s ++ store_events x (HDed d) /\
    find_wire (dc_wire c) (d_wires s') = Some (stored_wire x) /\
    (In (dc_wire c) (d_idle s') <-> (w_dead x || w_blocked x = false \/ In (dc_wire c) (d_idle s))).
Proof.
  intros s d c x F M Fx. eexists. cbn [dstep]. rewrite F, M. split; [reflexivity|].
  unfold mux_store. cbn [set_clients d_wires]. rewrite Fx. cbn [d_log d_wires d_idle].
  split; [reflexivity|]. split.
  - rewrite find_upd_wire by reflexivity. rewrite N.eqb_refl, Fx. reflexivity.
  - cbn [stored_wire w_dead]. destruct (w_dead x || w_blocked x); cbn; intuition congruence.
Qed.

(** what Store does, spelled out: hooks gone; the pending blocking command closes the connection; otherwise the
    subscriptions are dropped if the pipe was pipelining and CLIENT TRACKING OFF is sent iff an invalidation hook was
    installed — all by the releasing holder, before the release marker, after which (only) the wire is idle again *)
Theorem cleanup_spelled : forall x h,
  w_hooks (stored_wire x) = false /\ w_inval (stored_wire x) = false /\ w_holder (stored_wire x) = None /\
  (w_dead x = false -> w_blocked x = false ->
     store_events x h =
       (if w_bg x then [EvCmd (w_id x) h (WUnsub (w_v7 x))] else []) ++
       (if w_inval x then [EvCmd (w_id x) h WTrackingOff] else []) ++ [EvRel (w_id x) h true] /\
     w_dead (stored_wire x) = false /\
     (w_inval x = true -> w_tracking (stored_wire x) = false)) /\
  (w_dead x = false -> w_blocked x = true ->
     store_events x h = [EvCmd (w_id x) h WCloseConn; EvRel (w_id x) h false] /\ w_dead (stored_wire x) = true) /\
  (w_dead x = true -> store_events x h = [EvRel (w_id x) h false] /\ w_dead (stored_wire x) = true).
Proof.
  intros x h. unfold stored_wire, store_events. cbn.
  repeat split; intros; try rewrite H; try rewrite H0; try rewrite H1; cbn; try reflexivity;
    destruct (w_bg x), (w_inval x), (w_blocked x); cbn; try reflexivity; try discriminate.
Qed.

(** nothing of a recycled client reaches the server any more: whatever step is taken from a state in which client
    [d] is marked, the events it adds to the log belong to other holders.  In particular the retry loop of Do / DoMulti
    — which re-checks the mark before every attempt — cannot send again once the client was released or closed during
    its back-off. *)
Definition ev_holder (e : ev) : holder := match e with EvAcq _ h | EvCmd _ h _ | EvRel _ h _ => h end.
Definition all_by (h : holder) (evs : list ev) : Prop := forall e, In e evs -> ev_holder e = h.

Lemma all_by_app : forall h a b, all_by h a -> all_by h b -> all_by h (a ++ b).
Proof. intros h a b A B e Hin. apply in_app_or in Hin. destruct Hin; auto. Qed.

Lemma all_by_one : forall h e, ev_holder e = h -> all_by h [e].
Proof. intros h e E x [<-|[]]. exact E. Qed.

Lemma all_by_nil : forall h, all_by h [].
Proof. intros h e []. Qed.

Lemma store_events_by : forall x h, all_by h (store_events x h).
Proof.
  intros x h. unfold store_events. repeat apply all_by_app.
  - destruct (w_dead x); [apply all_by_nil|]. destruct (w_blocked x); [apply all_by_one; reflexivity|].
    destruct (w_bg x); [apply all_by_one; reflexivity|apply all_by_nil].
  - destruct (w_inval x && negb (w_dead x || w_blocked x)); [apply all_by_one; reflexivity|apply all_by_nil].
  - apply all_by_one. reflexivity.
Qed.

(** [s'] comes from [s] by work of holder [h]: only its events are added to the log, and nobody is un-marked *)
Definition acts (h : holder) (s s' : dstate) : Prop :=
  (forall d, recycled s d -> recycled s' d) /\ exists evs, d_log s' = d_log s ++ evs /\ all_by h evs.

Lemma acts_evs : forall h s s' evs, d_clients s' = d_clients s -> d_log s' = d_log s ++ evs -> all_by h evs -> acts h s s'.
Proof. intros h s s' evs Ec El B. split; [unfold recycled; rewrite Ec; auto|eauto]. Qed.

Lemma acts_frame : forall h s s', d_clients s' = d_clients s -> d_log s' = d_log s -> acts h s s'.
Proof. intros h s s' Ec El. apply (acts_evs h s s' []); [exact Ec|rewrite app_nil_r; exact El|apply all_by_nil]. Qed.

Lemma acts_trans : forall h s s1 s2, acts h s s1 -> acts h s1 s2 -> acts h s s2.
Proof.
  intros h s s1 s2 [R1 [e1 [E1 B1]]] [R2 [e2 [E2 B2]]]. split; [auto|].
  exists (e1 ++ e2). rewrite E2, E1, app_assoc. split; [reflexivity|apply all_by_app; assumption].
Qed.

Lemma acts_log_cmd : forall s w h c f, acts h s (log_cmd s w h c f).
Proof. intros. apply (acts_evs h s _ [EvCmd w h c]); [reflexivity|reflexivity|apply all_by_one; reflexivity]. Qed.

Lemma acts_user_cmd : forall s w h a f, acts h s (user_cmd s w h a f).
Proof. intros. unfold user_cmd. destruct (wire_dead s w); [apply acts_frame; reflexivity|apply acts_log_cmd]. Qed.

Lemma acts_mux_store : forall s w h, acts h s (mux_store s w h).
Proof.
  intros. unfold mux_store. destruct (find_wire w (d_wires s)) as [x|]; [|apply acts_frame; reflexivity].
  apply (acts_evs h s _ (store_events x h)); [reflexivity|reflexivity|apply store_events_by].
Qed.

Lemma acts_acquire : forall s h s1 w, pool_acquire s h = (s1, w) -> acts h s s1.
Proof.
  intros s h s1 w A. destruct (acquire_log _ _ _ _ A) as [El [Ec _]].
  apply (acts_evs h s s1 [EvAcq w h]); [exact Ec|exact El|apply all_by_one; reflexivity].
Qed.

(** marking a client *)
Lemma acts_mark : forall h s d, acts h s (set_clients s (mark_client d (d_clients s))).
Proof.
  intros h s d0. split; [|exists []; split; [symmetry; apply app_nil_r|apply all_by_nil]].
  intros d [c [F M]]. unfold recycled. cbn [set_clients d_clients]. unfold mark_client. rewrite find_dc_upd by reflexivity.
  destruct (N.eqb d d0); rewrite F; cbn; eauto.
Qed.

(** a holder that may still send: a blocking caller, or a dedicated client that is not recycled *)
Definition may_send (s : dstate) (h : holder) : Prop := forall d, h = HDed d -> ~ recycled s d.

Lemma live_may_send : forall s d c, find_dc d (d_clients s) = Some c -> dc_mark c = false -> may_send s (HDed d).
Proof. intros s d c F M d' E [c' [F' M']]. injection E as <-. congruence. Qed.

(** every step is the work of one holder, which may still send if anything is sent *)
Lemma dstep_acts : forall s l s', dstep s l = Some s' ->
  exists h, acts h s s' /\ (d_log s' = d_log s \/ may_send s h).
Proof.
  intros s l s' H.
  assert (Hentry : forall d k, (forall c, acts (HDed d) s (k c)) -> entry s d k = Some s' ->
            exists h, acts h s s' /\ (d_log s' = d_log s \/ may_send s h)).
  { intros d k Hk He. unfold entry in He. destruct (find_dc d (d_clients s)) as [c|] eqn:F; [|discriminate].
    exists (HDed d). destruct (dc_mark c) eqn:M; injection He as <-.
    - split; [apply acts_frame; reflexivity|left; reflexivity].
    - split; [|right; eapply live_may_send; eauto].
      eapply acts_trans; [apply Hk|apply acts_frame; reflexivity]. }
  destruct l; cbn [dstep] in H.
  - (* DAcquire *)
    destruct (find_dc d (d_clients s)) eqn:F; [discriminate|].
    destruct (pool_acquire s (HDed d)) as [s1 w] eqn:A. injection H as <-. exists (HDed d). split.
    + eapply acts_trans; [eapply acts_acquire; eauto|]. split; [|exists []; split; [symmetry; apply app_nil_r|apply all_by_nil]].
      intros d0 [c [F0 M0]]. unfold recycled. cbn [set_clients d_clients]. rewrite find_dc_app, F0. eauto.
    + right. intros d' E [c [F' _]]. injection E as <-. congruence.
  - (* DDo *) refine (Hentry d _ _ H). intros c. apply acts_user_cmd.
  - (* DSubscribe *) refine (Hentry d _ _ H). intros c. apply acts_user_cmd.
  - (* DBlockFail *) refine (Hentry d _ _ H). intros c. cbv zeta.
    pose proof (acts_user_cmd s (dc_wire c) (HDed d) a (fun x => x)) as U.
    destruct (wire_dead s (dc_wire c)); [exact U|].
    match goal with |- context [match find_wire ?w ?l with _ => _ end] => destruct (find_wire w l) as [x|] end; [|exact U].
    destruct (w_bg x); (eapply acts_trans; [exact U|]); [apply acts_frame; reflexivity|apply acts_log_cmd].
  - (* DTrackingOn *) refine (Hentry d _ _ H). intros c. apply acts_user_cmd.
  - (* DSetHooks *) refine (Hentry d _ _ H). intros c. apply acts_frame; reflexivity.
  - (* DRelease *)
    destruct (find_dc d (d_clients s)) as [c|] eqn:F; [|discriminate]. exists (HDed d).
    destruct (dc_mark c) eqn:M; injection H as <-; [split; [apply acts_frame; reflexivity|left; reflexivity]|].
    split; [|right; eapply live_may_send; eauto]. eapply acts_trans; [apply acts_mark|apply acts_mux_store].
  - (* DClose *)
    destruct (find_dc d (d_clients s)) as [c|] eqn:F; [|discriminate]. exists (HDed d).
    destruct (dc_mark c) eqn:M; injection H as <-; [split; [apply acts_frame; reflexivity|left; reflexivity]|].
    split; [|right; eapply live_may_send; eauto].
    eapply acts_trans; [apply acts_mark|]. eapply acts_trans; [|apply acts_mux_store].
    match goal with |- context [if ?b then _ else _] => destruct b end; [apply acts_frame; reflexivity|apply acts_log_cmd].
  - (* BDo *)
    destruct (pool_acquire s (HBlock b)) as [s1 w] eqn:A. cbv beta iota zeta in H. exists (HBlock b).
    split; [|right; intros d E; discriminate].
    match type of H with context [find_wire w (d_wires ?t)] => destruct (find_wire w (d_wires t)) as [x|]; [|discriminate];
      assert (A3 : acts (HBlock b) s t) end.
    { eapply acts_trans; [eapply acts_acquire; eauto|]. eapply acts_trans; [apply acts_log_cmd|].
      destruct fail; [apply acts_log_cmd|apply acts_frame; reflexivity]. }
    injection H as <-. eapply acts_trans; [exact A3|].
    eapply acts_evs; [reflexivity|reflexivity|apply all_by_one; reflexivity].
  - (* SDo: nothing is logged, any holder will do *) injection H as <-. exists (HBlock 0). split; [apply acts_frame; reflexivity|left; reflexivity].
  - (* DTry *)
    destruct (find_dc d (d_clients s)) as [c|] eqn:F; [|discriminate].
    destruct (dc_mark c) eqn:M; [discriminate|]. injection H as <-. exists (HDed d).
    split; [apply acts_user_cmd|right; eapply live_may_send; eauto].
Qed.

(** the mark never goes away *)
Theorem recycled_sticky : forall s l s' d, recycled s d -> dstep s l = Some s' -> recycled s' d.
Proof. intros s l s' d R H. destruct (dstep_acts s l s' H) as [h [[K _] _]]. auto. Qed.

Theorem no_send_after_release : forall s l s' d, recycled s d -> dstep s l = Some s' ->
  exists evs, d_log s' = d_log s ++ evs /\ forall e, In e evs -> ev_holder e <> HDed d.
Proof.
  intros s l s' d R H. destruct (dstep_acts s l s' H) as [h [[_ [evs [E B]]] Hs]]. exists evs. split; [exact E|].
  intros e Hin Eh. destruct Hs as [Hq|Hs].
  - rewrite E in Hq. rewrite <- (app_nil_r (d_log s)) in Hq at 2. apply app_inv_head in Hq. subst evs. destruct Hin.
  - apply (Hs d); [rewrite <- Eh; symmetry; apply B; exact Hin|exact R].
Qed.

