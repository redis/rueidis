(** Proofs about Model/ClusterDo.v: where the sends of [clusterClient.do] go.
    The loop is read through [runs]: one constructor per way an attempt can end, the decision taken on a
    reply named [do_next].  Every property of a trace is an induction on [runs]. *)
From Coq Require Import List Arith NArith ZArith Bool Lia.
Require Import RV.Model.Base RV.Model.ClusterTopo RV.Model.Retry RV.Model.ClusterDo RV.Proofs.ClusterTopoProofs.
Import ListNotations.
Open Scope Z_scope.

Definition sreply (s : csend) : reply := k_reply (s_tick s).

(** what the code decides after the reply of a send *)
Definition smode (s : csend) : rmode := classify (sreply s) (k_ctx_cls (s_tick s)) (k_closed (s_tick s)).

(** [s2] is a legitimate successor of [s1] *)
Definition follows (c : ccfg) (retryable : bool) (s1 s2 : csend) : Prop :=
  if is_expired (sreply s1) then s_why s2 = WExpired
  else match smode s1 with
       | ModeMove a => s_to s2 = a /\ s_kind s2 = SPlain /\ s_why s2 = WRedirect
       | ModeAsk a => s_to s2 = a /\ s_kind s2 = SAsking /\ s_why s2 = WRedirect
       | ModeRetry => s_why s2 = WRetry /\ p_retry (cc_policy c) = true /\ retryable = true /\
                      exists a, wait_or_skip (p_delay (cc_policy c) a (sreply s1)) (k_left (s_tick s1)) = true
       | ModeNone => False
       end.

Fixpoint chain_ok (c : ccfg) (retryable : bool) (tr : list csend) : Prop :=
  match tr with
  | s1 :: ((s2 :: _) as r) => follows c retryable s1 s2 /\ chain_ok c retryable r
  | _ => True
  end.

Lemma effective_live t : k_ctx_call t = false -> effective t = t.
Proof. intro H. unfold effective. now rewrite H. Qed.

Definition start (ph : phase) (st : cstate) (ct : ctick) : cstate :=
  match ph with PhRetry => install st ct | _ => st end.

Definition dest_of (ph : phase) (st : cstate) (slot : Z) (to_replica : bool) (ct : ctick) : option addr :=
  match ph with
  | PhRetry => pick_slot (cs_table (install st ct)) slot to_replica (ct_nsel ct)
  | PhMoved _ n | PhAsk _ n => Some n
  end.

Definition kind_of (ph : phase) : skind := match ph with PhAsk _ _ => SAsking | _ => SPlain end.

(** the connection a redirect is compared with: the one that answered first *)
Definition conn_of (ph : phase) (d : addr) : addr := match ph with PhRetry => d | PhMoved c0 _ | PhAsk c0 _ => c0 end.

Inductive next := Stop | Go (st : cstate) (ph : phase) (w : why) (attempts : nat) (redirects : Z).

Section Loop.
Variables (c : ccfg) (slot : Z) (retryable to_replica : bool).

(** what [do] decides on the reply [t] that came over connection [cc] *)
Definition do_next (st0 : cstate) (ph : phase) (cc : addr) (attempts : nat) (redirects : Z) (t : tick) : next :=
  if is_expired (k_reply t) then Go st0 ph WExpired attempts redirects
  else match classify (k_reply t) (k_ctx_cls t) (k_closed t) with
       | ModeMove a =>
         if (0 <? cc_max c) && (cc_max c <? redirects + 1) then Stop
         else Go (redirect_or_new st0 a cc slot true) (PhMoved cc a) WRedirect attempts (redirects + 1)
       | ModeAsk a =>
         if (0 <? cc_max c) && (cc_max c <? redirects + 1) then Stop
         else Go (redirect_or_new st0 a cc slot false) (PhAsk cc a) WRedirect attempts (redirects + 1)
       | ModeRetry =>
         if p_retry (cc_policy c) && retryable && wait_or_skip (p_delay (cc_policy c) attempts (k_reply t)) (k_left t)
         then Go st0 PhRetry WRetry (S attempts) redirects else Stop
       | ModeNone => Stop
       end.

Lemma do_loop_S f st ph w a rd ct env :
  do_loop (S f) c slot retryable to_replica st ph w a rd (ct :: env) =
  match dest_of ph st slot to_replica ct with
  | None => ([], CNoSlot, start ph st ct)
  | Some d =>
    let t := effective (ct_tick ct) in
    let here := if k_ctx_call (ct_tick ct) then [] else [mkCsend d (kind_of ph) w t] in
    match do_next (start ph st ct) ph (conn_of ph d) a rd t with
    | Stop => (here, CDone (k_reply t), start ph st ct)
    | Go st1 ph1 w1 a1 rd1 =>
      let '(tr, o, s') := do_loop f c slot retryable to_replica st1 ph1 w1 a1 rd1 env in (here ++ tr, o, s')
    end
  end.
Proof.
  cbn [do_loop]. unfold do_next.
  destruct ph; cbn [dest_of start kind_of conn_of]; try destruct (pick_slot _ _ _ _); try reflexivity.
  all: destruct (is_expired _); [reflexivity|]; destruct (classify _ _ _); try reflexivity; destruct (_ && _); reflexivity.
Qed.

(** a done context is answered by the pipe with the context error, which ends the call *)
Lemma do_next_ctx st0 ph cc a rd t : k_ctx_call t = true -> do_next st0 ph cc a rd (effective t) = Stop.
Proof. intro H. unfold do_next, effective. rewrite H. cbn. now destruct (k_closed t). Qed.

Inductive runs : nat -> cstate -> phase -> why -> nat -> Z -> list ctick -> list csend -> coutcome -> cstate -> Prop :=
| RunFuel st ph w a rd env : runs 0 st ph w a rd env [] COutOfFuel st
| RunEnv f st ph w a rd : runs (S f) st ph w a rd [] [] COutOfEnv st
| RunNoSlot f st ph w a rd ct env :
    dest_of ph st slot to_replica ct = None -> runs (S f) st ph w a rd (ct :: env) [] CNoSlot (start ph st ct)
| RunCtx f st ph w a rd ct env d :
    dest_of ph st slot to_replica ct = Some d -> k_ctx_call (ct_tick ct) = true ->
    runs (S f) st ph w a rd (ct :: env) [] (CDone RCtx) (start ph st ct)
| RunStop f st ph w a rd ct env d :
    dest_of ph st slot to_replica ct = Some d -> k_ctx_call (ct_tick ct) = false ->
    do_next (start ph st ct) ph (conn_of ph d) a rd (ct_tick ct) = Stop ->
    runs (S f) st ph w a rd (ct :: env) [mkCsend d (kind_of ph) w (ct_tick ct)] (CDone (k_reply (ct_tick ct))) (start ph st ct)
| RunGo f st ph w a rd ct env d st1 ph1 w1 a1 rd1 tr o s' :
    dest_of ph st slot to_replica ct = Some d -> k_ctx_call (ct_tick ct) = false ->
    do_next (start ph st ct) ph (conn_of ph d) a rd (ct_tick ct) = Go st1 ph1 w1 a1 rd1 ->
    runs f st1 ph1 w1 a1 rd1 env tr o s' ->
    runs (S f) st ph w a rd (ct :: env) (mkCsend d (kind_of ph) w (ct_tick ct) :: tr) o s'.

Lemma do_loop_runs : forall f st ph w a rd env tr o s',
  do_loop f c slot retryable to_replica st ph w a rd env = (tr, o, s') -> runs f st ph w a rd env tr o s'.
Proof.
  induction f as [|f IH]; intros st ph w a rd env tr o s' H; [injection H as <- <- <-; constructor|].
  destruct env as [|ct env]; [injection H as <- <- <-; constructor|].
  rewrite do_loop_S in H. destruct (dest_of ph st slot to_replica ct) as [d|] eqn:D; [|injection H as <- <- <-; now constructor].
  cbv zeta in H. destruct (k_ctx_call (ct_tick ct)) eqn:CC.
  - rewrite do_next_ctx in H by exact CC. unfold effective in H. rewrite CC in H. injection H as <- <- <-. now apply RunCtx with d.
  - rewrite (effective_live _ CC) in H. destruct (do_next _ _ _ _ _ _) eqn:N.
    + injection H as <- <- <-. now constructor.
    + destruct (do_loop f _ _ _ _ _ _ _ _ _ _) as [[tr1 o1] s1] eqn:R. injection H as <- <- <-. eapply RunGo; eauto.
Qed.

Lemma runs_head {f st ph w a rd env tr o s'} : runs f st ph w a rd env tr o s' ->
  forall s rest, tr = s :: rest ->
    s_why s = w /\ s_kind s = kind_of ph /\
    exists ct env', env = ct :: env' /\ dest_of ph st slot to_replica ct = Some (s_to s) /\ s_tick s = ct_tick ct.
Proof. destruct 1; intros s rest E; try discriminate; injection E as <- _; cbn; eauto 7. Qed.

Lemma runs_first {f st ph w a rd ct env tr o s'} : runs (S f) st ph w a rd (ct :: env) tr o s' ->
  k_ctx_call (ct_tick ct) = false -> forall d, dest_of ph st slot to_replica ct = Some d ->
  exists rest, tr = mkCsend d (kind_of ph) w (ct_tick ct) :: rest.
Proof. intros H CC d D. inversion H; subst; try congruence; assert (d0 = d) by congruence; subst; eauto. Qed.

Lemma do_next_follows st0 ph cc a rd d k w t st1 ph1 w1 a1 rd1 s2 st' ct' :
  do_next st0 ph cc a rd t = Go st1 ph1 w1 a1 rd1 ->
  s_why s2 = w1 -> s_kind s2 = kind_of ph1 -> dest_of ph1 st' slot to_replica ct' = Some (s_to s2) ->
  follows c retryable (mkCsend d k w t) s2.
Proof.
  unfold do_next, follows, smode, sreply. cbn [s_tick]. intros N Hw Hk Hd.
  destruct (is_expired (k_reply t)); [injection N as _ _ <- _ _; exact Hw|].
  destruct (classify _ _ _); try discriminate; destruct (_ && _) eqn:G; try discriminate;
    injection N as _ <- <- _ _; cbn in Hk, Hd.
  - injection Hd as ->. auto.
  - injection Hd as ->. auto.
  - apply andb_true_iff in G. destruct G as [G W]. apply andb_true_iff in G. destruct G. eauto 6.
Qed.

Lemma runs_chain {f st ph w a rd env tr o s'} : runs f st ph w a rd env tr o s' -> chain_ok c retryable tr.
Proof.
  induction 1 as [| | | | |f st ph w a rd ct env d st1 ph1 w1 a1 rd1 tr o s' D CC N R IH]; try exact I.
  destruct tr as [|s2 r]; [exact I|]. split; [|exact IH].
  destruct (runs_head R s2 r eq_refl) as [Hw [Hk [ct' [env' [_ [Hd _]]]]]].
  exact (do_next_follows _ _ _ _ _ _ _ _ _ _ _ _ _ _ _ _ _ N Hw Hk Hd).
Qed.

(** the reply handed back is the last reply on the wire (or the context error when the last
    attempt was not written at all) *)
Lemma runs_final {f st ph w a rd env tr o s'} : runs f st ph w a rd env tr o s' ->
  forall r, o = CDone r -> r = RCtx \/ exists s, tr <> [] /\ sreply (last tr s) = r.
Proof.
  induction 1 as [| | | | |f st ph w a rd ct env d st1 ph1 w1 a1 rd1 tr o s' D CC N R IH]; intros r E; try discriminate.
  - injection E as <-. now left.
  - injection E as <-. right. exists (mkCsend d (kind_of ph) w (ct_tick ct)). split; [discriminate|reflexivity].
  - destruct (IH r E) as [X|[s0 [Hn L]]]; [now left|right]. exists s0. split; [discriminate|].
    destruct tr; [congruence|exact L].
Qed.

Lemma do_next_redirects st0 ph cc a rd t st1 ph1 w1 a1 rd1 :
  do_next st0 ph cc a rd t = Go st1 ph1 w1 a1 rd1 ->
  (rd1 = rd /\ w1 <> WRedirect) \/ (rd1 = rd + 1 /\ w1 = WRedirect /\ (0 < cc_max c -> rd1 <= cc_max c)).
Proof.
  unfold do_next. destruct (is_expired _); [intro N; injection N as _ _ <- _ <-; left; split; [reflexivity|discriminate]|].
  destruct (classify _ _ _); try discriminate; destruct (_ && _) eqn:G; try discriminate; intro N; injection N as _ _ <- _ <-.
  3: left; split; [reflexivity|discriminate].
  all: right; split; [reflexivity|]; split; [reflexivity|]; intro Hm;
    apply andb_false_iff in G; destruct G as [G|G]; apply Z.ltb_ge in G; lia.
Qed.

(** MaxMovedRedirections bounds the redirects that are followed *)
Lemma runs_redirect_bound {f st ph w a rd env tr o s'} : 0 < cc_max c -> runs f st ph w a rd env tr o s' ->
  rd <= cc_max c -> Z.of_nat (credirects tr) + rd <= cc_max c + (match w with WRedirect => 1 | _ => 0 end).
Proof.
  intro Hm. induction 1 as [| | | | |f st ph w a rd ct env d st1 ph1 w1 a1 rd1 tr o s' D CC N R IH]; intro Hr;
    unfold credirects in *; cbn [filter s_why]; try (destruct w; cbn [length]; lia).
  destruct (do_next_redirects _ _ _ _ _ _ _ _ _ _ _ N) as [[-> Hw]|[-> [-> Hb]]]; specialize (IH ltac:(auto)).
  - destruct w1; try congruence; destruct w; cbn [length]; lia.
  - destruct w; cbn [length]; lia.
Qed.

(** enough fuel: the loop consumes one environment item per step *)
Lemma runs_fuel {f st ph w a rd env tr o s'} : runs f st ph w a rd env tr o s' -> (length env < f)%nat -> o <> COutOfFuel.
Proof. induction 1; cbn [length]; intro L; try discriminate; [lia|apply IHruns; lia]. Qed.

(** every send is an attempt of the environment that was really written *)
Lemma runs_sends_env {f st ph w a rd env tr o s'} : runs f st ph w a rd env tr o s' ->
  forall s, In s tr -> exists ct, In ct env /\ s_tick s = ct_tick ct.
Proof.
  induction 1 as [| | | | |f st ph w a rd ct env d st1 ph1 w1 a1 rd1 tr o s' D CC N R IH]; intros s Hin; try (now destruct Hin);
    destruct Hin as [<-|Hin]; try (now destruct Hin).
  - exists ct. split; [now left|reflexivity].
  - exists ct. split; [now left|reflexivity].
  - destruct (IH s Hin) as [ct0 [I0 E0]]. exists ct0. split; [now right|exact E0].
Qed.

End Loop.

Lemma classify_redirect r x y : match classify r x y with ModeMove a => r = RMoved a | ModeAsk a => r = RAsk a | _ => True end.
Proof. destruct r, y; cbn; try exact I; try reflexivity; destruct x; exact I. Qed.

Definition cexpired_executed (s : csend) : bool := is_expired (sreply s) && k_executed (s_tick s).

(** a send of a non-retryable command that is followed by another one was refused (MOVED / ASK: not
    executed by a consistent server) or ended with an expired connection *)
Lemma follows_c03 c s1 s2 : follows c false s1 s2 -> consistent (s_tick s1) = true ->
  k_executed (s_tick s1) = true -> cexpired_executed s1 = true.
Proof.
  unfold follows, smode, cexpired_executed, consistent. intros F K X. rewrite X in *. rewrite andb_true_r.
  destruct (is_expired (sreply s1)); [reflexivity|exfalso].
  apply andb_true_iff in K. destruct K as [K _].
  pose proof (classify_redirect (sreply s1) (k_ctx_cls (s_tick s1)) (k_closed (s_tick s1))) as CL. unfold sreply in *.
  destruct (classify _ _ _); try contradiction; [| |destruct F as [_ [_ [F _]]]; discriminate];
    rewrite CL in K; discriminate.
Qed.

Lemma chain_c03 c : forall tr,
  chain_ok c false tr -> (forall s, In s tr -> consistent (s_tick s) = true) ->
  (cexecutions tr <= 1 + length (filter cexpired_executed tr))%nat.
Proof.
  unfold cexecutions. induction tr as [|s1 r IH]; intros Hc Hk; [cbn; lia|].
  destruct r as [|s2 r2]; [cbn; destruct (k_executed (s_tick s1)), (cexpired_executed s1); cbn; lia|].
  destruct Hc as [F C]. specialize (IH C (fun s Hs => Hk s (or_intror Hs))).
  pose proof (follows_c03 c s1 s2 F (Hk s1 (or_introl eq_refl))) as X.
  remember (s2 :: r2) as r. cbn [filter].
  destruct (k_executed (s_tick s1)); [rewrite (X eq_refl)|destruct (cexpired_executed s1)]; cbn [length]; lia.
Qed.
