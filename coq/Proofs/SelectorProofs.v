(** C22, the read-node selectors of Model/Selector.v.  [cands] specifies what the loop [collect] of pickAZ gathers;
    [pick_az_spec] rewrites pickAZ as a rotation over [cands]; the fallbacks are closed forms ([az_affinity_fallback],
    [az_rp_fallback], [prefer_replica_spec]), [select_cases] sums them up; rotation rests on [rotation_perm]. *)
From Coq Require Import List NArith ZArith Bool Lia Arith Permutation ZifyN ZifyNat ZifyBool.
Require Import RV.Model.Base RV.Model.Selector RV.Proofs.BytesProofs.
Require Import RV.Proofs.ListFacts.
Import ListNotations.
Open Scope N_scope.

(** indices [j] in [i, limit) with [l[j-i] = client], in increasing order *)
Fixpoint fidx (client : bytes) (l : list bytes) (i limit : nat) : list nat :=
  match l with
  | [] => []
  | az :: r =>
    if (limit <=? i)%nat then []
    else if bytes_eqb az client then i :: fidx client r (S i) limit
    else fidx client r (S i) limit
  end.

(** the window pickAZ looks at *)
Definition window (azs : list bytes) : nat := Nat.min (length azs) 255.

(** all same-AZ nodes with index in [start, window) *)
Definition same_az (client : bytes) (azs : list bytes) (start : nat) : list nat :=
  fidx client (skipn start azs) start (window azs).

(** the equally ranked candidates pickAZ rotates over: the first 8 of them (the cap is the code's) *)
Definition cands (client : bytes) (azs : list bytes) (start : nat) : list nat :=
  firstn 8 (same_az client azs start).

Lemma collect_fidx client limit : forall l i room, (0 < room)%nat ->
  collect client l i limit room = map u8_of_nat (firstn room (fidx client l i limit)).
Proof.
  induction l as [|az r IH]; intros i room Hr; cbn [collect fidx].
  - now destruct room.
  - destruct (limit <=? i)%nat; [now destruct room|].
    destruct (bytes_eqb az client).
    + destruct room as [|[|room']]; [lia| |].
      * cbn [firstn map]. reflexivity.
      * cbn [firstn map]. f_equal. apply IH. lia.
    + apply IH. exact Hr.
Qed.

Lemma fidx_in client limit : forall l i j,
  In j (fidx client l i limit) <-> exists k, j = (i + k)%nat /\ (j < limit)%nat /\ nth_error l k = Some client.
Proof.
  induction l as [|az r IH]; intros i j; cbn [fidx].
  - split; [intros []|]. intros (k & _ & _ & H). now destruct k.
  - destruct (Nat.leb_spec limit i) as [Hl|Hl]; [split; [intros []|intros (k & -> & H & _); lia]|].
    destruct (bytes_eqb az client) eqn:E; [apply bytes_eqb_eq in E; subst az; cbn [In]|]; rewrite IH; split.
    + intros [<-|(k & -> & H)]; [exists O|exists (S k)]; (split; [lia|easy]).
    + intros ([|k] & -> & H); [left; lia|right; exists k; split; [lia|easy]].
    + intros (k & -> & H). exists (S k). split; [lia|easy].
    + intros ([|k] & -> & H1 & H2); [|exists k; split; [lia|easy]].
      injection H2 as ->. now rewrite bytes_eqb_refl in E.
Qed.

Lemma fidx_lb client limit : forall l i, Forall (fun j => (i <= j)%nat) (fidx client l i limit).
Proof. intros l i. apply Forall_forall. intros j H. apply fidx_in in H as (k & -> & _). lia. Qed.

Lemma fidx_nodup client limit : forall l i, NoDup (fidx client l i limit).
Proof.
  induction l as [|az r IH]; intros i; cbn [fidx]; [constructor|].
  destruct (limit <=? i)%nat; [constructor|].
  destruct (bytes_eqb az client); [|apply IH].
  constructor; [|apply IH]. intro H. apply fidx_in in H as (k & H & _). lia.
Qed.

Lemma same_az_in client azs start j :
  In j (same_az client azs start) <-> (start <= j < window azs)%nat /\ nth_error azs j = Some client.
Proof.
  unfold same_az. rewrite fidx_in. split.
  - intros (k & -> & H1 & H2). rewrite nth_error_skipn in H2. split; [lia|exact H2].
  - intros [H1 H2]. exists (j - start)%nat. rewrite nth_error_skipn. replace (start + (j - start))%nat with j by lia. now repeat split.
Qed.

Lemma firstn_NoDup {A} (l : list A) n : NoDup l -> NoDup (firstn n l).
Proof.
  revert n. induction l as [|y l IH]; intros [|n] H; cbn; try constructor.
  - inversion H; subst. intro Hin. apply In_firstn in Hin. contradiction.
  - inversion H; subst. now apply IH.
Qed.

Lemma cands_in client azs start j :
  In j (cands client azs start) -> (start <= j < window azs)%nat /\ nth_error azs j = Some client.
Proof. intro H. apply In_firstn in H. now apply same_az_in. Qed.

Lemma cands_nodup client azs start : NoDup (cands client azs start).
Proof. apply firstn_NoDup, fidx_nodup. Qed.

Lemma cands_length client azs start : (length (cands client azs start) <= 8)%nat.
Proof. unfold cands. rewrite firstn_length. lia. Qed.

Lemma cands_nil client azs start :
  cands client azs start = [] <-> (forall j, (start <= j < window azs)%nat -> nth_error azs j <> Some client).
Proof.
  unfold cands. split.
  - intros H j Hj Hn. assert (Hin : In j (same_az client azs start)) by (apply same_az_in; auto).
    destruct (same_az client azs start); [contradiction|discriminate].
  - intros H. destruct (same_az client azs start) as [|j r] eqn:E; [reflexivity|].
    exfalso. assert (Hin : In j (same_az client azs start)) by (rewrite E; now left).
    apply same_az_in in Hin. destruct Hin as [H1 H2]. exact (H j H1 H2).
Qed.

Lemma u8_small j : (j < 256)%nat -> u8_of_nat j = N.of_nat j.
Proof. intro H. unfold u8_of_nat. apply N.mod_small. lia. Qed.

Theorem pick_az_spec client azs start c :
  pick_az client azs start c =
  match cands client azs start with
  | [] => (c, (-1)%Z)
  | cs => let c' := incr32 c in (c', Z.of_nat (nth (N.to_nat (c' mod N.of_nat (length cs))) cs O))
  end.
Proof.
  unfold pick_az. destruct (Nat.leb_spec (length azs) start) as [Hn|Hn].
  - unfold cands, same_az. rewrite skipn_all2 by lia. reflexivity.
  - rewrite collect_fidx by lia. fold (window azs). fold (same_az client azs start). fold (cands client azs start).
    rewrite map_length.
    destruct (cands client azs start) as [|j0 r] eqn:E; [reflexivity|].
    rewrite <- E.
    assert (Hlen : (0 < length (cands client azs start))%nat) by (rewrite E; cbn; lia).
    destruct (N.eqb_spec (N.of_nat (length (cands client azs start))) 0) as [H0|H0]; [lia|].
    cbv zeta. f_equal.
    set (k := N.to_nat (incr32 c mod N.of_nat (length (cands client azs start)))).
    assert (Hk : (k < length (cands client azs start))%nat).
    { subst k. pose proof (N.mod_lt (incr32 c) _ H0). lia. }
    change 0 with (u8_of_nat O). rewrite map_nth.
    assert (Hin : In (nth k (cands client azs start) O) (cands client azs start)) by now apply nth_In.
    apply cands_in in Hin. unfold window in Hin.
    rewrite u8_small by lia. lia.
Qed.

Lemma pick_az_cases client azs start c :
  (cands client azs start = [] /\ pick_az client azs start c = (c, (-1)%Z)) \/
  (exists j, In j (cands client azs start) /\ pick_az client azs start c = (incr32 c, Z.of_nat j)).
Proof.
  rewrite pick_az_spec. destruct (cands client azs start) as [|j0 r] eqn:E; [now left|right].
  rewrite <- E. eexists. split; [|reflexivity]. apply nth_In.
  assert (N.of_nat (length (cands client azs start)) <> 0) by (rewrite E; cbn; lia).
  pose proof (N.mod_lt (incr32 c) _ H). lia.
Qed.

Lemma u32_len (n : nat) : (N.of_nat n < two32) -> u32_of_int (Z.of_nat n) = N.of_nat n.
Proof. intro H. unfold u32_of_int. unfold two32 in *. rewrite Z.mod_small by lia. lia. Qed.

Lemma u32_sub (n s : nat) : (s <= n)%nat -> (N.of_nat n < two32) ->
  u32_of_int (Z.of_nat n - Z.of_nat s) = N.of_nat (n - s).
Proof. intros H1 H2. unfold u32_of_int. unfold two32 in *. rewrite Z.mod_small by lia. lia. Qed.

Lemma incr32_lt c : incr32 c < two32.
Proof. unfold incr32. apply N.mod_lt. discriminate. Qed.

Lemma incr32_small c : c + 1 < two32 -> incr32 c = c + 1.
Proof. intro H. unfold incr32. now apply N.mod_small. Qed.

Theorem run_calls_forall2 (Q : list bytes -> Prop) (P : list bytes -> Z -> Prop) k client :
  (forall azs c, Q azs -> exists c' r, select k client azs c = Ok (c', r) /\ P azs r) ->
  forall calls c, Forall Q calls -> exists rs, run_calls k client calls c = Ok rs /\ Forall2 P calls rs.
Proof.
  intro Hs. induction calls as [|azs rest IH]; intros c Hf.
  - exists []. split; [reflexivity|constructor].
  - inversion Hf as [|? ? Ha Hr]; subst.
    destruct (Hs azs c Ha) as (c' & r & H1 & H2). destruct (IH c' Hr) as (rs & H3 & H4).
    exists (r :: rs). cbn [run_calls]. rewrite H1, H3. split; [reflexivity|now constructor].
Qed.

(** there is a same-AZ replica among the first 255 nodes *)
Definition has_same_az_replica (client : bytes) (azs : list bytes) : Prop :=
  exists i, (1 <= i < window azs)%nat /\ nth_error azs i = Some client.

Lemma has_cands client azs : has_same_az_replica client azs <-> cands client azs 1 <> [].
Proof.
  split.
  - intros (i & H1 & H2) E. rewrite cands_nil in E. exact (E i H1 H2).
  - intros H. destruct (cands client azs 1) as [|j r] eqn:E; [contradiction|].
    assert (Hin : In j (cands client azs 1)) by (rewrite E; now left).
    apply cands_in in Hin. exists j. exact Hin.
Qed.

Lemma select_is_pick k client azs c : k <> KPrefer -> cands client azs 1 <> [] ->
  select k client azs c = Ok (pick_az client azs 1 c).
Proof.
  intros Hk Hc. destruct (pick_az_cases client azs 1 c) as [[Hn _]|(j & Hj & Hp)]; [contradiction|].
  pose proof (cands_in _ _ _ _ Hj) as [H1 H2].
  assert (Hneg : negb (Z.of_nat j =? -1)%Z = true) by (apply negb_true_iff, Z.eqb_neq; lia).
  destruct k; [contradiction| |]; cbn [select]; unfold az_affinity, az_selector, az_replicas_and_primary;
    rewrite Hp, Hneg; reflexivity.
Qed.

Theorem same_az_replica_chosen k client azs c : k <> KPrefer ->
  has_same_az_replica client azs ->
  exists j, select k client azs c = Ok (incr32 c, Z.of_nat j) /\
            In j (cands client azs 1) /\ (1 <= j < window azs)%nat /\ nth_error azs j = Some client.
Proof.
  intros Hk Hs. apply has_cands in Hs. rewrite select_is_pick by assumption.
  destruct (pick_az_cases client azs 1 c) as [[Hc _]|(j & Hj & ->)]; [contradiction|].
  exists j. split; [reflexivity|]. split; [exact Hj|]. exact (cands_in _ _ _ _ Hj).
Qed.

(** the round robin over the replicas [nodes[1:]], or the primary when there is none *)
Definition round_robin (azs : list bytes) (c : N) : N * Z :=
  if (1 <? length azs)%nat then (incr32 c, (Z.of_N (incr32 c mod N.of_nat (length azs - 1)) + 1)%Z)
  else (c, (-1)%Z).

Theorem az_affinity_fallback client azs c : N.of_nat (length azs) < two32 ->
  ~ has_same_az_replica client azs ->
  az_affinity client azs c = round_robin azs c.
Proof.
  intros Hlen Hn. rewrite has_cands in Hn.
  unfold az_affinity, az_selector, round_robin. rewrite pick_az_spec.
  destruct (cands client azs 1); [|exfalso; apply Hn; discriminate].
  cbn [Z.eqb negb]. destruct (Nat.ltb_spec 1 (length azs)); [|reflexivity].
  rewrite u32_sub by (lia || exact Hlen). reflexivity.
Qed.

Theorem az_rp_fallback client azs c : N.of_nat (length azs) < two32 ->
  ~ has_same_az_replica client azs ->
  az_replicas_and_primary client azs c =
  match azs with
  | [] => Ok (c, (-1)%Z)
  | az0 :: _ =>
    if bytes_eqb az0 client then Ok (c, 0%Z)                             (* same-AZ primary *)
    else if (1 <? length azs)%nat then
      Ok (incr32 c, (Z.of_N (incr32 c mod N.of_nat (length azs - 1)) + 1)%Z)  (* any replica *)
    else Ok (c, (-1)%Z)                                                   (* primary *)
  end.
Proof.
  intros Hlen Hn. rewrite has_cands in Hn.
  unfold az_replicas_and_primary. rewrite pick_az_spec.
  destruct (cands client azs 1); [|exfalso; apply Hn; discriminate].
  cbn [Z.eqb negb]. rewrite u32_len by exact Hlen.
  destruct azs as [|az0 rest]; [reflexivity|].
  replace (0 <? N.of_nat (length (az0 :: rest))) with true by (symmetry; apply N.ltb_lt; cbn [length]; lia).
  destruct (bytes_eqb az0 client); [reflexivity|].
  destruct (N.ltb_spec 1 (N.of_nat (length (az0 :: rest)))) as [H|H];
    destruct (Nat.ltb_spec 1 (length (az0 :: rest))) as [H'|H']; try lia; [|reflexivity].
  unfold any_replica. replace (N.of_nat (length (az0 :: rest)) - 1) with (N.of_nat (length (az0 :: rest) - 1)) by lia. reflexivity.
Qed.

Theorem prefer_replica_spec azs c : N.of_nat (length azs) < two32 ->
  prefer_replica azs c = round_robin azs c.
Proof.
  intros Hlen. unfold prefer_replica, round_robin. rewrite u32_len by exact Hlen.
  destruct (N.ltb_spec 1 (N.of_nat (length azs))) as [H|H];
    destruct (Nat.ltb_spec 1 (length azs)) as [H'|H']; try lia; [|reflexivity].
  unfold any_replica. replace (N.of_nat (length azs) - 1) with (N.of_nat (length azs - 1)) by lia. reflexivity.
Qed.

(** one call, every selector: a same-AZ candidate, the same-AZ primary, the round robin over all replicas, or -1 *)
Theorem select_cases k client azs c : N.of_nat (length azs) < two32 ->
  (exists j, In j (cands client azs 1) /\ select k client azs c = Ok (incr32 c, Z.of_nat j)) \/
  (azs <> [] /\ select k client azs c = Ok (c, 0%Z)) \/
  ((1 < length azs)%nat /\
   select k client azs c = Ok (incr32 c, (Z.of_N (incr32 c mod N.of_nat (length azs - 1)) + 1)%Z)) \/
  select k client azs c = Ok (c, (-1)%Z).
Proof.
  intro Hlen.
  assert (R : forall r, r = round_robin azs c ->
              ((1 < length azs)%nat /\ Ok r = Ok (incr32 c, (Z.of_N (incr32 c mod N.of_nat (length azs - 1)) + 1)%Z)) \/
              Ok r = Ok (c, (-1)%Z)).
  { intros r ->. unfold round_robin. destruct (Nat.ltb_spec 1 (length azs)); auto. }
  destruct k; [cbn [select]; do 2 right; apply R, prefer_replica_spec, Hlen| |].
  all: destruct (cands client azs 1) as [|j0 cs] eqn:E;
    [assert (Hn : ~ has_same_az_replica client azs) by (rewrite has_cands, E; auto)
    |left; rewrite select_is_pick by (rewrite ?E; discriminate);
     destruct (pick_az_cases client azs 1 c) as [[Hc _]|(j & Hj & ->)]; [now rewrite E in Hc|rewrite <- E; eauto]].
  - cbn [select]. do 2 right. apply R. now apply az_affinity_fallback.
  - cbn [select]. rewrite az_rp_fallback by assumption. destruct azs as [|az0 rest]; [auto|].
    destruct (bytes_eqb az0 client); [right; left; split; [discriminate|reflexivity]|].
    destruct (Nat.ltb_spec 1 (length (az0 :: rest))); auto 6.
Qed.

(** where all replicas are equally ranked (PreferReplica, or an AZ selector without a same-AZ node) a call is
    one step of the round robin *)
Lemma select_any_replica k client azs c :
  (k = KPrefer \/ (~ has_same_az_replica client azs /\ (k = KAz \/ nth_error azs 0 <> Some client))) ->
  (1 < length azs)%nat -> c + 1 < two32 -> N.of_nat (length azs) < two32 ->
  select k client azs c = Ok (c + 1, snd (any_replica (N.of_nat (length azs)) c)).
Proof.
  intros Hk Hn Hc Hlen.
  assert (E : round_robin azs c = (c + 1, snd (any_replica (N.of_nat (length azs)) c))).
  { unfold round_robin. replace (1 <? length azs)%nat with true by (symmetry; now apply Nat.ltb_lt).
    unfold any_replica. cbn [snd]. rewrite incr32_small by exact Hc.
    replace (N.of_nat (length azs) - 1) with (N.of_nat (length azs - 1)) by lia. reflexivity. }
  destruct k; cbn [select].
  - now rewrite prefer_replica_spec, E.
  - destruct Hk as [[=]|[Hno _]]. now rewrite az_affinity_fallback, E.
  - destruct Hk as [[=]|[Hno [[=]|Hp]]]. rewrite az_rp_fallback by assumption. destruct azs as [|az0 rest]; [cbn in Hn; lia|].
    destruct (bytes_eqb az0 client) eqn:Eb; [apply bytes_eqb_eq in Eb; subst; now elim Hp|].
    unfold round_robin in E. revert E. case (1 <? length (az0 :: rest))%nat; now intros ->.
Qed.

Lemma nth_skipn' {A} (d : A) : forall (l : list A) (r j : nat), nth j (skipn r l) d = nth (r + j) l d.
Proof. induction l as [|x l IH]; intros [|r] j; cbn [skipn nth Nat.add]; try reflexivity; [now destruct j|apply IH]. Qed.

Lemma nth_firstn' {A} (d : A) : forall (l : list A) (r j : nat), (j < r)%nat -> nth j (firstn r l) d = nth j l d.
Proof.
  induction l as [|x l IH]; intros [|r] j H; cbn [firstn nth]; try reflexivity; try lia.
  destruct j; [reflexivity|]. apply IH. lia.
Qed.

(** reading a list cyclically from offset [a] visits every element exactly once *)
Lemma rotation_perm {A} (l : list A) (d : A) (a : nat) : l <> [] ->
  Permutation (map (fun j => nth ((a + j) mod length l) l d) (seq 0 (length l))) l.
Proof.
  (* [r] stands for [a mod n] from here on: the arithmetic below needs [r < n] only *)
  intro Hne. remember (length l) as n eqn:En.
  assert (Hn : n <> 0%nat) by (rewrite En; destruct l; [contradiction|discriminate]).
  remember (a mod n)%nat as r eqn:Er. assert (Hr : (r < n)%nat) by (rewrite Er; now apply Nat.mod_upper_bound).
  assert (E : map (fun j => nth ((a + j) mod n) l d) (seq 0 n) = skipn r l ++ firstn r l).
  { apply (nth_ext _ _ d d).
    - rewrite map_length, seq_length, app_length, skipn_length, firstn_length, <- En. clear Er. lia.
    - intros j Hj. rewrite map_length, seq_length in Hj.
      rewrite (nth_indep _ d (nth ((a + 0) mod n) l d)) by (rewrite map_length, seq_length; exact Hj).
      rewrite (map_nth (fun j => nth ((a + j) mod n) l d) (seq 0 n) 0%nat j).
      rewrite seq_nth by exact Hj. cbn [Nat.add].
      assert (Hm : ((a + j) mod n = if (r + j <? n)%nat then r + j else r + j - n)%nat).
      { rewrite Nat.add_mod by exact Hn. rewrite <- Er, (Nat.mod_small j n) by exact Hj. clear Er.
        destruct (Nat.ltb_spec (r + j) n).
        - apply Nat.mod_small. lia.
        - replace (r + j)%nat with ((r + j - n) + 1 * n)%nat at 1 by lia.
          rewrite Nat.mod_add by exact Hn. apply Nat.mod_small. lia. }
      clear Er. rewrite Hm. destruct (Nat.ltb_spec (r + j) n).
      + rewrite app_nth1 by (rewrite skipn_length, <- En; lia).
        rewrite nth_skipn'. reflexivity.
      + rewrite app_nth2 by (rewrite skipn_length, <- En; lia).
        rewrite skipn_length, <- En. rewrite nth_firstn' by lia. f_equal. lia. }
  rewrite E. rewrite Permutation_app_comm. now rewrite firstn_skipn.
Qed.

Lemma incr32_iter c0 j : c0 + N.of_nat j + 1 < two32 -> incr32 (c0 + N.of_nat j) = c0 + N.of_nat j + 1.
Proof. apply incr32_small. Qed.

Theorem pick_az_rotation client azs start c0 :
  let cs := cands client azs start in
  cs <> [] -> c0 + N.of_nat (length cs) < two32 ->
  Permutation (map (fun j => snd (pick_az client azs start (c0 + N.of_nat j))) (seq 0 (length cs)))
              (map Z.of_nat cs).
Proof.
  intros cs Hne Hw.
  assert (E : map (fun j => snd (pick_az client azs start (c0 + N.of_nat j))) (seq 0 (length cs)) =
              map Z.of_nat (map (fun j => nth ((N.to_nat (c0 + 1) + j) mod length cs) cs O) (seq 0 (length cs)))).
  { rewrite map_map. apply map_ext_in. intros j Hj. apply in_seq in Hj.
    rewrite pick_az_spec. fold cs. destruct cs as [|x r] eqn:Ecs; [contradiction|]. rewrite <- Ecs in *.
    cbv zeta. cbn [snd]. rewrite incr32_small by lia. f_equal. f_equal.
    rewrite N2Nat.inj_mod, Nat2N.id. f_equal. lia. }
  rewrite E. apply Permutation_map. apply rotation_perm. exact Hne.
Qed.

(** the round robin over all replicas (fallback / PreferReplica): [len-1] consecutive calls visit
    every replica index 1 .. len-1 exactly once *)
Theorem any_replica_rotation n c0 : (1 < n)%nat -> c0 + N.of_nat (n - 1) < two32 -> N.of_nat n < two32 ->
  Permutation (map (fun j => snd (any_replica (N.of_nat n) (c0 + N.of_nat j))) (seq 0 (n - 1)))
              (map Z.of_nat (seq 1 (n - 1))).
Proof.
  intros Hn Hw Hlen.
  set (l := seq 1 (n - 1)). assert (Hl : length l = (n - 1)%nat) by apply seq_length.
  assert (E : map (fun j => snd (any_replica (N.of_nat n) (c0 + N.of_nat j))) (seq 0 (n - 1)) =
              map Z.of_nat (map (fun j => nth ((N.to_nat (c0 + 1) + j) mod length l) l O) (seq 0 (length l)))).
  { rewrite Hl, map_map. apply map_ext_in. intros j Hj. apply in_seq in Hj.
    unfold any_replica. cbn [snd]. rewrite incr32_small by lia.
    subst l. rewrite seq_nth by (apply Nat.mod_upper_bound; lia).
    replace (N.of_nat n - 1) with (N.of_nat (n - 1)) by lia.
    replace (c0 + N.of_nat j + 1) with (N.of_nat (N.to_nat (c0 + 1) + j)) by lia.
    rewrite <- Nat2N.inj_mod. lia. }
  rewrite E. apply Permutation_map. apply rotation_perm. subst l. destruct n as [|[|n]]; cbn; [lia|lia|discriminate].
Qed.

(** whenever the number of candidates divides 2^32 the rotation survives the wrap of the counter *)
Lemma incr32_mod_divide c n : c < two32 -> n <> 0 -> N.divide n two32 -> incr32 c mod n = (c + 1) mod n.
Proof.
  intros Hc Hn [q D]. unfold incr32. destruct (N.ltb_spec (c + 1) two32) as [H1|H1].
  - now rewrite (N.mod_small (c + 1) two32).
  - replace (c + 1) with two32 by lia. rewrite N.mod_same by discriminate.
    rewrite N.mod_0_l, D, N.mod_mul by exact Hn. reflexivity.
Qed.

(** [az_selector_before_fix] (guard [count > 0]) differs from [az_selector] (guard [n > startIdx]) only where
    [n - startIdx] is negative *)
Lemma before_fix_same_elsewhere start client azs c : (start <= length azs)%nat -> N.of_nat (length azs) < two32 ->
  az_selector_before_fix start client azs c = az_selector start client azs c.
Proof.
  intros H1 H2. unfold az_selector_before_fix, az_selector.
  destruct (pick_az client azs start c) as [c1 idx]. destruct (negb (idx =? -1)%Z); [reflexivity|].
  rewrite u32_sub by (lia || exact H2).
  destruct (N.ltb_spec 0 (N.of_nat (length azs - start))); destruct (Nat.ltb_spec start (length azs)); try lia; reflexivity.
Qed.

Lemma run_calls_repeat k client azs : forall n c0 (f : nat -> Z),
  (forall j, (j < n)%nat -> select k client azs (c0 + N.of_nat j) = Ok (c0 + N.of_nat j + 1, f j)) ->
  run_calls k client (repeat azs n) c0 = Ok (map f (seq 0 n)).
Proof.
  induction n as [|n IH]; intros c0 f H; [reflexivity|].
  cbn [repeat run_calls]. pose proof (H O ltac:(lia)) as H0. cbn [N.of_nat] in H0. rewrite N.add_0_r in H0.
  rewrite H0. rewrite (IH (c0 + 1) (fun j => f (S j))).
  - cbn [seq map]. now rewrite <- seq_shift, map_map.
  - intros j Hj. specialize (H (S j) ltac:(lia)).
    replace (c0 + 1 + N.of_nat j) with (c0 + N.of_nat (S j)) by lia. exact H.
Qed.
